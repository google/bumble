(* Proofs about Model/Pipe.v: every step keeps "sunk ++ queued = written" (exactly once, in
   order) and keeps the ready_to_pump event equal to can_pump whenever the pump task is not
   inside drain_sink, which is what makes the next pump step write the oldest packet. *)
From Coq Require Import ZArith List Bool Lia.
From BV Require Import Model.Pipe.
Import ListNotations.
Open Scope Z_scope.

Lemma sinks_app a b : sinks (a ++ b) = sinks a ++ sinks b.
Proof. induction a as [|[p| |] a IH]; cbn; rewrite ?IH; reflexivity. Qed.

Lemma check_pump_queue s : p_queue (check_pump s) = p_queue s.
Proof. reflexivity. Qed.

(* what has reached the sink, followed by what is queued, is exactly what was
   written, in order: per step *)
Lemma p_step_fifo s o :
  let '(s', out) := p_step s o in
  sinks out ++ map fst (p_queue s') =
  map fst (p_queue s) ++ match o with Write p _ => [p] | _ => [] end.
Proof.
  destruct o as [p len| | | |]; cbn [p_step].
  - destruct (andb _ _); cbn; now rewrite map_app.
  - destruct (p_paused s); [cbn; now rewrite app_nil_r|].
    destruct (p_src_paused s); cbn; now rewrite app_nil_r.
  - destruct (p_paused s); [|cbn; now rewrite app_nil_r].
    destruct (p_src_paused s); cbn; now rewrite app_nil_r.
  - destruct (andb _ _); [|cbn; now rewrite app_nil_r].
    destruct (p_queue s) as [|[p len] q'] eqn:Q; [cbn; rewrite Q; reflexivity|].
    destruct (p_paused s); cbn; rewrite ?Q; cbn; now rewrite app_nil_r.
  - destruct (p_mid s); [|cbn; now rewrite app_nil_r].
    destruct (andb _ _); cbn; now rewrite app_nil_r.
Qed.

Lemma p_run_fifo ops : forall s,
  let '(s', out) := p_run s ops in
  sinks out ++ map fst (p_queue s') = map fst (p_queue s) ++ writes ops.
Proof.
  induction ops as [|o ops IH]; intros s; cbn [p_run].
  - cbn. now rewrite app_nil_r.
  - pose proof (p_step_fifo s o) as H1. destruct (p_step s o) as [s1 o1].
    specialize (IH s1). destruct (p_run s1 ops) as [s2 o2].
    rewrite sinks_app, <- app_assoc, IH, app_assoc, H1, <- app_assoc.
    f_equal. destruct o; reflexivity.
Qed.

(* the ready_to_pump event is consistent with can_pump whenever the pump task is
   not suspended in drain_sink *)
Definition ready_inv (s : pstate) : Prop := p_mid s = false -> p_ready s = can_pump s.

Lemma check_pump_ready s : ready_inv (check_pump s).
Proof. intros _. reflexivity. Qed.

Lemma p_step_ready s o : ready_inv s -> ready_inv (fst (p_step s o)).
Proof.
  intros Hi. destruct o as [p len| | | |]; cbn [p_step].
  - destruct (andb _ _); cbn [fst]; apply check_pump_ready.
  - destruct (p_paused s); [exact Hi|]. destruct (p_src_paused s); apply check_pump_ready.
  - destruct (p_paused s); [|exact Hi]. destruct (p_src_paused s); apply check_pump_ready.
  - destruct (andb _ _); [|exact Hi].
    destruct (p_queue s) as [|[p len] q']; [apply check_pump_ready|].
    destruct (p_paused s); [apply check_pump_ready|]. intros H; cbn in H; discriminate.
  - destruct (p_mid s); [|exact Hi]. destruct (andb _ _); apply check_pump_ready.
Qed.

Lemma p_run_ready ops : forall s, ready_inv s -> ready_inv (fst (p_run s ops)).
Proof.
  induction ops as [|o ops IH]; intros s Hi; cbn [p_run]; [exact Hi|].
  pose proof (p_step_ready s o Hi) as H. destruct (p_step s o) as [s1 o1].
  specialize (IH s1 H). destruct (p_run s1 ops). exact IH.
Qed.

(* progress: with data queued, the pipe not paused and the pump task not suspended in
   drain_sink, the task's next step writes the oldest queued packet to the sink (when it is
   suspended, PumpB is enabled and returns it: [pumpB_clears]) *)
Lemma pump_progress s p len q :
  ready_inv s -> p_queue s = (p, len) :: q -> p_paused s = false -> p_mid s = false ->
  snd (p_step s PumpA) = [Sink p] /\ p_queue (fst (p_step s PumpA)) = q.
Proof.
  intros Hi Hq Hp Hm. cbn [p_step]. rewrite (Hi Hm). unfold can_pump. rewrite Hq, Hp, Hm. cbn.
  auto.
Qed.

Lemma pumpB_clears s : p_mid (fst (p_step s PumpB)) = false.
Proof.
  cbn [p_step]. destruct (p_mid s) eqn:E; [|exact E]. destruct (andb _ _); reflexivity.
Qed.
