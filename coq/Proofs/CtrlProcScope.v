(* Generic bounded exploration: a transition function over a finite alphabet of labels is
   evaluated to a given depth, with a guard on the steps and without the steps that change
   nothing.  Used by Proofs/CtrlProc.v and Proofs/CisProc.v for the two procedure models. *)
From Coq Require Import List Bool Lia.
Import ListNotations.

Section Explore.
  Variables (St L : Type) (step : St -> L -> St) (ok : St -> bool) (guard : St -> L -> bool).
  Variable alphabet : list L.

  (* [ok] holds in s and in every state reached from s by at most d letters, each of which
     satisfies [guard] in the state it is taken from *)
  Fixpoint explore (d : nat) (s : St) : bool :=
    ok s &&
    match d with
    | O => true
    | S d' => forallb (fun o => negb (guard s o) || explore d' (step s o)) alphabet
    end.

  Fixpoint guarded (s : St) (os : list L) : bool :=
    match os with
    | [] => true
    | o :: os' => guard s o && guarded (step s o) os'
    end.

  Lemma guarded_always os : (forall s o, guard s o = true) -> forall s, guarded s os = true.
  Proof. intros G. induction os as [|o os IH]; intros s; cbn; [reflexivity | now rewrite G, IH]. Qed.

  Lemma explore_spec d : forall s, explore d s = true ->
    forall os, length os <= d -> Forall (fun o => In o alphabet) os -> guarded s os = true ->
    ok (fold_left step os s) = true.
  Proof.
    induction d as [|d IH]; intros s A os Len F G; cbn [explore] in A; apply andb_true_iff in A;
      destruct A as [A1 A2]; destruct os as [|o os]; try exact A1; cbn in Len; [lia|].
    inversion F as [|? ? Ho F']; subst. cbn in G. apply andb_true_iff in G. destruct G as [G1 G2].
    rewrite forallb_forall in A2. specialize (A2 o Ho). rewrite G1 in A2.
    apply (IH _ A2); [lia | exact F' | exact G2].
  Qed.

  (* A letter that leaves the state where it is needs no exploring: what it leads to is s itself,
     with one letter less to go. *)
  Variable same : St -> St -> bool.
  Hypothesis same_eq : forall s t, same s t = true -> s = t.

  Fixpoint explore_moves (d : nat) (s : St) : bool :=
    ok s &&
    match d with
    | O => true
    | S d' => forallb (fun o => if guard s o then
                                 let t := step s o in if same s t then true else explore_moves d' t
                               else true) alphabet
    end.

  Lemma explore_moves_less d : forall s, explore_moves (S d) s = true -> explore_moves d s = true.
  Proof.
    induction d as [|d IH]; intros s A; cbn [explore_moves] in A; apply andb_true_iff in A;
      destruct A as [A1 A2]; cbn [explore_moves]; rewrite A1; [reflexivity|].
    apply forallb_forall. intros o Ho. rewrite forallb_forall in A2. specialize (A2 o Ho).
    destruct (guard s o); [|reflexivity]. cbv zeta in *.
    destruct (same s (step s o)); [reflexivity | exact (IH _ A2)].
  Qed.

  Lemma explore_moves_sound d : forall s, explore_moves d s = true -> explore d s = true.
  Proof.
    induction d as [|d IH]; intros s A; [exact A|].
    pose proof (explore_moves_less d s A) as A'.
    cbn [explore_moves] in A. apply andb_true_iff in A. destruct A as [A1 A2].
    cbn [explore]. rewrite A1. apply forallb_forall. intros o Ho.
    rewrite forallb_forall in A2. specialize (A2 o Ho).
    destruct (guard s o); [|reflexivity]. cbv zeta in A2.
    destruct (same s (step s o)) eqn:E; [rewrite <- (same_eq _ _ E) | ]; apply IH; assumption.
  Qed.
End Explore.
