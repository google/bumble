(* Property C13 over Model/Pairing.v.  The generated table is checked against Table 2.8 by one
   evaluation; negotiation gives both sessions the same parameters ([negotiated_ok]), from which
   the key distribution completes; a run of [pair] is analysed once ([pair_case]) and every result
   about outcomes and stored keys follows from that analysis, first over an abstract toolbox with
   the few algebraic facts it needs, then for any [toolbox]. *)
From Coq Require Import ZArith List Bool Lia.
From BV Require Import Gen.C13Tables Model.Pairing.
Import ListNotations.
Open Scope Z_scope.

(* a boolean fact about the 5 x 5 x 2 entries of the table is checked by one evaluation *)
Lemma forall_io : forall P : io -> io -> bool -> bool,
  forallb (fun i => forallb (fun r => forallb (P i r) [false; true]) all_io) all_io = true ->
  forall i r sc, P i r sc = true.
Proof.
  intros P H i r sc. rewrite forallb_forall in H. specialize (H i ltac:(destruct i; simpl; auto 6)).
  rewrite forallb_forall in H. specialize (H r ltac:(destruct r; simpl; auto 6)).
  rewrite forallb_forall in H. apply H. destruct sc; simpl; auto.
Qed.

Definition displays (p : prole) : bool := match p with Displays => true | _ => false end.

Lemma io_codes_match :
  IO_DISPLAY_ONLY = io_code DisplayOnly /\ IO_DISPLAY_YES_NO = io_code DisplayYesNo /\
  IO_KEYBOARD_ONLY = io_code KeyboardOnly /\ IO_NO_INPUT_NO_OUTPUT = io_code NoInputNoOutput /\
  IO_KEYBOARD_DISPLAY = io_code KeyboardDisplay.
Proof. vm_compute. repeat split. Qed.

Definition opt_eqb (a b : option (Z * bool)) : bool :=
  match a, b with
  | Some (m, d), Some (m', d') => (m =? m') && Bool.eqb d d'
  | None, None => true
  | _, _ => false
  end.

Lemma opt_eqb_eq : forall a b, opt_eqb a b = true -> a = b.
Proof.
  intros [[m d]|] [[m' d']|]; simpl; try discriminate; auto.
  intro H. apply andb_true_iff in H. destruct H as [H1 H2].
  apply Z.eqb_eq in H1. apply eqb_prop in H2. subst. reflexivity.
Qed.

(* one entry of the implementation's table against one entry of Table 2.8, for both roles *)
Definition entry_ok (i r : io) (sc : bool) : bool :=
  let '(m, ri, rr) := spec_method i r sc in
  opt_eqb (decide false true sc true false 0 (io_code i) (io_code r)) (Some (method_code m, displays ri))
  && opt_eqb (decide false true sc false false 0 (io_code i) (io_code r)) (Some (method_code m, displays rr))
  && (match m with PasskeyEntry => negb (prole_eqb ri NoRole) && negb (prole_eqb rr NoRole)
                 | _ => prole_eqb ri NoRole && prole_eqb rr NoRole end).

Lemma entry_ok_all : forall i r sc, entry_ok i r sc = true.
Proof. apply forall_io. vm_compute. reflexivity. Qed.

(* MITM requested by either side: the implementation selects exactly the model and the
   display/input roles of Table 2.8, for all 5 x 5 x 2 entries and both roles *)
Lemma table_matches_spec : forall i r sc m ri rr,
  spec_method i r sc = (m, ri, rr) ->
  decide false true sc true false 0 (io_code i) (io_code r) = Some (method_code m, displays ri) /\
  decide false true sc false false 0 (io_code i) (io_code r) = Some (method_code m, displays rr).
Proof.
  intros i r sc m ri rr Hs. pose proof (entry_ok_all i r sc) as H. unfold entry_ok in H.
  rewrite Hs in H. apply andb_true_iff in H. destruct H as [H _].
  apply andb_true_iff in H. destruct H as [H1 H2].
  split; apply opt_eqb_eq; assumption.
Qed.

(* decide depends on (self.mitm, auth_req) only through "MITM requested by either side" *)
Lemma decide_mitm : forall mitm sc init prev auth i r,
  mitm || has_flag auth AUTH_MITM = true ->
  decide false mitm sc init prev auth i r = decide false true sc init prev 0 i r.
Proof.
  intros mitm sc init prev auth i r H. unfold decide.
  destruct mitm; simpl in *; [reflexivity|]. rewrite H. reflexivity.
Qed.

Lemma table_matches_spec_mitm : forall i r sc m ri rr self_mitm auth_req,
  spec_method i r sc = (m, ri, rr) ->
  self_mitm || has_flag auth_req AUTH_MITM = true ->
  decide false self_mitm sc true false auth_req (io_code i) (io_code r) = Some (method_code m, displays ri) /\
  decide false self_mitm sc false false auth_req (io_code i) (io_code r) = Some (method_code m, displays rr).
Proof.
  intros i r sc m ri rr self_mitm auth_req Hs Hm.
  rewrite !(decide_mitm _ _ _ _ _ _ _ Hm). exact (table_matches_spec i r sc m ri rr Hs).
Qed.

Lemma decide_no_mitm : forall sc init prev auth i r,
  has_flag auth AUTH_MITM = false ->
  decide false false sc init prev auth i r = Some (PM_JUST_WORKS, prev).
Proof. intros. unfold decide. rewrite H. reflexivity. Qed.

(* complementary roles, over the implementation's table *)
Definition roles_ok (i r : io) (sc : bool) : bool :=
  match decide false true sc true false 0 (io_code i) (io_code r),
        decide false true sc false false 0 (io_code i) (io_code r) with
  | Some (mi, di), Some (mr, dr) =>
    (mi =? mr)
    && (if mi =? PM_PASSKEY
        then negb (di && dr)
             && (if di then has_display i else has_keyboard i)
             && (if dr then has_display r else has_keyboard r)
             && (di || dr || (match i, r with KeyboardOnly, KeyboardOnly => true | _, _ => false end))
        else negb di && negb dr)
    && (if mi =? PM_NUMERIC_COMPARISON then has_yes_no i && has_yes_no r && sc else true)
    && ((mi =? PM_PASSKEY) || (mi =? PM_NUMERIC_COMPARISON) || (mi =? PM_JUST_WORKS))
  | _, _ => false
  end.

Lemma roles_ok_all : forall i r sc, roles_ok i r sc = true.
Proof. apply forall_io. vm_compute. reflexivity. Qed.

Lemma roles_complementary : forall i r sc mi di mr dr,
  decide false true sc true false 0 (io_code i) (io_code r) = Some (mi, di) ->
  decide false true sc false false 0 (io_code i) (io_code r) = Some (mr, dr) ->
  mi = mr /\
  (mi = PM_PASSKEY ->
     (di && dr = false) /\
     (di = true -> has_display i = true) /\ (di = false -> has_keyboard i = true) /\
     (dr = true -> has_display r = true) /\ (dr = false -> has_keyboard r = true) /\
     (di = false -> dr = false -> i = KeyboardOnly /\ r = KeyboardOnly)) /\
  (mi = PM_NUMERIC_COMPARISON -> has_yes_no i = true /\ has_yes_no r = true /\ sc = true) /\
  (mi <> PM_PASSKEY -> di = false /\ dr = false).
Proof.
  intros i r sc mi di mr dr H1 H2. pose proof (roles_ok_all i r sc) as H. unfold roles_ok in H.
  rewrite H1, H2 in H.
  apply andb_true_iff in H. destruct H as [H HD].
  apply andb_true_iff in H. destruct H as [H HC].
  apply andb_true_iff in H. destruct H as [HA HB].
  apply Z.eqb_eq in HA. split; [assumption|]. split; [|split].
  - intro Hp. rewrite Hp, Z.eqb_refl in HB.
    apply andb_true_iff in HB. destruct HB as [HB HB4].
    apply andb_true_iff in HB. destruct HB as [HB HB3].
    apply andb_true_iff in HB. destruct HB as [HB1 HB2].
    split; [destruct di, dr; simpl in *; congruence|].
    repeat split; intros; subst; simpl in *; try assumption;
      destruct i, r; simpl in *; try discriminate; auto.
  - intro Hp. rewrite Hp, Z.eqb_refl in HC.
    apply andb_true_iff in HC. destruct HC as [HC HC3].
    apply andb_true_iff in HC. destruct HC as [HC1 HC2]. auto.
  - intro Hp. apply Z.eqb_neq in Hp. rewrite Hp in HB.
    apply andb_true_iff in HB. destruct HB as [Ha Hb].
    destruct di, dr; simpl in *; auto; discriminate.
Qed.

Lemma auth_flags : forall b s m c,
  has_flag (auth_req_of b s m c) AUTH_BONDING = b /\
  has_flag (auth_req_of b s m c) AUTH_SC = s /\
  has_flag (auth_req_of b s m c) AUTH_MITM = m /\
  has_flag (auth_req_of b s m c) AUTH_CT2 = c.
Proof. intros [] [] [] []; vm_compute; auto. Qed.

(* the method part of decide does not depend on the role *)
Lemma decide_method_role : forall m sc prev prev' auth i r,
  option_map fst (decide false m sc true prev auth i r) =
  option_map fst (decide false m sc false prev' auth i r).
Proof.
  intros. unfold decide.
  destruct (negb m && negb (has_flag auth AUTH_MITM)); [reflexivity|].
  destruct (table_lookup sc i r) as [[mm|mm di dr]|]; reflexivity.
Qed.

Lemma decide_mitm_sym : forall m1 m2 sc init prev a1 a2 i r,
  has_flag a1 AUTH_MITM = m2 -> has_flag a2 AUTH_MITM = m1 ->
  decide false m1 sc init prev a1 i r = decide false m2 sc init prev a2 i r.
Proof.
  intros m1 m2 sc init prev a1 a2 i r H1 H2. unfold decide. rewrite H1, H2.
  destruct m1, m2; reflexivity.
Qed.

Record negotiated_ok (b : bool) (ci cr : config) (ans : Z * Z) (si sr : session) : Prop := {
  ng_init_i : s_initiator si = true;
  ng_init_r : s_initiator sr = false;
  ng_sc : s_sc si = c_sc ci && c_sc cr;
  ng_sc_eq : s_sc sr = s_sc si;
  ng_bonding : s_bonding si = c_bonding ci && c_bonding cr;
  ng_bonding_eq : s_bonding sr = s_bonding si;
  ng_ct2 : s_ct2 si = false /\ s_ct2 sr = false;
  ng_ikd : s_ikd si = fst ans /\ s_ikd sr = fst ans;
  ng_rkd : s_rkd si = snd ans /\ s_rkd sr = snd ans;
  ng_subset : Z.land (fst ans) (Z.lnot (c_ikd ci)) = 0 /\ Z.land (snd ans) (Z.lnot (c_rkd ci)) = 0;
  ng_method : s_method si = s_method sr;
  ng_exp_i : s_expected si = expected (s_sc si) b (s_rkd si);
  ng_exp_r : s_expected sr = expected (s_sc sr) b (s_ikd sr)
}.

Lemma negotiation_b : forall b ci cr ans sr si,
  responder_session b cr ans (request_of ci) = Some sr ->
  initiator_session b ci (response_of cr sr) = NegOk si ->
  negotiated_ok b ci cr ans si sr.
Proof.
  intros b ci cr ans sr si Hr Hi.
  unfold responder_session, request_of in Hr. cbn [p_io p_oob p_auth p_ikd p_rkd] in Hr.
  destruct (auth_flags (c_bonding ci) (c_sc ci) (c_mitm ci) false) as (Fb & Fs & Fm & Fc).
  rewrite Fb, Fs in Hr.
  destruct (choose_method b cr (c_sc cr && c_sc ci) false _ (c_io ci) (c_io cr)) as [[mr dr]|] eqn:Hmr;
    [|discriminate].
  injection Hr as Hr. subst sr.
  unfold initiator_session, response_of in Hi.
  cbn [p_io p_oob p_auth p_ikd p_rkd s_bonding s_sc s_ct2 s_ikd s_rkd] in Hi.
  simpl (false && _) in Hi.
  destruct (auth_flags (c_bonding cr && c_bonding ci) (c_sc cr && c_sc ci) (c_mitm cr) false) as (Gb & Gs & Gm & Gc).
  rewrite Gb, Gs in Hi.
  assert (Hsc : c_sc ci && (c_sc cr && c_sc ci) = c_sc cr && c_sc ci) by (destruct (c_sc ci), (c_sc cr); reflexivity).
  rewrite Hsc in Hi.
  destruct (choose_method b ci (c_sc cr && c_sc ci) true _ (c_io ci) (c_io cr)) as [[mi di]|] eqn:Hmi;
    [|discriminate].
  destruct (negb (Z.land (fst ans) (Z.lnot (c_ikd ci)) =? 0) || negb (Z.land (snd ans) (Z.lnot (c_rkd ci)) =? 0)) eqn:Hsub;
    [discriminate|].
  injection Hi as Hi. subst si.
  apply orb_false_iff in Hsub. destruct Hsub as [S1 S2].
  apply negb_false_iff in S1. apply negb_false_iff in S2. apply Z.eqb_eq in S1. apply Z.eqb_eq in S2.
  assert (Hm : mi = mr).
  { unfold choose_method in Hmr, Hmi. cbn [p_oob p_auth] in Hmr, Hmi.
    assert (Ho : forall s a b, (s && (a || b)) || (negb s && (a && b)) = (s && (b || a)) || (negb s && (b && a)))
      by (intros [] [] []; reflexivity).
    rewrite (Ho _ (c_oob ci) (c_oob cr)) in Hmi.
    destruct ((c_sc cr && c_sc ci) && (c_oob cr || c_oob ci) || negb (c_sc cr && c_sc ci) && (c_oob cr && c_oob ci)).
    - congruence.
    - destruct b; [unfold decide in Hmr, Hmi; congruence|].
      rewrite (decide_mitm_sym (c_mitm ci) (c_mitm cr) _ _ _ _ (auth_req_of (c_bonding ci) (c_sc ci) (c_mitm ci) false)) in Hmi
        by assumption.
      pose proof (decide_method_role (c_mitm cr) (c_sc cr && c_sc ci) false false
                    (auth_req_of (c_bonding ci) (c_sc ci) (c_mitm ci) false) (c_io ci) (c_io cr)) as Hd.
      rewrite Hmi, Hmr in Hd. simpl in Hd. congruence. }
  subst mi.
  constructor; cbn [s_initiator s_sc s_bonding s_ct2 s_method s_display s_ikd s_rkd s_expected]; auto;
    try (destruct (c_sc ci), (c_sc cr); reflexivity);
    try (destruct (c_bonding ci), (c_bonding cr); reflexivity).
Qed.

Lemma negotiation : forall ci cr ans sr si,
  responder_session false cr ans (request_of ci) = Some sr ->
  initiator_session false ci (response_of cr sr) = NegOk si ->
  negotiated_ok false ci cr ans si sr.
Proof. exact (negotiation_b false). Qed.

Lemma expectations_match : forall sc bredr kd, expected sc bredr kd = distributed sc bredr kd.
Proof.
  intros sc bredr kd. unfold expected, distributed.
  destruct sc, bredr, (has_flag kd KD_ENC_KEY); reflexivity.
Qed.

Lemma consume_ne_self : forall l, l <> [] -> consume_ne l l = RxDone false.
Proof.
  induction l as [|c cs IH]; intro Hne; [congruence|].
  simpl. rewrite Z.eqb_refl. simpl.
  destruct cs as [|c' cs']; [reflexivity|]. apply IH. discriminate.
Qed.

Lemma consume_self : forall l, consume l l = RxDone false.
Proof. destruct l; [reflexivity|]. apply consume_ne_self. discriminate. Qed.

Lemma phase3_completes_b : forall b ci cr ans si sr,
  negotiated_ok b ci cr ans si sr -> phase3 b si sr = (Completed, Completed).
Proof.
  intros b ci cr ans si sr N. destruct N.
  unfold phase3. rewrite ng_exp_i0, ng_exp_r0, !expectations_match.
  destruct ng_ikd0 as [I1 I2]. destruct ng_rkd0 as [R1 R2].
  rewrite ng_sc_eq0, R1, R2, consume_self, I1, I2, consume_self. reflexivity.
Qed.

(* CTKD over BR/EDR: the method is CTKD on both sides and the key distribution completes on
   both sides for every pair of masks (fixes/D13e.patch: a side that expects nothing completes) *)
Lemma ctkd_flow_completes : forall ci cr ans sr si,
  responder_session true cr ans (request_of ci) = Some sr ->
  initiator_session true ci (response_of cr sr) = NegOk si ->
  phase3 true si sr = (Completed, Completed) /\
  (c_oob ci || c_oob cr = false -> s_method si = PM_CTKD_OVER_CLASSIC /\ s_method sr = PM_CTKD_OVER_CLASSIC).
Proof.
  intros ci cr ans sr si Hr Hi. pose proof (negotiation_b true _ _ _ _ _ Hr Hi) as N.
  split; [exact (phase3_completes_b true _ _ _ _ _ N)|].
  intro Hoob. apply orb_false_iff in Hoob. destruct Hoob as [O1 O2].
  pose proof (ng_method _ _ _ _ _ _ N) as Hm. rewrite Hm.
  cut (s_method sr = PM_CTKD_OVER_CLASSIC); [auto|].
  unfold responder_session in Hr.
  destruct (choose_method true cr _ false (request_of ci) _ _) as [[m d]|] eqn:Hc; [|discriminate].
  injection Hr as Hr. subst sr. cbn [s_method].
  unfold choose_method, request_of in Hc. cbn [p_oob] in Hc. rewrite O1, O2 in Hc.
  rewrite !andb_false_r in Hc. cbn [orb] in Hc. unfold decide in Hc. congruence.
Qed.

Fixpoint zlist_eqb (a b : list Z) : bool :=
  match a, b with
  | [], [] => true
  | x :: a', y :: b' => (x =? y) && zlist_eqb a' b'
  | _, _ => false
  end.

Lemma zlist_eqb_eq : forall a b, zlist_eqb a b = true -> a = b.
Proof.
  induction a as [|x a IH]; destruct b as [|y b]; simpl; try discriminate; auto.
  intro H. apply andb_true_iff in H. destruct H as [H1 H2].
  apply Z.eqb_eq in H1. subst. f_equal. auto.
Qed.

Lemma zlist_eqb_refl : forall l, zlist_eqb l l = true.
Proof. induction l as [|x l IH]; [reflexivity|]. cbn [zlist_eqb]. rewrite Z.eqb_refl. exact IH. Qed.

Definition phase3_case (sci scr bi br : bool) (ii ri ir rr : Z) : bool :=
  let ci := mkConfig 3 sci false bi ii ri false in
  let cr := mkConfig 3 scr false br ir rr false in
  let req := request_of ci in
  match responder_session false cr (default_answer cr req) req with
  | None => false
  | Some sr =>
    match initiator_session false ci (response_of cr sr) with
    | NegOk si =>
      match phase3 false si sr with
      | (Completed, Completed) =>
        (* and literally: the list one side waits for is the list the other sends *)
        zlist_eqb (s_expected si) (distributed (s_sc sr) false (s_rkd sr))
        && zlist_eqb (s_expected sr) (distributed (s_sc si) false (s_ikd si))
      | _ => false
      end
    | _ => false
    end
  end.

Lemma choose_method_no_mitm : forall c sc init peer i r,
  c_oob c = false -> p_oob peer = false -> c_mitm c = false -> has_flag (p_auth peer) AUTH_MITM = false ->
  choose_method false c sc init peer i r = Some (PM_JUST_WORKS, false).
Proof.
  intros c sc init peer i r Ho Hp Hm Ha. unfold choose_method. rewrite Ho, Hp, Hm.
  destruct sc; apply decide_no_mitm; assumption.
Qed.

(* PairingDelegate.key_distribution_response only clears bits of the request *)
Lemma default_answer_within : forall c req,
  Z.land (fst (default_answer c req)) (Z.lnot (p_ikd req)) = 0 /\
  Z.land (snd (default_answer c req)) (Z.lnot (p_rkd req)) = 0.
Proof.
  assert (L : forall a b, Z.land (Z.land a b) (Z.lnot a) = 0).
  { intros a b. rewrite (Z.land_comm a b), <- Z.land_assoc, Z.land_lnot_diag. apply Z.land_0_r. }
  intros c req. split; apply L.
Qed.

(* Without MITM or OOB on either side the table is not consulted, so the negotiation succeeds for
   any capabilities and any answer within the request. *)
Lemma no_mitm_negotiates : forall ci cr ans,
  c_mitm ci = false -> c_mitm cr = false -> c_oob ci = false -> c_oob cr = false ->
  Z.land (fst ans) (Z.lnot (c_ikd ci)) = 0 -> Z.land (snd ans) (Z.lnot (c_rkd ci)) = 0 ->
  exists sr si, responder_session false cr ans (request_of ci) = Some sr /\
                initiator_session false ci (response_of cr sr) = NegOk si.
Proof.
  intros ci cr ans Mi Mr Oi Or Si Sr.
  assert (Fm : forall b s c, has_flag (auth_req_of b s false c) AUTH_MITM = false) by (intros; apply auth_flags).
  unfold responder_session.
  rewrite choose_method_no_mitm; [|assumption..|cbn [request_of p_auth]; rewrite Mi; apply Fm].
  do 2 eexists. split; [reflexivity|].
  unfold initiator_session.
  rewrite choose_method_no_mitm; [|assumption..|cbn [response_of p_auth]; rewrite Mr; apply Fm].
  cbn [response_of p_ikd p_rkd s_ikd s_rkd]. rewrite Si, Sr. reflexivity.
Qed.

Lemma phase3_case_true : forall sci scr bi br ii ri ir rr, phase3_case sci scr bi br ii ri ir rr = true.
Proof.
  intros. unfold phase3_case. cbv zeta.
  set (ci := mkConfig 3 sci false bi ii ri false). set (cr := mkConfig 3 scr false br ir rr false).
  destruct (default_answer_within cr (request_of ci)) as [Si Sr].
  destruct (no_mitm_negotiates ci cr _ eq_refl eq_refl eq_refl eq_refl Si Sr) as (sr & si & Hr & Hi).
  rewrite Hr, Hi.
  pose proof (negotiation _ _ _ _ _ Hr Hi) as N. rewrite (phase3_completes_b _ _ _ _ _ _ N).
  destruct N as [_ _ _ Hsc _ _ _ [I1 I2] [R1 R2] _ _ Ei Er].
  rewrite Ei, Er, !expectations_match, Hsc, I1, I2, R1, R2, !zlist_eqb_refl. reflexivity.
Qed.

Definition detail_method (d : detail) : Z := match d with DMethod m => m | DRoles m _ _ => m end.
Definition method_ok (m : Z) : bool :=
  (m =? PM_JUST_WORKS) || (m =? PM_NUMERIC_COMPARISON) || (m =? PM_PASSKEY).
Definition entry_details (e : entry) : list detail :=
  match e with ESingle d => [d] | EPair a b => [a; b] end.
Definition legacy_detail (e : entry) : detail := match e with ESingle d => d | EPair l _ => l end.
Definition all_details_ok : bool :=
  forallb (fun row => forallb (fun c => forallb (fun d => method_ok (detail_method d)) (entry_details (snd c))
                                        && negb (detail_method (legacy_detail (snd c)) =? PM_NUMERIC_COMPARISON))
                              (snd row)) pairing_methods.

Lemma all_details_ok_true : all_details_ok = true.
Proof. vm_compute. reflexivity. Qed.

Lemma assoc_in : forall (A : Type) k (l : list (Z * A)) v, assoc k l = Some v -> In (k, v) l.
Proof.
  induction l as [|[k' v'] l IH]; simpl; intros v H; [discriminate|].
  destruct (Z.eqb_spec k k').
  - injection H as H. subst. auto.
  - right. auto.
Qed.

Lemma table_lookup_checked : forall sc i r d, table_lookup sc i r = Some d ->
  method_ok (detail_method d) = true /\ (sc = false -> detail_method d <> PM_NUMERIC_COMPARISON).
Proof.
  intros sc i r d H. unfold table_lookup in H.
  destruct (assoc i pairing_methods) as [row|] eqn:Hrow; [|discriminate].
  destruct (assoc r row) as [e|] eqn:He; [|discriminate].
  injection H as H.
  pose proof all_details_ok_true as Hall. unfold all_details_ok in Hall.
  rewrite forallb_forall in Hall. specialize (Hall _ (assoc_in _ _ _ _ Hrow)). cbn [snd] in Hall.
  rewrite forallb_forall in Hall. specialize (Hall _ (assoc_in _ _ _ _ He)). cbn [snd] in Hall.
  apply andb_true_iff in Hall. destruct Hall as [Hok Hleg]. split.
  - rewrite forallb_forall in Hok. apply Hok.
    destruct e as [d0|a b]; simpl; subst; [auto|destruct sc; auto].
  - intros ->. apply negb_true_iff in Hleg. apply Z.eqb_neq in Hleg.
    destruct e; cbn [legacy_detail] in Hleg; subst; assumption.
Qed.

(* What decide_pairing_method returns: Just Works, or - only when a side asked for MITM protection -
   passkey entry, or numeric comparison under secure connections. *)
Lemma decide_cases : forall m sc init prev auth i r mm d,
  decide false m sc init prev auth i r = Some (mm, d) ->
  mm = PM_JUST_WORKS \/
  m || has_flag auth AUTH_MITM = true /\ (mm = PM_PASSKEY \/ mm = PM_NUMERIC_COMPARISON /\ sc = true).
Proof.
  intros m sc init prev auth i r mm d H. unfold decide in H. rewrite <- negb_orb in H.
  destruct (m || has_flag auth AUTH_MITM); cbn [negb] in H; [|injection H as <- _; auto].
  destruct (table_lookup sc i r) as [dt|] eqn:Ht; [|discriminate].
  destruct (table_lookup_checked _ _ _ _ Ht) as [Hok Hleg].
  assert (mm = detail_method dt) by (destruct dt; injection H as <- _; reflexivity). subst mm.
  unfold method_ok in Hok. apply orb_true_iff in Hok. destruct Hok as [Hok|Hok].
  - apply orb_true_iff in Hok. destruct Hok as [Hok|Hok]; apply Z.eqb_eq in Hok; [auto|].
    right. split; [reflexivity|]. right. split; [exact Hok|]. destruct sc; [reflexivity|]. destruct (Hleg eq_refl Hok).
  - apply Z.eqb_eq in Hok. auto.
Qed.

Lemma responder_method : forall ci cr ans sr,
  responder_session false cr ans (request_of ci) = Some sr ->
  s_method sr = PM_OOB \/ s_method sr = PM_JUST_WORKS \/
  c_mitm ci || c_mitm cr = true /\
  (s_method sr = PM_PASSKEY \/ s_method sr = PM_NUMERIC_COMPARISON /\ s_sc sr = true).
Proof.
  intros ci cr ans sr H. unfold responder_session in H.
  destruct (choose_method _ _ _ _ _ _ _) as [[m d]|] eqn:Hc; [|discriminate].
  injection H as <-. cbn [s_method s_sc]. unfold choose_method in Hc.
  destruct (_ || _) in Hc; [injection Hc as <- _; auto|].
  right. apply decide_cases in Hc. cbn [request_of p_auth] in Hc.
  destruct (auth_flags (c_bonding ci) (c_sc ci) (c_mitm ci) false) as (_ & _ & Fm & _).
  rewrite Fm, orb_comm in Hc. exact Hc.
Qed.

Lemma mem_enc_distributed : forall kd,
  mem CMD_ENCRYPTION_INFORMATION (distributed false false kd) = has_flag kd KD_ENC_KEY.
Proof.
  intro kd. unfold distributed.
  destruct (has_flag kd KD_ENC_KEY), (has_flag kd KD_ID_KEY), (has_flag kd KD_SIGN_KEY); reflexivity.
Qed.

Lemma mem_enc_distributed_sc : forall kd, mem CMD_ENCRYPTION_INFORMATION (distributed true false kd) = false.
Proof.
  intro kd. unfold distributed.
  destruct (has_flag kd KD_ENC_KEY), (has_flag kd KD_ID_KEY), (has_flag kd KD_SIGN_KEY); reflexivity.
Qed.

Lemma bit_eq_testbit : forall p q k,
  bit_z p k = bit_z q k -> Z.testbit p (Z.of_nat k) = Z.testbit q (Z.of_nat k).
Proof.
  intros p q k H. unfold bit_z in H.
  assert (Hl : forall x, Z.land x 1 = Z.b2z (Z.odd x)).
  { intro x. change 1 with (Z.ones 1). rewrite Z.land_ones by lia.
    change (2 ^ 1) with 2. rewrite Zmod_odd. destruct (Z.odd x); reflexivity. }
  rewrite !Hl in H.
  assert (Ht : forall x, Z.testbit x (Z.of_nat k) = Z.odd (Z.shiftr x (Z.of_nat k))).
  { intro x. rewrite <- Z.bit0_odd, Z.shiftr_spec by lia. f_equal. }
  rewrite !Ht.
  destruct (Z.odd (Z.shiftr p (Z.of_nat k))), (Z.odd (Z.shiftr q (Z.of_nat k))); simpl in H; try reflexivity; lia.
Qed.

Lemma passkey_bits_inj : forall p q,
  0 <= p < 1000000 -> 0 <= q < 1000000 ->
  (forall k, (k < 20)%nat -> bit_z p k = bit_z q k) -> p = q.
Proof.
  intros p q Hp Hq H. apply Z.bits_inj'. intros n Hn.
  destruct (Z_lt_le_dec n 20) as [Hlt|Hge].
  - replace n with (Z.of_nat (Z.to_nat n)) by lia. apply bit_eq_testbit. apply H. lia.
  - assert (Hb : forall x, 0 <= x < 1000000 -> Z.testbit x n = false).
    { intros x Hx. destruct (Z.eq_dec x 0) as [->|Hnz]; [apply Z.testbit_0_l|].
      apply Z.bits_above_log2; [lia|].
      assert (Z.log2 x < 20); [|lia]. apply Z.log2_lt_pow2; [lia|]. change (2 ^ 20) with 1048576. lia. }
    rewrite (Hb p Hp), (Hb q Hq). reflexivity.
Qed.

Definition no_tamper (e : env) : bool :=
  negb (e_bad_confirm_i e || e_bad_confirm_r e || e_bad_dhkey_i e || e_bad_dhkey_r e).

Definition passkey_in_range (p : option Z) : bool :=
  match p with None => true | Some p => (0 <=? p) && (p <? 1000000) end.

(* passkeys are 6 decimal digits (Vol 3 Part H 2.3.5.2) *)
Definition env_ok (e : env) : bool :=
  passkey_in_range (Some (e_generated e)) && passkey_in_range (e_typed_i e) && passkey_in_range (e_typed_r e).

Definition key_auth {V : Type} (k : option (key V)) : bool := match k with Some k => k_auth k | None => false end.
Definition flag_auth (k : option bool) : bool := match k with Some a => a | None => false end.
Definition any_auth {V : Type} (ks : keys V) : bool :=
  key_auth (ks_ltk ks) || key_auth (ks_ltk_central ks) || key_auth (ks_ltk_peripheral ks)
  || flag_auth (ks_irk ks) || flag_auth (ks_csrk ks) || key_auth (ks_link_key ks).

(* every authenticated flag Session.on_pairing writes is the session's *)
Lemma stored_any_auth : forall (V : Type) (lk : V -> V) e bredr s own cmds peer,
  any_auth (stored V lk e bredr s own cmds peer) = true -> authenticated_flag e s = true.
Proof.
  intros V lk e bredr s own cmds peer H. unfold stored, any_auth in H.
  cbn [ks_ltk ks_ltk_central ks_ltk_peripheral ks_irk ks_csrk ks_link_key] in H.
  destruct (authenticated_flag e s); [reflexivity|]. exfalso.
  destruct (s_sc s), bredr, (mem CMD_ENCRYPTION_INFORMATION cmds), (has_flag (own_kd s) KD_ENC_KEY),
    (mem CMD_IDENTITY_INFORMATION cmds), (mem CMD_SIGNING_INFORMATION cmds), (has_flag (own_kd s) KD_LINK_KEY);
    cbn in H; discriminate.
Qed.

Definition nothing_stored_tb {V : Type} (i r : side_result V) (reason : Z) : Prop :=
  r_outcome i = Failed reason /\ r_outcome r = Failed reason /\ r_store i = None /\ r_store r = None.

Section ProtocolProofs.
  Variable V : Type.
  Variable veqb : V -> V -> bool.
  Variable zero : V.
  Variable tk_of_passkey : Z -> V.
  Variable c1 : V -> V -> V.
  Variable s1 : V -> V -> V -> V.
  Variable pub : V -> V.
  Variable dh : V -> V -> V.
  Variable f4 : V -> V -> V -> Z -> V.
  Variable f5_mac : V -> V -> V -> V.
  Variable f5_ltk : V -> V -> V -> V.
  Variable f6 : V -> V -> V -> V -> bool -> V.
  Variable derive_lk : V -> V.
  Variable tamper : V -> V.
  Variable ni nr : nonces V.

  (* the only facts about the toolbox the lemmas below use *)
  Hypothesis veqb_spec : forall a b, veqb a b = true <-> a = b.
  Hypothesis tamper_neq : forall v, tamper v <> v.
  Hypothesis c1_inj : forall k k' r, c1 k r = c1 k' r -> k = k'.
  Hypothesis tk_inj : forall p q, 0 <= p < 1000000 -> 0 <= q < 1000000 ->
                                  tk_of_passkey p = tk_of_passkey q -> p = q.
  Hypothesis f4_inj : forall u v x z z', f4 u v x z = f4 u v x z' -> z = z'.
  Hypothesis dh_agree : dh (n_sk ni) (pub (n_sk nr)) = dh (n_sk nr) (pub (n_sk ni)).

  Let P2L := phase2_legacy V veqb zero tk_of_passkey c1 s1 tamper ni nr.
  Let P2S := phase2_sc V veqb zero tk_of_passkey pub dh f4 f5_mac f5_ltk f6 tamper ni nr.
  Let P2 := phase2 V veqb zero tk_of_passkey c1 s1 pub dh f4 f5_mac f5_ltk f6 tamper ni nr.
  Let PAIR := pair V veqb zero tk_of_passkey c1 s1 pub dh f4 f5_mac f5_ltk f6 derive_lk tamper ni nr.
  Let STORED := stored V derive_lk.
  Let ROUNDS := passkey_rounds V veqb f4 tamper ni nr.
  Let DHK := dhkey_phase V veqb f5_mac f5_ltk f6 tamper.

  Lemma veqb_refl : forall a, veqb a a = true.
  Proof. intro a. apply veqb_spec. reflexivity. Qed.

  Lemma veqb_tamper : forall a, veqb a (tamper a) = false /\ veqb (tamper a) a = false.
  Proof.
    intro a. split.
    - destruct (veqb a (tamper a)) eqn:H; [|reflexivity]. apply veqb_spec in H.
      exfalso. apply (tamper_neq a). auto.
    - destruct (veqb (tamper a) a) eqn:H; [|reflexivity]. apply veqb_spec in H.
      exfalso. apply (tamper_neq a). auto.
  Qed.

  Inductive pair_case (e : env) (ci cr : config) : result V -> Prop :=
  | PC_reject :
      e_accept e = false ->
      pair_case e ci cr (failed_both V ERR_PAIRING_NOT_SUPPORTED None None)
  | PC_params : forall sr reason,
      e_accept e = true ->
      pair_case e ci cr (failed_both V reason None (Some sr))
  | PC_phase2_fail : forall si sr ans reason,
      e_accept e = true -> negotiated_ok false ci cr ans si sr ->
      responder_session false cr ans (request_of ci) = Some sr ->
      P2 e si sr = P2Fail reason ->
      pair_case e ci cr (failed_both V reason (Some si) (Some sr))
  | PC_done : forall si sr ans a b c d,
      e_accept e = true -> negotiated_ok false ci cr ans si sr ->
      responder_session false cr ans (request_of ci) = Some sr ->
      P2 e si sr = P2Ok a b c d ->
      pair_case e ci cr
        (Res (mkSide Completed
                (Some (STORED e false si c (distributed (s_sc sr) false (s_rkd sr)) d)) (calls_of si))
             (mkSide Completed
                (Some (STORED e false sr d (distributed (s_sc si) false (s_ikd si)) c)) (calls_of sr))
             (Some si) (Some sr) (Some (a, b))).

  Lemma pair_cases : forall e ci cr i r osi osr link,
    PAIR e ci cr = Res i r osi osr link -> pair_case e ci cr (Res i r osi osr link).
  Proof.
    intros e ci cr i r osi osr link H. rewrite <- H.
    assert (Hne : PAIR e ci cr <> ResError) by (rewrite H; discriminate). clear H.
    unfold PAIR, pair in *.
    destruct (e_accept e) eqn:Hacc; cbn [negb] in *; [|apply PC_reject; assumption].
    set (ans := match e_answer e with Some a => a | None => default_answer cr (request_of ci) end) in *.
    destruct (responder_session false cr ans (request_of ci)) as [sr|] eqn:Hr; [|congruence].
    destruct (initiator_session false ci (response_of cr sr)) as [si|reason|] eqn:Hi; [| |congruence].
    - pose proof (negotiation _ _ _ _ _ Hr Hi) as N.
      fold P2 in Hne |- *.
      destruct (P2 e si sr) as [reason|a b c d|] eqn:Hp; [| |congruence].
      + eapply PC_phase2_fail; eauto.
      + rewrite (phase3_completes_b _ _ _ _ _ _ N). eapply PC_done; eauto.
    - apply PC_params. assumption.
  Qed.

  Lemma both_or_neither : forall e ci cr i r si sr link,
    PAIR e ci cr = Res i r si sr link ->
    (r_outcome i = Completed /\ r_outcome r = Completed /\ r_store i <> None /\ r_store r <> None)
    \/ (exists reason, r_outcome i = Failed reason /\ r_outcome r = Failed reason
                       /\ r_store i = None /\ r_store r = None).
  Proof.
    intros e ci cr i r si sr link H.
    pose proof (pair_cases _ _ _ _ _ _ _ _ H) as C.
    inversion C; subst; cbn [r_outcome r_store].
    - right. eexists. repeat split.
    - right. eexists. repeat split.
    - right. eexists. repeat split.
    - left. repeat split; discriminate.
  Qed.

  Lemma never_hangs : forall e ci cr i r si sr link,
    PAIR e ci cr = Res i r si sr link -> r_outcome i <> Hung /\ r_outcome r <> Hung.
  Proof.
    intros e ci cr i r si sr link H.
    destruct (both_or_neither _ _ _ _ _ _ _ _ H) as [(A & B & _)|(reason & A & B & _)];
      rewrite A, B; split; discriminate.
  Qed.

  Lemma phase2_split : forall e ci cr ans si sr,
    negotiated_ok false ci cr ans si sr ->
    P2 e si sr = if is_method si PM_OOB then P2Unmodelled
                 else if s_sc si then P2S e si sr else P2L e si sr.
  Proof.
    intros e ci cr ans si sr N. destruct N. unfold P2, phase2, is_method.
    rewrite <- ng_method0, ng_sc_eq0, Z.eqb_refl, eqb_reflx, orb_diag. cbn [negb orb].
    reflexivity.
  Qed.

  Lemma xmit_false : forall v, xmit V tamper false v = v.
  Proof. reflexivity. Qed.

  (* legacy: with nothing altered in transit, phase 2 succeeds only when both sides hold the same
     TK, and then both derive the same STK *)
  Lemma legacy_ok : forall e si sr a b c d,
    e_bad_confirm_i e = false -> e_bad_confirm_r e = false ->
    P2L e si sr = P2Ok a b c d ->
    exists tk, legacy_tk V zero tk_of_passkey e si (e_typed_i e) = Some tk /\
               legacy_tk V zero tk_of_passkey e sr (e_typed_r e) = Some tk /\ a = b.
  Proof.
    intros e si sr a b c d B1 B2 H. unfold P2L, phase2_legacy in H. rewrite B1, B2 in H.
    destruct (legacy_tk V zero tk_of_passkey e si (e_typed_i e)) as [tki|]; [|discriminate].
    destruct (legacy_tk V zero tk_of_passkey e sr (e_typed_r e)) as [tkr|]; [|discriminate].
    rewrite !xmit_false in H.
    destruct (veqb (c1 tki (n_rand ni 0%nat)) (c1 tkr (n_rand ni 0%nat))) eqn:E1; cbn [negb] in H; [|discriminate].
    destruct (veqb (c1 tkr (n_rand nr 0%nat)) (c1 tki (n_rand nr 0%nat))) eqn:E2; cbn [negb] in H; [|discriminate].
    apply veqb_spec in E1. apply c1_inj in E1. subst tkr.
    injection H as <- <- _ _. exists tki. auto.
  Qed.

  Lemma legacy_same_tk_tampered : forall e si sr tk,
    legacy_tk V zero tk_of_passkey e si (e_typed_i e) = Some tk ->
    legacy_tk V zero tk_of_passkey e sr (e_typed_r e) = Some tk ->
    e_bad_confirm_i e || e_bad_confirm_r e = true ->
    P2L e si sr = P2Fail ERR_CONFIRM_VALUE_FAILED.
  Proof.
    intros e si sr tk H1 H2 Hb. unfold P2L, phase2_legacy. rewrite H1, H2.
    destruct (e_bad_confirm_i e); cbn [xmit].
    - rewrite (proj2 (veqb_tamper _)). reflexivity.
    - rewrite veqb_refl. cbn [negb]. cbn [orb] in Hb. rewrite Hb. cbn [xmit].
      rewrite (proj2 (veqb_tamper _)). reflexivity.
  Qed.

  (* secure connections passkey rounds *)
  Lemma rounds_bits : forall e pi pr pka pkb n k,
    e_bad_confirm_i e = false -> e_bad_confirm_r e = false ->
    ROUNDS e pi pr pka pkb k n = true ->
    forall j, (j < n)%nat -> bit_z pi (k + j) = bit_z pr (k + j).
  Proof.
    intros e pi pr pka pkb n. induction n as [|n IH]; intros k B1 B2 H j Hj; [lia|].
    unfold ROUNDS in H. cbn [passkey_rounds] in H. rewrite B1, B2, !xmit_false in H.
    apply andb_true_iff in H. destruct H as [H H3].
    apply andb_true_iff in H. destruct H as [H1 H2].
    destruct j as [|j].
    - apply veqb_spec in H1. apply f4_inj in H1. rewrite Nat.add_0_r. assumption.
    - replace (k + S j)%nat with (S k + j)%nat by lia. apply (IH (S k)); auto. lia.
  Qed.

  Lemma rounds_same : forall e p pka pkb n k,
    e_bad_confirm_i e = false -> e_bad_confirm_r e = false ->
    ROUNDS e p p pka pkb k n = true.
  Proof.
    intros e p pka pkb n. induction n as [|n IH]; intros k B1 B2; [reflexivity|].
    unfold ROUNDS. cbn [passkey_rounds]. rewrite B1, B2, !xmit_false, !veqb_refl. cbn [andb].
    apply IH; assumption.
  Qed.

  Lemma rounds_tampered : forall e p pka pkb n k,
    e_bad_confirm_i e || e_bad_confirm_r e = true ->
    ROUNDS e p p pka pkb k (S n) = false.
  Proof.
    intros e p pka pkb n k Hb. unfold ROUNDS. cbn [passkey_rounds].
    destruct (e_bad_confirm_i e); cbn [xmit].
    - rewrite (proj2 (veqb_tamper _)). reflexivity.
    - cbn [orb] in Hb. rewrite Hb. cbn [xmit]. rewrite veqb_refl, (proj2 (veqb_tamper _)). reflexivity.
  Qed.

  Lemma dh_keys_agree :
    f5_mac (dh (n_sk ni) (pub (n_sk nr))) = f5_mac (dh (n_sk nr) (pub (n_sk ni))) /\
    f5_ltk (dh (n_sk ni) (pub (n_sk nr))) = f5_ltk (dh (n_sk nr) (pub (n_sk ni))).
  Proof. rewrite dh_agree. auto. Qed.

  (* whenever the DHKey phase succeeds both sides hold the same LTK *)
  Lemma dhk_ok : forall e na nb rpi rpr a b c d,
    DHK e (dh (n_sk ni) (pub (n_sk nr))) (dh (n_sk nr) (pub (n_sk ni))) na nb rpi rpr = P2Ok a b c d ->
    a = b /\ c = d /\ a = c.
  Proof.
    intros e na nb rpi rpr a b c d H. unfold DHK, dhkey_phase in H.
    destruct (negb _) in H; [discriminate|]. destruct (negb _) in H; [discriminate|].
    injection H as <- <- <- <-. rewrite dh_agree. auto.
  Qed.

  Lemma dhk_tampered : forall e na nb rp,
    e_bad_dhkey_i e || e_bad_dhkey_r e = true ->
    DHK e (dh (n_sk ni) (pub (n_sk nr))) (dh (n_sk nr) (pub (n_sk ni))) na nb rp rp
      = P2Fail ERR_DHKEY_CHECK_FAILED.
  Proof.
    intros e na nb rp Hb. unfold DHK, dhkey_phase. rewrite dh_agree.
    destruct (e_bad_dhkey_i e); cbn [xmit].
    - rewrite (proj1 (veqb_tamper _)). reflexivity.
    - rewrite veqb_refl. cbn [negb]. cbn [orb] in Hb. rewrite Hb. cbn [xmit].
      rewrite (proj1 (veqb_tamper _)). reflexivity.
  Qed.

  Lemma sc_ok : forall e si sr a b c d,
    P2S e si sr = P2Ok a b c d -> a = b /\ c = d /\ a = c.
  Proof.
    intros e si sr a b c d H. unfold P2S, phase2_sc in H.
    destruct (is_method si PM_PASSKEY).
    - destruct (own_passkey e si (e_typed_i e)) as [pi|]; [|discriminate].
      destruct (own_passkey e sr (e_typed_r e)) as [pr|]; [|discriminate].
      destruct (negb _) in H; [discriminate|]. exact (dhk_ok _ _ _ _ _ _ _ _ _ H).
    - destruct (is_method si PM_JUST_WORKS || is_method si PM_NUMERIC_COMPARISON); [|discriminate].
      destruct (negb _) in H; [discriminate|]. destruct (negb _) in H; [discriminate|].
      exact (dhk_ok _ _ _ _ _ _ _ _ _ H).
  Qed.

  (* secure connections without a passkey: a user who refuses the confirmation, or says the numbers
     differ, fails phase 2 *)
  Lemma sc_user_refuses : forall e si sr,
    s_method si = s_method sr ->
    (s_method si = PM_JUST_WORKS /\ e_confirm_i e && e_confirm_r e = false) \/
    (s_method si = PM_NUMERIC_COMPARISON /\ e_compare_i e && e_compare_r e = false) ->
    P2S e si sr = P2Fail ERR_CONFIRM_VALUE_FAILED.
  Proof.
    intros e si sr Hmeq Hu. unfold P2S, phase2_sc, user_ok, is_method. rewrite <- Hmeq.
    destruct Hu as [[Hm Hu]|[Hm Hu]]; rewrite Hm; simpl (_ =? _); cbn [orb];
      (destruct (negb (veqb _ _)); [reflexivity|]); rewrite Hu; reflexivity.
  Qed.

  (* secure connections passkey entry succeeds only with equal passkeys *)
  Lemma sc_passkey_ok : forall e si sr a b c d pi pr,
    e_bad_confirm_i e = false -> e_bad_confirm_r e = false ->
    is_method si PM_PASSKEY = true ->
    own_passkey e si (e_typed_i e) = Some pi -> own_passkey e sr (e_typed_r e) = Some pr ->
    0 <= pi < 1000000 -> 0 <= pr < 1000000 ->
    P2S e si sr = P2Ok a b c d -> pi = pr.
  Proof.
    intros e si sr a b c d pi pr B1 B2 Hm Hpi Hpr Ri Rr H. unfold P2S, phase2_sc in H.
    rewrite Hm, Hpi, Hpr in H.
    match type of H with context [passkey_rounds ?v ?q ?f ?t ?x ?y ?ee ?p1 ?p2 ?ka ?kb ?k ?n] =>
      destruct (passkey_rounds v q f t x y ee p1 p2 ka kb k n) eqn:Hr end; cbn [negb] in H; [|discriminate].
    apply passkey_bits_inj; auto.
    intros k Hk. exact (rounds_bits _ _ _ _ _ _ _ B1 B2 Hr k Hk).
  Qed.

  Lemma own_passkey_range : forall e s p,
    env_ok e = true ->
    own_passkey e s (e_typed_i e) = Some p \/ own_passkey e s (e_typed_r e) = Some p ->
    0 <= p < 1000000.
  Proof.
    intros e s p Hok H. unfold env_ok in Hok.
    apply andb_true_iff in Hok. destruct Hok as [Hok Hr].
    apply andb_true_iff in Hok. destruct Hok as [Hg Hi].
    unfold own_passkey in H.
    assert (R : forall q, passkey_in_range (Some q) = true -> 0 <= q < 1000000).
    { intros q Hq. cbn in Hq. apply andb_true_iff in Hq. destruct Hq as [A B].
      apply Z.leb_le in A. apply Z.ltb_lt in B. lia. }
    destruct (s_display s).
    - destruct H as [H|H]; injection H as <-; auto.
    - destruct H as [H|H]; rewrite H in *; auto.
  Qed.

  (* keys are marked authenticated only when a MITM-protected model was actually used *)
  Lemma authenticated_only_if_mitm_model : forall e ci cr i r si sr link ks,
    PAIR e ci cr = Res i r si sr link ->
    r_store i = Some ks \/ r_store r = Some ks ->
    any_auth ks = true ->
    exists s_i s_r, si = Some s_i /\ sr = Some s_r /\
      r_outcome i = Completed /\ r_outcome r = Completed /\
      s_method s_i = s_method s_r /\
      (s_method s_i = PM_PASSKEY \/ s_method s_i = PM_NUMERIC_COMPARISON) /\
      c_mitm ci || c_mitm cr = true /\
      (s_method s_i = PM_NUMERIC_COMPARISON ->
         e_compare_i e = true /\ e_compare_r e = true /\ s_sc s_i = true) /\
      (s_method s_i = PM_PASSKEY -> e_bad_confirm_i e = false -> e_bad_confirm_r e = false ->
         env_ok e = true ->
         exists p, own_passkey e s_i (e_typed_i e) = Some p /\ own_passkey e s_r (e_typed_r e) = Some p).
  Proof.
    intros e ci cr i r si sr link ks H Hst Hauth.
    pose proof (pair_cases _ _ _ _ _ _ _ _ H) as C.
    inversion C as [Ha|sr0 reason Ha|si0 sr0 ans reason Ha N Hresp Hp|si0 sr0 ans a b c d Ha N Hresp Hp];
      subst; cbn [r_store] in Hst; try (destruct Hst; discriminate).
    exists si0, sr0. cbn [r_outcome]. do 4 (split; [reflexivity|]).
    pose proof (ng_method _ _ _ _ _ _ N) as Hmeq. split; [assumption|].
    (* the flag is the same function of the (equal) methods on both sides *)
    assert (Hflag : authenticated_flag e si0 = true).
    { destruct Hst as [Hst|Hst]; injection Hst as Hst; subst ks; apply stored_any_auth in Hauth.
      - assumption.
      - unfold authenticated_flag, is_method in *. rewrite Hmeq. assumption. }
    rewrite (phase2_split _ _ _ _ _ _ N) in Hp.
    destruct (is_method si0 PM_OOB) eqn:Hoob; [discriminate|].
    unfold is_method in Hoob. apply Z.eqb_neq in Hoob.
    destruct (responder_method _ _ _ _ Hresp) as [Ho|[Hjw|(Hmitm & Hpn)]]; [congruence| |].
    { exfalso. unfold authenticated_flag, is_method in Hflag. rewrite Hmeq, Hjw in Hflag. discriminate. }
    rewrite <- Hmeq in Hpn.
    split; [destruct Hpn as [Hm|[Hm _]]; auto|]. split; [exact Hmitm|]. split.
    - intro Hnc. destruct Hpn as [Hpk|[_ Hsc]]; [rewrite Hnc in Hpk; discriminate|].
      rewrite (ng_sc_eq _ _ _ _ _ _ N) in Hsc. rewrite Hsc in Hp.
      destruct (e_compare_i e && e_compare_r e) eqn:Hc.
      + apply andb_true_iff in Hc. destruct Hc. auto.
      + rewrite (sc_user_refuses _ _ _ Hmeq (or_intror (conj Hnc Hc))) in Hp. discriminate.
    - intros Hpk B1 B2 Hok'.
      destruct (s_sc si0) eqn:Hsc.
      + assert (Hm : is_method si0 PM_PASSKEY = true) by (unfold is_method; rewrite Hpk; reflexivity).
        pose proof Hp as Hp'. unfold P2S, phase2_sc in Hp'. rewrite Hm in Hp'.
        destruct (own_passkey e si0 (e_typed_i e)) as [pi|] eqn:Hpi; [|discriminate].
        destruct (own_passkey e sr0 (e_typed_r e)) as [pr|] eqn:Hpr; [|discriminate].
        assert (pi = pr).
        { eapply (sc_passkey_ok e si0 sr0); eauto.
          - apply (own_passkey_range e si0); auto.
          - apply (own_passkey_range e sr0); auto. }
        subst. eauto.
      + destruct (legacy_ok _ _ _ _ _ _ _ B1 B2 Hp) as (tk & T1 & T2 & _).
        unfold legacy_tk, is_method in T1, T2. rewrite <- Hmeq in T2. rewrite Hpk, Z.eqb_refl in T1, T2.
        destruct (own_passkey e si0 (e_typed_i e)) as [pi|] eqn:Hpi; [|discriminate].
        destruct (own_passkey e sr0 (e_typed_r e)) as [pr|] eqn:Hpr; [|discriminate].
        cbn [option_map] in T1, T2. injection T1 as T1. injection T2 as T2.
        assert (pi = pr).
        { apply tk_inj; [apply (own_passkey_range e si0); auto|apply (own_passkey_range e sr0); auto|congruence]. }
        subst. eauto.
  Qed.

  Lemma link_key_shared : forall e ci cr i r si sr a b,
    PAIR e ci cr = Res i r si sr (Some (a, b)) ->
    e_bad_confirm_i e = false -> e_bad_confirm_r e = false -> a = b.
  Proof.
    intros e ci cr i r si sr a b H B1 B2.
    pose proof (pair_cases _ _ _ _ _ _ _ _ H) as C.
    inversion C as [Ha|sr0 reason Ha|si0 sr0 ans reason Ha N Hresp Hp|si0 sr0 ans a0 b0 c d Ha N Hresp Hp]; subst.
    rewrite (phase2_split _ _ _ _ _ _ N) in Hp.
    destruct (is_method si0 PM_OOB); [discriminate|].
    destruct (s_sc si0).
    - exact (proj1 (sc_ok _ _ _ _ _ _ _ Hp)).
    - destruct (legacy_ok _ _ _ _ _ _ _ B1 B2 Hp) as (_ & _ & _ & E). exact E.
  Qed.

  Lemma reconnect_same_key : forall e ci cr i r si sr link ki kr,
    PAIR e ci cr = Res i r si sr link ->
    r_store i = Some ki -> r_store r = Some kr ->
    (forall k, central_request V ki = Some k -> peripheral_reply V kr = Some k) /\
    (forall k, central_request V kr = Some k -> peripheral_reply V ki = Some k).
  Proof.
    intros e ci cr i r si sr link ki kr H Hi Hr.
    pose proof (pair_cases _ _ _ _ _ _ _ _ H) as C.
    inversion C as [Ha|sr0 reason Ha|si0 sr0 ans reason Ha N Hresp Hp|si0 sr0 ans a b c d Ha N Hresp Hp];
      subst; cbn [r_store] in Hi, Hr; try discriminate.
    injection Hi as <-. injection Hr as <-.
    rewrite (phase2_split _ _ _ _ _ _ N) in Hp.
    destruct (is_method si0 PM_OOB); [discriminate|].
    pose proof (ng_sc_eq _ _ _ _ _ _ N) as Hsc.
    unfold STORED, stored, central_request, peripheral_reply.
    cbn [ks_ltk ks_ltk_central ks_ltk_peripheral k_value]. rewrite Hsc.
    destruct (s_sc si0) eqn:Hs; cbn [orb].
    - destruct (sc_ok _ _ _ _ _ _ _ Hp) as (_ & E & _). subst d.
      split; intros k Hk; exact Hk.
    - unfold own_kd. rewrite (ng_init_i _ _ _ _ _ _ N), (ng_init_r _ _ _ _ _ _ N).
      rewrite !mem_enc_distributed.
      split; intros k Hk.
      + destruct (has_flag (s_rkd sr0) KD_ENC_KEY); [exact Hk|discriminate].
      + destruct (has_flag (s_ikd si0) KD_ENC_KEY); [exact Hk|discriminate].
  Qed.

  (* which reconnections have a key: always after secure connections; after legacy pairing
     exactly when the peripheral-to-be distributed its LTK *)
  Lemma reconnect_available : forall e ci cr i r s_i s_r link ki kr,
    PAIR e ci cr = Res i r (Some s_i) (Some s_r) link ->
    r_store i = Some ki -> r_store r = Some kr ->
    (central_request V ki <> None <-> s_sc s_i = true \/ has_flag (s_rkd s_r) KD_ENC_KEY = true) /\
    (central_request V kr <> None <-> s_sc s_i = true \/ has_flag (s_ikd s_i) KD_ENC_KEY = true).
  Proof.
    intros e ci cr i r s_i s_r link ki kr H Hi Hr.
    pose proof (pair_cases _ _ _ _ _ _ _ _ H) as C.
    inversion C as [Ha|sr0 reason Ha|si0 sr0 ans reason Ha N Hresp Hp|si0 sr0 ans a b c d Ha N Hresp Hp];
      subst; cbn [r_store] in Hi, Hr; try discriminate.
    injection Hi as <-. injection Hr as <-.
    pose proof (ng_sc_eq _ _ _ _ _ _ N) as Hsc.
    unfold STORED, stored, central_request. cbn [ks_ltk ks_ltk_central k_value]. rewrite Hsc.
    destruct (s_sc s_i) eqn:Hs; cbn [orb].
    - split; split; intros; auto; discriminate.
    - rewrite !mem_enc_distributed.
      destruct (has_flag (s_rkd s_r) KD_ENC_KEY), (has_flag (s_ikd s_i) KD_ENC_KEY);
        split; split; intros X; try discriminate; auto; try (destruct X; discriminate); congruence.
  Qed.

  (* a BR/EDR link key is derived only after secure connections, and then both sides derive the
     same one (fixes/D13d.patch: legacy pairing derived it from each side's own LTK) *)
  Lemma link_key_store_shared : forall e ci cr i r s_i s_r link ki kr,
    PAIR e ci cr = Res i r (Some s_i) (Some s_r) link ->
    r_store i = Some ki -> r_store r = Some kr ->
    (s_sc s_i = false -> ks_link_key ki = None /\ ks_link_key kr = None) /\
    (forall a b, ks_link_key ki = Some a -> ks_link_key kr = Some b -> k_value a = k_value b).
  Proof.
    intros e ci cr i r s_i s_r link ki kr H Hi Hr.
    pose proof (pair_cases _ _ _ _ _ _ _ _ H) as C.
    inversion C as [Ha|sr0 reason Ha|si0 sr0 ans reason Ha N Hresp Hp|si0 sr0 ans a b c d Ha N Hresp Hp];
      subst; cbn [r_store] in Hi, Hr; try discriminate.
    injection Hi as <-. injection Hr as <-.
    rewrite (phase2_split _ _ _ _ _ _ N) in Hp.
    destruct (is_method s_i PM_OOB); [discriminate|].
    pose proof (ng_sc_eq _ _ _ _ _ _ N) as Hsc.
    unfold STORED, stored. cbn [ks_link_key]. rewrite Hsc.
    destruct (s_sc s_i) eqn:Hs.
    - destruct (sc_ok _ _ _ _ _ _ _ Hp) as (_ & E & _). subst d.
      split; [discriminate|]. intros x y Hx Hy.
      destruct (has_flag (own_kd s_i) KD_LINK_KEY && true && negb false); [|discriminate].
      destruct (has_flag (own_kd s_r) KD_LINK_KEY && true && negb false); [|discriminate].
      injection Hx as <-. injection Hy as <-. reflexivity.
    - rewrite !andb_false_r. cbn [andb]. split; [auto|]. intros x y Hx. discriminate.
  Qed.

  Lemma phase2_fail_stores_nothing : forall e ci cr i r s_i s_r link ans reason,
    PAIR e ci cr = Res i r (Some s_i) (Some s_r) link ->
    negotiated_ok false ci cr ans s_i s_r ->
    P2 e s_i s_r = P2Fail reason -> nothing_stored_tb i r reason.
  Proof.
    intros e ci cr i r s_i s_r link ans reason H N Hf.
    pose proof (pair_cases _ _ _ _ _ _ _ _ H) as C.
    inversion C as [Ha|sr0 reason0 Ha|si0 sr0 ans0 reason0 Ha N0 Hresp Hp|si0 sr0 ans0 a b c d Ha N0 Hresp Hp]; subst.
    - rewrite Hf in Hp. injection Hp as <-. repeat split.
    - rewrite Hf in Hp. discriminate.
  Qed.

  Lemma pair_negotiated : forall e ci cr i r s_i s_r link,
    PAIR e ci cr = Res i r (Some s_i) (Some s_r) link -> exists ans, negotiated_ok false ci cr ans s_i s_r.
  Proof.
    intros e ci cr i r s_i s_r link H.
    pose proof (pair_cases _ _ _ _ _ _ _ _ H) as C.
    inversion C; subst; eauto.
  Qed.

  (* wrong passkey (the two sides work with different passkeys), nothing altered in transit *)
  Lemma wrong_passkey_stores_nothing : forall e ci cr i r s_i s_r link pi pr,
    PAIR e ci cr = Res i r (Some s_i) (Some s_r) link ->
    s_method s_i = PM_PASSKEY ->
    e_bad_confirm_i e = false -> e_bad_confirm_r e = false -> env_ok e = true ->
    own_passkey e s_i (e_typed_i e) = Some pi -> own_passkey e s_r (e_typed_r e) = Some pr ->
    pi <> pr ->
    nothing_stored_tb i r ERR_CONFIRM_VALUE_FAILED.
  Proof.
    intros e ci cr i r s_i s_r link pi pr H Hm B1 B2 Hok Hpi Hpr Hneq.
    destruct (pair_negotiated _ _ _ _ _ _ _ _ H) as (ans & N).
    apply (phase2_fail_stores_nothing _ _ _ _ _ _ _ _ _ _ H N).
    rewrite (phase2_split _ _ _ _ _ _ N).
    assert (Hoob : is_method s_i PM_OOB = false) by (unfold is_method; rewrite Hm; reflexivity).
    rewrite Hoob.
    assert (Ri : 0 <= pi < 1000000) by (apply (own_passkey_range e s_i); auto).
    assert (Rr : 0 <= pr < 1000000) by (apply (own_passkey_range e s_r); auto).
    destruct (s_sc s_i).
    - unfold P2S, phase2_sc, is_method. rewrite Hm, Z.eqb_refl, Hpi, Hpr.
      match goal with |- context [passkey_rounds ?v ?q ?f ?t ?x ?y ?ee ?p1 ?p2 ?ka ?kb ?k ?n] =>
        destruct (passkey_rounds v q f t x y ee p1 p2 ka kb k n) eqn:Hr end; [|reflexivity].
      exfalso. apply Hneq. apply passkey_bits_inj; auto.
      intros k Hk. exact (rounds_bits _ _ _ _ _ _ _ B1 B2 Hr k Hk).
    - unfold P2L, phase2_legacy, legacy_tk, is_method.
      rewrite <- (ng_method _ _ _ _ _ _ N), Hm, Z.eqb_refl, Hpi, Hpr. cbn [option_map].
      rewrite B1, B2, !xmit_false.
      destruct (veqb (c1 (tk_of_passkey pi) (n_rand ni 0%nat)) (c1 (tk_of_passkey pr) (n_rand ni 0%nat))) eqn:E;
        [|reflexivity].
      exfalso. apply Hneq. apply veqb_spec in E. apply c1_inj in E. apply tk_inj; auto.
  Qed.

  Definition same_passkeys (e : env) (s_i s_r : session) : Prop :=
    s_method s_i = PM_PASSKEY ->
    exists p, own_passkey e s_i (e_typed_i e) = Some p /\ own_passkey e s_r (e_typed_r e) = Some p.

  Definition relevant_tamper (e : env) (s : session) : bool :=
    if s_sc s
    then (if is_method s PM_PASSKEY then e_bad_confirm_i e else false)
         || e_bad_confirm_r e || e_bad_dhkey_i e || e_bad_dhkey_r e
    else e_bad_confirm_i e || e_bad_confirm_r e.

  (* a confirm value or DHKey check altered in transit, everything else honest *)
  Lemma tampered_check_stores_nothing : forall e ci cr i r s_i s_r link,
    PAIR e ci cr = Res i r (Some s_i) (Some s_r) link ->
    same_passkeys e s_i s_r ->
    relevant_tamper e s_i = true ->
    exists reason, nothing_stored_tb i r reason.
  Proof.
    intros e ci cr i r s_i s_r link H Hsame Ht.
    destruct (pair_negotiated _ _ _ _ _ _ _ _ H) as (ans & N).
    pose proof (pair_cases _ _ _ _ _ _ _ _ H) as C.
    inversion C as [Ha|sr0 reason0 Ha|si0 sr0 ans0 reason0 Ha N0 Hresp Hp|si0 sr0 ans0 a b c d Ha N0 Hresp Hp]; subst.
    - exists reason0. repeat split.
    - exfalso. rewrite (phase2_split _ _ _ _ _ _ N) in Hp.
      destruct (is_method s_i PM_OOB) eqn:Hoob; [discriminate|].
      unfold relevant_tamper in Ht. unfold same_passkeys in Hsame.
      destruct (s_sc s_i) eqn:Hsc.
      + unfold P2S, phase2_sc in Hp.
        destruct (is_method s_i PM_PASSKEY) eqn:Hm.
        * unfold is_method in Hm. apply Z.eqb_eq in Hm. destruct (Hsame Hm) as (p & P1 & P2').
          rewrite P1, P2' in Hp.
          destruct (e_bad_confirm_i e || e_bad_confirm_r e) eqn:Hc.
          -- fold ROUNDS in Hp. rewrite (rounds_tampered _ _ _ _ _ _ Hc) in Hp. discriminate.
          -- destruct (negb _) in Hp; [discriminate|]. fold DHK in Hp.
             cbn [orb] in Ht.
             rewrite (dhk_tampered _ _ _ _ Ht) in Hp. discriminate.
        * destruct (is_method s_i PM_JUST_WORKS || is_method s_i PM_NUMERIC_COMPARISON); [|discriminate].
          cbn [orb] in Ht.
          destruct (e_bad_confirm_r e); cbn [xmit] in Hp.
          -- rewrite (proj2 (veqb_tamper _)) in Hp. discriminate.
          -- rewrite veqb_refl in Hp. cbn [negb] in Hp.
             destruct (negb _) in Hp; [discriminate|]. fold DHK in Hp. cbn [orb] in Ht.
             rewrite (dhk_tampered _ _ _ _ Ht) in Hp. discriminate.
      + assert (exists tk, legacy_tk V zero tk_of_passkey e s_i (e_typed_i e) = Some tk /\
                           legacy_tk V zero tk_of_passkey e s_r (e_typed_r e) = Some tk) as (tk & T1 & T2).
        { unfold legacy_tk, is_method. rewrite <- (ng_method _ _ _ _ _ _ N).
          destruct (Z.eqb_spec (s_method s_i) PM_PASSKEY) as [Hm|Hm].
          - destruct (Hsame Hm) as (p & P1 & P2'). rewrite P1, P2'. cbn [option_map]. eauto.
          - eauto. }
        rewrite (legacy_same_tk_tampered _ _ _ _ T1 T2 Ht) in Hp. discriminate.
  Qed.

  (* the user refuses the confirmation / says the numbers differ (secure connections) *)
  Lemma user_refusal_stores_nothing : forall e ci cr i r s_i s_r link,
    PAIR e ci cr = Res i r (Some s_i) (Some s_r) link ->
    s_sc s_i = true ->
    (s_method s_i = PM_JUST_WORKS /\ e_confirm_i e && e_confirm_r e = false) \/
    (s_method s_i = PM_NUMERIC_COMPARISON /\ e_compare_i e && e_compare_r e = false) ->
    nothing_stored_tb i r ERR_CONFIRM_VALUE_FAILED.
  Proof.
    intros e ci cr i r s_i s_r link H Hsc Hu.
    destruct (pair_negotiated _ _ _ _ _ _ _ _ H) as (ans & N).
    apply (phase2_fail_stores_nothing _ _ _ _ _ _ _ _ _ _ H N).
    rewrite (phase2_split _ _ _ _ _ _ N), Hsc.
    assert (Hoob : is_method s_i PM_OOB = false)
      by (unfold is_method; destruct Hu as [[-> _]|[-> _]]; reflexivity).
    rewrite Hoob. exact (sc_user_refuses _ _ _ (ng_method _ _ _ _ _ _ N) Hu).
  Qed.

  (* rejection by the responder's user *)
  Lemma reject_stores_nothing : forall e ci cr,
    e_accept e = false ->
    PAIR e ci cr = failed_both V ERR_PAIRING_NOT_SUPPORTED None None.
  Proof. intros e ci cr H. unfold PAIR, pair. rewrite H. reflexivity. Qed.
End ProtocolProofs.

(* The free term algebra of Model/Pairing.v (the instance the harness executes) satisfies every
   hypothesis of the section above, so the lemmas are not vacuous and they hold of [run]. *)
Lemma term_eqb_refl : forall a, term_eqb a a = true.
Proof.
  induction a; simpl;
    rewrite ?Z.eqb_refl, ?eqb_reflx, ?Nat.eqb_refl, ?IHa, ?IHa1, ?IHa2, ?IHa3, ?IHa4; reflexivity.
Qed.

Lemma term_eqb_eq : forall a b, term_eqb a b = true -> a = b.
Proof.
  induction a; destruct b; simpl; intro H; try discriminate;
    repeat match goal with
    | H : _ && _ = true |- _ => apply andb_true_iff in H; destruct H
    | H : (_ =? _) = true |- _ => apply Z.eqb_eq in H
    | H : Bool.eqb _ _ = true |- _ => apply eqb_prop in H
    | H : Nat.eqb _ _ = true |- _ => apply Nat.eqb_eq in H
    | IH : forall b, term_eqb ?a b = true -> ?a = b, H : term_eqb ?a _ = true |- _ => apply IH in H
    end; subst; reflexivity.
Qed.

Lemma term_eqb_spec : forall a b, term_eqb a b = true <-> a = b.
Proof. intros a b. split; [apply term_eqb_eq|intros ->; apply term_eqb_refl]. Qed.

Lemma term_tamper_neq : forall v, TTamper v <> v.
Proof. induction v; intro H; try discriminate. injection H as H. auto. Qed.

Lemma term_tk_inj : forall p q, 0 <= p < 1000000 -> 0 <= q < 1000000 -> t_tk p = t_tk q -> p = q.
Proof.
  intros p q _ _ H. unfold t_tk in H.
  destruct (Z.eqb_spec p 0), (Z.eqb_spec q 0); try discriminate; [congruence|].
  injection H as H. assumption.
Qed.

Lemma term_toolbox_ok : toolbox_ok term_toolbox.
Proof.
  split; [exact term_eqb_spec|]. split; [exact term_tamper_neq|].
  split; [intros k k' r H; injection H; auto|]. split; [exact term_tk_inj|].
  split; [intros u v x z z' H; injection H; auto|]. reflexivity.
Qed.

(* the facts bundled in [toolbox_ok], one by one: what a result over [pair_with] is given *)
Section Toolbox.
  Variable T : toolbox.
  Hypothesis Tok : toolbox_ok T.

  Lemma ok_veqb : forall a b, tb_veqb T a b = true <-> a = b.
  Proof. apply Tok. Qed.
  Lemma ok_tamper : forall v, tb_tamper T v <> v.
  Proof. apply Tok. Qed.
  Lemma ok_c1 : forall k k' r, tb_c1 T k r = tb_c1 T k' r -> k = k'.
  Proof. apply Tok. Qed.
  Lemma ok_tk : forall p q, 0 <= p < 1000000 -> 0 <= q < 1000000 -> tb_tk T p = tb_tk T q -> p = q.
  Proof. apply Tok. Qed.
  Lemma ok_f4 : forall u v x z z', tb_f4 T u v x z = tb_f4 T u v x z' -> z = z'.
  Proof. apply Tok. Qed.
  Lemma ok_dh : tb_dh T (n_sk (tb_ni T)) (tb_pub T (n_sk (tb_nr T))) = tb_dh T (n_sk (tb_nr T)) (tb_pub T (n_sk (tb_ni T))).
  Proof. apply Tok. Qed.
End Toolbox.

(* the property, end to end, for the modelled flows *)
Lemma pairing_end_to_end : forall T, toolbox_ok T -> forall e ci cr i r si sr link,
  pair_with T e ci cr = Res i r si sr link ->
  (r_outcome i = Completed /\ r_outcome r = Completed /\
   exists ki kr, r_store i = Some ki /\ r_store r = Some kr /\
     (forall k, central_request _ ki = Some k -> peripheral_reply _ kr = Some k) /\
     (forall k, central_request _ kr = Some k -> peripheral_reply _ ki = Some k) /\
     (e_bad_confirm_i e = false -> e_bad_confirm_r e = false ->
      forall a b, link = Some (a, b) -> a = b))
  \/ (exists reason, nothing_stored_tb i r reason).
Proof.
  intros T Tok e ci cr i r si sr link H. unfold pair_with in H.
  pose proof H as O. apply both_or_neither in O. destruct O as [(A & B & C & D)|F]; [left|right; exact F].
  split; [exact A|]. split; [exact B|].
  destruct (r_store i) as [ki|] eqn:Ei; [|congruence].
  destruct (r_store r) as [kr|] eqn:Er; [|congruence].
  exists ki, kr. split; [reflexivity|]. split; [reflexivity|].
  pose proof H as R. apply reconnect_same_key with (ki := ki) (kr := kr) in R; [|exact (ok_dh T Tok)|exact Ei|exact Er].
  destruct R as (R1 & R2).
  split; [exact R1|]. split; [exact R2|].
  intros B1 B2 a b Hl. subst link.
  apply link_key_shared in H; [exact H|exact (ok_veqb T Tok)|exact (ok_c1 T Tok)|exact (ok_dh T Tok)|exact B1|exact B2].
Qed.

(* D13a: with the original bookkeeping of Session.on_pairing (stored_orig) the stores of a
   legacy pairing in which both sides distribute their LTK give different keys on a later
   connection, in the same roles and in swapped roles. *)
Definition legacy_session (initiator : bool) : session :=
  mkSession initiator false true false PM_JUST_WORKS false 1 1
            [CMD_ENCRYPTION_INFORMATION; CMD_MASTER_IDENTIFICATION].

Definition orig_store (initiator : bool) : keys term :=
  stored_orig term TLk false (legacy_session initiator) (TLtk initiator)
              (distributed false false 1) (TLtk (negb initiator)) TZero.

Lemma reconnect_refuted_orig :
  central_request term (orig_store true) = Some (TLtk false) /\
  peripheral_reply term (orig_store false) = Some (TLtk true) /\
  central_request term (orig_store false) = Some (TLtk false) /\
  peripheral_reply term (orig_store true) = Some (TLtk true) /\
  TLtk false <> TLtk true.
Proof. vm_compute. repeat split; discriminate. Qed.

(* ... and a key that was never exchanged is handed to the controller *)
Lemma unexchanged_key_refuted_orig :
  central_request term
    (stored_orig term TLk false (mkSession true false true false PM_JUST_WORKS false 1 0 [])
                 (TLtk true) (distributed false false 0) (TLtk false) TZero) = Some TZero.
Proof. vm_compute. reflexivity. Qed.

(* D13b: cross-transport key derivation.  After the fix the flag is the link key's. *)
Lemma ctkd_authenticated_inherits : forall e s,
  s_method s = PM_CTKD_OVER_CLASSIC -> authenticated_flag e s = e_lk_auth e.
Proof. intros e s H. unfold authenticated_flag, is_method. rewrite H. reflexivity. Qed.

Lemma ctkd_store_authenticated : forall (V : Type) (lk : V -> V) e s own cmds peer,
  s_method s = PM_CTKD_OVER_CLASSIC ->
  any_auth (stored V lk e true s own cmds peer) = true -> e_lk_auth e = true.
Proof.
  intros V lk e s own cmds peer Hm H. rewrite <- (ctkd_authenticated_inherits e s Hm).
  exact (stored_any_auth _ _ _ _ _ _ _ _ H).
Qed.

Lemma ctkd_flow_store_authenticated : forall (V : Type) e s lk ltk cmds ks,
  s_method s = PM_CTKD_OVER_CLASSIC ->
  ctkd_store V e s lk ltk cmds = Some ks -> any_auth ks = true -> e_lk_auth e = true.
Proof.
  intros V e s lk ltk cmds ks Hm H Ha. rewrite <- (ctkd_authenticated_inherits e s Hm).
  unfold ctkd_store in H. destruct (has_flag (own_kd s) KD_ENC_KEY); [|discriminate].
  injection H as <-. unfold any_auth in Ha.
  cbn [ks_ltk ks_ltk_central ks_ltk_peripheral ks_irk ks_csrk ks_link_key] in Ha.
  destruct (authenticated_flag e s); [reflexivity|]. exfalso.
  destruct (mem CMD_IDENTITY_INFORMATION cmds), (mem CMD_SIGNING_INFORMATION cmds); cbn in Ha; discriminate.
Qed.

(* D13f (known): a side whose own negotiated mask lacks ENC_KEY reports and stores nothing *)
Lemma ctkd_without_enc_key_refuted : forall (V : Type) e s lk ltk cmds,
  has_flag (own_kd s) KD_ENC_KEY = false -> ctkd_store V e s lk ltk cmds = None.
Proof. intros. unfold ctkd_store. rewrite H. reflexivity. Qed.

Lemma ctkd_with_enc_key_stores : forall (V : Type) e s lk ltk cmds,
  has_flag (own_kd s) KD_ENC_KEY = true -> ctkd_store V e s lk ltk cmds <> None.
Proof. intros. unfold ctkd_store. rewrite H. discriminate. Qed.

Lemma ctkd_authenticated_refuted_orig :
  let s := mkSession true true true false PM_CTKD_OVER_CLASSIC false 3 3 [] in
  ks_ltk (stored_orig term TLk true s (TLtk true) [] TZero TZero) = Some (mkKey (TLtk true) true false).
Proof. vm_compute. reflexivity. Qed.
