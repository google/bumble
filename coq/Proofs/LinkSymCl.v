(* Symmetry of the BR/EDR connection tables (property C06): the pair protocol
   idle -> requesting -> requested -> accepted -> connected -> closing -> idle
   as an inductive invariant over the n-controller system of Model/Link.v. *)
From Coq Require Import ZArith List Bool Lia Arith.
From BV Require Import Model.Link Proofs.Link Proofs.LinkSym.
Import ListNotations.
Open Scope Z_scope.

Definition ent (ci cj : ctrl) : option conn := tbl_get (c_cl ci) (c_public cj).
Definition fut (ci cj : ctrl) : option bool := lmp_get (c_lmp ci) (c_public cj).

Definition settled (f : option bool) : Prop := f <> Some false.

(* i has started something that j (or i) has not finished: the connection set-up it
   initiated, or a disconnection *)
Definition chalf (ei ej : option conn) (fi fj : option bool) (rij rji : list packet)
                 (i j : nat) (pi pj : Z) : Prop :=
  settled fj /\
  ((exists k, ei = Some k /\ k_handle k = 0 /\ k_central k = true /\ fi = Some false /\ ej = None /\
              rij = [(i, j, MLmpConnReq pi)] /\ rji = [])
   \/ (exists k k', ei = Some k /\ k_handle k = 0 /\ k_central k = true /\ fi = Some false /\
              ej = Some k' /\ k_handle k' = 0 /\ k_central k' = false /\ rij = [] /\ rji = [])
   \/ (exists k k', ei = Some k /\ k_handle k = 0 /\ k_central k = true /\ fi = Some false /\
              ej = Some k' /\ k_handle k' <> 0 /\ k_central k' = false /\ rij = [] /\ rji = [(j, i, MLmpAccepted pj)])
   \/ (exists k' r, ei = None /\ settled fi /\ ej = Some k' /\ k_handle k' <> 0 /\
              rij = [(i, j, MLmpDetach pi r)] /\ rji = [])).

Definition cst (ei ej : option conn) (fi fj : option bool) (rij rji : list packet)
               (i j : nat) (pi pj : Z) : Prop :=
  (ei = None /\ ej = None /\ rij = [] /\ rji = [] /\ settled fi /\ settled fj)
  \/ (exists k k', ei = Some k /\ ej = Some k' /\ k_handle k <> 0 /\ k_handle k' <> 0 /\
        k_central k' = negb (k_central k) /\ rij = [] /\ rji = [] /\ settled fi /\ settled fj)
  \/ chalf ei ej fi fj rij rji i j pi pj \/ chalf ej ei fj fi rji rij j i pj pi.

Definition cpair_ok (s : state) (i j : nat) (ci cj : ctrl) : Prop :=
  cst (ent ci cj) (ent cj ci) (fut ci cj) (fut cj ci) (crel s i j) (crel s j i) i j (c_public ci) (c_public cj).

Record cinvs (s : state) : Prop := mkCinvs {
  cs_g : ginv s;
  cs_bc : forall src dst m, In (src, dst, m) (st_net s) -> is_cctl m = true -> src <> dst;
  cs_pair : forall i j ci cj, i <> j -> nth_error (st_cs s) i = Some ci ->
            nth_error (st_cs s) j = Some cj -> cpair_ok s i j ci cj
}.

(* the pair relation of cpair_ok with the packets in flight as arguments *)
Definition cl_ok (i j : nat) (ci cj : ctrl) (rij rji : list packet) : Prop :=
  cst (ent ci cj) (ent cj ci) (fut ci cj) (fut cj ci) rij rji i j (c_public ci) (c_public cj).

Lemma cl_ok_sym : forall i j ci cj rij rji, cl_ok i j ci cj rij rji -> cl_ok j i cj ci rji rij.
Proof.
  unfold cl_ok, cst. intros i j ci cj rij rji [H|[H|[H|H]]].
  - left. tauto.
  - right. left. destruct H as [k [k' [H1 [H2 [H3 [H4 [H5 [H6 [H7 [H8 H9]]]]]]]]]]. exists k', k.
    repeat split; auto. rewrite H5. now rewrite negb_involutive.
  - right. right. now right.
  - right. right. now left.
Qed.

Lemma cs_pairwise : forall s, cinvs s -> pairwise (fun _ => crel_pkt) cl_ok s.
Proof. intros s S. exact (cs_pair s S). Qed.

Lemma cinvs_of_pairwise : forall s, ginv s -> noself is_cctl (st_net s) ->
  pairwise (fun _ => crel_pkt) cl_ok s -> cinvs s.
Proof. intros s G B P. exact (mkCinvs s G B P). Qed.

(* the state of a pair with a message in flight from i to j, read off the message *)
Lemma cst_in_flight : forall ei ej fi fj rij rji i j pi pj m,
  cst ei ej fi fj rij rji i j pi pj -> In (i, j, m) rij ->
  rij = [(i, j, m)] /\ rji = [] /\
  match m with
  | MLmpConnReq a => a = pi /\ settled fj /\ ej = None /\ fi = Some false /\
      exists k, ei = Some k /\ k_handle k = 0 /\ k_central k = true
  | MLmpAccepted a => a = pi /\ settled fi /\ fj = Some false /\
      exists k k', ei = Some k /\ k_handle k <> 0 /\ k_central k = false /\
                   ej = Some k' /\ k_handle k' = 0 /\ k_central k' = true
  | MLmpDetach a r => a = pi /\ settled fi /\ settled fj /\ ei = None /\ exists k', ej = Some k' /\ k_handle k' <> 0
  | _ => False
  end.
Proof.
  unfold cst, chalf. intros ei ej fi fj rij rji i j pi pj m H Hin.
  decompose [or ex and] H;
    match goal with R : rij = _ |- _ => rewrite R in Hin |- * end;
    simpl in Hin; decompose [or] Hin; try contradiction;
    match goal with E : _ = (i, j, m) |- _ => injection E as <- end; simpl; eauto 15.
Qed.

(* j holds a waiting request (handle 0, peripheral) filed under i's address: the pair is in
   the "requested" state *)
Lemma cst_waiting_request : forall ei ej fi fj rij rji i j pi pj k',
  cst ei ej fi fj rij rji i j pi pj -> ej = Some k' -> k_handle k' = 0 -> k_central k' = false ->
  settled fj /\ fi = Some false /\ rij = [] /\ rji = [] /\
  exists k, ei = Some k /\ k_handle k = 0 /\ k_central k = true.
Proof.
  unfold cst, chalf. intros ei ej fi fj rij rji i j pi pj k' H He Hh Hc.
  decompose [or ex and] H; try congruence; eauto 10.
Qed.

(* with nothing in flight a pair is idle, connected, or a request waits for the host's answer *)
Lemma cst_quiet : forall ei ej fi fj i j pi pj, cst ei ej fi fj [] [] i j pi pj ->
  (ei = None /\ ej = None /\ settled fi /\ settled fj)
  \/ (exists k k', ei = Some k /\ ej = Some k' /\ k_handle k <> 0 /\ k_handle k' <> 0 /\
        k_central k' = negb (k_central k) /\ settled fi /\ settled fj)
  \/ (exists k k', ei = Some k /\ ej = Some k' /\ k_handle k = 0 /\ k_handle k' = 0 /\
        k_central k' = negb (k_central k)).
Proof.
  unfold cst, chalf. intros ei ej fi fj i j pi pj H.
  decompose [or ex and] H; try discriminate; [left; auto | right; left; eauto 10 | ..];
    right; right; do 2 eexists; repeat split; try eassumption;
    match goal with H1 : k_central _ = _, H2 : k_central _ = _ |- _ => now rewrite H1, H2 end.
Qed.

Lemma crel_pkt_true : forall x y s d m, crel_pkt x y (s, d, m) = true -> s = x /\ d = y /\ is_cctl m = true.
Proof.
  intros x y s d m H. unfold crel_pkt in H. apply andb_true_iff in H. destruct H as [H1 H2].
  apply andb_true_iff in H1. destruct H1 as [H0 H1]. apply Nat.eqb_eq in H0, H1. auto.
Qed.

Lemma crel_ends : forall (cs : list ctrl) x y s d m, crel_pkt x y (s, d, m) = true -> s = x /\ d = y.
Proof. intros cs x y s d m H. apply crel_pkt_true in H. tauto. Qed.

Lemma crel_remove : forall x y k (net : list packet) s d m, nth_error net k = Some (s, d, m) -> x <> s \/ y <> d ->
  filter (crel_pkt x y) (remove_nth k net) = filter (crel_pkt x y) net.
Proof. exact (@sel_remove (fun _ => crel_pkt) crel_ends []). Qed.

Lemma crel_send : forall x y (net : list packet) s d m, x <> s \/ y <> d ->
  filter (crel_pkt x y) (net ++ [(s, d, m)]) = filter (crel_pkt x y) net.
Proof. exact (@sel_send (fun _ => crel_pkt) crel_ends []). Qed.

Arguments crel_remove {x y k net s d m}.
Arguments crel_send {x y net s d m}.

Lemma crel_pkt_self : forall s d m, is_cctl m = true -> crel_pkt s d (s, d, m) = true.
Proof. intros. unfold crel_pkt. now rewrite !Nat.eqb_refl, H. Qed.

Lemma no_cctl_crel : forall x y out, none_of is_cctl out -> forall q, In q out -> crel_pkt x y q = false.
Proof.
  intros x y out H [[s d] m] Hin. destruct (crel_pkt x y (s, d, m)) eqn:E; [|reflexivity].
  apply crel_pkt_true in E. destruct E as [_ [_ Hm]]. rewrite (H _ _ _ Hin) in Hm. discriminate.
Qed.

Lemma lmp_get_set_same : forall l p d, lmp_get (lmp_set l p d) p = Some d.
Proof.
  induction l as [|[q d0] l IH]; simpl; intros p d.
  - now rewrite Z.eqb_refl.
  - destruct (q =? p) eqn:E; simpl; [now rewrite E | now rewrite E].
Qed.

Lemma lmp_get_set_other : forall l p q d, q <> p -> lmp_get (lmp_set l p d) q = lmp_get l q.
Proof.
  induction l as [|[r d0] l IH]; simpl; intros p q d Hne.
  - destruct (p =? q) eqn:E; [apply Z.eqb_eq in E; congruence | reflexivity].
  - destruct (r =? p) eqn:E; simpl.
    + apply Z.eqb_eq in E. subst r. destruct (p =? q) eqn:E1; [apply Z.eqb_eq in E1; congruence | reflexivity].
    + destruct (r =? q); [reflexivity | now apply IH].
Qed.

Lemma tbl_get_set_key : forall t k p, k_peer k = p -> tbl_get (tbl_set t k) p = Some k.
Proof. intros t k p <-. apply tbl_get_set_same. Qed.

Lemma pub_neq : forall s i j ci cj, ginv s -> nth_error (st_cs s) i = Some ci -> nth_error (st_cs s) j = Some cj ->
  i <> j -> c_public ci <> c_public cj.
Proof.
  intros s i j ci cj G Hi Hj Hne E. apply Hne.
  eapply (g_uniq s G i j ci cj (c_public ci)); eauto; [now left | rewrite E; now left].
Qed.

Lemma find_classic_some : forall s a j, find_classic (st_cs s) a = Some j ->
  exists cj, nth_error (st_cs s) j = Some cj /\ c_public cj = a.
Proof.
  intros s a j H. unfold find_classic in H. apply find_index_some in H. destruct H as [cj [H1 [H2 _]]].
  rewrite Nat.sub_0_r in H1. apply Z.eqb_eq in H2. eauto.
Qed.

Lemma find_classic_none_pub : forall s a, find_classic (st_cs s) a = None ->
  forall y cy, nth_error (st_cs s) y = Some cy -> c_public cy <> a.
Proof.
  intros s a. unfold find_classic. generalize 0%nat. induction (st_cs s) as [|c0 cs IH]; simpl; intros n Hf y cy Hy.
  - destruct y; discriminate.
  - destruct (c_public c0 =? a) eqn:E0; [discriminate|]. destruct y as [|y]; simpl in Hy.
    + inversion Hy; subst. now apply Z.eqb_neq.
    + eapply IH; eauto.
Qed.

Lemma cinvs_update : forall s i0 c c' net',
  cinvs s -> ginv (mkState (upd (st_cs s) i0 c') net') ->
  nth_error (st_cs s) i0 = Some c -> noself is_cctl net' ->
  (forall y cy, y <> i0 -> nth_error (st_cs s) y = Some cy ->
        cl_ok i0 y c' cy (filter (crel_pkt i0 y) net') (filter (crel_pkt y i0) net')) ->
  (forall x y, x <> i0 -> y <> i0 -> filter (crel_pkt x y) net' = filter (crel_pkt x y) (st_net s)) ->
  cinvs (mkState (upd (st_cs s) i0 c') net').
Proof.
  intros s i0 c c' net' S G' Hi Hbc Hp0 Hframe. apply cinvs_of_pairwise; auto.
  exact (pairwise_update (fun _ => crel_pkt) cl_ok cl_ok_sym s i0 c c' net' (cs_pairwise s S) Hi
           (fun _ _ _ => eq_refl) Hp0 Hframe).
Qed.

(* a step of i0 after which every controller finds the same entry and future under its address,
   and that neither takes nor sends a connection-management LMP message *)
Lemma cinvs_unseen : forall s i0 c c' net',
  cinvs s -> ginv (mkState (upd (st_cs s) i0 c') net') ->
  nth_error (st_cs s) i0 = Some c -> c_public c' = c_public c -> c_lmp c' = c_lmp c ->
  (forall y cy, nth_error (st_cs s) y = Some cy -> tbl_get (c_cl c') (c_public cy) = tbl_get (c_cl c) (c_public cy)) ->
  noself is_cctl net' ->
  (forall x y, filter (crel_pkt x y) net' = filter (crel_pkt x y) (st_net s)) ->
  cinvs (mkState (upd (st_cs s) i0 c') net').
Proof.
  intros s i0 c c' net' S G' Hi Hp Hlmp Hsame Hbc Hrel.
  eapply cinvs_update; eauto.
  intros y cy Hy Hcy. unfold cl_ok, ent, fut. rewrite !Hrel, Hlmp, Hp, (Hsame _ _ Hcy).
  exact (cs_pair s S _ _ _ _ (not_eq_sym Hy) Hi Hcy).
Qed.

Lemma cinvs_neutral : forall s i0 c c' net' out,
  cinvs s -> ginv (mkState (upd (st_cs s) i0 c') (net' ++ out)) ->
  nth_error (st_cs s) i0 = Some c -> c_public c' = c_public c -> c_cl c' = c_cl c -> c_lmp c' = c_lmp c ->
  none_of is_cctl out ->
  (forall p, In p net' -> In p (st_net s)) ->
  (forall x y, filter (crel_pkt x y) net' = filter (crel_pkt x y) (st_net s)) ->
  cinvs (mkState (upd (st_cs s) i0 c') (net' ++ out)).
Proof.
  intros s i0 c c' net' out S G' Hi Hp Hcl Hlmp Hnc Hsub Hrel.
  eapply cinvs_unseen; eauto with outs.
  - intros. now rewrite Hcl.
  - apply noself_app; auto with outs. intros src dst m Hin. apply (cs_bc s S). auto.
  - intros x y. rewrite filter_app, (filter_none _ out (no_cctl_crel x y out Hnc)), app_nil_r. apply Hrel.
Qed.

(* a step of i0 that concerns only its pair with j1: the entry and the future under j1's
   address, packets between the two *)
Lemma cinvs_pair_step : forall s i0 j1 c c' cj1 net',
  cinvs s -> ginv (mkState (upd (st_cs s) i0 c') net') ->
  nth_error (st_cs s) i0 = Some c -> nth_error (st_cs s) j1 = Some cj1 -> j1 <> i0 ->
  c_public c' = c_public c -> noself is_cctl net' ->
  (forall p, p <> c_public cj1 ->
     tbl_get (c_cl c') p = tbl_get (c_cl c) p /\ lmp_get (c_lmp c') p = lmp_get (c_lmp c) p) ->
  (forall x y, x <> i0 \/ y <> j1 -> x <> j1 \/ y <> i0 ->
     filter (crel_pkt x y) net' = filter (crel_pkt x y) (st_net s)) ->
  cl_ok i0 j1 c' cj1 (filter (crel_pkt i0 j1) net') (filter (crel_pkt j1 i0) net') ->
  cinvs (mkState (upd (st_cs s) i0 c') net').
Proof.
  intros s i0 j1 c c' cj1 net' S G' Hi Hj Hne Hp Hbc Hkeys Hframe Hpair.
  eapply cinvs_update; eauto.
  intros y cy Hy Hcy. destruct (Nat.eq_dec y j1) as [->|Hyj]; [congruence|].
  destruct (Hkeys (c_public cy)) as [Hcl Hlmp]; [exact (pub_neq s y j1 cy cj1 (cs_g s S) Hcy Hj Hyj)|].
  unfold cl_ok, ent, fut. rewrite !Hframe by auto. rewrite Hcl, Hlmp, Hp.
  exact (cs_pair s S _ _ _ _ (not_eq_sym Hy) Hi Hcy).
Qed.

(* a connection-management LMP message in flight: who sent it, and the state of the pair *)
Lemma lmp_in_flight : forall s k src dst m cdst, cinvs s -> nth_error (st_net s) k = Some (src, dst, m) ->
  is_cctl m = true -> nth_error (st_cs s) dst = Some cdst ->
  src <> dst /\ exists csrc, nth_error (st_cs s) src = Some csrc /\
    match m with MLmpConnReq a | MLmpAccepted a | MLmpDetach a _ => a = c_public csrc | _ => True end /\
    crel_pkt src dst (src, dst, m) = true /\
    cl_ok src dst csrc cdst (crel s src dst) (crel s dst src) /\ In (src, dst, m) (crel s src dst).
Proof.
  intros s k src dst m cdst S Hk Hm Hd. pose proof (nth_error_In _ _ Hk) as Hin.
  pose proof (cs_bc s S _ _ _ Hin Hm) as Hne. split; [exact Hne|].
  destruct (g_net s (cs_g s S) _ _ _ Hin) as [c0 [H0 Hok]]. exists c0.
  pose proof (crel_pkt_self src dst m Hm) as Hr. repeat split; auto.
  - destruct m; simpl in Hm; try discriminate; exact Hok.
  - exact (cs_pair s S _ _ _ _ Hne H0 Hd).
  - apply filter_In. auto.
Qed.

(* delivery of the LMP message m from i1 to j0 without an answer: m was alone in flight between
   the two, and what is asked for is the state of the pair once m is taken *)
Lemma cinvs_pair_deliver : forall s k i1 j0 m c c',
  cinvs s -> ginv (mkState (upd (st_cs s) j0 c') (remove_nth k (st_net s))) ->
  nth_error (st_net s) k = Some (i1, j0, m) -> is_cctl m = true -> nth_error (st_cs s) j0 = Some c ->
  c_public c' = c_public c ->
  (forall ci1, nth_error (st_cs s) i1 = Some ci1 ->
     match m with MLmpConnReq a | MLmpAccepted a | MLmpDetach a _ => a = c_public ci1 | _ => True end ->
     cl_ok i1 j0 ci1 c [(i1, j0, m)] [] ->
     (forall p, p <> c_public ci1 ->
        tbl_get (c_cl c') p = tbl_get (c_cl c) p /\ lmp_get (c_lmp c') p = lmp_get (c_lmp c) p)
     /\ cl_ok j0 i1 c' ci1 [] []) ->
  cinvs (mkState (upd (st_cs s) j0 c') (remove_nth k (st_net s))).
Proof.
  intros s k i1 j0 m c c' S G' Hk Hm Hj Hp Hnew.
  destruct (lmp_in_flight s _ _ _ _ c S Hk Hm Hj) as [Hne [ci1 [Hi1 [Ha [Hpk [Hpair Hin]]]]]].
  destruct (cst_in_flight _ _ _ _ _ _ _ _ _ _ _ Hpair Hin) as [R1 [R2 _]].
  rewrite R1, R2 in Hpair. destruct (Hnew ci1 Hi1 Ha Hpair) as [Hkeys Hok]. unfold crel in R1, R2.
  apply (cinvs_pair_step s j0 i1 c c' ci1); auto.
  - apply noself_remove. exact (cs_bc s S).
  - intros x y _ H2. apply (crel_remove Hk H2).
  - rewrite (crel_remove Hk (x := j0) (y := i1)) by auto.
    now rewrite (filter_single_remove _ _ _ _ Hk Hpk R1), R2.
Qed.

(* i0 sends the LMP message m to j1 *)
Lemma cinvs_pair_send : forall s i0 j1 m c c' cj1,
  cinvs s -> ginv (mkState (upd (st_cs s) i0 c') (st_net s ++ [(i0, j1, m)])) ->
  nth_error (st_cs s) i0 = Some c -> nth_error (st_cs s) j1 = Some cj1 -> j1 <> i0 -> is_cctl m = true ->
  c_public c' = c_public c ->
  (forall p, p <> c_public cj1 ->
     tbl_get (c_cl c') p = tbl_get (c_cl c) p /\ lmp_get (c_lmp c') p = lmp_get (c_lmp c) p) ->
  cl_ok i0 j1 c' cj1 (crel s i0 j1 ++ [(i0, j1, m)]) (crel s j1 i0) ->
  cinvs (mkState (upd (st_cs s) i0 c') (st_net s ++ [(i0, j1, m)])).
Proof.
  intros s i0 j1 m c c' cj1 S G' Hi Hj Hne Hm Hp Hkeys Hok.
  apply (cinvs_pair_step s i0 j1 c c' cj1); auto.
  - apply noself_app; [exact (cs_bc s S) | apply noself_one; auto].
  - intros x y H1 _. apply (crel_send H1).
  - rewrite (crel_send (x := j1) (y := i0)) by auto.
    now rewrite filter_app, filter_one, (crel_pkt_self i0 j1 m Hm).
Qed.
