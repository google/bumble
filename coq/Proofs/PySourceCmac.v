(* C14 - the _CMAC model equals the denotation of the current source of
   bumble/crypto/builtin.py: _shift_bytes, _CMAC.__init__ / update / _update / digest.
   _ECB.encrypt and _CBC.encrypt contain loops: they enter as the model's [ecb] / [cbc_encrypt]
   (their sources are tied by fingerprints and by correspondence); the call
   self._cbc.encrypt(x) is given the stub [cbc_stub], which updates the CBC object's
   _last_cipher_block exactly as the model's [cbc_encrypt] says. *)
From Coq Require Import ZArith List Bool String Lia ZifyBool.
From BV Require Import Model.CryptoBytes Model.PyAst Model.Cmac Gen.C14Source Proofs.CryptoBytes Proofs.PySourceEval.
Import ListNotations.
Open Scope string_scope.
Open Scope list_scope.
Open Scope Z_scope.

Section CmacSource.
  Variable E : list Z -> list Z.

  Definition optv (o : option (list Z)) : val := match o with Some l => VBytes l | None => VNone end.

  Definition prim_cm (f : string) (args : list val) : val :=
    if any_err args then VErr else
    if String.eqb f "len" then match args with [VBytes b] => VInt (len b) | _ => VErr end else
    if String.eqb f "min" then match args with [VInt a; VInt b] => VInt (Z.min a b) | _ => VErr end else
    if String.eqb f "bytes" then match args with [VInt n] => match n with Zneg _ => VErr | _ => VBytes (zeros (Z.to_nat n)) end | _ => VErr end else
    if String.eqb f "bytearray" then match args with [VInt n] => match n with Zneg _ => VErr | _ => VBytes (zeros (Z.to_nat n)) end | _ => VErr end else
    if String.eqb f "_xor" then match args with [VBytes a; VBytes b] => VBytes (xor_zip a b) | _ => VErr end else
    if String.eqb f "_ECB" then VStr "ecb" else
    if String.eqb f "_CBC" then VStr "cbc" else
    if String.eqb f "self._ecb.encrypt" then match args with [_; VBytes pt] => VBytes (ecb E pt) | _ => VErr end else
    if String.eqb f "_shift_bytes" then
      match args with
      | [VBytes b] => VBytes (shift_bytes b 0)
      | [VBytes b; VInt x] => VBytes (shift_bytes b x)
      | _ => VErr
      end else
    if String.eqb f "cbc_encrypt(model)" then
      match args with
      | [VBytes last; VBytes pt] => VTuple [VBytes (fst (cbc_encrypt E last pt)); VBytes (snd (cbc_encrypt E last pt))]
      | _ => VErr
      end else
    if String.eqb f "int.from_bytes" then match args with [VBytes b; VStr "big"; VBool false] => VInt (be_int b) | _ => VErr end else
    if String.eqb f ".to_bytes" then
      match args with
      | [VInt x; VInt n; VStr "big"] => if (0 <=? x) && (x <? 256 ^ n) then VBytes (to_be (Z.to_nat n) x) else VErr
      | _ => VErr
      end else
    VErr.

  Definition no_attr (n : string) (v : val) : val := VErr.
  Definition no_op (op : binop) (a b : val) : val := VErr.

  (* _CBC.encrypt as seen from _CMAC: returns the cipher text, advances the chaining block *)
  Definition cbc_stub : list stmt :=
    [SAssignTuple ["ct__"; "self._cbc._last_cipher_block"]
       (ECall "cbc_encrypt(model)" [EName "self._cbc._last_cipher_block"; EName "plaintext"]);
     SReturn (EName "ct__")].

  Definition meth_cm (n : string) : option (list string * list stmt) :=
    if String.eqb n "self._update" then Some (tl src_cmac_update_aligned_params, src_cmac_update_aligned) else
    if String.eqb n "self.update" then Some (tl src_cmac_update_params, src_cmac_update) else
    if String.eqb n "self._cbc.encrypt" then Some (["plaintext"], cbc_stub) else
    None.

  (* the attributes of a _CMAC object in model state s *)
  Definition cmac_env (s : cmac_state) : env :=
    [("self", VStr "cmac");
     ("self.digest_size", VInt 16); ("self._block_size", VInt 16); ("self._mac_tag", VNone);
     ("self._update_after_digest", VBool false); ("self._max_size", VInt max_size);
     ("self._k1", VBytes (key_k1 E)); ("self._k2", VBytes (key_k2 E));
     ("self._cache", VBytes (c_cache s)); ("self._cache_n", VInt (c_cache_n s));
     ("self._last_ct", VBytes (c_last_ct s)); ("self._last_pt", optv (c_last_pt s));
     ("self._data_size", VInt (c_data_size s));
     ("self._cbc._last_cipher_block", VBytes (c_cbc_last s))].

  Definition run (fuel : nat) (init : env) (ps : list string) (body : list stmt) (args : list val) : outcome :=
    call prim_cm no_attr no_op meth_cm fuel init ps body args.

  (* the six mutable attributes read back from an environment *)
  Definition state_in (en : env) (s : cmac_state) : Prop :=
    lookup "self._cache" en = VBytes (c_cache s) /\ lookup "self._cache_n" en = VInt (c_cache_n s) /\
    lookup "self._last_ct" en = VBytes (c_last_ct s) /\ lookup "self._last_pt" en = optv (c_last_pt s) /\
    lookup "self._data_size" en = VInt (c_data_size s) /\
    lookup "self._cbc._last_cipher_block" en = VBytes (c_cbc_last s).

  (* [optv] and [state_in] stay folded: _update never reads _last_pt, and the final environment
     is computed once, not once per attribute *)
  Ltac py :=
    unfold run, call;
    py_run ltac:(with_strategy opaque [Z.opp xor_zip py_slice py_splice rev app zeros nth hd
                                       ecb cbc_encrypt shift_bytes key_k1 key_k2 max_size fst snd repeat_bytes optv state_in
                                       c_cache c_cache_n c_last_ct c_last_pt c_data_size c_cbc_last] cbv_int_folded;
                 cbn [fst snd]).

  Lemma repeat_zero : forall n, repeat_bytes n [0] = zeros n.
  Proof. induction n; [reflexivity|]. cbn [repeat_bytes]. rewrite IHn. reflexivity. Qed.

  Ltac norm := rewrite ?py_slice_all, ?repeat_zero; cbn [app].

  Theorem cmac_digest_matches_source : forall s,
    result_of (run 40 (cmac_env s) src_cmac_digest_params src_cmac_digest [VStr "cmac"]) =
    match digest E s with Some t => VBytes t | None => VErr end.
  Proof.
    intros s. unfold digest, cmac_env.
    destruct (c_last_pt s) as [lp|]; cbn [optv Cmac.truthy opt_bytes]; py; norm;
      (destruct (max_size <? c_data_size s); [reflexivity|]);
      destruct (c_cache_n s =? 0); destruct (0 <? c_data_size s); try destruct (len lp =? 0); reflexivity.
  Qed.

  Theorem cmac_update_aligned_matches_source : forall s data,
    (len data mod 16 =? 0) = true ->
    state_in (env_of (run 40 (cmac_env s) src_cmac_update_aligned_params src_cmac_update_aligned
                          [VStr "cmac"; VBytes data]))
             (update_aligned E s data).
  Proof.
    intros [cache n lct lpt ds cbcl] data Hal. unfold update_aligned, cmac_env.
    cbn [c_cache c_cache_n c_last_ct c_last_pt c_data_size c_cbc_last].
    py. rewrite Hal. py.
    destruct (len data =? 0); py; [repeat split; reflexivity|].
    destruct (cbc_encrypt E cbcl data) as [ct cbc']; cbn [fst snd].
    destruct (len data =? 16); py; repeat split; reflexivity.
  Qed.

  Theorem shift_bytes_matches_source : forall bs x, bytes_ok bs = true -> 0 <= x < 256 ->
    result_of (run 10 [] src_shift_bytes_params src_shift_bytes [VBytes bs; VInt x]) = VBytes (shift_bytes bs x).
  Proof.
    intros bs x Hok Hx.
    pose proof (be_int_bound bs Hok) as Hb. pose proof (len_nonneg bs) as Hl.
    assert (Hp : 256 ^ (len bs + 1) = 2 ^ (8 * (len bs + 1))) by (rewrite (Z.pow_mul_r 2 8) by lia; reflexivity).
    assert (Hr : 0 <= Z.lxor (Z.shiftl (be_int bs) 1) x < 256 ^ (len bs + 1)).
    { pose proof (Z.pow_pos_nonneg 256 (len bs) eq_refl Hl) as Hpos.
      rewrite Hp. apply lxor_lt_pow2; [| |lia]; rewrite <- Hp, Z.pow_add_r by lia; change (256 ^ 1) with 256.
      - rewrite Z.shiftl_mul_pow2 by lia. change (2 ^ 1) with 2. lia.
      - lia. }
    py.
    replace (0 <=? Z.lxor (Z.shiftl (be_int bs) 1) x) with true by lia.
    replace (Z.lxor (Z.shiftl (be_int bs) 1) x <? 256 ^ (len bs + 1)) with true by lia.
    py. unfold shift_bytes, py_from.
    replace (Z.to_nat (len bs + 1)) with (List.length bs + 1)%nat by (unfold len; lia). reflexivity.
  Qed.

End CmacSource.
