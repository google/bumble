(* Property C18: every protocol data unit above HCI round-trips through its codec.
   Statements only, each closed by [exact], or by evaluation where it is a per-run check on
   regenerated data, a test vector or a definitional equality.
   "value -> bytes -> value" theorems quantify over every in-range value (boolean *_ok
   predicates, satisfiable: see the Examples) and every trailing data; "bytes -> value -> bytes" theorems over every octet string the parser accepts
   and that is in canonical form (boolean *_canonical / *_exact predicates spelled out in the
   models).  The *_refuted lemmas are the defects D18a-e: the code before each fix patch does
   not satisfy the statement. *)
From Coq Require Import ZArith List Bool.
From Coq Require String.
From BV Require Import Base.Bytes Model.CodecsBase Gen.C18Tables.
From BV Require Import Model.CodecsL2cap Model.CodecsRfcomm Model.CodecsSdp Model.CodecsUuid Model.CodecsAv.
From BV Require Import Proofs.CodecsL2cap Proofs.CodecsRfcomm Proofs.CodecsSdp Proofs.CodecsUuid Proofs.CodecsAv.
From BV Require Import Model.SpecCodec Model.CodecsRegistry Proofs.CodecsRegistry Gen.C18Registry.
From BV Require Import Model.CodecsXfields Proofs.CodecsXfields Gen.C18XRegistry Gen.C18AvrcpRegistry.
From BV Require Import Model.CodecsShapes Proofs.CodecsShapes Gen.C18Shapes.
From BV Require Import Model.CodecsA2dp Proofs.CodecsA2dp.
From BV Require Import Model.CodecsFieldSrc Proofs.CodecsFieldSrc Gen.C18FieldSrc.
From BV Require Import Model.CodecsSdpState Proofs.CodecsSdpState.
Import ListNotations.
Open Scope Z_scope.

(* ------------------------------------------------------------------ L2CAP *)
(* ERTM enhanced control fields (I-frame and S-frame), all field values *)
Theorem C18_ertm_value_roundtrip : forall c tail,
  ecf_ok c = true -> ecf_parse (ecf_bytes c ++ tail) = Some c.
Proof. exact ecf_value_roundtrip. Qed.
Print Assumptions C18_ertm_value_roundtrip.

Theorem C18_ertm_bytes_roundtrip : forall b0 b1 tail c,
  byte_ok b0 = true -> byte_ok b1 = true -> ecf_parse (b0 :: b1 :: tail) = Some c ->
  ecf_ok c = true /\ (ecf_reserved_zero b0 b1 = true -> ecf_bytes c = [b0; b1]).
Proof. exact ecf_bytes_roundtrip. Qed.
Print Assumptions C18_ertm_bytes_roundtrip.

Theorem C18_ertm_short_input_rejected : forall d, (length d < 2)%nat -> ecf_parse d = None.
Proof. exact ecf_short. Qed.
Print Assumptions C18_ertm_short_input_rejected.

(* D18a *)
Theorem C18_ertm_poll_shift_refuted :
  exists f, sframe_ok f = true /\ ecf_parse (sframe_bytes_unfixed f) <> Some (SFrame f).
Proof. exact sframe_unfixed_refuted. Qed.
Print Assumptions C18_ertm_poll_shift_refuted.

Theorem C18_l2cap_pdu_value_roundtrip : forall cid payload b tail,
  pdu_bytes cid payload = Some b -> pdu_parse (b ++ tail) = Some (cid, payload).
Proof. exact pdu_value_roundtrip. Qed.
Print Assumptions C18_l2cap_pdu_value_roundtrip.

Theorem C18_l2cap_pdu_bytes_roundtrip : forall d cid payload,
  bytes_ok d = true -> pdu_parse d = Some (cid, payload) ->
  lenZ d = 4 + le_decode (firstn 2 d) -> pdu_bytes cid payload = Some d.
Proof. exact pdu_bytes_roundtrip. Qed.
Print Assumptions C18_l2cap_pdu_bytes_roundtrip.

Theorem C18_signalling_header_value_roundtrip : forall code ident payload b,
  sig_bytes code ident payload = Some b -> sig_parse b = Some (code, ident, lenZ payload, payload).
Proof. exact sig_value_roundtrip. Qed.
Print Assumptions C18_signalling_header_value_roundtrip.

Theorem C18_signalling_header_bytes_roundtrip : forall d code ident len payload,
  bytes_ok d = true -> sig_parse d = Some (code, ident, len, payload) ->
  len = lenZ payload -> sig_bytes code ident payload = Some d.
Proof. exact sig_bytes_roundtrip. Qed.
Print Assumptions C18_signalling_header_bytes_roundtrip.

(* PSM variable-length encoding, every PSM of any number of octets *)
Theorem C18_psm_value_roundtrip : forall v tail,
  psm_ok v = true -> psm_parse (psm_bytes v ++ tail) = Some (v, tail).
Proof. exact psm_value_roundtrip. Qed.
Print Assumptions C18_psm_value_roundtrip.

Theorem C18_psm_bytes_roundtrip : forall d v rest,
  bytes_ok d = true -> psm_parse d = Some (v, rest) ->
  exists enc, d = enc ++ rest /\ psm_octets_ok (tl enc) = true /\ 0 <= v /\
              (psm_canonical enc = true -> psm_bytes v = enc).
Proof. exact psm_bytes_roundtrip. Qed.
Print Assumptions C18_psm_bytes_roundtrip.

(* configuration options (lenient loop) and AVDTP service capabilities (strict loop) *)
Theorem C18_tlv_value_roundtrip : forall opts strict b,
  tlv_ok opts = true -> tlv_encode opts = Some b -> tlv_decode_all strict b = Some opts.
Proof. exact tlv_value_roundtrip. Qed.
Print Assumptions C18_tlv_value_roundtrip.

Theorem C18_tlv_ok_encodes : forall opts, tlv_ok opts = true -> exists b, tlv_encode opts = Some b.
Proof. exact tlv_ok_encodes. Qed.
Print Assumptions C18_tlv_ok_encodes.

Theorem C18_tlv_bytes_roundtrip : forall strict d opts,
  bytes_ok d = true -> tlv_exact_all d = true ->
  tlv_decode_all strict d = Some opts -> tlv_encode opts = Some d /\ tlv_ok opts = true.
Proof. intros strict d opts. exact (tlv_decode_bytes (S (length d)) strict d opts). Qed.
Print Assumptions C18_tlv_bytes_roundtrip.

Theorem C18_options_decode_total : forall d, tlv_decode_all false d <> None.
Proof. intro d. exact (tlv_lenient_total (S (length d)) d (Nat.lt_succ_diag_r _)). Qed.
Print Assumptions C18_options_decode_total.

(* ------------------------------------------------------------------ RFCOMM *)
(* per-run obligation on the regenerated table: CRC_TABLE is the bitwise CRC-8 *)
Theorem C18_rfcomm_crc_table : crc_table_ok = true.
Proof. exact crc_table_checked. Qed.
Print Assumptions C18_rfcomm_crc_table.

Theorem C18_rfcomm_fcs_is_crc8 : forall buf, bytes_ok buf = true -> compute_fcs buf = fcs_spec buf.
Proof. exact compute_fcs_is_crc8. Qed.
Print Assumptions C18_rfcomm_fcs_is_crc8.

(* every frame type, DLCI, C/R, P/F, payload length 0..32767 (1- and 2-octet length
   indicator), with and without the credits octet *)
Theorem C18_rfcomm_frame_value_roundtrip : forall f,
  frame_ok f = true -> frame_parse (frame_bytes f) = Some f.
Proof. exact frame_value_roundtrip. Qed.
Print Assumptions C18_rfcomm_frame_value_roundtrip.

Theorem C18_rfcomm_frame_bytes_roundtrip : forall d f,
  bytes_ok d = true -> frame_parse d = Some f -> frame_canonical d = true ->
  frame_bytes f = d /\ frame_ok f = true.
Proof. exact frame_bytes_roundtrip. Qed.
Print Assumptions C18_rfcomm_frame_bytes_roundtrip.

Theorem C18_rfcomm_frame_bytes_canonical : forall f,
  frame_ok f = true -> frame_canonical (frame_bytes f) = true /\ bytes_ok (frame_bytes f) = true.
Proof. intros f H. exact (conj (frame_bytes_canonical f H) (frame_bytes_ok f H)). Qed.
Print Assumptions C18_rfcomm_frame_bytes_canonical.

(* D18b *)
Theorem C18_rfcomm_credits_refuted :
  exists f, frame_ok f = true /\ frame_reserialize_unfixed f <> frame_bytes f.
Proof. exact frame_unfixed_refuted. Qed.
Print Assumptions C18_rfcomm_credits_refuted.

Theorem C18_rfcomm_mcc_value_roundtrip : forall t cr v,
  mcc_ok t cr v = true -> mcc_parse (mcc_bytes t cr v) = Some (t, negb (cr =? 0), v).
Proof. exact mcc_value_roundtrip. Qed.
Print Assumptions C18_rfcomm_mcc_value_roundtrip.

Theorem C18_rfcomm_mcc_bytes_roundtrip : forall d t cr v,
  bytes_ok d = true -> mcc_parse d = Some (t, cr, v) -> mcc_canonical d = true ->
  mcc_bytes t (bool_z cr) v = d /\ mcc_ok t (bool_z cr) v = true.
Proof. exact mcc_bytes_roundtrip. Qed.
Print Assumptions C18_rfcomm_mcc_bytes_roundtrip.

(* D18c *)
Theorem C18_rfcomm_mcc_length_refuted :
  exists t cr v, mcc_ok t cr v = true /\ mcc_parse_unfixed (mcc_bytes t cr v) <> Some (t, negb (cr =? 0), v).
Proof. exact mcc_unfixed_refuted. Qed.
Print Assumptions C18_rfcomm_mcc_length_refuted.

Theorem C18_rfcomm_pn_value_roundtrip : forall p tail,
  pn_ok p = true -> pn_parse (pn_bytes p ++ tail) = Some p.
Proof. exact pn_value_roundtrip. Qed.
Print Assumptions C18_rfcomm_pn_value_roundtrip.

Theorem C18_rfcomm_pn_bytes_roundtrip : forall d p, bytes_ok d = true -> length d = 8%nat ->
  pn_parse d = Some p -> pn_ok p = true /\ (nth 7 d 0 < 8 -> pn_bytes p = d).
Proof. exact pn_bytes_roundtrip. Qed.
Print Assumptions C18_rfcomm_pn_bytes_roundtrip.

Theorem C18_rfcomm_msc_value_roundtrip : forall p tail,
  msc_ok p = true -> msc_parse (msc_bytes p ++ tail) = Some p.
Proof. exact msc_value_roundtrip. Qed.
Print Assumptions C18_rfcomm_msc_value_roundtrip.

Theorem C18_rfcomm_msc_bytes_roundtrip : forall d0 d1 tail p,
  byte_ok d0 = true -> byte_ok d1 = true -> msc_parse (d0 :: d1 :: tail) = Some p ->
  msc_ok p = true /\ (msc_canonical d0 d1 = true -> msc_bytes p = [d0; d1]).
Proof. exact msc_bytes_roundtrip. Qed.
Print Assumptions C18_rfcomm_msc_bytes_roundtrip.

(* ------------------------------------------------------------------ SDP data elements *)
(* per-run obligation: the element type codes the model hard-wires are the code's *)
Theorem C18_sdp_type_codes : sdp_type_codes = [0; 1; 2; 3; 4; 5; 6; 7; 8].
Proof. reflexivity. Qed.
Print Assumptions C18_sdp_type_codes.

(* every element of every type, every size form (8/16/32-bit lengths: all lengths, in
   particular 255/256/65535/65536), any nesting up to the parser's limit, any trailing data *)
Theorem C18_sdp_value_roundtrip : forall e fuel depth tail b,
  encode e = Some b -> elem_bytes_ok e = true -> (elem_depth e <= depth)%nat ->
  (length (b ++ tail) < fuel)%nat ->
  parse_next fuel depth (b ++ tail) = POk e (lenZ b) b true.
Proof. exact encode_parse. Qed.
Print Assumptions C18_sdp_value_roundtrip.

Theorem C18_sdp_from_bytes_roundtrip : forall e b,
  elem_ok sdp_max_nesting e = true -> encode e = Some b ->
  from_bytes sdp_max_nesting b = POk e (lenZ b) b true.
Proof. exact (sdp_value_roundtrip sdp_max_nesting). Qed.
Print Assumptions C18_sdp_from_bytes_roundtrip.

(* a parse that met only canonical encodings re-serialises (without the _bytes cache) to
   exactly the octets consumed *)
Theorem C18_sdp_bytes_roundtrip : forall fuel depth d e c raw,
  bytes_ok d = true -> parse_next fuel depth d = POk e c raw true ->
  encode e = Some raw /\ c = lenZ raw /\ raw = firstn (Z.to_nat c) d /\ c <= lenZ d /\
  elem_bytes_ok e = true /\ (elem_depth e <= depth)%nat.
Proof. exact parse_encode. Qed.
Print Assumptions C18_sdp_bytes_roundtrip.

(* with the cache, bytes(parsed) is the consumed slice whatever the encoding *)
Theorem C18_sdp_cached_bytes : forall fuel depth d e c raw cn,
  parse_next fuel depth d = POk e c raw cn -> raw = firstn (Z.to_nat c) d.
Proof. exact parse_cache. Qed.
Print Assumptions C18_sdp_cached_bytes.

Theorem C18_sdp_fuel_sufficient : forall max_depth d, from_bytes max_depth d <> PFuel.
Proof. intros max_depth d. exact (proj1 (fuel_enough_aux (S (length d))) max_depth d (Nat.lt_succ_diag_r _)). Qed.
Print Assumptions C18_sdp_fuel_sufficient.

(* a child element that ends beyond its SEQUENCE / ALTERNATIVE is rejected (code after D17b) *)
Theorem C18_sdp_container_overrun_rejected : forall pn dep k' d budget e c raw cn,
  0 < budget -> parse_next pn dep d = POk e c raw cn -> budget < c ->
  parse_list pn dep (S k') d budget = LErr.
Proof. exact parse_list_overrun_rejected. Qed.
Print Assumptions C18_sdp_container_overrun_rejected.

(* the nesting hypothesis is needed: deeper values serialise but are rejected on parse *)
Theorem C18_sdp_nesting_limit_refuted : exists e b, encode e = Some b /\ from_bytes 1 b = PErr.
Proof. exact sdp_depth_refuted. Qed.
Print Assumptions C18_sdp_nesting_limit_refuted.

(* the parser with its nesting counter as state (self.depth += 1 ... self.depth -= 1), as the code has it *)
(* the counter after parsing one element equals the counter before, for all inputs *)
Theorem C18_sdp_depth_counter_restored : forall fuel maxd depth d e c raw cn dep',
  (depth <= maxd)%nat -> sparse_next false fuel maxd depth d = SOk e c raw cn dep' -> dep' = depth.
Proof. exact depth_restored. Qed.
Print Assumptions C18_sdp_depth_counter_restored.

(* and that parser is exactly the functional one the round-trip theorems are about *)
Theorem C18_sdp_stateful_parser_refines : forall fuel maxd depth d, (depth <= maxd)%nat ->
  sparse_next false fuel maxd depth d = inject (parse_next fuel (maxd - depth) d) depth.
Proof. exact sparse_refines_parse. Qed.
Print Assumptions C18_sdp_stateful_parser_refines.

(* a serialised element parses back iff its REAL nesting is within the limit, whatever its breadth
   (elem_depth is a maximum over children: any number of empty or shallow containers costs nothing) *)
Theorem C18_sdp_nesting_exact : forall e b tail fuel depth,
  encode e = Some b -> elem_bytes_ok e = true -> (length (b ++ tail) < fuel)%nat ->
  ((elem_depth e <= depth)%nat -> parse_next fuel depth (b ++ tail) = POk e (lenZ b) b true) /\
  ((depth < elem_depth e)%nat -> parse_next fuel depth (b ++ tail) = PErr).
Proof. exact sdp_nesting_exact. Qed.
Print Assumptions C18_sdp_nesting_exact.

Theorem C18_sdp_stateful_nesting_exact : forall maxd e b,
  encode e = Some b -> elem_bytes_ok e = true ->
  ((elem_depth e <= maxd)%nat -> sfrom_bytes false maxd b = SOk e (lenZ b) b true 0) /\
  ((maxd < elem_depth e)%nat -> sfrom_bytes false maxd b = SErr).
Proof. exact sdp_stateful_nesting_exact. Qed.
Print Assumptions C18_sdp_stateful_nesting_exact.

(* an exit path that skips the decrement (early return for an empty container) is refuted *)
Theorem C18_sdp_depth_leak_refuted :
  let e := ESeq (repeat (ESeq []) 33) in
  exists b, encode e = Some b /\ elem_depth e = 2%nat /\
            erase (sfrom_bytes false 32 b) = POk e (lenZ b) b true /\ sfrom_bytes true 32 b = SErr.
Proof. exact leak_refuted. Qed.
Print Assumptions C18_sdp_depth_leak_refuted.

(* ------------------------------------------------------------------ UUID and Address *)
(* whatever was registered, parsed or constructed before (any registry state, hence any
   history), from_bytes returns a UUID with exactly the bytes it was given *)
Theorem C18_uuid_any_registry : forall reg b,
  uuid_len_ok b = true ->
  exists reg', uuid_from_bytes reg b = Some (reg', b) /\ In b reg' /\ (forall x, In x reg -> In x reg').
Proof. exact uuid_from_bytes_any_registry. Qed.
Print Assumptions C18_uuid_any_registry.

Theorem C18_uuid_roundtrip_any_history : forall h b,
  uuid_len_ok b = true -> exists reg', uuid_from_bytes (uuid_run [] h) b = Some (reg', b).
Proof. exact uuid_roundtrip_any_history. Qed.
Print Assumptions C18_uuid_roundtrip_any_history.

(* D18d *)
Theorem C18_uuid_registry_width_refuted :
  exists h b r reg', uuid_len_ok b = true /\
    uuid_from_bytes_unfixed (uuid_run_unfixed [] h) b = Some (reg', r) /\ r <> b.
Proof. exact uuid_unfixed_refuted. Qed.
Print Assumptions C18_uuid_registry_width_refuted.

Theorem C18_uuid_bad_length_rejected : forall reg b, uuid_len_ok b = false -> uuid_from_bytes reg b = None.
Proof. exact uuid_from_bytes_bad_length. Qed.
Print Assumptions C18_uuid_bad_length_rejected.

(* ATT form: 32-bit UUIDs travel as 128-bit and compare equal *)
Theorem C18_uuid_pdu_roundtrip : forall u,
  uuid_len_ok u = true ->
  uuid_len_ok (uuid_to_pdu_bytes u) = true /\ uuid_eq (uuid_to_pdu_bytes u) u = true.
Proof. exact uuid_pdu_roundtrip. Qed.
Print Assumptions C18_uuid_pdu_roundtrip.

Theorem C18_address_value_roundtrip : forall a t tail,
  addr_ok a = true -> addr_parse t (addr_bytes a ++ tail) = Some ((fst a, t), tail).
Proof. exact addr_value_roundtrip. Qed.
Print Assumptions C18_address_value_roundtrip.

Theorem C18_address_bytes_roundtrip : forall t d a rest,
  addr_parse t d = Some (a, rest) -> addr_bytes a ++ rest = d /\ length (addr_bytes a) = 6%nat /\ snd a = t.
Proof. exact addr_bytes_roundtrip. Qed.
Print Assumptions C18_address_bytes_roundtrip.

Theorem C18_address_string_roundtrip : forall a t,
  addr_ok a = true -> is_public t = false ->
  exists a', addr_from_string (addr_to_string a) t = Some a' /\
             fst a' = fst a /\ is_public (snd a') = is_public (snd a).
Proof. exact addr_string_roundtrip. Qed.
Print Assumptions C18_address_string_roundtrip.

(* ------------------------------------------------------------------ advertising data *)
Theorem C18_advertising_value_roundtrip : forall items b,
  ad_ok items = true -> ad_bytes items = Some b -> ad_parse_all b = Some items.
Proof. exact (fun items b Hok Hb => ad_bytes_parse items b _ Hok Hb (Nat.lt_succ_diag_r _)). Qed.
Print Assumptions C18_advertising_value_roundtrip.

Theorem C18_advertising_ok_encodes : forall items, ad_ok items = true -> exists b, ad_bytes items = Some b.
Proof. exact ad_ok_encodes. Qed.
Print Assumptions C18_advertising_ok_encodes.

Theorem C18_advertising_bytes_roundtrip : forall d items,
  bytes_ok d = true -> ad_exact_all d = true -> ad_parse_all d = Some items ->
  ad_bytes items = Some d /\ ad_ok items = true.
Proof. exact (fun d => ad_parse_bytes _ d). Qed.
Print Assumptions C18_advertising_bytes_roundtrip.

Theorem C18_advertising_parse_total : forall d, ad_parse_all d <> None.
Proof. exact (fun d => ad_parse_never_fails _ d (Nat.lt_succ_diag_r _)). Qed.
Print Assumptions C18_advertising_parse_total.

(* ------------------------------------------------------------------ AVDTP / AVCTP / RTP *)
Theorem C18_avdtp_single_header_roundtrip : forall tl mt sig payload,
  avdtp_hdr_ok tl mt sig = true ->
  avdtp_header_parse (avdtp_single_bytes tl mt sig payload) = Some ([tl; 0; mt; sig], payload).
Proof. exact avdtp_single_roundtrip. Qed.
Print Assumptions C18_avdtp_single_header_roundtrip.

Theorem C18_avdtp_start_header_roundtrip : forall tl mt sig count frag,
  avdtp_hdr_ok tl mt sig = true ->
  avdtp_header_parse (avdtp_start_bytes tl mt sig count frag) = Some ([tl; 1; mt; sig; count], frag).
Proof. exact avdtp_start_roundtrip. Qed.
Print Assumptions C18_avdtp_start_header_roundtrip.

Theorem C18_avdtp_single_header_bytes_roundtrip : forall b0 b1 p tl pt mt sig payload,
  byte_ok b0 = true -> byte_ok b1 = true ->
  avdtp_header_parse (b0 :: b1 :: p) = Some ([tl; pt; mt; sig], payload) -> b1 < 64 ->
  avdtp_single_bytes tl mt sig payload = b0 :: b1 :: p /\ avdtp_hdr_ok tl mt sig = true.
Proof. exact avdtp_single_bytes_roundtrip. Qed.
Print Assumptions C18_avdtp_single_header_bytes_roundtrip.

Theorem C18_avdtp_endpoint_value_roundtrip : forall p tail,
  epi_ok p = true -> epi_parse (epi_bytes p ++ tail) = Some p.
Proof. exact epi_value_roundtrip. Qed.
Print Assumptions C18_avdtp_endpoint_value_roundtrip.

Theorem C18_avdtp_endpoint_bytes_roundtrip : forall b0 b1 tail p,
  byte_ok b0 = true -> byte_ok b1 = true -> epi_parse (b0 :: b1 :: tail) = Some p ->
  epi_ok p = true /\ (epi_canonical b0 b1 = true -> epi_bytes p = [b0; b1]).
Proof. exact epi_bytes_roundtrip. Qed.
Print Assumptions C18_avdtp_endpoint_bytes_roundtrip.

Theorem C18_avctp_header_roundtrip : forall tl is_command ipid pid payload b,
  0 <= tl < 16 -> (is_command && ipid) = false ->
  avctp_bytes tl is_command ipid pid payload = Some b ->
  avctp_parse b = Some (Some (tl, is_command, ipid, pid, payload)).
Proof. exact avctp_value_roundtrip. Qed.
Print Assumptions C18_avctp_header_roundtrip.

Theorem C18_avctp_ipid_in_command_dropped : forall tl pid payload b,
  0 <= tl < 16 -> avctp_bytes tl true true pid payload = Some b -> avctp_parse b = Some None.
Proof. exact avctp_ipid_command_dropped. Qed.
Print Assumptions C18_avctp_ipid_in_command_dropped.

Theorem C18_rtp_value_roundtrip : forall p, rtp_ok p = true -> rtp_parse (rtp_bytes p) = Some p.
Proof. exact rtp_value_roundtrip. Qed.
Print Assumptions C18_rtp_value_roundtrip.

Theorem C18_rtp_bytes_roundtrip : forall d p,
  bytes_ok d = true -> rtp_parse d = Some p -> rtp_bytes p = d /\ rtp_ok p = true.
Proof. exact rtp_bytes_roundtrip. Qed.
Print Assumptions C18_rtp_bytes_roundtrip.

(* D18e: reading CSRC i at offset 12 + i does not give back the CSRC list *)
Theorem C18_rtp_csrc_offset_refuted :
  exists ws, forallb (u_range 4) ws = true /\
    rtp_words_unfixed (length ws) 0 (flat_map (be_encode 4) ws) <> Some ws.
Proof. exists [16909060; 84281096]. split; [reflexivity|]. vm_compute. discriminate. Qed.
Print Assumptions C18_rtp_csrc_offset_refuted.

(* ------------------------------------------------------------------ A2DP codec information *)
Theorem C18_a2dp_sbc_value_roundtrip : forall p tail,
  sbc_ok p = true -> sbc_parse (sbc_bytes p ++ tail) = Some p /\ bytes_ok (sbc_bytes p) = true.
Proof. exact sbc_value_roundtrip. Qed.
Print Assumptions C18_a2dp_sbc_value_roundtrip.

(* SBC has no reserved bits: every four octets re-serialise identically *)
Theorem C18_a2dp_sbc_bytes_roundtrip : forall d0 d1 d2 d3 tail p,
  bytes_ok [d0; d1; d2; d3] = true -> sbc_parse (d0 :: d1 :: d2 :: d3 :: tail) = Some p ->
  sbc_bytes p = [d0; d1; d2; d3] /\ sbc_ok p = true.
Proof. exact sbc_bytes_roundtrip. Qed.
Print Assumptions C18_a2dp_sbc_bytes_roundtrip.

Theorem C18_a2dp_aac_value_roundtrip : forall p tail,
  aac_ok p = true -> aac_parse (aac_bytes p ++ tail) = Some p /\ bytes_ok (aac_bytes p) = true.
Proof. exact aac_value_roundtrip. Qed.
Print Assumptions C18_a2dp_aac_value_roundtrip.

(* ------------------------------------------------------------------ field-driven PDU classes *)
(* Per-run obligations on the regenerated registry (Gen/C18Registry.v: every class of
   L2CAP_Control_Frame.classes, ATT_PDU.pdu_classes, SMP_Command.smp_classes, SDP_PDU.subclasses
   whose fields are all in the generic field codec's vocabulary): field lists well formed
   ('*' only last, widths the codec has cases for), no (protocol, code) registered twice, and
   translated + untranslated = everything registered. *)
Theorem C18_registry_wf : wf_pregistry C18Registry.classes = true.
Proof. vm_compute. reflexivity. Qed.
Print Assumptions C18_registry_wf.

Theorem C18_registry_keys_unique : pkeys_unique C18Registry.classes = true.
Proof. vm_compute. reflexivity. Qed.
Print Assumptions C18_registry_keys_unique.

Theorem C18_registry_complete :
  (Datatypes.length C18Registry.classes + Datatypes.length C18Registry.untranslated)%nat = C18Registry.registered_total.
Proof. vm_compute. reflexivity. Qed.
Print Assumptions C18_registry_complete.

(* every translated class, every in-range value list: fields -> bytes -> fields *)
Theorem C18_registry_fields_roundtrip : forall c, In c C18Registry.classes ->
  forall prev0 vs, in_range (p_fields c) prev0 vs = true ->
  exists b n, serialize_fields (p_fields c) vs = Some b /\
              parse_fields (p_fields c) prev0 b = Some (vs, n) /\ (n <= Datatypes.length b)%nat.
Proof. exact (registry_fields_roundtrip _ C18_registry_wf). Qed.
Print Assumptions C18_registry_fields_roundtrip.

(* bytes -> fields -> bytes: what the parser consumed is reproduced exactly *)
Theorem C18_registry_bytes_roundtrip : forall c, In c C18Registry.classes ->
  forall prev0 bs vs n, bytes_ok bs = true ->
  parse_fields (p_fields c) prev0 bs = Some (vs, n) -> (n <= Datatypes.length bs)%nat ->
  exists pad, serialize_fields (p_fields c) vs = Some (firstn n bs ++ pad) /\
              (tight_fields (p_fields c) = true -> pad = []).
Proof. exact (registry_bytes_roundtrip _ C18_registry_wf). Qed.
Print Assumptions C18_registry_bytes_roundtrip.

(* whole PDU: header + fields -> bytes -> the same class, identifier and fields *)
Theorem C18_registry_pdu_roundtrip : forall c, In c C18Registry.classes -> forall ident vs b,
  (forall prev0, in_range (p_fields c) prev0 vs = true) ->
  pdu_encode c ident vs = Some b ->
  pdu_decode C18Registry.classes (p_proto c) b =
  Some (c, (if (p_proto c =? 0) || (p_proto c =? 3) then ident else 0), vs).
Proof. exact (registry_pdu_roundtrip _ C18_registry_wf C18_registry_keys_unique). Qed.
Print Assumptions C18_registry_pdu_roundtrip.

(* ------------------------------------------------------------------ every field-driven class, custom fields included *)
(* Gen/C18XRegistry.v (regenerated every run): EVERY class of L2CAP_Control_Frame.classes,
   ATT_PDU.pdu_classes, SMP_Command.smp_classes, SDP_PDU.subclasses and avdtp.Message.subclasses,
   with the custom field parsers (PSM, CID / handle lists, length-value tuples, SDP handle lists,
   length-prefixed bytes, UUIDs, SDP data elements, SEIDs, endpoints, service capabilities) as specs
   of Model/CodecsXfields.v.  Per-run obligations, then the round trip for every class and every
   in-range value list, through C01's sequence combinator. *)
Theorem C18_xregistry_wf : wf_xregistry C18XRegistry.xclasses = true.
Proof. vm_compute. reflexivity. Qed.
Print Assumptions C18_xregistry_wf.

Theorem C18_xregistry_keys_unique : xkeys_unique C18XRegistry.xclasses = true.
Proof. vm_compute. reflexivity. Qed.
Print Assumptions C18_xregistry_keys_unique.

Theorem C18_xregistry_complete :
  map (fun pc => xcount C18XRegistry.xclasses (fst pc)) C18XRegistry.xregistered = map snd C18XRegistry.xregistered.
Proof. vm_compute. reflexivity. Qed.
Print Assumptions C18_xregistry_complete.

Theorem C18_xregistry_fields_roundtrip : forall c, In c C18XRegistry.xclasses ->
  forall prev0 vs, xin_range (x_fields c) prev0 vs = true ->
  exists b n, xserialize (x_fields c) vs = Some b /\
              xparse (x_fields c) prev0 b = Some (vs, n) /\ (n <= length b)%nat.
Proof. exact (xregistry_fields_roundtrip _ C18_xregistry_wf). Qed.
Print Assumptions C18_xregistry_fields_roundtrip.

(* ATT Read Multiple Variable Response: (Length, Value) tuples carry their own Length; the last value
   may be shorter than its Length (truncated to fit ATT_MTU).  Both directions, all tuple lists. *)
Theorem C18_att_length_value_tuples_value_roundtrip : forall vs, lv_inr vs = true ->
  exists b, lv_ser vs = Some b /\ lv_parse (S (length b)) b = Some vs.
Proof. exact lv_value_roundtrip. Qed.
Print Assumptions C18_att_length_value_tuples_value_roundtrip.

Theorem C18_att_length_value_tuples_bytes_roundtrip : forall b vs,
  bytes_ok b = true -> lv_parse (S (length b)) b = Some vs -> lv_ser vs = Some b /\ lv_inr vs = true.
Proof. exact (fun b => lv_parse_ser _ b). Qed.
Print Assumptions C18_att_length_value_tuples_bytes_roundtrip.

(* a serializer that derives Length from the value does not satisfy the statement *)
Theorem C18_att_length_value_tuples_derived_length_refuted :
  exists vs, lv_inr vs = true /\ lv_ser_derived vs <> lv_ser vs.
Proof. exists [VList [VInt 30; VBytes [1; 2; 3]]]. split; [reflexivity|]. vm_compute. discriminate. Qed.
Print Assumptions C18_att_length_value_tuples_derived_length_refuted.

(* the codec itself, every field list: self-delimiting lists with any trailing bytes, and any
   well-formed list ('*'-like fields last) *)
Theorem C18_xfields_roundtrip_tight : forall fs prev0 vs,
  tight XTop_codec fs = true -> xin_range fs prev0 vs = true ->
  exists b, xserialize fs vs = Some b /\ forall tail, xparse fs prev0 (b ++ tail) = Some (vs, length b).
Proof. exact xfields_roundtrip_tight. Qed.
Print Assumptions C18_xfields_roundtrip_tight.

Theorem C18_xfields_roundtrip : forall fs prev0 vs,
  xwf fs = true -> xin_range fs prev0 vs = true ->
  exists b n, xserialize fs vs = Some b /\ xparse fs prev0 b = Some (vs, n) /\ (n <= length b)%nat.
Proof. exact xfields_roundtrip. Qed.
Print Assumptions C18_xfields_roundtrip.

(* Per-run obligation: the source text of every custom field parser / serializer (lambdas and the
   named functions they call) of the six PDU registries is the text the field-codec models were
   written from (Model/CodecsFieldSrc.v).  A lambda replaced by a method, or a method body changed,
   breaks this whether or not a generated input notices. *)
Theorem C18_field_codecs_match_source : field_codec_sources_src = field_codec_sources.
Proof. exact field_codec_sources_checked. Qed.
Print Assumptions C18_field_codecs_match_source.

(* Parse is a function of the bytes: every parser entry point of the scope (from_bytes / parse_* /
   create, the reassemblers, AdvertisingData.append, UUID.register - 59 definitions) carries exactly
   the decorators and reads exactly the class- or module-level mutable containers recorded in
   Model/CodecsFieldSrc.v when the models were written; none is memoised (no functools.lru_cache /
   cache / cached_property, no decorator other than classmethod / staticmethod), and the only state
   read is the class dispatch tables and the UUID registry, which are modelled.  The history oracle
   of the harness (parse, mutate the result, parse again) is the run-time side of the same fact. *)
Theorem C18_parser_entry_points_match_source : parser_entry_facts_src = parser_entry_facts.
Proof. exact parser_entry_facts_checked. Qed.
Print Assumptions C18_parser_entry_points_match_source.
Theorem C18_parsers_not_memoised : parsers_plain parser_entry_facts_src = true.
Proof. exact parsers_plain_checked. Qed.
Print Assumptions C18_parsers_not_memoised.

(* ------------------------------------------------------------------ AVRCP PDUs *)
(* Gen/C18AvrcpRegistry.v (regenerated every run): the classes of avrcp.Command / Response /
   Event .subclasses whose fields are integers, big-endian enums, length-prefixed UTF-8 strings,
   64-bit identifiers and array groups of those (46 of 53 today; the others are listed with the
   reason in avrcp_untranslated and stay covered by the oracle). *)
Theorem C18_avrcp_registry_wf : wf_xfregistry C18AvrcpRegistry.avrcp_classes = true.
Proof. vm_compute. reflexivity. Qed.
Print Assumptions C18_avrcp_registry_wf.

Theorem C18_avrcp_registry_keys_unique : xfkeys_unique C18AvrcpRegistry.avrcp_classes = true.
Proof. vm_compute. reflexivity. Qed.
Print Assumptions C18_avrcp_registry_keys_unique.

Theorem C18_avrcp_registry_complete :
  (length C18AvrcpRegistry.avrcp_classes + length C18AvrcpRegistry.avrcp_untranslated)%nat = C18AvrcpRegistry.avrcp_registered_total.
Proof. vm_compute. reflexivity. Qed.
Print Assumptions C18_avrcp_registry_complete.

Theorem C18_avrcp_fields_roundtrip : forall c, In c C18AvrcpRegistry.avrcp_classes ->
  forall prev0 vs, xfin_range (xf_fields c) prev0 vs = true ->
  exists b n, xfserialize (xf_fields c) vs = Some b /\
              xfparse (xf_fields c) prev0 b = Some (vs, n) /\ (n <= length b)%nat.
Proof. exact (xfregistry_fields_roundtrip _ C18_avrcp_registry_wf). Qed.
Print Assumptions C18_avrcp_fields_roundtrip.

(* ------------------------------------------------------------------ the models' bit layouts are the source's *)
(* Per-run obligation: the layouts (shifts, masks, octet indices, operand order, the RFCOMM length
   threshold and its two forms, the RTP CSRC base and stride) extracted from the source AST of
   InformationEnhancedControlField / SupervisoryEnhancedControlField, RFCOMM_Frame.__init__ /
   from_bytes, RFCOMM_MCC_PN / MSC, EndPointInfo, avdtp MessageAssembler.on_pdu / Protocol.send_message,
   avctp MessageAssembler.on_pdu and rtp MediaPacket.from_bytes by tools/translate/c18_shapes.py are
   the layouts recorded in Model/CodecsShapes.v ... *)
Theorem C18_layouts_match_source :
  ertm_i_parse_src = ertm_i_parse_layout /\ ertm_i_ser_src = ertm_i_ser_layout /\ ertm_s_parse_src = ertm_s_parse_layout /\
  ertm_s_ser_src = ertm_s_ser_layout /\ msc_parse_src = msc_parse_layout /\ msc_ser_src = msc_ser_layout /\
  pn_parse_src = pn_parse_layout /\ pn_ser_src = pn_ser_layout /\ rfcomm_header_parse_src = rfcomm_header_parse_layout /\
  rfcomm_header_ser_src = rfcomm_header_ser_layout /\ rfcomm_length_threshold_src = rfcomm_length_threshold_layout /\
  rfcomm_length2_src = rfcomm_length2_layout /\ rfcomm_length1_src = rfcomm_length1_layout /\
  epi_parse_src = epi_parse_layout /\ epi_ser_src = epi_ser_layout /\ avdtp_b0_parse_src = avdtp_b0_parse_layout /\
  avdtp_b0_ser_src = avdtp_b0_ser_layout /\ avctp_b0_parse_src = avctp_b0_parse_layout /\
  rtp_header_parse_src = rtp_header_parse_layout /\ rtp_csrc_base_src = rtp_csrc_base_layout /\ rtp_csrc_stride_src = rtp_csrc_stride_layout /\
  sdp_fixed_index_src = sdp_fixed_index_layout /\ sdp_var_index_src = sdp_var_index_layout /\
  sdp_parse_fixed_src = sdp_parse_fixed_layout /\ sdp_parse_var_src = sdp_parse_var_layout /\
  sbc_parse_src = sbc_parse_layout /\ sbc_ser_src = sbc_ser_layout /\ aac_parse_src = aac_parse_layout /\
  aac_ser_src = aac_ser_layout /\ aac_ser_src_outer = aac_ser_outer_layout /\
  sdp_list_exits_src = sdp_list_exits_layout /\ exits_restore_depth sdp_list_exits_src = true.
Proof. repeat split; reflexivity. Qed.
Print Assumptions C18_layouts_match_source.

(* ... and the model functions are, for all inputs, the interpreter of those layouts *)
Theorem C18_models_are_their_layouts : models_are_layouts_stmt.
Proof. exact models_are_layouts. Qed.
Print Assumptions C18_models_are_their_layouts.

Theorem C18_sdp_model_is_its_tables :
  (forall n, fixed_index n = fixed_index_tab sdp_fixed_index_layout n) /\
  (forall ty d, var_header ty d =
     match var_index_tab sdp_var_index_layout (lenZ d) with
     | Some (idx, w) => Some (hdr ty idx :: (if w =? 1 then [lenZ d] else be_encode (Z.to_nat w) (lenZ d)) ++ d)
     | None => None
     end) /\
  (forall ty idx d1, 0 <= idx < 8 ->
     size_of_header ty idx d1 =
     if idx =? 0 then Some (O, if ty =? 0 then 0 else 1)
     else match assoc_tab sdp_parse_fixed_layout idx with
          | Some vs => Some (O, vs)
          | None =>
              match assoc_tab sdp_parse_var_layout idx with
              | Some w => if (Z.to_nat w <=? length d1)%nat
                          then Some (Z.to_nat w, be_decode (firstn (Z.to_nat w) d1)) else None
              | None => None
              end
          end).
Proof. exact (conj sdp_fixed_index_is_table (conj sdp_var_header_is_table sdp_size_of_header_is_table)). Qed.
Print Assumptions C18_sdp_model_is_its_tables.

Theorem C18_avctp_model_is_its_layout : forall b0 r,
  avctp_parse (b0 :: r) =
  match eval_shape [b0] [] avctp_b0_parse_layout with
  | [tl; pt; cr; ipid] =>
      if (cr =? 0) && negb (ipid =? 0) then Some None
      else if pt =? 0 then
        match r with
        | p0 :: p1 :: payload => Some (Some (tl, cr =? 0, negb (ipid =? 0), be_decode [p0; p1], payload))
        | _ => None
        end
      else None
  | _ => None
  end.
Proof. reflexivity. Qed.
Print Assumptions C18_avctp_model_is_its_layout.

Theorem C18_rtp_model_is_its_layout : forall a b c d r hdr,
  rtp_words 1 (a :: b :: c :: d :: r) = Some ([be_decode [a; b; c; d]], r) /\
  length [a; b; c; d] = Z.to_nat rtp_csrc_stride_layout /\
  (length hdr < Z.to_nat rtp_csrc_base_layout -> rtp_parse hdr = None)%nat.
Proof. exact rtp_csrc_layout. Qed.
Print Assumptions C18_rtp_model_is_its_layout.

(* ------------------------------------------------------------------ non-vacuity *)
Example C18_ex_sframe_poll :
  ecf_ok (SFrame {| s_function := 0; s_poll := 1; s_req_seq := 5; s_final := 0 |}) = true /\
  ecf_bytes (SFrame {| s_function := 0; s_poll := 1; s_req_seq := 5; s_final := 0 |}) = [17; 5].
Proof. split; reflexivity. Qed.

Example C18_ex_rfcomm_credits :
  let f := {| f_type := rfcomm_ft_UIH; f_cr := 1; f_dlci := 5; f_pf := 1; f_info := [7; 104; 105]; f_credits := true |} in
  frame_ok f = true /\ frame_bytes f = [23; 255; 5; 7; 104; 105; 12].
Proof. vm_compute. split; reflexivity. Qed.

Example C18_ex_rfcomm_128 :
  let f := {| f_type := rfcomm_ft_UIH; f_cr := 1; f_dlci := 5; f_pf := 0; f_info := repeat 1 128; f_credits := false |} in
  frame_ok f = true /\ firstn 4 (frame_bytes f) = [23; 239; 0; 1] /\ frame_canonical (frame_bytes f) = true.
Proof. vm_compute. repeat split; reflexivity. Qed.

Example C18_ex_psm_values :
  psm_ok 4097 = true /\ psm_bytes 4097 = [1; 16] /\ psm_ok 131329 = true /\ psm_bytes 131329 = [1; 1; 2].
Proof. vm_compute. repeat split; reflexivity. Qed.

Example C18_ex_sdp_nested :
  let e := ESeq [EUInt 2 256; EText (repeat 65 256); EAlt [EBool true; ENil; EUuid [52; 18]]] in
  elem_ok sdp_max_nesting e = true /\
  match encode e with Some b => from_bytes sdp_max_nesting b = POk e (lenZ b) b true | None => False end.
Proof. vm_compute. split; reflexivity. Qed.

Example C18_ex_sdp_overrun :
  from_bytes sdp_max_nesting [53; 1; 129] = PErr /\ from_bytes sdp_max_nesting [53; 2; 40; 1] = POk (ESeq [EBool true]) 4 [53; 2; 40; 1] true.
Proof. vm_compute. split; reflexivity. Qed.

Example C18_ex_uuid_history :
  let h := [UFrom16 43981; UFromBytes (uuid_128 (le_encode 2 43981))] in
  uuid_from_bytes (uuid_run [] h) (uuid_128 (le_encode 2 43981)) =
  Some (uuid_run [] h, uuid_128 (le_encode 2 43981)).
Proof. vm_compute. reflexivity. Qed.

Example C18_ex_address_string :
  addr_to_string ([1; 2; 3; 4; 5; 6], 0) = [48;54;58;48;53;58;48;52;58;48;51;58;48;50;58;48;49;47;80] /\
  addr_from_string (addr_to_string ([1; 2; 3; 4; 5; 6], 0)) 1 = Some ([1; 2; 3; 4; 5; 6], 0).
Proof. vm_compute. split; reflexivity. Qed.

Example C18_ex_registry :
  (Nat.leb 55 (Datatypes.length C18Registry.classes)) = true /\
  pdu_encode (mkp 1 2 String.EmptyString [F1 (UInt 2)]) 0 [VInt 517] = Some [2; 5; 2].
Proof. vm_compute. split; reflexivity. Qed.

Example C18_ex_xregistry :
  xin_range [XPsm; XA (UInt 2)] 0 [VInt 4097; VInt 64] = true /\
  xserialize [XPsm; XA (UInt 2)] [VInt 4097; VInt 64] = Some [1; 16; 64; 0] /\
  xin_range [XSdpElem; XA (UIntBE 2); XA Rest] 0 [VBytes [53; 3; 25; 17; 1]; VInt 10; VBytes [0]] = true.
Proof. vm_compute. repeat split; reflexivity. Qed.

Example C18_ex_lv_truncated_last :
  lv_inr [VList [VInt 2; VBytes [1; 2]]; VList [VInt 30; VBytes [9; 9; 9]]] = true /\
  lv_ser [VList [VInt 2; VBytes [1; 2]]; VList [VInt 30; VBytes [9; 9; 9]]] = Some [2; 0; 1; 2; 30; 0; 9; 9; 9] /\
  lv_parse 10 [2; 0; 1; 2; 30; 0; 9; 9; 9] = Some [VList [VInt 2; VBytes [1; 2]]; VList [VInt 30; VBytes [9; 9; 9]]].
Proof. vm_compute. repeat split; reflexivity. Qed.

Example C18_ex_avrcp :
  xfin_range [One (XA (Enum 2 BE)); One (XStr 2); Arr [XA (Enum 4 BE)]] 0
             [VInt 106; VBytes [97; 195; 169]; VList [VList [VInt 1]; VList [VInt 7]]] = true /\
  xfserialize [One (XA (Enum 2 BE)); One (XStr 2); Arr [XA (Enum 4 BE)]]
              [VInt 106; VBytes [97; 195; 169]; VList [VList [VInt 1]; VList [VInt 7]]]
  = Some [0; 106; 0; 3; 97; 195; 169; 2; 0; 0; 0; 1; 0; 0; 0; 7].
Proof. vm_compute. split; reflexivity. Qed.

Example C18_ex_a2dp :
  sbc_ok [2; 1; 1; 1; 1; 2; 53] = true /\ sbc_bytes [2; 1; 1; 1; 1; 2; 53] = [33; 21; 2; 53] /\
  aac_ok [128; 16; 1; 1; 256000] = true /\ aac_parse (aac_bytes [128; 16; 1; 1; 256000]) = Some [128; 16; 1; 1; 256000].
Proof. vm_compute. repeat split; reflexivity. Qed.

Example C18_ex_rtp :
  let p := {| r_version := 2; r_padding := 0; r_extension := 0; r_marker := 1; r_seq := 10; r_ts := 20;
              r_ssrc := 30; r_csrc := [16909060; 84281096]; r_pt := 96; r_payload := [97; 98] |} in
  rtp_ok p = true /\ rtp_parse (rtp_bytes p) = Some p.
Proof. vm_compute. split; reflexivity. Qed.
