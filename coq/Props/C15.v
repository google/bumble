(* Property C15: the JSON key store is exact, persistent, namespace-isolated and
   crash-atomic.  The theorems about the store are results of Proofs/KeyStore.v or follow from
   them in a few lines; the comparisons with the source and the examples are closed by
   evaluation.

   Vocabulary (Model/KeyStore.v): a database [db] is the JSON object model of the key
   file, namespace -> peer -> field -> value, every object an association list in key
   order; [a_step d h o] is one JsonKeyStore operation [o] through a store whose
   namespace is [h] on the database; [c_run f items] runs a history on the file
   system [f] the way the code does: every operation reads and parses the key file,
   mutators write "<file>.tmp" chunk by chunk and rename it over the key file; an item
   [Crash h o lens k cut] dies before file-system step k of the operation completes;
   write() only fills the buffer of the file object, close() flushes it, and of the data
   the file object holds at the death (including an interrupted write) only the first
   [cut] bytes had reached the file - every buffering policy of the runtime is some cut.
   [rel f d] (Proofs/KeyStore.v): d is well formed (names are strings of Unicode scalar
   values: no surrogate code points) and the key file of f reads as d (a missing file
   reads as the empty database); nothing is assumed about the ".tmp" file or the
   directory. *)
From Coq Require Import String Ascii.
From Coq Require Import ZArith List Bool.
From BV Require Import Gen.C15Source Model.KeyStore Proofs.KeyStore.
Import ListNotations.
Open Scope Z_scope.

(* For every PairingKeys value (every combination of present / absent fields, any EDIV
   including 0, any Rand including the empty one, authenticated true or false, any
   address type and link-key type) whose key material consists of bytes:
   from_dict (to_dict k) = k. *)
Theorem C15_keys_roundtrip : forall k, keys_ok k = true -> from_dict (to_dict k) = Some k.
Proof. exact keys_roundtrip. Qed.
Print Assumptions C15_keys_roundtrip.

(* update merges: the stored entry after update(name, k) decodes to the previous keys
   with exactly the fields present in k replaced *)
Theorem C15_update_merges : forall pd old k,
  from_dict pd = Some old -> keys_ok k = true ->
  from_dict (merge pd (to_dict k)) = Some (overlay old k).
Proof. exact update_overlay. Qed.
Print Assumptions C15_update_merges.

Theorem C15_update_new_peer : forall k, keys_ok k = true -> from_dict (merge [] (to_dict k)) = Some k.
Proof. intros k H. rewrite (update_overlay [] no_keys k eq_refl H), overlay_no_keys. reflexivity. Qed.
Print Assumptions C15_update_new_peer.

(* The text json.dump writes for any well-formed database reads back as exactly that
   database: nothing is lost, merged or reordered by a save / load cycle. *)
Theorem C15_file_reads_back : forall d, db_ok d = true -> parse (ser_db d) = Some d.
Proof. exact parse_ser. Qed.
Print Assumptions C15_file_reads_back.

(* a completed save leaves exactly the new text in the key file and no temporary file,
   whatever the chunking of the writes and whether or not the directory existed *)
Theorem C15_save_complete : forall f d lens,
  exec_steps f (save_steps f d lens) = Some (mkFs true (Some (ser_db d)) None).
Proof. exact save_exec. Qed.
Print Assumptions C15_save_complete.

(* Every history of update / delete / delete_all / get / get_all through any handles
   (several namespaces and the default namespace sharing one file, stores re-created at
   will: a handle is just its namespace), with any chunking of the writes, returns
   exactly what the same operations return on the abstract database, and the file keeps
   reading as that database. *)
Theorem C15_store_refines_map : forall items f d,
  rel f d -> forallb item_ok items = true -> no_crash items = true ->
  let '(f', outs) := c_run f items in
  let '(d', outs') := a_run d items [] in
  outs = outs' /\ rel f' d'.
Proof.
  intros items f d R Hok Hn. destruct (store_refines_map items f d R Hok) as [cs S].
  rewrite (a_run_no_crash items d cs Hn) in S. exact S.
Qed.
Print Assumptions C15_store_refines_map.

(* The same with the process dying inside any of the operations, at any step, any
   number of times: each interrupted operation either took effect completely or not at
   all ([commits]), later operations (after a restart) behave accordingly, and leftover
   temporary files or a half-created directory never matter. *)
Theorem C15_store_refines_map_with_crashes : forall items f d,
  rel f d -> forallb item_ok items = true ->
  exists commits,
    let '(f', outs) := c_run f items in
    let '(d', outs') := a_run d items commits in
    outs = outs' /\ rel f' d'.
Proof. exact store_refines_map. Qed.
Print Assumptions C15_store_refines_map_with_crashes.

(* what a handle sees after its own operation: update inserts the merged entry, delete
   removes it, delete_all empties the namespace, reads change nothing *)
Theorem C15_view_after : forall d h o,
  view (fst (a_step d h o)) h =
  match o with
  | Delete name => if has name (view d h) then del name (view d h) else view d h
  | _ => new_kmap (view d h) o
  end.
Proof. exact view_after. Qed.
Print Assumptions C15_view_after.

Theorem C15_reads_from_view : forall d h,
  (forall name, snd (a_step d h (Get name)) =
     match lookup name (view d h) with
     | None => OGet None
     | Some pd => match from_dict pd with Some k => OGet (Some k) | None => OBadKeys end
     end) /\
  snd (a_step d h GetAll) = match all_from_dict (view d h) with Some l => OAll l | None => OBadKeys end.
Proof. exact reads_from_view. Qed.
Print Assumptions C15_reads_from_view.

Theorem C15_delete_missing : forall d h name, has name (view d h) = false ->
  a_step d h (Delete name) = (d, OKeyError).
Proof. intros d h name H. unfold a_step. rewrite a_apply_eq. simpl. rewrite H. reflexivity. Qed.
Print Assumptions C15_delete_missing.

(* pointwise map laws used with C15_view_after *)
Theorem C15_lookup_ins : forall (A : Type) k k' (v : A) l,
  lookup k' (ins k v l) = if str_eqb k' k then Some v else lookup k' l.
Proof. exact @lookup_ins. Qed.
Print Assumptions C15_lookup_ins.

Theorem C15_lookup_del : forall (A : Type) k k' (l : list (str * A)),
  lookup k (del k l) = None /\ (str_eqb k' k = false -> lookup k' (del k l) = lookup k' l).
Proof. intros A k k' l. exact (conj (lookup_del_same k l) (lookup_del_other k k' l)). Qed.
Print Assumptions C15_lookup_del.

(* An operation through handle h changes nothing but the entry of the namespace h
   resolves to: every other namespace of the file keeps its entries. *)
Theorem C15_namespaces_isolated : forall d h o ns,
  str_eqb ns (resolve d h) = false -> lookup ns (fst (a_step d h o)) = lookup ns d.
Proof. exact namespaces_isolated. Qed.
Print Assumptions C15_namespaces_isolated.

(* Hence what any other store sees is unchanged, for every named namespace and for the
   default namespace when it exists in the file.  (A default-namespace store whose
   namespace does not exist adopts the only namespace of the file while there is
   exactly one: that documented rule depends on the number of namespaces and is
   excluded here.) *)
Theorem C15_other_handles_unchanged : forall d h o h2,
  str_eqb h2 (resolve d h) = false ->
  (str_eqb h2 DEFAULT_NAMESPACE = false \/ has h2 d = true) ->
  view (fst (a_step d h o)) h2 = view d h2.
Proof. exact other_handles_unchanged. Qed.
Print Assumptions C15_other_handles_unchanged.

(* For every operation, every crash point k of its file-system step list (directory
   creation, temp-file open, each buffered write, close = flush, rename), every amount
   [cut] of the buffered data that had reached the disk at the death and every chunking: the steps up to the crash succeed, the key file is
   byte-for-byte the previous text or the complete new text, and it reads as the
   complete previous database (crash before the rename) or the complete new one. *)
Theorem C15_crash_atomic : forall f d h o lens k cut,
  rel f d -> str_ok h = true -> op_ok o = true ->
  exists f', crash_exec k cut (op_steps f h o lens) f = Some f' /\
    (f_main f' = f_main f \/ f_main f' = Some (ser_db (fst (a_step d h o)))) /\
    (read_db f' = Some d \/ read_db f' = Some (fst (a_step d h o))) /\
    ((k < List.length (op_steps f h o lens))%nat -> read_db f' = Some d) /\
    ((List.length (op_steps f h o lens) <= k)%nat -> read_db f' = Some (fst (a_step d h o))).
Proof. exact crash_atomic. Qed.
Print Assumptions C15_crash_atomic.

(* well-formedness (what the reader can read back) is kept by every operation *)
Theorem C15_wellformed_kept : forall d h o d' r,
  db_ok d = true -> str_ok h = true -> op_ok o = true ->
  a_apply d h o = (Some d', r) -> db_ok d' = true.
Proof. exact a_apply_ok. Qed.
Print Assumptions C15_wellformed_kept.

(* key order (json.dump sort_keys=True) is kept at every level by every operation *)
Theorem C15_key_order_kept : forall d h o, db_sorted d = true -> db_sorted (fst (a_step d h o)) = true.
Proof. exact a_step_sorted. Qed.
Print Assumptions C15_key_order_kept.

(* What a named store sees after any history of operations through any named stores on
   one file is exactly its own updates and deletions applied in order to what it saw
   before: independently per namespace, the other namespaces' operations leave no trace. *)
Theorem C15_view_history : forall items d h,
  str_eqb h DEFAULT_NAMESPACE = false -> forallb item_named items = true ->
  view (fst (a_run d items [])) h = replay_view h items (view d h).
Proof. exact view_history. Qed.
Print Assumptions C15_view_history.

Theorem C15_get_after_history : forall items d h name,
  str_eqb h DEFAULT_NAMESPACE = false -> forallb item_named items = true ->
  snd (a_step (fst (a_run d items [])) h (Get name)) =
  match lookup name (replay_view h items (view d h)) with
  | None => OGet None
  | Some pd => match from_dict pd with Some k => OGet (Some k) | None => OBadKeys end
  end.
Proof.
  intros items d h name Hh Hn. destruct (reads_from_view (fst (a_run d items [])) h) as [G _].
  rewrite G, view_history by auto. reflexivity.
Qed.
Print Assumptions C15_get_after_history.

(* get_resolving_keys: exactly the stored entries that have an IRK, with the stored address
   type or RANDOM_DEVICE_ADDRESS *)
Theorem C15_resolving_keys : forall l v name t,
  In (v, name, t) (resolving_keys l) <->
  exists k key, In (name, k) l /\ irk k = Some key /\ v = k_value key /\
                t = match address_type k with Some a => a | None => RANDOM_DEVICE_ADDRESS end.
Proof. exact resolving_keys_spec. Qed.
Print Assumptions C15_resolving_keys.

(* The model matches the source: Gen/C15Source.v is regenerated from bumble/keys.py on every run by
   tools/translate/c15_source.py (which fails closed on any statement it does not know). *)

(* The dataclass fields of PairingKeys, the members to_dict writes and the members from_dict
   reads are the same set, with the same kinds, and it is the set the model serialises: a
   field added to PairingKeys without being written and read back breaks this. *)
Theorem C15_fields_match_source :
  sort_by_name src_pairingkeys_fields = to_dict_shape /\
  sort_by_name src_to_dict_fields = to_dict_shape /\
  sort_by_name src_from_dict_fields = to_dict_shape /\
  List.length src_pairingkeys_fields = List.length to_dict_shape /\
  List.length src_to_dict_fields = List.length to_dict_shape /\
  List.length src_from_dict_fields = List.length to_dict_shape /\
  from_dict_reads_all = true.
Proof. vm_compute. repeat split. Qed.
Print Assumptions C15_fields_match_source.

Theorem C15_key_fields_match_source :
  sort_by_name src_key_to_dict_fields = key_to_dict_shape /\
  map fst (sort_by_name (map (fun n => (n, tt)) src_key_fields)) = map fst key_to_dict_shape /\
  List.length src_key_fields = List.length key_to_dict_shape /\
  List.length src_key_to_dict_fields = List.length key_to_dict_shape /\
  key_auth_default = Some src_key_auth_default.
Proof. vm_compute. repeat split. Qed.
Print Assumptions C15_key_fields_match_source.

(* save: guarded mkdir, a temporary file next to the key file (same directory, suffix
   ".tmp") opened for writing, one json.dump with exactly the modelled arguments, close,
   os.replace onto the key file: the step list the crash theorems quantify over. *)
Theorem C15_save_matches_source :
  src_save_shape = save_shape /\ src_tmp_suffix = TMP_SUFFIX /\ src_dump_args = DUMP_ARGS.
Proof. vm_compute. repeat split. Qed.
Print Assumptions C15_save_matches_source.

Theorem C15_load_matches_source :
  src_load = LOAD_SKELETON /\ src_adopt_count = Z.of_nat ADOPT_COUNT /\
  src_default_namespace = DEFAULT_NAMESPACE.
Proof. vm_compute. repeat split. Qed.
Print Assumptions C15_load_matches_source.

Theorem C15_ops_match_source :
  src_ops = OPS_SKELETON /\ src_random_device_address = RANDOM_DEVICE_ADDRESS.
Proof. vm_compute. repeat split. Qed.
Print Assumptions C15_ops_match_source.

Definition ex_key := mkKey [1; 2; 255] true (Some 0) (Some []).
Definition ex_keys := mkKeys (Some 1) (Some ex_key) None None None None None (Some 0).
Definition ex_hist :=
  [Do (S_ "NS1") (Update (S_ "F0:F1") ex_keys) [1%nat; 5%nat];
   Do DEFAULT_NAMESPACE GetAll [];
   Crash DEFAULT_NAMESPACE (Update (S_ "P0") (mkKeys None None None None (Some ex_key) None None None)) [] 1 40;
   Do DEFAULT_NAMESPACE (Delete (S_ "F0:F1")) [7%nat];
   Do (S_ "NS2") DeleteAll [];
   Do (S_ "NS1") GetAll []].

(* the hypotheses of the theorems are satisfiable, and the history does what one expects:
   the default store adopts NS1 (D15 fixed), the crashed update leaves no trace *)
Example C15_nonvacuous :
  forallb item_ok ex_hist = true /\ keys_ok ex_keys = true /\
  map out_obs (snd (c_run (mkFs false None None) ex_hist)) =
  map out_obs [ODone; OAll [(S_ "F0:F1", ex_keys)]; OCrashed; ODone; ODone; OAll []] /\
  read_db (fst (c_run (mkFs false None None) ex_hist)) = Some [(S_ "NS1", []); (S_ "NS2", [])].
Proof. vm_compute. repeat split. Qed.

Example C15_rel_initial : forall dir tmp, rel (mkFs dir None tmp) [].
Proof. intros. repeat split; reflexivity. Qed.

(* names that need JSON escapes (quote, backslash, control characters, non-ASCII, beyond
   the BMP) are well formed and survive the file *)
Example C15_escaped_names :
  let name := [34; 92; 10; 0; 127; 233; 8364; 128512] in
  let d := [(name, [(name, to_dict ex_keys)])] in
  db_ok d = true /\ parse (ser_db d) = Some d /\
  quote name = S_ """\""\\\n\u0000\u007f\u00e9\u20ac\ud83d\ude00""".
Proof. vm_compute. repeat split. Qed.

(* what D15 left in the file (the JSON string "NS1") is not a database *)
Example C15_D15_effect : parse (S_ """NS1""") = None.
Proof. vm_compute. reflexivity. Qed.

(* why the temporary file matters: the same save written directly over the key file and
   interrupted inside the write leaves a file that does not read back *)
Example C15_direct_write_not_atomic :
  let d := [(S_ "NS1", [(S_ "A", to_dict ex_keys)])] in
  let f := mkFs true (Some (ser_db d)) None in
  match crash_exec 1 40 [SOpenTrunc PMain; SWrite PMain (ser_db d); SClose PMain] f with
  | Some f' => read_db f' = None
  | None => False
  end.
Proof. vm_compute. reflexivity. Qed.

(* why the rename has to come after the close (seeded change C15-g moved os.replace inside the
   with block): write() only fills the file object's buffer, so renaming first publishes a
   file whose data is still in the buffer; a process death before the close leaves the key file
   empty *)
Example C15_rename_before_close_not_atomic :
  let d := [(S_ "NS1", [(S_ "A", to_dict ex_keys)])] in
  let f := mkFs true (Some (ser_db d)) None in
  match crash_exec 3 0 [SOpenTrunc PTmp; SWrite PTmp (ser_db d); SRename PTmp PMain; SClose PMain] f with
  | Some f' => f_main f' = Some [] /\ read_db f' = None
  | None => False
  end.
Proof. vm_compute. split; reflexivity. Qed.
