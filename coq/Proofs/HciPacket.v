(* Theorems about the packet layer of Model/HciPacket.v, each for an arbitrary well-formed
   registry [R]: values -> bytes -> values and bytes -> values -> bytes for commands, events
   (plain, LE meta, vendor, Command Complete), the PHY-mask commands and the ACL / SCO / ISO
   data packets.  Props/C01.v instantiates them with the regenerated registry. *)
From Coq Require Import String ZArith List Bool Lia.
From BV Require Import Base.Bytes Proofs.Bytes Proofs.BitFields Model.SpecCodec Proofs.SpecCodec Model.HciPacket.
Import ListNotations.
Open Scope Z_scope.

Lemma wf_registry_parts : forall R, wf_registry R = true ->
  forallb wf_class (r_classes R) = true /\ codes_unique R = true /\ returns_ok R = true /\
  objects_distinct R = true /\ vendor_ok R = true /\ forallb wf_phy (r_phy R) = true.
Proof. intros R H. unfold wf_registry in H. rewrite !andb_true_iff in H. tauto. Qed.

Lemma registry_wf_class : forall R c, wf_registry R = true -> In c (r_classes R) -> wf_class c = true.
Proof. intros R c H. exact (proj1 (forallb_forall _ _) (proj1 (wf_registry_parts R H)) c). Qed.

Lemma registry_wf_phy : forall R pc, wf_registry R = true -> In pc (r_phy R) -> wf_phy pc = true.
Proof.
  intros R pc H. apply wf_registry_parts in H as (_ & _ & _ & _ & _ & H).
  exact (proj1 (forallb_forall _ _) H pc).
Qed.

Lemma wf_class_fields : forall c, wf_class c = true -> wf_fields (c_fields c) = true.
Proof. intros c H. unfold wf_class in H. rewrite !andb_true_iff in H. tauto. Qed.

Lemma wf_class_opcode : forall c, wf_class c = true -> c_kind c = K_COMMAND -> u_range 2 (c_code c) = true.
Proof.
  intros c H Hk. unfold wf_class in H. rewrite Hk in H. cbn [Z.eqb K_COMMAND] in H.
  rewrite !andb_true_iff in H. tauto.
Qed.

Lemma registry_class_wf : forall R c,
  wf_registry R = true -> In c (r_classes R) -> wf_fields (c_fields c) = true.
Proof. intros R c H Hin. exact (wf_class_fields c (registry_wf_class R c H Hin)). Qed.

Lemma no_dup_find : forall (l : list cls) extra c,
  no_dup_codes (map (fun c => (c_kind c, c_code c)) l ++ extra) = true -> In c l ->
  find (fun x => Z.eqb (c_kind x) (c_kind c) && Z.eqb (c_code x) (c_code c)) l = Some c.
Proof.
  induction l as [|h t IH]; intros extra c Hnd Hin; [destruct Hin|].
  cbn [map app no_dup_codes] in Hnd. apply andb_true_iff in Hnd as [Hh Hnd].
  cbn [find]. destruct Hin as [->|Hin]; [rewrite !Z.eqb_refl; reflexivity|].
  destruct (Z.eqb (c_kind h) (c_kind c) && Z.eqb (c_code h) (c_code c)) eqn:E;
    [|exact (IH extra c Hnd Hin)].
  (* then the pair of [h] occurs again, as the pair of [c] *)
  apply negb_true_iff in Hh. exfalso. refine (eq_true_false_abs _ _ Hh).
  apply existsb_exists. exists (c_kind c, c_code c). split.
  - apply in_or_app. left. exact (in_map _ _ _ Hin).
  - cbn [fst snd]. rewrite (Z.eqb_sym (c_kind c)), (Z.eqb_sym (c_code c)). exact E.
Qed.

Lemma find_class_complete : forall R c,
  codes_unique R = true -> In c (r_classes R) ->
  find_class R (c_kind c) (c_code c) = Some c.
Proof.
  intros R c H Hin. unfold find_class. apply (no_dup_find _ (map (fun p => (K_COMMAND, p_code p)) (r_phy R))); assumption.
Qed.

Lemma find_class_sound : forall R k code c,
  find_class R k code = Some c -> In c (r_classes R) /\ c_kind c = k /\ c_code c = code.
Proof.
  intros R k code c H. unfold find_class in H. apply find_some in H as [Hin Hm].
  apply andb_true_iff in Hm as [H1 H2]. apply Z.eqb_eq in H1. apply Z.eqb_eq in H2. auto.
Qed.

(* kind consistency: the class a dispatcher finds in its registry writes that dispatcher's
   event code *)
Definition expected_event (kind code : Z) : Z :=
  if kind =? K_EVENT then code
  else if kind =? K_LE_EVENT then HCI_LE_META_EVENT
  else if kind =? K_VENDOR then HCI_VENDOR_EVENT
  else 0.

Lemma wf_class_event : forall c, wf_class c = true -> c_event c = expected_event (c_kind c) (c_code c).
Proof.
  intros c H. unfold wf_class in H. rewrite !andb_true_iff, !Z.leb_le in H. destruct H as [[_ Hk] H].
  assert (E : c_kind c = 0 \/ c_kind c = 3 \/ c_kind c = 1 \/ c_kind c = 2 \/ c_kind c = 4) by lia.
  unfold expected_event.
  destruct E as [E|[E|[E|[E|E]]]]; rewrite E in *; cbn in H |- *;
    rewrite ?andb_true_iff, Z.eqb_eq in H; apply H.
Qed.

Lemma class_event_ok : forall R kind code c, wf_registry R = true ->
  find_class R kind code = Some c -> c_event c = expected_event kind code.
Proof.
  intros R kind code c HR Hf. destruct (find_class_sound R kind code c Hf) as (Hin & <- & <-).
  exact (wf_class_event c (registry_wf_class R c HR Hin)).
Qed.

(* so what [packet_bytes] writes as event code is the code the dispatcher looked at, whatever
   class it found *)
Lemma class_event_wf : forall R kind code known g, wf_registry R = true ->
  g = expected_event kind code -> class_event R kind code known g = g.
Proof.
  intros R kind code known g HR ->. unfold class_event. destruct known; [|reflexivity].
  destruct (find_class R kind code) as [c|] eqn:E; [|reflexivity].
  exact (class_event_ok R kind code c HR E).
Qed.

(* The code spaces are swept as lists: [zr bits base] lists base .. base + 2^bits - 1, and
   [in_zr] says that every integer of that range is in it; [zr 8 0] is every byte value. *)
Fixpoint zr (bits : nat) (base : Z) : list Z :=
  match bits with
  | O => [base]
  | S k => zr k base ++ zr k (base + 2 ^ Z.of_nat k)
  end.

Lemma in_zr : forall bits base z, base <= z < base + 2 ^ Z.of_nat bits -> In z (zr bits base).
Proof.
  induction bits as [|k IH]; intros base z H.
  - cbn in *. left. lia.
  - cbn [zr]. rewrite Nat2Z.inj_succ, Z.pow_succ_r in H by lia.
    apply in_or_app. destruct (Z.lt_ge_cases z (base + 2 ^ Z.of_nat k)).
    + left. apply IH. lia.
    + right. apply IH. lia.
Qed.

Lemma code_sweep_ok : forall R, wf_registry R = true -> forall codes,
  forallb (fun code =>
    match find_class R K_EVENT code with Some c => c_event c =? code | None => true end &&
    match find_class R K_LE_EVENT code with Some c => c_event c =? HCI_LE_META_EVENT | None => true end &&
    match find_class R K_VENDOR code with Some c => c_event c =? HCI_VENDOR_EVENT | None => true end)
    codes = true.
Proof.
  intros R HR codes. apply forallb_forall. intros code _.
  assert (H : forall kind, match find_class R kind code with
                           | Some c => c_event c =? expected_event kind code | None => true end = true).
  { intro kind. destruct (find_class R kind code) as [c|] eqn:E; [|reflexivity].
    apply Z.eqb_eq. exact (class_event_ok R kind code c HR E). }
  cbv beta. rewrite !andb_true_iff.
  repeat split; [exact (H K_EVENT) | exact (H K_LE_EVENT) | exact (H K_VENDOR)].
Qed.

Lemma cached_same : forall ps, cached ps (Some ps) = Some ps.
Proof. destruct ps; reflexivity. Qed.

Lemma cached_generic : forall ps, cached ps (Some []) = Some ps.
Proof. destruct ps; reflexivity. Qed.

Lemma cached_nonempty : forall ps r, ps <> [] -> cached ps r = Some ps.
Proof. destruct ps; [congruence | reflexivity]. Qed.

Lemma le2_shape : forall v, le_encode 2 v = [v mod 256; (v / 256) mod 256].
Proof. reflexivity. Qed.

Lemma le2_decode_encode : forall v, u_range 2 v = true ->
  le_decode [v mod 256; (v / 256) mod 256] = v.
Proof.
  intros v H. rewrite <- le2_shape. apply le_decode_encode. apply u_range_iff. exact H.
Qed.

Lemma le2_encode_decode : forall x y, byte_ok x = true -> byte_ok y = true ->
  le_encode 2 (le_decode [x; y]) = [x; y] /\ u_range 2 (le_decode [x; y]) = true.
Proof. intros x y Hx Hy. apply (le_word [x; y]). cbn. rewrite Hx, Hy. reflexivity. Qed.

Lemma command_bytes_shape : forall op ps, u_range 2 op = true -> (length ps < 256)%nat ->
  command_bytes op ps = Some (HCI_COMMAND_PACKET :: le_encode 2 op ++ [Z.of_nat (length ps)] ++ ps).
Proof.
  intros op ps Hop Hl. unfold command_bytes. rewrite Hop, (proj2 (Nat.ltb_lt _ _) Hl). reflexivity.
Qed.

(* a well-framed command packet goes straight to the dispatch on its opcode *)
Lemma parse_command_framed : forall R op params, u_range 2 op = true ->
  parse_packet R (HCI_COMMAND_PACKET :: le_encode 2 op ++ [Z.of_nat (length params)] ++ params) =
  match find_class R K_COMMAND op with
  | Some c => option_map (fun vs => PCommand op true vs params) (parse_at0 (c_fields c) params)
  | None =>
      match find_phy R op with
      | Some pc =>
          match parse_phy pc (last params 0) params with
          | Some vs => option_map (fun ps => PCommand op true vs ps) (serialize_phy pc vs)
          | None => None
          end
      | None => Some (PCommand op false [] params)
      end
  end.
Proof.
  intros R op params Hop. rewrite le2_shape. cbn [app]. unfold parse_packet, HCI_COMMAND_PACKET.
  cbn [Z.eqb Pos.eqb]. unfold parse_command. cbn [length Nat.ltb Nat.leb skipn firstn nth].
  rewrite le2_decode_encode by exact Hop. rewrite Z.eqb_refl. cbn [negb].
  destruct (find_class R K_COMMAND op) as [c|].
  - destruct (parse_at0 (c_fields c) params); reflexivity.
  - destruct (find_phy R op) as [pc|]; [|reflexivity].
    destruct (parse_phy pc (last params 0) params) as [vs|]; [|reflexivity].
    destruct (serialize_phy pc vs); reflexivity.
Qed.

Theorem command_roundtrip : forall R, wf_registry R = true -> forall c vs ps,
  find_class R K_COMMAND (c_code c) = Some c ->
  serialize_fields (c_fields c) vs = Some ps -> (length ps < 256)%nat ->
  in_range (c_fields c) (last ps 0) vs = true ->
  exists b, packet_bytes R (PCommand (c_code c) true vs ps) = Some b /\
            parse_packet R b = Some (PCommand (c_code c) true vs ps).
Proof.
  intros R HR c vs ps Hf Hs Hlen Hi.
  destruct (find_class_sound R _ _ _ Hf) as (Hin & Hk & _).
  pose proof (registry_wf_class R c HR Hin) as Hc.
  pose proof (wf_class_fields c Hc) as Hw. pose proof (wf_class_opcode c Hc Hk) as Hop.
  exists (HCI_COMMAND_PACKET :: le_encode 2 (c_code c) ++ [Z.of_nat (length ps)] ++ ps).
  split.
  - cbn [packet_bytes]. unfold class_params. rewrite Hf, Hs. cbv iota. rewrite cached_same.
    apply command_bytes_shape; assumption.
  - destruct (parse_serialize _ (last ps 0) vs Hw Hi) as [b' [n [Hs' [Hp Hn]]]].
    rewrite Hs in Hs'. inversion Hs'; subst b'. clear Hs'.
    rewrite parse_command_framed, Hf by exact Hop. unfold parse_at0. rewrite Hp. reflexivity.
Qed.

Theorem command_bytes_roundtrip : forall R b op known vs params,
  bytes_ok b = true -> hd 0 b = HCI_COMMAND_PACKET -> find_phy R op = None ->
  parse_command R b = Some (PCommand op known vs params) -> params <> [] ->
  packet_bytes R (PCommand op known vs params) = Some b.
Proof.
  intros R b op known vs params Hok Hhd Hnophy Hp Hne.
  unfold parse_command in Hp.
  destruct b as [|b0 [|b1 [|b2 [|b3 rest]]]]; try discriminate.
  cbn [length Nat.ltb Nat.leb skipn firstn nth] in Hp. cbn [hd] in Hhd. subst b0.
  destruct (Z.of_nat (length rest) =? b3) eqn:El; [|discriminate]. cbn [negb] in Hp.
  apply Z.eqb_eq in El.
  cbn in Hok. repeat (apply andb_true_iff in Hok as [? Hok]).
  destruct (le2_encode_decode b1 b2) as [He Hr]; [assumption..|].
  assert (Hb3 : 0 <= b3 < 256) by (apply byte_ok_iff; assumption).
  assert (params = rest /\ op = le_decode [b1; b2]) as [-> ->].
  { destruct (find_class R K_COMMAND (le_decode [b1; b2])).
    - destruct (parse_at0 (c_fields c) rest); [|discriminate]. inversion Hp. auto.
    - destruct (find_phy R (le_decode [b1; b2])) as [pc|] eqn:Ephy.
      + exfalso.
        destruct (parse_phy pc (last rest 0) rest); [|discriminate].
        destruct (serialize_phy pc l); [|discriminate].
        assert (Hop : le_decode [b1; b2] = op) by congruence. rewrite Hop in Ephy. congruence.
      + inversion Hp. auto. }
  cbn [packet_bytes]. rewrite cached_nonempty by assumption.
  rewrite command_bytes_shape, He, El by (assumption || lia). reflexivity.
Qed.

(* unknown opcode: a generic HCI_Command whose parameters are the packet's, byte for byte *)
Theorem unknown_opcode_preserved : forall R op params,
  find_class R K_COMMAND op = None -> find_phy R op = None ->
  u_range 2 op = true -> (length params < 256)%nat ->
  let b := HCI_COMMAND_PACKET :: le_encode 2 op ++ [Z.of_nat (length params)] ++ params in
  parse_packet R b = Some (PCommand op false [] params) /\
  packet_bytes R (PCommand op false [] params) = Some b.
Proof.
  intros R op params Hf Hc Hop Hlen b. subst b. split.
  - rewrite parse_command_framed, Hf, Hc by exact Hop. reflexivity.
  - cbn [packet_bytes]. unfold class_params. cbv iota. rewrite cached_generic.
    apply command_bytes_shape; assumption.
Qed.

Theorem command_length_checked : forall R b0 b1 b2 b3 rest,
  Z.of_nat (length rest) <> b3 -> parse_command R (b0 :: b1 :: b2 :: b3 :: rest) = None.
Proof.
  intros. unfold parse_command. cbn [length Nat.ltb Nat.leb skipn firstn nth].
  assert (Z.of_nat (length rest) =? b3 = false) as -> by (apply Z.eqb_neq; assumption).
  reflexivity.
Qed.

(* the framing rule: exact or over-long packets are accepted, the parameter block is the
   declared number of bytes (anything after it is dropped) *)
Lemma parse_event_frame : forall R code ps extra, (length ps < 256)%nat ->
  parse_event R (HCI_EVENT_PACKET :: code :: Z.of_nat (length ps) :: ps ++ extra) =
  event_body R code ps.
Proof.
  intros R code ps extra Hlen. unfold parse_event.
  cbn [nth skipn]. rewrite Nat2Z.id.
  match goal with |- context [(?a <? 3)%nat] =>
    assert ((a <? 3)%nat = false) as -> by (apply Nat.ltb_ge; cbn [length]; lia) end.
  match goal with |- context [(?a <? 3 + ?k)%nat] =>
    assert ((a <? 3 + k)%nat = false) as -> by (apply Nat.ltb_ge; cbn [length]; rewrite app_length; lia) end.
  rewrite firstn_app_exact. reflexivity.
Qed.

Lemma parse_event_frame_exact : forall R code ps, (length ps < 256)%nat ->
  parse_event R (HCI_EVENT_PACKET :: code :: Z.of_nat (length ps) :: ps) = event_body R code ps.
Proof.
  intros R code ps H. pose proof (parse_event_frame R code ps [] H) as F.
  rewrite app_nil_r in F. exact F.
Qed.

Lemma parse_packet_event : forall R x,
  parse_packet R (HCI_EVENT_PACKET :: x) = parse_event R (HCI_EVENT_PACKET :: x).
Proof. reflexivity. Qed.

Theorem event_too_short : forall R b0 code len rest,
  (length rest < Z.to_nat len)%nat -> parse_event R (b0 :: code :: len :: rest) = None.
Proof.
  intros R b0 code len rest H. unfold parse_event.
  cbn [nth].
  match goal with |- context [(?a <? 3)%nat] =>
    assert ((a <? 3)%nat = false) as -> by (apply Nat.ltb_ge; cbn [length]; lia) end.
  match goal with |- context [(?a <? 3 + ?k)%nat] =>
    assert ((a <? 3 + k)%nat = true) as -> by (apply Nat.ltb_lt; cbn [length]; lia) end.
  reflexivity.
Qed.

Lemma event_bytes_shape : forall code ps, u_range 1 code = true -> (length ps < 256)%nat ->
  event_bytes code ps = Some (HCI_EVENT_PACKET :: code :: Z.of_nat (length ps) :: ps).
Proof.
  intros code ps Hc Hl. unfold event_bytes. rewrite Hc, (proj2 (Nat.ltb_lt _ _) Hl). reflexivity.
Qed.

Lemma event_code_not_special : forall code,
  code <> HCI_LE_META_EVENT -> code <> HCI_VENDOR_EVENT -> forall R ps,
  event_body R code ps = plain_event R code ps.
Proof.
  intros code H1 H2 R ps. unfold event_body.
  assert (code =? HCI_LE_META_EVENT = false) as -> by (apply Z.eqb_neq; exact H1).
  assert (code =? HCI_VENDOR_EVENT = false) as -> by (apply Z.eqb_neq; exact H2).
  reflexivity.
Qed.

Theorem event_roundtrip : forall R, wf_registry R = true -> forall c vs ps,
  find_class R K_EVENT (c_code c) = Some c ->
  c_code c <> HCI_LE_META_EVENT -> c_code c <> HCI_COMMAND_COMPLETE_EVENT ->
  c_code c <> HCI_VENDOR_EVENT ->
  wf_fields (c_fields c) = true -> u_range 1 (c_code c) = true ->
  serialize_fields (c_fields c) vs = Some ps -> (length ps < 256)%nat ->
  in_range (c_fields c) (last ps 0) vs = true ->
  exists b, packet_bytes R (PEvent (c_code c) true vs ps) = Some b /\
            forall extra, parse_packet R (b ++ extra) = Some (PEvent (c_code c) true vs ps).
Proof.
  intros R HR c vs ps Hf Hn1 Hn2 Hn3 Hw Hc Hs Hlen Hi.
  exists (HCI_EVENT_PACKET :: c_code c :: Z.of_nat (length ps) :: ps). split.
  - cbn [packet_bytes]. unfold class_params. rewrite Hf, Hs, cached_same, class_event_wf by (assumption || reflexivity).
    apply event_bytes_shape; assumption.
  - intro extra.
    destruct (parse_serialize _ (last ps 0) vs Hw Hi) as [b' [n [Hs' [Hp Hn]]]].
    rewrite Hs in Hs'. assert (b' = ps) as -> by congruence. clear Hs'.
    cbn [app]. rewrite parse_packet_event, parse_event_frame by exact Hlen.
    rewrite event_code_not_special by assumption.
    unfold plain_event. rewrite Hf. unfold parse_at0. rewrite Hp.
    assert (c_code c =? HCI_COMMAND_COMPLETE_EVENT = false) as -> by (apply Z.eqb_neq; exact Hn2).
    reflexivity.
Qed.

Theorem le_meta_roundtrip : forall R, wf_registry R = true -> forall c vs ps,
  find_class R K_LE_EVENT (c_code c) = Some c ->
  wf_fields (c_fields c) = true -> u_range 1 (c_code c) = true ->
  serialize_fields (c_fields c) vs = Some ps -> (length ps < 255)%nat ->
  in_range (c_fields c) (c_code c) vs = true ->
  exists b, packet_bytes R (PLeMeta (c_code c) true vs (c_code c :: ps)) = Some b /\
            forall extra, parse_packet R (b ++ extra) = Some (PLeMeta (c_code c) true vs (c_code c :: ps)).
Proof.
  intros R HR c vs ps Hf Hw Hc Hs Hlen Hi.
  exists (HCI_EVENT_PACKET :: HCI_LE_META_EVENT :: Z.of_nat (length (c_code c :: ps)) :: c_code c :: ps).
  split.
  - cbn [packet_bytes cached]. rewrite class_event_wf by (assumption || reflexivity).
    apply event_bytes_shape; [reflexivity | cbn [length]; lia].
  - intro extra.
    destruct (parse_serialize _ (c_code c) vs Hw Hi) as [b' [n [Hs' [Hp Hn]]]].
    rewrite Hs in Hs'. assert (b' = ps) as -> by congruence. clear Hs'.
    cbn [app]. rewrite parse_packet_event.
    change (c_code c :: ps ++ extra) with ((c_code c :: ps) ++ extra).
    rewrite parse_event_frame by (cbn [length]; lia).
    unfold event_body. rewrite Z.eqb_refl. rewrite Hf, Hp. reflexivity.
Qed.

(* what a vendor factory returns is a vendor sub-event packet holding the parameter block *)
Lemma vendor_factories_shape : forall R rules ps p,
  vendor_factories R rules ps = Some (Some p) ->
  exists sub vs, p = PVendorSub sub vs ps.
Proof.
  intros R rules ps p. induction rules as [|[sub ids] rest IH]; intro H; [discriminate|].
  cbn [vendor_factories] in H.
  destruct ps as [|s [|q tl]]; try (apply IH; exact H).
  destruct ((s =? sub) && existsb (Z.eqb q) ids) eqn:E; [|apply IH; exact H].
  destruct (find_class R K_VENDOR sub) as [c|]; [|discriminate].
  destruct (parse_fields (c_fields c) s (q :: tl)) as [[vs n]|]; [|discriminate].
  injection H as <-. exists sub, vs. reflexivity.
Qed.

Lemma plain_event_bytes : forall R code ps p, wf_registry R = true ->
  u_range 1 code = true -> (length ps < 256)%nat -> ps <> [] ->
  plain_event R code ps = Some p ->
  packet_bytes R p = Some (HCI_EVENT_PACKET :: code :: Z.of_nat (length ps) :: ps).
Proof.
  intros R code ps p HK Hcr Hlen Hne Hp. unfold plain_event in Hp.
  assert (Hb : forall known vs, packet_bytes R (PEvent code known vs ps)
                 = Some (HCI_EVENT_PACKET :: code :: Z.of_nat (length ps) :: ps)).
  { intros. cbn [packet_bytes]. rewrite cached_nonempty, class_event_wf by (assumption || reflexivity).
    apply event_bytes_shape; assumption. }
  destruct (find_class R K_EVENT code) as [c|]; [|injection Hp as <-; apply Hb].
  destruct (parse_at0 (c_fields c) ps) as [vs|]; [|discriminate].
  destruct (code =? HCI_COMMAND_COMPLETE_EVENT) eqn:E2; [|injection Hp as <-; apply Hb].
  apply Z.eqb_eq in E2. subst code.
  destruct vs as [|n [|[op| | |] [|x [|]]]]; try discriminate.
  destruct (parse_return R op (skipn 3 ps)) as [[rn rvs]|]; [|discriminate].
  injection Hp as <-. cbn [packet_bytes].
  rewrite cached_nonempty, class_event_wf by (assumption || reflexivity).
  apply event_bytes_shape; assumption.
Qed.

(* bytes -> packet -> bytes for every kind of event, exact length, non-empty parameters.
   Rests on kind consistency: whatever class the dispatcher for this event code finds
   writes this event code back. *)
Theorem event_bytes_roundtrip : forall R code ps p, wf_registry R = true ->
  bytes_ok (code :: ps) = true -> (length ps < 256)%nat -> ps <> [] ->
  parse_event R (HCI_EVENT_PACKET :: code :: Z.of_nat (length ps) :: ps) = Some p ->
  packet_bytes R p = Some (HCI_EVENT_PACKET :: code :: Z.of_nat (length ps) :: ps).
Proof.
  intros R code ps p HK Hok Hlen Hne Hp.
  rewrite parse_event_frame_exact in Hp by exact Hlen.
  rewrite bytes_ok_cons in Hok. apply andb_true_iff in Hok as [Hc Hok].
  assert (Hcr : u_range 1 code = true).
  { apply u_range_iff. apply byte_ok_iff in Hc. exact Hc. }
  unfold event_body in Hp.
  destruct (code =? HCI_LE_META_EVENT) eqn:E1.
  - apply Z.eqb_eq in E1. subst code.
    destruct ps as [|sub rest]; [discriminate|].
    assert (Hb : forall known vs, packet_bytes R (PLeMeta sub known vs (sub :: rest))
                   = Some (HCI_EVENT_PACKET :: HCI_LE_META_EVENT :: Z.of_nat (length (sub :: rest)) :: sub :: rest)).
    { intros. cbn [packet_bytes cached]. rewrite class_event_wf by (assumption || reflexivity).
      apply event_bytes_shape; assumption. }
    destruct (find_class R K_LE_EVENT sub) as [c|]; [|injection Hp as <-; apply Hb].
    destruct (parse_fields (c_fields c) sub rest) as [[vs n]|]; [|discriminate].
    injection Hp as <-. apply Hb.
  - destruct (code =? HCI_VENDOR_EVENT) eqn:E3; [|exact (plain_event_bytes R code ps p HK Hcr Hlen Hne Hp)].
    apply Z.eqb_eq in E3. subst code.
    destruct (vendor_factories R (r_vendor R) ps) as [[q|]|] eqn:Ev; [| |discriminate].
    + injection Hp as <-.
      destruct (vendor_factories_shape R _ ps q Ev) as [sub [vs ->]].
      cbn [packet_bytes]. rewrite cached_nonempty, class_event_wf by (assumption || reflexivity).
      apply event_bytes_shape; assumption.
    + exact (plain_event_bytes R _ ps p HK Hcr Hlen Hne Hp).
Qed.

(* unknown event code / sub-event code: generic packet, parameters preserved byte for byte *)
Theorem unknown_event_preserved : forall R code params,
  code <> HCI_LE_META_EVENT -> code <> HCI_VENDOR_EVENT -> find_class R K_EVENT code = None ->
  u_range 1 code = true -> (length params < 256)%nat ->
  let b := HCI_EVENT_PACKET :: code :: Z.of_nat (length params) :: params in
  parse_packet R b = Some (PEvent code false [] params) /\
  packet_bytes R (PEvent code false [] params) = Some b.
Proof.
  intros R code params Hn Hn2 Hf Hc Hlen b. subst b. split.
  - rewrite parse_packet_event, parse_event_frame_exact by exact Hlen.
    rewrite event_code_not_special by assumption.
    unfold plain_event. rewrite Hf. reflexivity.
  - cbn [packet_bytes]. unfold class_params, class_event. cbv iota. rewrite cached_generic.
    apply event_bytes_shape; assumption.
Qed.

Theorem unknown_subevent_preserved : forall R sub rest,
  find_class R K_LE_EVENT sub = None -> u_range 1 sub = true -> (length rest < 255)%nat ->
  let params := sub :: rest in
  let b := HCI_EVENT_PACKET :: HCI_LE_META_EVENT :: Z.of_nat (length params) :: params in
  parse_packet R b = Some (PLeMeta sub false [] params) /\
  packet_bytes R (PLeMeta sub false [] params) = Some b.
Proof.
  intros R sub rest Hf Hc Hlen params b. subst b params. split.
  - rewrite parse_packet_event, parse_event_frame_exact by (cbn [length]; lia).
    unfold event_body. rewrite Z.eqb_refl, Hf. reflexivity.
  - cbn [packet_bytes cached]. unfold class_event.
    apply event_bytes_shape; [reflexivity | cbn [length]; lia].
Qed.

(* a vendor event that every registered factory declines is the generic vendor event, its
   data the parameter block byte for byte *)
Definition no_rule_matches (rules : list (Z * list Z)) (params : list Z) : bool :=
  match params with
  | s :: q :: _ => negb (existsb (fun r => (s =? fst r) && existsb (Z.eqb q) (snd r)) rules)
  | _ => true
  end.

Lemma vendor_declined : forall R rules params,
  no_rule_matches rules params = true -> vendor_factories R rules params = Some None.
Proof.
  intros R rules params. induction rules as [|[sub ids] rest IH]; intro H; [reflexivity|].
  cbn [vendor_factories]. destruct params as [|s [|q tl]]; try (apply IH; reflexivity).
  cbn [no_rule_matches existsb fst snd] in H. apply negb_true_iff in H.
  apply orb_false_iff in H as [H1 H2]. rewrite H1. apply IH.
  cbn [no_rule_matches]. apply negb_true_iff. exact H2.
Qed.

Theorem vendor_generic_preserved : forall R,
  option_map (fun c => (c_fields c, c_event c)) (find_class R K_EVENT HCI_VENDOR_EVENT)
    = Some ([F1 Rest], HCI_VENDOR_EVENT) ->
  forall params, no_rule_matches (r_vendor R) params = true -> (length params < 256)%nat ->
  let b := HCI_EVENT_PACKET :: HCI_VENDOR_EVENT :: Z.of_nat (length params) :: params in
  parse_packet R b = Some (PEvent HCI_VENDOR_EVENT true [VBytes params] params) /\
  packet_bytes R (PEvent HCI_VENDOR_EVENT true [VBytes params] params) = Some b.
Proof.
  intros R Hsh params Hno Hlen b. subst b.
  destruct (find_class R K_EVENT HCI_VENDOR_EVENT) as [c|] eqn:Hf; [|discriminate].
  injection Hsh as Hfs Hev. split.
  - rewrite parse_packet_event, parse_event_frame_exact by exact Hlen.
    unfold event_body. change (HCI_VENDOR_EVENT =? HCI_LE_META_EVENT) with false.
    rewrite Z.eqb_refl. cbv iota. rewrite (vendor_declined R _ params Hno).
    unfold plain_event. rewrite Hf, Hfs. unfold parse_at0, parse_fields, F1.
    cbn [par_seq par F_codec field_codec par_field N_codec par_a].
    change (HCI_VENDOR_EVENT =? HCI_COMMAND_COMPLETE_EVENT) with false. reflexivity.
  - cbn [packet_bytes]. unfold class_params, class_event. rewrite Hf, Hfs, Hev.
    unfold serialize_fields, F1.
    cbn [ser Top_codec seq_codec ser_seq F_codec field_codec ser_field N_codec ser_a].
    rewrite app_nil_r, cached_same. apply event_bytes_shape; [reflexivity | exact Hlen].
Qed.

(* The 16-bit words of the data packets (ACL, SCO and ISO headers, ISO SDU information) share
   one layout: a 12-bit field in bits 0..11, 2-bit fields at bits 12 and 14. *)
Definition hdr_word (a b c : Z) : Z := Z.lor (Z.lor (Z.shiftl b 12) (Z.shiftl c 14)) a.

Lemma hdr_word_flat : forall a b c, hdr_word a b c = Z.lor (Z.lor (Z.shiftl c 14) (Z.shiftl b 12)) a.
Proof. intros. unfold hdr_word. rewrite (Z.lor_comm (Z.shiftl b 12)). reflexivity. Qed.

Lemma hdr_word_fields : forall a b c, 0 <= a < 4096 -> 0 <= b < 4 -> 0 <= c < 4 ->
  let h := hdr_word a b c in
  u_range 2 h = true /\ Z.land h 4095 = a /\ Z.land (Z.shiftr h 12) 3 = b /\
  Z.land (Z.shiftr h 14) 3 = c /\ (c < 2 -> Z.land (Z.shiftr h 14) 1 = c).
Proof.
  intros a b c Ha Hb Hc h. subst h. rewrite hdr_word_flat.
  rewrite (pack3_a 2 12), (pack3_b 2 12), (pack3_c 2 12) by lia. repeat split.
  - apply u_range_iff. apply (pack3_range 2 12) with (i := 2); lia.
  - apply (land_small 2); lia.
  - intro. apply (land_small 1); lia.
Qed.

Lemma hdr_word_of_fields : forall x, 0 <= x < 65536 ->
  hdr_word (Z.land x 4095) (Z.land (Z.shiftr x 12) 3) (Z.land (Z.shiftr x 14) 3) = x.
Proof.
  intros x Hx. rewrite hdr_word_flat, (land_small 2 (Z.shiftr _ 14)) by (try apply (shiftr_range 14 2); lia).
  exact (unpack3 2 12 x ltac:(lia) ltac:(lia)).
Qed.

(* the other three words are the same word with a field left out or written in another order *)
Lemma sco_hdr_word : forall handle status, Z.lor (Z.shiftl status 12) handle = hdr_word handle status 0.
Proof. intros. unfold hdr_word. change (Z.shiftl 0 14) with 0. rewrite Z.lor_0_r. reflexivity. Qed.

Lemma iso_hdr_word : forall ts pb handle,
  Z.lor (Z.lor (Z.shiftl ts 14) (Z.shiftl pb 12)) handle = hdr_word handle pb ts.
Proof. intros. unfold hdr_word. rewrite (Z.lor_comm (Z.shiftl ts 14)). reflexivity. Qed.

Lemma iso_sdu_word : forall len psf, Z.lor len (Z.shiftl psf 14) = hdr_word len 0 psf.
Proof. intros. apply Z.lor_comm. Qed.

Lemma le2_frame : forall v rest, u_range 2 v = true ->
  le_decode (firstn 2 (le_encode 2 v ++ rest)) = v /\ skipn 2 (le_encode 2 v ++ rest) = rest.
Proof.
  intros v rest H. split.
  - rewrite firstn_len_app by reflexivity. apply le_decode_encode, u_range_iff, H.
  - apply skipn_len_app. reflexivity.
Qed.

Lemma parse_acl_cons : forall b0 b1 b2 b3 b4 data,
  parse_acl (b0 :: b1 :: b2 :: b3 :: b4 :: data) =
  let h := le_decode [b1; b2] in
  if Z.of_nat (length data) =? le_decode [b3; b4]
  then Some (PAcl (Z.land h 4095) (Z.land (Z.shiftr h 12) 3) (Z.land (Z.shiftr h 14) 3)
                  (le_decode [b3; b4]) data)
  else None.
Proof.
  intros. unfold parse_acl. cbn [length Nat.ltb Nat.leb skipn firstn].
  destruct (Z.of_nat (length data) =? le_decode [b3; b4]); reflexivity.
Qed.

Theorem acl_roundtrip : forall R handle pb bc data,
  0 <= handle < 4096 -> 0 <= pb < 4 -> 0 <= bc < 4 -> Z.of_nat (length data) < 65536 ->
  let total := Z.of_nat (length data) in
  exists b, packet_bytes R (PAcl handle pb bc total data) = Some b /\
            parse_packet R b = Some (PAcl handle pb bc total data).
Proof.
  intros R handle pb bc data Hh Hp Hb Hlen total.
  destruct (hdr_word_fields handle pb bc Hh Hp Hb) as (Hr & E1 & E2 & E3 & _).
  set (h := hdr_word handle pb bc) in *.
  assert (Ht : u_range 2 total = true).
  { apply u_range_iff. unfold total. change (pow256 2) with 65536. lia. }
  exists (HCI_ACL_DATA_PACKET :: le_encode 2 h ++ le_encode 2 total ++ data). split.
  - cbn [packet_bytes]. unfold acl_bytes. fold (hdr_word handle pb bc). fold h.
    rewrite Hr, Ht. reflexivity.
  - rewrite !le2_shape. cbn [app]. unfold parse_packet, HCI_ACL_DATA_PACKET. cbn [Z.eqb Pos.eqb].
    rewrite parse_acl_cons, !le2_decode_encode by assumption. cbv zeta.
    unfold total at 1. rewrite Z.eqb_refl, E1, E2, E3. reflexivity.
Qed.

Theorem acl_bytes_roundtrip : forall R b p,
  bytes_ok b = true -> hd 0 b = HCI_ACL_DATA_PACKET -> parse_acl b = Some p ->
  packet_bytes R p = Some b.
Proof.
  intros R b p Hok Hhd Hp.
  destruct b as [|b0 [|b1 [|b2 [|b3 [|b4 data]]]]]; try discriminate.
  cbn [hd] in Hhd. subst b0. rewrite parse_acl_cons in Hp. cbv zeta in Hp.
  cbn in Hok. repeat (apply andb_true_iff in Hok as [? Hok]).
  destruct (le2_encode_decode b1 b2) as [He1 Hr1]; [assumption..|].
  destruct (le2_encode_decode b3 b4) as [He2 Hr2]; [assumption..|].
  remember (le_decode [b1; b2]) as h eqn:Eh.
  remember (le_decode [b3; b4]) as t eqn:Et.
  destruct (Z.of_nat (length data) =? t) eqn:El; [|discriminate].
  apply Some_inj in Hp. subst p.
  cbn [packet_bytes]. unfold acl_bytes. cbv zeta.
  fold (hdr_word (Z.land h 4095) (Z.land (Z.shiftr h 12) 3) (Z.land (Z.shiftr h 14) 3)).
  rewrite hdr_word_of_fields by (apply u_range_iff in Hr1; exact Hr1).
  rewrite Hr1, Hr2, He1, He2. reflexivity.
Qed.

(* bits 14..15 of the SCO header word are reserved: they are not kept *)
Lemma sco_word_of_fields : forall h, 0 <= h < 16384 ->
  hdr_word (Z.land h 4095) (Z.land (Z.shiftr h 12) 3) 0 = h.
Proof.
  intros h Hh. rewrite <- (hdr_word_of_fields h) at 3 by lia. f_equal.
  pose proof (shiftr_range 14 0 h) as R. replace (Z.shiftr h 14) with 0 by lia. reflexivity.
Qed.

Lemma parse_sco_cons : forall b0 b1 b2 b3 data,
  parse_sco (b0 :: b1 :: b2 :: b3 :: data) =
  let h := le_decode [b1; b2] in
  if Z.of_nat (length data) =? b3
  then Some (PSco (Z.land h 4095) (Z.land (Z.shiftr h 12) 3) b3 data)
  else None.
Proof.
  intros. unfold parse_sco. cbn [length Nat.ltb Nat.leb skipn firstn nth].
  destruct (Z.of_nat (length data) =? b3); reflexivity.
Qed.

Theorem sco_roundtrip : forall R handle status data,
  0 <= handle < 4096 -> 0 <= status < 4 -> Z.of_nat (length data) < 256 ->
  let total := Z.of_nat (length data) in
  exists b, packet_bytes R (PSco handle status total data) = Some b /\
            parse_packet R b = Some (PSco handle status total data).
Proof.
  intros R handle status data Hh Hs Hlen total.
  destruct (hdr_word_fields handle status 0 Hh Hs ltac:(lia)) as (Hr & E1 & E2 & _).
  set (h := hdr_word handle status 0) in *.
  assert (Ht : u_range 1 total = true).
  { apply u_range_iff. unfold total. change (pow256 1) with 256. lia. }
  exists (HCI_SYNCHRONOUS_DATA_PACKET :: le_encode 2 h ++ [total] ++ data). split.
  - cbn [packet_bytes]. unfold sco_bytes. rewrite sco_hdr_word. fold h.
    rewrite Hr, Ht. reflexivity.
  - rewrite le2_shape. cbn [app]. unfold parse_packet, HCI_SYNCHRONOUS_DATA_PACKET. cbn [Z.eqb Pos.eqb].
    rewrite parse_sco_cons, le2_decode_encode by assumption. cbv zeta.
    unfold total at 1. rewrite Z.eqb_refl, E1, E2. reflexivity.
Qed.

Theorem sco_bytes_roundtrip : forall R b p,
  bytes_ok b = true -> hd 0 b = HCI_SYNCHRONOUS_DATA_PACKET ->
  le_decode (firstn 2 (skipn 1 b)) < 16384 ->           (* reserved bits clear *)
  parse_sco b = Some p -> packet_bytes R p = Some b.
Proof.
  intros R b p Hok Hhd Hres Hp.
  destruct b as [|b0 [|b1 [|b2 [|b3 data]]]]; try discriminate.
  cbn [hd] in Hhd. subst b0. rewrite parse_sco_cons in Hp. cbv zeta in Hp. cbn [skipn firstn] in Hres.
  cbn in Hok. repeat (apply andb_true_iff in Hok as [? Hok]).
  destruct (le2_encode_decode b1 b2) as [He1 Hr1]; [assumption..|].
  remember (le_decode [b1; b2]) as h eqn:Eh.
  destruct (Z.of_nat (length data) =? b3) eqn:El; [|discriminate].
  apply Some_inj in Hp. subst p.
  cbn [packet_bytes]. unfold sco_bytes. cbv zeta.
  apply u_range_iff in Hr1.
  rewrite sco_hdr_word, sco_word_of_fields by lia.
  assert (u_range 2 h = true) as -> by (apply u_range_iff; exact Hr1).
  assert (u_range 1 b3 = true) as ->.
  { apply u_range_iff. change (pow256 1) with 256. apply byte_ok_iff. assumption. }
  rewrite He1. reflexivity.
Qed.

Lemma le4_shape : forall v,
  le_encode 4 v = [v mod 256; (v / 256) mod 256; (v / 256 / 256) mod 256; (v / 256 / 256 / 256) mod 256].
Proof. reflexivity. Qed.

Lemma le4_decode_encode : forall v, u_range 4 v = true ->
  le_decode [v mod 256; (v / 256) mod 256; (v / 256 / 256) mod 256; (v / 256 / 256 / 256) mod 256] = v.
Proof. intros v H. rewrite <- le4_shape. apply le_decode_encode, u_range_iff, H. Qed.

Lemma le4_encode_decode : forall a b c d,
  byte_ok a = true -> byte_ok b = true -> byte_ok c = true -> byte_ok d = true ->
  le_encode 4 (le_decode [a; b; c; d]) = [a; b; c; d] /\ u_range 4 (le_decode [a; b; c; d]) = true.
Proof. intros a b c d Ha Hb Hc Hd. apply (le_word [a; b; c; d]). cbn. rewrite Ha, Hb, Hc, Hd. reflexivity. Qed.

(* the optional parts present in an ISO packet are determined by its flags: a time stamp
   iff TS = 1, the SDU information iff PB is 0b00 or 0b10 *)
Definition iso_shape_ok (pb : Z) (sdu : option (Z * Z * Z)) : bool :=
  match sdu with
  | Some (seq, len, psf) =>
      (Z.land pb 1 =? 0) && u_range 2 seq && ((0 <=? len) && (len <? 4096)) && ((0 <=? psf) && (psf <? 4))
  | None => negb (Z.land pb 1 =? 0)
  end.

(* parse_iso reads the optional parts at absolute positions; read in stages, each part comes
   off the front of what the previous one left *)
Definition iso_ts (ts : Z) (rest : list Z) : option (option Z * list Z) :=
  if ts =? 1
  then if (length rest <? 4)%nat then None else Some (Some (le_decode (firstn 4 rest)), skipn 4 rest)
  else Some (None, rest).

Definition iso_sdu (pb : Z) (rest : list Z) : option (option (Z * Z * Z) * list Z) :=
  if Z.land pb 1 =? 0
  then if (length rest <? 4)%nat then None
       else let w := le_decode (firstn 2 (skipn 2 rest)) in
            Some (Some (le_decode (firstn 2 rest), Z.land w 4095, Z.land (Z.shiftr w 14) 3), skipn 4 rest)
  else Some (None, rest).

Lemma parse_iso_staged : forall b0 i0 i1 t0 t1 rest,
  parse_iso (b0 :: i0 :: i1 :: t0 :: t1 :: rest) =
  let info := le_decode [i0; i1] in
  let pb := Z.land (Z.shiftr info 12) 3 in
  match iso_ts (Z.land (Z.shiftr info 14) 1) rest with
  | Some (ts, r1) =>
      match iso_sdu pb r1 with
      | Some (sdu, frag) => Some (PIso (Z.land info 4095) pb (le_decode [t0; t1]) ts sdu frag)
      | None => None
      end
  | None => None
  end.
Proof.
  intros. unfold parse_iso, iso_ts, iso_sdu. cbv zeta.
  cbn [length Nat.ltb Nat.leb firstn skipn Nat.add].
  destruct (Z.land (Z.shiftr (le_decode [i0; i1]) 14) 1 =? 1).
  - destruct rest as [|a0 [|a1 [|a2 [|a3 r]]]]; try reflexivity.
    cbn [length Nat.ltb Nat.leb firstn skipn Nat.add andb].
    destruct (Z.land (Z.land (Z.shiftr (le_decode [i0; i1]) 12) 3) 1 =? 0); [|reflexivity].
    destruct r as [|s0 [|s1 [|w0 [|w1 r]]]]; reflexivity.
  - cbn [andb]. destruct (Z.land (Z.land (Z.shiftr (le_decode [i0; i1]) 12) 3) 1 =? 0); [|reflexivity].
    destruct rest as [|s0 [|s1 [|w0 [|w1 r]]]]; reflexivity.
Qed.

Lemma iso_ts_bytes : forall ts r, match ts with Some t => u_range 4 t = true | None => True end ->
  iso_ts (if ts then 1 else 0) (match ts with Some t => le_encode 4 t | None => [] end ++ r) = Some (ts, r).
Proof.
  intros [t|] r H; [|reflexivity]. rewrite le4_shape. unfold iso_ts.
  cbn [Z.eqb Pos.eqb app length Nat.ltb Nat.leb firstn skipn].
  rewrite le4_decode_encode by exact H. reflexivity.
Qed.

Lemma iso_sdu_bytes : forall pb sdu r, iso_shape_ok pb sdu = true ->
  iso_sdu pb (match sdu with
              | Some (seq, len, psf) => le_encode 2 seq ++ le_encode 2 (Z.lor len (Z.shiftl psf 14))
              | None => [] end ++ r) = Some (sdu, r) /\
  match sdu with
  | Some (seq, len, psf) => u_range 2 seq && u_range 2 (Z.lor len (Z.shiftl psf 14))
  | None => true end = true.
Proof.
  intros pb [[[seq len] psf]|] r H; cbn [iso_shape_ok] in H; unfold iso_sdu.
  - rewrite !andb_true_iff, !Z.leb_le, !Z.ltb_lt in H. destruct H as [[[Hs Hq] Hl] Hp].
    destruct (hdr_word_fields len 0 psf) as (Hw & W1 & _ & W2 & _); try lia.
    rewrite iso_sdu_word, Hs, Hq, Hw, !le2_shape.
    cbn [app length Nat.ltb Nat.leb firstn skipn]. rewrite !le2_decode_encode, W1, W2 by assumption.
    split; reflexivity.
  - apply negb_true_iff in H. rewrite H. split; reflexivity.
Qed.

Theorem iso_roundtrip : forall R handle pb total ts sdu frag,
  0 <= handle < 4096 -> 0 <= pb < 4 -> u_range 2 total = true ->
  match ts with Some t => u_range 4 t = true | None => True end ->
  iso_shape_ok pb sdu = true ->
  exists b, packet_bytes R (PIso handle pb total ts sdu frag) = Some b /\
            parse_packet R b = Some (PIso handle pb total ts sdu frag).
Proof.
  intros R handle pb total ts sdu frag Hh Hp Ht Hts Hsdu.
  destruct (hdr_word_fields handle pb (if ts then 1 else 0) Hh Hp) as (Hr & E1 & E2 & _ & E3);
    [destruct ts; lia|]. specialize (E3 ltac:(destruct ts; lia)).
  destruct (iso_sdu_bytes pb sdu frag Hsdu) as [Hps Hso].
  eexists. split.
  - cbn [packet_bytes]. unfold iso_bytes. rewrite iso_hdr_word, Hr, Ht, Hso.
    replace (match ts with Some t => u_range 4 t | None => true end) with true by (destruct ts; auto).
    reflexivity.
  - rewrite !le2_shape. cbn [app]. unfold parse_packet, HCI_ISO_DATA_PACKET. cbn [Z.eqb Pos.eqb].
    rewrite parse_iso_staged. cbv zeta. rewrite !le2_decode_encode by assumption.
    rewrite E1, E2, E3, (iso_ts_bytes ts _ Hts), Hps. reflexivity.
Qed.

Lemma iso_ts_bit : forall i, 0 <= i < 32768 ->
  let ts := Z.land (Z.shiftr i 14) 1 in (ts = 0 \/ ts = 1) /\ Z.land (Z.shiftr i 14) 3 = ts.
Proof.
  intros i Hi. pose proof (shiftr_range 14 1 i) as R. cbv zeta.
  rewrite (land_small 1), (land_small 2) by lia. lia.
Qed.

(* reserved bits: bit 15 of the first header word; bits 12..13 of the SDU info word *)
Definition iso_reserved_clear (b : list Z) : bool :=
  let info := le_decode (firstn 2 (skipn 1 b)) in
  (info <? 32768) &&
  (let pos := if Z.land (Z.shiftr info 14) 1 =? 1 then 9%nat else 5%nat in
   if Z.land (Z.land (Z.shiftr info 12) 3) 1 =? 0
   then Z.land (Z.shiftr (le_decode (firstn 2 (skipn (pos + 2) b))) 12) 3 =? 0
   else true).

Lemma iso_ts_inv : forall ts rest tso r1, bytes_ok rest = true -> ts = 0 \/ ts = 1 ->
  iso_ts ts rest = Some (tso, r1) ->
  ts = (if tso then 1 else 0) /\ match tso with Some t => u_range 4 t | None => true end = true /\
  match tso with Some t => le_encode 4 t | None => [] end ++ r1 = rest /\ bytes_ok r1 = true.
Proof.
  intros ts rest tso r1 Hok [-> | ->] H; unfold iso_ts in H; cbn [Z.eqb Pos.eqb] in H.
  - injection H as <- <-. auto.
  - destruct rest as [|a0 [|a1 [|a2 [|a3 r]]]]; try discriminate.
    cbn [length Nat.ltb Nat.leb firstn skipn] in H. apply Some_inj, pair_equal_spec in H as [<- <-].
    cbn in Hok. rewrite !andb_true_iff in Hok.
    destruct (le4_encode_decode a0 a1 a2 a3) as [He Hr]; try tauto.
    cbv beta iota. rewrite He. tauto.
Qed.

Lemma iso_sdu_inv : forall pb r1 sdu frag, bytes_ok r1 = true -> iso_sdu pb r1 = Some (sdu, frag) ->
  (if Z.land pb 1 =? 0 then Z.land (Z.shiftr (le_decode (firstn 2 (skipn 2 r1))) 12) 3 =? 0 else true) = true ->
  match sdu with
  | Some (seq, len, psf) => u_range 2 seq && u_range 2 (Z.lor len (Z.shiftl psf 14))
  | None => true end = true /\
  match sdu with
  | Some (seq, len, psf) => le_encode 2 seq ++ le_encode 2 (Z.lor len (Z.shiftl psf 14))
  | None => [] end ++ frag = r1.
Proof.
  intros pb r1 sdu frag Hok H Hres. unfold iso_sdu in H.
  destruct (Z.land pb 1 =? 0); [|injection H as <- <-; auto].
  destruct r1 as [|s0 [|s1 [|w0 [|w1 r]]]]; try discriminate.
  cbn [length Nat.ltb Nat.leb firstn skipn] in H, Hres. apply Some_inj, pair_equal_spec in H as [<- <-].
  cbn in Hok. rewrite !andb_true_iff in Hok.
  destruct (le2_encode_decode s0 s1) as [Hes Hrs]; try tauto.
  destruct (le2_encode_decode w0 w1) as [Hew Hrw]; try tauto.
  pose proof (hdr_word_of_fields (le_decode [w0; w1]) ltac:(apply u_range_iff in Hrw; exact Hrw)) as Hw.
  apply Z.eqb_eq in Hres. rewrite Hres in Hw. cbv beta iota. rewrite iso_sdu_word, Hw, Hrs, Hrw, Hes, Hew. auto.
Qed.

Theorem iso_bytes_roundtrip : forall R b p,
  bytes_ok b = true -> hd 0 b = HCI_ISO_DATA_PACKET -> iso_reserved_clear b = true ->
  parse_iso b = Some p -> packet_bytes R p = Some b.
Proof.
  intros R b p Hok Hhd Hres Hp.
  destruct b as [|b0 [|i0 [|i1 [|t0 [|t1 rest]]]]]; try discriminate.
  cbn [hd] in Hhd. subst b0. rewrite parse_iso_staged in Hp. unfold iso_reserved_clear in Hres.
  cbn [firstn skipn] in Hres. cbv zeta in Hp, Hres.
  cbn in Hok. rewrite !andb_true_iff in Hok. destruct Hok as (Hi0 & Hi1 & Ht0 & Ht1 & Hok).
  destruct (le2_encode_decode i0 i1 Hi0 Hi1) as [Hei Hri].
  destruct (le2_encode_decode t0 t1 Ht0 Ht1) as [Het Hrt].
  set (info := le_decode [i0; i1]) in *.
  apply andb_true_iff in Hres as [Hlt Hres]. apply Z.ltb_lt in Hlt.
  assert (Hi : 0 <= info < 32768) by (apply u_range_iff in Hri; lia).
  destruct (iso_ts_bit info Hi) as [Hts Hts3]. cbv zeta in Hts, Hts3.
  pose proof (hdr_word_of_fields info ltac:(lia)) as Hinfo. rewrite Hts3 in Hinfo.
  destruct (iso_ts _ rest) as [[ts r1]|] eqn:Ets; [|discriminate].
  destruct (iso_sdu _ r1) as [[sdu frag]|] eqn:Esdu; [|discriminate].
  apply Some_inj in Hp. subst p.
  destruct (iso_ts_inv _ _ _ _ Hok Hts Ets) as (Etsb & Htso & Erest & Hok1).
  destruct (iso_sdu_inv _ _ _ _ Hok1 Esdu) as (Hsok & Er1).
  { rewrite <- Erest, Etsb in Hres. destruct ts; [rewrite le4_shape in Hres|]; exact Hres. }
  cbn [packet_bytes]. unfold iso_bytes.
  rewrite iso_hdr_word, <- Etsb, Hinfo, Hri, Hrt, Htso, Hsok, Hei, Het, Er1, Erest. reflexivity.
Qed.

Definition CC_FIELDS : list field := [F1 (UInt 1); F1 (UInt 2); F1 Rest].

Lemma cc_ser : forall num op rb, u_range 1 num = true -> u_range 2 op = true ->
  serialize_fields CC_FIELDS [VInt num; VInt op; VBytes rb] = Some (le_encode 1 num ++ le_encode 2 op ++ rb).
Proof.
  intros num op rb Hn Ho. unfold serialize_fields, CC_FIELDS, F1.
  cbn [ser Top_codec seq_codec ser_seq F_codec field_codec ser_field N_codec].
  rewrite !ser_a_UInt by (reflexivity || assumption).
  change (ser_a Rest (VBytes rb)) with (Some rb). cbv iota beta. rewrite app_nil_r. reflexivity.
Qed.

Lemma cc_par : forall num op rb, u_range 1 num = true -> u_range 2 op = true ->
  parse_at0 CC_FIELDS (le_encode 1 num ++ le_encode 2 op ++ rb) = Some [VInt num; VInt op; VBytes rb].
Proof.
  intros num op rb Hn Ho.
  unfold parse_at0. generalize (last (le_encode 1 num ++ le_encode 2 op ++ rb) 0). intro prev.
  unfold parse_fields, CC_FIELDS, F1.
  change (le_encode 1 num) with [num mod 256]. rewrite le2_shape. cbn [app].
  cbn [par_seq par F_codec field_codec par_field N_codec par_a].
  cbn [length Nat.leb firstn skipn].
  change [num mod 256] with (le_encode 1 num).
  rewrite <- le2_shape.
  rewrite !le_decode_encode by (apply u_range_iff; assumption).
  reflexivity.
Qed.

Theorem cmd_complete_roundtrip : forall R, wf_registry R = true ->
  option_map c_fields (find_class R K_EVENT HCI_COMMAND_COMPLETE_EVENT) = Some CC_FIELDS ->
  forall rc num op rn sf rvs rb,
  existsb (Z.eqb op) (r_lenient_return R) = false ->
  assoc op (r_return R) = Some (rn, sf) -> find_by_name R K_RETURN rn = Some rc ->
  serialize_fields (c_fields rc) rvs = Some rb -> in_range (c_fields rc) (last rb 0) rvs = true ->
  (sf = true -> exists rest, rb = 0 :: rest) ->
  u_range 1 num = true -> u_range 2 op = true -> (length rb + 3 < 256)%nat ->
  let ps := le_encode 1 num ++ le_encode 2 op ++ rb in
  exists b, packet_bytes R (PCmdComplete [VInt num; VInt op] rn rvs []) = Some b /\
            parse_packet R b = Some (PCmdComplete [VInt num; VInt op] rn rvs ps).
Proof.
  intros R HR Hsh rc num op rn sf rvs rb Hcust Hret Hrc Hs Hi Hst Hn Ho Hlen ps.
  destruct (find_class R K_EVENT HCI_COMMAND_COMPLETE_EVENT) as [cc|] eqn:Hcc; [|discriminate].
  injection Hsh as Hfs.
  assert (Hw : wf_fields (c_fields rc) = true).
  { apply (registry_class_wf R rc HR). unfold find_by_name in Hrc. apply find_some in Hrc. apply Hrc. }
  assert (Hpl : (length ps < 256)%nat).
  { unfold ps. rewrite !app_length, !le_encode_length. lia. }
  exists (HCI_EVENT_PACKET :: HCI_COMMAND_COMPLETE_EVENT :: Z.of_nat (length ps) :: ps). split.
  - cbn [packet_bytes cached]. rewrite class_event_wf, Hrc, Hcc, Hs, Hfs by (assumption || reflexivity). cbn [app].
    rewrite cc_ser by assumption. fold ps. apply event_bytes_shape; [reflexivity | exact Hpl].
  - rewrite parse_packet_event, parse_event_frame_exact by exact Hpl.
    rewrite event_code_not_special by discriminate.
    unfold plain_event.
    rewrite Hcc, Hfs. unfold ps at 1. rewrite cc_par by assumption.
    rewrite Z.eqb_refl.
    assert (skipn 3 ps = rb) as ->.
    { unfold ps. rewrite app_assoc. apply skipn_len_app. rewrite app_length, !le_encode_length. reflexivity. }
    unfold parse_return. rewrite Hret, Hrc, Hcust.
    destruct (parse_serialize _ (last rb 0) rvs Hw Hi) as [b' [n [Hs' [Hp Hnn]]]].
    rewrite Hs in Hs'. assert (b' = rb) as -> by congruence. clear Hs'.
    assert (Hpar : parse_at0 (c_fields rc) rb = Some rvs) by (unfold parse_at0; rewrite Hp; reflexivity).
    destruct sf.
    + destruct (Hst eq_refl) as [rest ->]. cbn [Z.eqb negb]. rewrite Hpar. reflexivity.
    + rewrite Hpar. reflexivity.
Qed.

Lemma par_lenient_complete : forall fs prev bs vs n,
  par_seq F_codec fs prev bs = Some (vs, n) -> par_lenient fs prev bs = vs.
Proof.
  induction fs as [|f fs IH]; intros prev bs vs n H.
  - cbn in H. inversion H. reflexivity.
  - cbn [par_seq] in H. cbn [par_lenient].
    destruct (par F_codec f prev bs) as [[v n1]|]; [|discriminate].
    destruct (par_seq F_codec fs (adv_prev n1 prev bs) (skipn n1 bs)) as [[vs' m]|] eqn:E; [|discriminate].
    inversion H; subst. f_equal. eapply IH. exact E.
Qed.

Lemma par_lenient_length : forall fs prev bs, length (par_lenient fs prev bs) = length fs.
Proof.
  induction fs as [|f fs IH]; intros prev bs; [reflexivity|].
  cbn [par_lenient]. destruct (par F_codec f prev bs) as [[v n]|].
  - cbn [length]. rewrite IH. reflexivity.
  - apply map_length.
Qed.

(* the field-by-field parse returns the values that were serialised (full-length input),
   whatever the status *)
Theorem lenient_return_roundtrip : forall R rc op rn sf rvs,
  existsb (Z.eqb op) (r_lenient_return R) = true ->
  assoc op (r_return R) = Some (rn, sf) -> find_by_name R K_RETURN rn = Some rc ->
  tight_fields (c_fields rc) = true ->
  forall prev, in_range (c_fields rc) prev rvs = true ->
  exists rb, serialize_fields (c_fields rc) rvs = Some rb /\
             forall tail, last (rb ++ tail) 0 = prev -> parse_return R op (rb ++ tail) = Some (rn, rvs).
Proof.
  intros R rc op rn sf rvs Hl Hret Hrc Ht prev Hi.
  destruct (parse_serialize_tight _ prev rvs Ht Hi) as [rb [Hs Hp]].
  exists rb. split; [exact Hs|]. intros tail Hlast.
  unfold parse_return. rewrite Hret, Hrc, Hl. rewrite Hlast.
  specialize (Hp tail). unfold parse_fields in Hp.
  rewrite (par_lenient_complete _ _ _ _ _ Hp). reflexivity.
Qed.

(* a short return block gives a full-length value list: what could be read, then zeros *)
Theorem lenient_return_total : forall R rc op rn sf rpb,
  existsb (Z.eqb op) (r_lenient_return R) = true ->
  assoc op (r_return R) = Some (rn, sf) -> find_by_name R K_RETURN rn = Some rc ->
  exists rvs, parse_return R op rpb = Some (rn, rvs) /\ length rvs = length (c_fields rc).
Proof.
  intros R rc op rn sf rpb Hl Hret Hrc. unfold parse_return. rewrite Hret, Hrc, Hl.
  eexists. split; [reflexivity | apply par_lenient_length].
Qed.

Lemma par_seq_prefix : forall (c : codec) ss1 ss2 prev bs vs n,
  par_seq c (ss1 ++ ss2) prev bs = Some (vs, n) ->
  exists n1, par_seq c ss1 prev bs = Some (firstn (length ss1) vs, n1).
Proof.
  intros c. induction ss1 as [|s ss1 IH]; intros ss2 prev bs vs n H.
  - exists 0%nat. reflexivity.
  - cbn [app par_seq] in H. cbn [par_seq].
    destruct (par c s prev bs) as [[v n1]|]; [|discriminate].
    destruct (par_seq c (ss1 ++ ss2) (adv_prev n1 prev bs) (skipn n1 bs)) as [[vs' m]|] eqn:E; [|discriminate].
    inversion H; subst. destruct (IH _ _ _ _ _ E) as [m1 H1]. rewrite H1.
    exists (n1 + m1)%nat. reflexivity.
Qed.

Lemma nth_error_firstn_lt : forall (A : Type) (l : list A) n i, (i < n)%nat ->
  nth_error (firstn n l) i = nth_error l i.
Proof.
  intros A l. induction l as [|x l IH]; intros n i H.
  - rewrite firstn_nil. reflexivity.
  - destruct n; [lia|]. destruct i; [reflexivity|]. cbn. apply IH. lia.
Qed.

Lemma tight_phy_fields : forall pc k,
  tight_fields (p_head pc) = true -> forallb (fun a => wf_a a && tight_a a) (p_row pc) = true ->
  tight_fields (phy_fields pc k) = true.
Proof.
  intros pc k Hh Hr.
  change (tight_seq F_codec (p_head pc) = true) in Hh.
  change (tight_seq F_codec (p_head pc ++ concat (repeat (map F1 (p_row pc)) k)) = true).
  unfold tight_seq in *. rewrite forallb_app. apply andb_true_iff. split; [exact Hh|].
  induction k as [|k IH]; [reflexivity|].
  cbn [repeat concat]. rewrite forallb_app. apply andb_true_iff. split; [|exact IH].
  clear IH Hh. induction (p_row pc) as [|a r IHr]; [reflexivity|].
  cbn [map forallb] in *. apply andb_true_iff in Hr as [Ha Hr].
  apply andb_true_iff. split; [exact Ha | exact (IHr Hr)].
Qed.

(* values -> parameter block -> values for the two hand-written commands: with as many
   per-PHY items as the mask has bits, everything comes back, whatever follows *)
Theorem phy_roundtrip : forall pc, wf_phy pc = true -> forall prev0 vs k,
  phy_count pc vs = Some k ->
  in_range (phy_fields pc k) prev0 vs = true ->
  exists b, serialize_phy pc vs = Some b /\
            forall tail, parse_phy pc prev0 (b ++ tail) = Some vs.
Proof.
  intros pc Hw prev0 vs k Hk Hi.
  unfold wf_phy in Hw. apply andb_true_iff in Hw as [Hw Hidx].
  apply andb_true_iff in Hw as [Hw _]. apply andb_true_iff in Hw as [Hh Hr].
  pose proof (tight_phy_fields pc k Hh Hr) as Ht.
  destruct (parse_serialize_tight _ prev0 vs Ht Hi) as [b [Hs Hp]].
  exists b. split; [unfold serialize_phy; rewrite Hk; exact Hs|].
  intro tail. specialize (Hp tail). unfold parse_phy.
  unfold parse_fields, phy_fields in Hp.
  destruct (par_seq_prefix F_codec _ _ _ _ _ _ Hp) as [n1 Hhd].
  unfold parse_fields. rewrite Hhd.
  assert (Hlt : (p_idx pc < length (p_head pc))%nat).
  { apply nth_error_Some. destruct (nth_error (p_head pc) (p_idx pc)); [discriminate|discriminate Hidx]. }
  match goal with |- context [phy_count pc ?x] => assert (phy_count pc x = Some k) as -> end.
  { unfold phy_count in *. rewrite nth_error_firstn_lt by exact Hlt. exact Hk. }
  unfold phy_fields. rewrite Hp. reflexivity.
Qed.

Lemma find_phy_code : forall R op pc, find_phy R op = Some pc -> p_code pc = op /\ In pc (r_phy R).
Proof.
  intros R op pc H. unfold find_phy in H. apply find_some in H as [Hin H].
  apply Z.eqb_eq in H. auto.
Qed.

Theorem phy_command_roundtrip : forall R, wf_registry R = true -> forall pc vs k b,
  find_class R K_COMMAND (p_code pc) = None -> find_phy R (p_code pc) = Some pc ->
  phy_count pc vs = Some k ->
  serialize_phy pc vs = Some b -> (length b < 256)%nat ->
  in_range (phy_fields pc k) (last b 0) vs = true ->
  exists pkt, packet_bytes R (PCommand (p_code pc) true vs b) = Some pkt /\
              parse_packet R pkt = Some (PCommand (p_code pc) true vs b).
Proof.
  intros R HR pc vs k b Hf Hphy Hk Hs Hlen Hi.
  pose proof (registry_wf_phy R pc HR (proj2 (find_phy_code R _ pc Hphy))) as Hw.
  assert (Hop : u_range 2 (p_code pc) = true).
  { unfold wf_phy in Hw. apply andb_true_iff in Hw as [Hw _]. apply andb_true_iff in Hw as [_ Hw]. exact Hw. }
  exists (HCI_COMMAND_PACKET :: le_encode 2 (p_code pc) ++ [Z.of_nat (length b)] ++ b). split.
  - cbn [packet_bytes]. unfold class_params. rewrite Hf. change (K_COMMAND =? K_COMMAND) with true.
    cbv iota. rewrite Hphy, Hs, cached_same.
    apply command_bytes_shape; assumption.
  - destruct (phy_roundtrip pc Hw (last b 0) vs k Hk Hi) as [b' [Hs' Hp]].
    rewrite Hs in Hs'. assert (b' = b) as -> by congruence. clear Hs'.
    specialize (Hp []). rewrite app_nil_r in Hp.
    rewrite parse_command_framed, Hf, Hphy, Hp, Hs by exact Hop. reflexivity.
Qed.

(* A parameter block is well-formed for a class when the class's parser consumes it exactly.
   For such a block it does not matter whether __bytes__ uses the cached bytes or
   recomputes them from the fields: both give the block back - also when it is empty. *)
Theorem wellformed_block_recomputes : forall fs prev ps vs,
  wf_fields fs = true -> tight_fields fs = true -> bytes_ok ps = true ->
  parse_fields fs prev ps = Some (vs, length ps) ->
  serialize_fields fs vs = Some ps /\ cached ps (serialize_fields fs vs) = Some ps.
Proof.
  intros fs prev ps vs Hw Ht Hok Hp.
  destruct (serialize_parse fs prev ps vs (length ps) Hw Hok Hp (le_n _)) as [pad [Hs Hpad]].
  rewrite (Hpad Ht), app_nil_r, firstn_all in Hs. split; [exact Hs|].
  rewrite Hs. apply cached_same.
Qed.
