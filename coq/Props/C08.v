(* Property C08: classic L2CAP channels (Basic / Enhanced Retransmission mode) deliver
   every SDU once, intact and in order; window and sequence discipline; set-up agreement.
   The statements; each is closed by [exact], in a few lines from the lemmas of Proofs/Ertm*.v and
   Proofs/L2capConfig.v, or by computation (over the regenerated Gen/C08Tables.v, or of a witness).

   Schedules are arbitrary interleavings of writes at either end, deliveries in either
   direction ("order-preserving delays") and firings of the four ERTM timers (labels
   TimeoutRetxA/B, TimeoutMonA/B of Model/Ertm.v): ALL statements below hold for ALL
   schedules, timers included (the model is of the code after fixes/D08.patch and
   fixes/D08t.patch).  The two FIFO channels neither lose nor reorder frames. *)
From Coq Require Import ZArith List Bool Lia.
From BV Require Import Model.Crc16 Model.Ertm Model.L2capConfig Model.L2capShape Gen.C08Tables Gen.C08Shape.
From BV Require Import Proofs.ErtmSeg Proofs.Ertm Proofs.ErtmWire Proofs.ErtmLive Proofs.ErtmForeign.
From BV Require Import Proofs.L2capConfig Proofs.L2capShape.
Import ListNotations.
Open Scope Z_scope.

(* ERTM safety: for every peer MPS >= 1, every window 1..63 (both directions
   independently), every sequence of SDUs of any sizes written at either end (so also SDUs
   of more than 64 segments: sequence numbers wrap) and every schedule, timers included:
   what each sink has received is a prefix of what the peer wrote - nothing duplicated,
   reordered, corrupted or invented. *)
Theorem C08_ertm_in_order_prefix : forall mps_a win_a mps_b win_b sched,
  params_ok mps_a win_a mps_b win_b ->
  let s := run (sys_init mps_a win_a mps_b win_b) sched in
  (exists j, s_sink_b s = firstn j (writes_a sched)) /\
  (exists j, s_sink_a s = firstn j (writes_b sched)).
Proof.
  intros mps_a win_a mps_b win_b sched H s.
  destruct (ertm_exactly_once_in_order _ _ _ _ sched H) as (A & B & _). now split.
Qed.
Print Assumptions C08_ertm_in_order_prefix.

(* ERTM, complete delivery: when both channels are empty each sink holds exactly what the
   peer wrote and nothing is left queued, unacknowledged, half reassembled or blocked by a
   monitor handle - whatever timers fired on the way. *)
Theorem C08_ertm_exactly_once_in_order : forall mps_a win_a mps_b win_b sched,
  params_ok mps_a win_a mps_b win_b ->
  let s := run (sys_init mps_a win_a mps_b win_b) sched in
  (exists j, s_sink_b s = firstn j (writes_a sched)) /\
  (exists j, s_sink_a s = firstn j (writes_b sched)) /\
  (quiescent s = true ->
     s_sink_b s = writes_a sched /\ s_sink_a s = writes_b sched /\
     e_pend (s_a s) = [] /\ e_txw (s_a s) = [] /\ e_pend (s_b s) = [] /\ e_txw (s_b s) = [] /\
     e_insdu (s_a s) = [] /\ e_insdu (s_b s) = [] /\
     e_mon (s_a s) = MonNone /\ e_mon (s_b s) = MonNone).
Proof. exact ertm_exactly_once_in_order. Qed.
Print Assumptions C08_ertm_exactly_once_in_order.

(* The I-frames ever sent are those acknowledged plus those in the transmit window, and
   the transmit window never holds more than the window the peer advertised. *)
Theorem C08_window_respected : forall mps_a win_a mps_b win_b sched,
  params_ok mps_a win_a mps_b win_b ->
  let s := run (sys_init mps_a win_a mps_b win_b) sched in
  (exists acked, 0 <= acked /\ e_lack (s_a s) = acked mod 64 /\
     zlen (ikeys (s_log_ab s)) = acked + zlen (e_txw (s_a s)) /\
     zlen (e_txw (s_a s)) <= win_b) /\
  (exists acked, 0 <= acked /\ e_lack (s_b s) = acked mod 64 /\
     zlen (ikeys (s_log_ba s)) = acked + zlen (e_txw (s_b s)) /\
     zlen (e_txw (s_b s)) <= win_a).
Proof. exact window_respected. Qed.
Print Assumptions C08_window_respected.

(* The i-th I-frame put on a channel carries TxSeq = i mod 64: no gap, no repetition. *)
Theorem C08_seq_mod64 : forall mps_a win_a mps_b win_b sched,
  params_ok mps_a win_a mps_b win_b ->
  let s := run (sys_init mps_a win_a mps_b win_b) sched in
  map tx_of (ikeys (s_log_ab s)) =
    map (fun i => Z.of_nat i mod 64) (seq 0 (length (ikeys (s_log_ab s)))) /\
  map tx_of (ikeys (s_log_ba s)) =
    map (fun i => Z.of_nat i mod 64) (seq 0 (length (ikeys (s_log_ba s)))).
Proof. exact seq_mod64. Qed.
Print Assumptions C08_seq_mod64.

(* The I-frames on a channel are, in order, a prefix of the numbered segment stream of
   the SDUs written (segmentation by the PEER's MPS; nothing retransmitted or invented). *)
Theorem C08_frames_are_segments : forall mps_a win_a mps_b win_b sched,
  params_ok mps_a win_a mps_b win_b ->
  let s := run (sys_init mps_a win_a mps_b win_b) sched in
  (exists rest, map pkey (number 0 (segs_of mps_b (writes_a sched))) = ikeys (s_log_ab s) ++ rest) /\
  (exists rest, map pkey (number 0 (segs_of mps_a (writes_b sched))) = ikeys (s_log_ba s) ++ rest).
Proof.
  intros mps_a win_a mps_b win_b sched H s.
  destruct (inv_reachable _ _ _ _ sched H) as [IA IB].
  destruct (run_params sched (sys_init mps_a win_a mps_b win_b)) as [[_ PA] [_ PB]].
  apply dinvE_stream in IA as [IA _]. apply dinvE_stream in IB as [IB _].
  rewrite PA in IA. rewrite PB in IB. split; [exact IA|exact IB].
Qed.
Print Assumptions C08_frames_are_segments.

(* Draining: from any reachable state, a run of deliveries (each enabled when taken, in any
   order) has at most measure(s) steps - 3 per queued pdu, 2 per I-frame or poll and 1 per
   other S-frame in flight - so once writing and timer firing stop the system is quiescent
   after finitely many deliveries, and there C08_ertm_exactly_once_in_order says every SDU
   written has been delivered, exactly once and in order. *)
Theorem C08_ertm_drains : forall mps_a win_a mps_b win_b sched more,
  params_ok mps_a win_a mps_b win_b ->
  let s := run (sys_init mps_a win_a mps_b win_b) sched in
  all_enabled s more -> zlen more <= measure s.
Proof. intros mps_a win_a mps_b win_b sched more _ s. apply drains_from. Qed.
Print Assumptions C08_ertm_drains.

(* The schedule on which the code stalled before fixes/D08t.patch: MPS 10, window 2, a
   100-byte SDU, the retransmission timer and then the monitor timer fire before the first
   acknowledgement arrives.  One poll (P=1), one answer (F=1), everything delivered. *)
Theorem C08_ertm_timer_recovers :
  let s := run (sys_init 10 2 10 2)
             ([WriteA (repeat 7 100); TimeoutRetxA; DeliverAB; DeliverAB; DeliverAB; TimeoutMonA]
              ++ repeat DeliverBA 3 ++ flat_map (fun _ => [DeliverAB; DeliverAB; DeliverBA; DeliverBA])
                                               (seq 0 4)) in
  quiescent s = true /\ s_sink_b s = [repeat 7 100] /\ e_mon (s_a s) = MonNone /\
  npolls (s_log_ab s) = 1 /\ nfinals (s_log_ba s) = 1.
Proof. vm_compute. repeat split. Qed.
Print Assumptions C08_ertm_timer_recovers.

(* ONE bumble endpoint against an arbitrary, possibly hostile, peer: whatever frames arrive
   (REJ, SREJ, RNR, polls, bogus acknowledgements, out-of-sequence or malformed I-frames -
   given as frames or as raw payloads), mixed in any order with local writes and timer
   firings, for any peer MPS >= 1 and ANY advertised window >= 0: the transmit window never
   exceeds the peer's window; the I-frames sent are a prefix of the numbered segment
   stream of the SDUs written, so TxSeq = i mod 64 without gap or repetition; the only
   supervisory frames sent are RR. *)
Theorem C08_ertm_foreign_peer_safe : forall pmps pwin ls,
  1 <= pmps -> 0 <= pwin ->
  let '(e, out, _) := erun (ep_init pmps pwin) ls in
  zlen (e_txw e) <= pwin /\
  (exists rest, map pkey (number 0 (segs_of pmps (ewrites ls))) = ikeys out ++ rest) /\
  map tx_of (ikeys out) = map (fun i => Z.of_nat i mod 64) (seq 0 (length (ikeys out))) /\
  Forall sframe_ok out.
Proof. exact ertm_foreign_peer_safe. Qed.
Print Assumptions C08_ertm_foreign_peer_safe.

(* Every frame either end ever sends is well formed (sequence numbers in 0..63, 16-bit SDU
   length on START frames, only RR supervisory frames) when SDUs are shorter than 65536
   bytes - with or without timers - so C08_wire_roundtrip applies to each of them. *)
Theorem C08_frames_wf : forall mps_a win_a mps_b win_b sched,
  sdus_small sched ->
  let s := run (sys_init mps_a win_a mps_b win_b) sched in
  Forall frame_wf (s_log_ab s) /\ Forall frame_wf (s_log_ba s).
Proof. exact frames_wf. Qed.
Print Assumptions C08_frames_wf.

(* Segmentation and reassembly: any SDU, any MPS >= 1 (also exact multiples of the MPS). *)
Theorem C08_segment_reassemble : forall mps w acc,
  1 <= mps -> reasm acc (segment mps w) = ([acc ++ w], []).
Proof. intros mps w acc H. exact (segment_reasm mps w acc H). Qed.
Print Assumptions C08_segment_reassemble.

Theorem C08_segment_le_mps : forall mps w,
  0 <= mps -> Forall (fun g => zlen (g_data g) <= mps) (segment mps w).
Proof. exact segment_le_mps. Qed.
Print Assumptions C08_segment_le_mps.

(* Basic mode: the sink followed by the channel content is what was written. *)
Theorem C08_basic_exact : forall sched,
  let s := brun (mkB [] []) sched in
  b_sink s ++ b_chan s = bwrites sched /\ (b_chan s = [] -> b_sink s = bwrites sched).
Proof. exact basic_exact. Qed.
Print Assumptions C08_basic_exact.

(* Wire format: with the same FCS setting at both ends the receiving channel hands its
   processor exactly the frame that was sent (the FCS is appended / stripped). *)
Theorem C08_wire_roundtrip : forall fcs cid f,
  frame_wf f -> 0 <= cid < 65536 -> zlen (enc_frame f) + 2 < 65536 ->
  match dec_pdu fcs (enc_pdu fcs cid (enc_frame f)) with
  | Some (c, payload) => c = cid /\ dec_frame payload = Some f
  | None => False
  end.
Proof. exact wire_roundtrip. Qed.
Print Assumptions C08_wire_roundtrip.

(* Basic mode on the wire: the PDU payload is the SDU, FCS appended / stripped. *)
Theorem C08_basic_wire_roundtrip : forall fcs cid sdu,
  0 <= cid < 65536 -> zlen sdu + 2 < 65536 ->
  dec_pdu fcs (enc_pdu fcs cid sdu) = Some (cid, sdu).
Proof. exact dec_enc_pdu. Qed.
Print Assumptions C08_basic_wire_roundtrip.

(* ... which is why set-up must leave both ends with the same FCS setting: *)
Theorem C08_wire_fcs_mismatch_refuted :
  exists f, frame_wf f /\
    match dec_pdu false (enc_pdu true 64 (enc_frame f)) with
    | Some (_, payload) => dec_frame payload <> Some f
    | None => True
    end.
Proof. exists (IFrame 0 0 UNSEG 0 [1; 2; 3] true). split; [cbn; lia|]. vm_compute. discriminate. Qed.
Print Assumptions C08_wire_fcs_mismatch_refuted.

(* Set-up, for all pairs of specs (mode, FCS requested, FCS option supported) with or
   without a server: every run of the two configuration machines has fewer than
   SETUP_BOUND deliveries; where no delivery is enabled both ends are OPEN in the same
   mode with the same FCS setting, each holding the peer's MTU and retransmission
   parameters, and connect() has returned - exactly when a server exists and the modes
   agree - and otherwise both ends are CLOSED, the acceptor's channel is gone and
   connect() has raised; in that case no end is OPEN at any point of the run. *)
Theorem C08_setup_agrees : forall sa sb srv n s',
  reach n (cinit sa sb srv) s' ->
  (n < SETUP_BOUND)%nat /\
  (succs s' = [] -> if expected_open sa sb srv then open_ok s' = true else closed_ok s' = true) /\
  (expected_open sa sb srv = false -> c_st (k_a s') <> OPEN /\ c_st (k_b s') <> OPEN).
Proof. exact setup_agrees. Qed.
Print Assumptions C08_setup_agrees.

(* "closed" above means: unregistered, connect() raised, state CLOSED - except that an
   INITIATOR that itself detected the mode mismatch is unregistered while still in
   WAIT_DISCONNECT and stays there (docs/C08.md, open question).  In every other failing
   set-up both state fields end CLOSED: *)
Theorem C08_setup_closed_strict : forall sa sb srv n s',
  reach n (cinit sa sb srv) s' -> ok_strict sa sb srv s' = true.
Proof. intros sa sb srv n s' H. apply (setup_explored _ _ _ _ _ H). Qed.
Print Assumptions C08_setup_closed_strict.

Theorem C08_setup_strict_closed_refuted :
  exists sched,
    let s := crun (cinit (mkSpec Basic false false) (mkSpec Ertm false false) true) sched in
    terminal s = true /\ closed_ok s = true /\ c_st (k_a s) = WAIT_DISCONNECT.
Proof. exists [DAB; DBA; DAB; DBA; DAB; DBA; DBA]. vm_compute. repeat split. Qed.
Print Assumptions C08_setup_strict_closed_refuted.

Theorem C08_setup_agrees_sched : forall sa sb srv sched,
  let s := crun (cinit sa sb srv) sched in
  terminal s = true -> good s = true.
Proof.
  intros sa sb srv sched s T. subst s. destruct (crun_reach sched (cinit sa sb srv)) as [n Hn].
  destruct (setup_agrees _ _ _ _ _ Hn) as (_ & Hg & _).
  specialize (Hg (terminal_no_succ _ T)). unfold good.
  destruct (expected_open sa sb srv); rewrite Hg; [reflexivity|apply orb_true_r].
Qed.
Print Assumptions C08_setup_agrees_sched.

(* CRC-16: the value the REAL utils.crc_16 returns on each of the 256 one-byte inputs
   (regenerated on every run) equals the bitwise definition, i.e. the byte-at-a-time
   table; and on the Core Specification's FCS examples. *)
Theorem C08_crc_table_matches_code : impl_crc_single = crc_table.
Proof. vm_compute. reflexivity. Qed.
Print Assumptions C08_crc_table_matches_code.

Theorem C08_crc_table_is_bitwise : forall i, 0 <= i < 256 ->
  nth (Z.to_nat i) crc_table 0 = crc16 [i].
Proof. exact crc_table_entries. Qed.
Print Assumptions C08_crc_table_is_bitwise.

Theorem C08_crc_vectors :
  forallb (fun v => crc16 (fst v) =? snd v) impl_crc_vectors = true.
Proof. vm_compute. reflexivity. Qed.
Print Assumptions C08_crc_vectors.

(* constants the model hard-codes, against the code's current values *)
Theorem C08_constants :
  impl_max_seq_num = MAX_SEQ_NUM /\
  impl_sar_codes = map sar_code [UNSEG; START; SEND; CONT] /\
  impl_sfunc_codes = [RR; REJ; RNR; SREJ] /\
  impl_frame_types = [0; 1] /\
  (* codes the harness's own signalling parser relies on *)
  impl_modes = [0; 3] /\ impl_option_types = [1; 4; 5] /\ impl_config_results = [0; 1] /\
  impl_min_br_edr_mtu = 48 /\ impl_fcs_option_feature = 32 /\
  impl_states = [0; 1; 2; 3; 4; 16; 17; 18; 19; 20; 23].
Proof. vm_compute. repeat split. Qed.
Print Assumptions C08_constants.

(* window 2, MPS 3: an 8-byte SDU (START, CONT, END) and a 3-byte one; A's third and
   fourth I-frames wait for the window *)
Example C08_nonvacuous_window :
  let s := run (sys_init 3 2 3 2) [WriteA [1;2;3;4;5;6;7;8]; WriteA [9;9;9]] in
  length (s_ab s) = 2%nat /\ length (e_pend (s_a s)) = 2%nat /\ params_ok 3 2 3 2.
Proof. vm_compute. repeat split; discriminate. Qed.

Example C08_nonvacuous_delivery :
  let s := run (sys_init 3 2 3 2)
             [WriteA [1;2;3;4;5;6;7;8]; WriteA [9;9;9]; DeliverAB; DeliverAB; DeliverBA;
              DeliverBA; DeliverAB; DeliverAB; DeliverBA; DeliverBA] in
  s_sink_b s = [[1;2;3;4;5;6;7;8]; [9;9;9]] /\ quiescent s = true.
Proof. vm_compute. split; reflexivity. Qed.

(* sequence numbers wrap: 70 one-byte segments *)
Example C08_nonvacuous_wrap :
  map p_tx (skipn 62 (fst (assign 0 (segment 1 (repeat 7 70))))) = [62; 63; 0; 1; 2; 3; 4; 5].
Proof. vm_compute. reflexivity. Qed.

(* a foreign peer: RNR stops the output, REJ (ignored but for its ReqSeq) resumes it, a
   bogus acknowledgement of 5 frames is ignored, a poll is answered with F=1 *)
Example C08_nonvacuous_foreign :
  let '(e, out, _) := erun (ep_init 2 2)
        [EWrite [1;2;3;4;5;6;7]; ERecv (SFrame RNR false false 1); ERecv (SFrame RR false false 5);
         ERecv (SFrame REJ false false 2); ERecv (SFrame RR true false 2)] in
  map tx_of (ikeys out) = [0; 1; 2; 3] /\ length (e_txw e) = 2%nat /\
  nfinals out = 1 /\ e_busy e = false.
Proof. vm_compute. repeat split. Qed.

(* hypotheses of C08_frames_wf / C08_wire_roundtrip are satisfiable: a START frame of a
   300-byte SDU, with FCS *)
Example C08_nonvacuous_wire :
  sdus_small [WriteA (repeat 1 300); DeliverAB; TimeoutRetxA] /\
  frame_wf (IFrame 5 63 START 300 [1; 2; 3] true) /\
  dec_pdu true (enc_pdu true 64 (enc_frame (IFrame 5 63 START 300 [1; 2; 3] true))) =
    Some (64, enc_frame (IFrame 5 63 START 300 [1; 2; 3] true)).
Proof. split; [cbn; lia|]. split; [cbn; lia|]. vm_compute. reflexivity. Qed.

(* FCS requested by A, B without the FCS option: ends OPEN/OPEN without FCS *)
Example C08_nonvacuous_setup_fcs :
  let s := crun (cinit (mkSpec Ertm true true) (mkSpec Ertm false false) true)
                [DAB; DBA; DBA; DAB; DAB; DBA; DBA; DAB; DAB; DBA; DAB; DBA] in
  terminal s = true /\ open_ok s = true /\ c_fcs (k_a s) = false.
Proof. vm_compute. repeat split. Qed.

From Coq Require Import String.
Open Scope string_scope.
(* The shape of the 38 functions the models were read from - every control-flow test,
   assignment, return / raise and non-logging call, in order, as canonical text
   (tools/translate/c08_shape.py), regenerated from the current source on every run -
   is the recorded reading Model/L2capShape.v.  So: the mod-64 arithmetic of
   _get_next_tx_seq / on_pdu / _update_ack_seq, the window subtraction and the two guards
   of _process_output, the SAR selection tests of send_sdu, the place where
   _update_ack_seq is called, the RR emission test, the P/F handling, the control-field
   shifts and masks, the span of the FCS, the states each configuration handler moves to
   and the options it sends are what the models say they are.  A failure names the function,
   the line index and both texts. *)
Theorem C08_shape_matches_source : src_shape = model_shape.
Proof. apply shape_diff_sound. vm_compute. reflexivity. Qed.
Print Assumptions C08_shape_matches_source.
