(* Proofs about Model/Link.v (property C06): Python-dict tables, handle allocation, the
   per-controller table invariant [cinv] and address discipline [ainv], the invariant [ginv] of
   states reachable without address changes, then routing of ACL data, connection establishment,
   disconnection and per-pair FIFO order of the link. *)
From Coq Require Import ZArith List Bool Lia Arith FinFun.
From BV Require Import Model.Link.
Import ListNotations.
Open Scope Z_scope.

Definition keys_nodup (t : list conn) : Prop := NoDup (map k_peer t).

Lemma tbl_get_in : forall t p k, tbl_get t p = Some k -> In k t /\ k_peer k = p.
Proof.
  induction t as [|k0 t IH]; simpl; intros p k H; [discriminate|].
  destruct (Z.eqb_spec (k_peer k0) p).
  - inversion H; subst. auto.
  - destruct (IH _ _ H). auto.
Qed.

Lemma tbl_get_none : forall t p, tbl_get t p = None -> forall k, In k t -> k_peer k <> p.
Proof.
  induction t as [|k0 t IH]; simpl; intros p H k Hin; [contradiction|].
  destruct (Z.eqb_spec (k_peer k0) p); [discriminate|]. destruct Hin as [<-|Hin]; eauto.
Qed.

Lemma tbl_get_of_in : forall t k, keys_nodup t -> In k t -> tbl_get t (k_peer k) = Some k.
Proof.
  unfold keys_nodup. induction t as [|k0 t IH]; simpl; intros k Hnd Hin; [contradiction|].
  inversion Hnd as [|? ? Hni Hnd']; subst.
  destruct Hin as [->|Hin]; [now rewrite Z.eqb_refl|].
  destruct (Z.eqb_spec (k_peer k0) (k_peer k)) as [E|E]; [|auto].
  exfalso. apply Hni. rewrite E. now apply in_map.
Qed.

Lemma tbl_set_in_weak : forall t k x, In x (tbl_set t k) -> x = k \/ In x t.
Proof.
  induction t as [|k0 t IH]; simpl; intros k x H; [destruct H as [<-|[]]; auto|].
  destruct (k_peer k0 =? k_peer k); destruct H as [<-|H]; auto. destruct (IH _ _ H); auto.
Qed.

Lemma tbl_set_has : forall t k, In k (tbl_set t k).
Proof.
  induction t as [|k0 t IH]; simpl; intros k; [now left|].
  destruct (k_peer k0 =? k_peer k); [now left | right; apply IH].
Qed.

Lemma tbl_set_keeps : forall t k x, In x t -> k_peer x <> k_peer k -> In x (tbl_set t k).
Proof.
  induction t as [|k0 t IH]; simpl; intros k x H Hne; [contradiction|].
  destruct (Z.eqb_spec (k_peer k0) (k_peer k)); destruct H as [<-|H]; simpl; auto. contradiction.
Qed.

Lemma tbl_set_keys : forall t k p, In p (map k_peer (tbl_set t k)) <-> p = k_peer k \/ In p (map k_peer t).
Proof.
  induction t as [|k0 t IH]; simpl; intros k p; [intuition|].
  destruct (Z.eqb_spec (k_peer k0) (k_peer k)) as [E|E]; simpl; [rewrite E | rewrite IH]; intuition.
Qed.

Lemma tbl_set_nodup : forall t k, keys_nodup t -> keys_nodup (tbl_set t k).
Proof.
  unfold keys_nodup. induction t as [|k0 t IH]; simpl; intros k H; [repeat constructor; intros []|].
  inversion H as [|? ? Hni Hnd]; subst.
  destruct (Z.eqb_spec (k_peer k0) (k_peer k)) as [E|E]; simpl; constructor; auto; [now rewrite <- E|].
  rewrite tbl_set_keys. intros [Heq|Hin]; congruence.
Qed.

Lemma tbl_set_in_nodup : forall t k x, keys_nodup t -> In x (tbl_set t k) ->
  x = k \/ (In x t /\ k_peer x <> k_peer k).
Proof.
  unfold keys_nodup. induction t as [|k0 t IH]; simpl; intros k x Hnd H; [destruct H as [<-|[]]; auto|].
  inversion Hnd as [|? ? Hni Hnd']; subst.
  destruct (Z.eqb_spec (k_peer k0) (k_peer k)) as [E|E]; destruct H as [<-|H]; auto.
  - right. split; [now right|]. intro Heq. apply Hni. rewrite E, <- Heq. now apply in_map.
  - destruct (IH _ _ Hnd' H) as [->|[Hin Hne]]; auto.
Qed.

Lemma tbl_get_set_same : forall t k, tbl_get (tbl_set t k) (k_peer k) = Some k.
Proof.
  induction t as [|k0 t IH]; simpl; intros k; [now rewrite Z.eqb_refl|].
  destruct (k_peer k0 =? k_peer k) eqn:E; simpl; [now rewrite Z.eqb_refl | now rewrite E].
Qed.

Lemma tbl_get_set_other : forall t k p, p <> k_peer k -> tbl_get (tbl_set t k) p = tbl_get t p.
Proof.
  induction t as [|k0 t IH]; simpl; intros k p Hne.
  - destruct (Z.eqb_spec (k_peer k) p); congruence.
  - destruct (Z.eqb_spec (k_peer k0) (k_peer k)) as [E|E]; simpl.
    + destruct (Z.eqb_spec (k_peer k) p); [congruence|]. destruct (Z.eqb_spec (k_peer k0) p); congruence.
    + destruct (k_peer k0 =? p); auto.
Qed.

Lemma tbl_del_in : forall t p x, In x (tbl_del t p) -> In x t.
Proof.
  induction t as [|k0 t IH]; simpl; intros p x H; [contradiction|].
  destruct (k_peer k0 =? p); [now right|]. destruct H as [<-|H]; eauto.
Qed.

Lemma tbl_del_nodup : forall t p, keys_nodup t -> keys_nodup (tbl_del t p).
Proof.
  unfold keys_nodup. induction t as [|k0 t IH]; simpl; intros p H; [constructor|].
  inversion H as [|? ? Hni Hnd]; subst.
  destruct (k_peer k0 =? p); [assumption|]. simpl. constructor; [|now apply IH].
  intro Hin. apply Hni. apply in_map_iff in Hin. destruct Hin as [x [Hx Hin]].
  apply in_map_iff. exists x. split; [assumption | eapply tbl_del_in; eassumption].
Qed.

Lemma tbl_del_gone : forall t p, keys_nodup t -> tbl_get (tbl_del t p) p = None.
Proof.
  unfold keys_nodup. induction t as [|k0 t IH]; simpl; intros p H; [reflexivity|].
  inversion H as [|? ? Hni Hnd]; subst.
  destruct (Z.eqb_spec (k_peer k0) p) as [<-|E].
  - destruct (tbl_get t (k_peer k0)) eqn:G; [|reflexivity].
    apply tbl_get_in in G. destruct G as [Hin Hk]. exfalso. apply Hni. rewrite <- Hk. now apply in_map.
  - simpl. destruct (Z.eqb_spec (k_peer k0) p); [contradiction | now apply IH].
Qed.

Lemma tbl_del_other : forall t p q, q <> p -> tbl_get (tbl_del t p) q = tbl_get t q.
Proof.
  induction t as [|k0 t IH]; simpl; intros p q Hne; [reflexivity|].
  destruct (Z.eqb_spec (k_peer k0) p) as [E|E]; simpl.
  - destruct (Z.eqb_spec (k_peer k0) q); congruence.
  - destruct (k_peer k0 =? q); auto.
Qed.

Lemma tbl_del_keeps : forall t p x, In x t -> k_peer x <> p -> In x (tbl_del t p).
Proof.
  induction t as [|k0 t IH]; simpl; intros p x H Hne; [contradiction|].
  destruct (Z.eqb_spec (k_peer k0) p); destruct H as [<-|H]; simpl; auto. contradiction.
Qed.

Lemma by_handle_in : forall t h k, by_handle t h = Some k -> In k t /\ k_handle k = h.
Proof.
  induction t as [|k0 t IH]; simpl; intros h k H; [discriminate|].
  destruct (Z.eqb_spec (k_handle k0) h).
  - inversion H; subst. auto.
  - destruct (IH _ _ H). auto.
Qed.

Lemma by_handle_none : forall t h, by_handle t h = None -> forall k, In k t -> k_handle k <> h.
Proof.
  induction t as [|k0 t IH]; simpl; intros h H k Hin; [contradiction|].
  destruct (Z.eqb_spec (k_handle k0) h); [discriminate|]. destruct Hin as [<-|Hin]; eauto.
Qed.

Lemma zmem_in : forall x l, zmem x l = true <-> In x l.
Proof.
  unfold zmem. intros x l. rewrite existsb_exists. split.
  - intros [y [Hin E]]. apply Z.eqb_eq in E. now subst.
  - intros H. exists x. split; [assumption | apply Z.eqb_refl].
Qed.

Lemma first_free_spec : forall fuel h used r,
  first_free fuel h used = Some r ->
  ~ In r used /\ h <= r < h + Z.of_nat fuel /\ (forall x, h <= x < r -> In x used).
Proof.
  induction fuel as [|f IH]; simpl; intros h used r H; [discriminate|].
  destruct (zmem h used) eqn:E.
  - apply IH in H. destruct H as [Hni [Hr Hall]]. split; [assumption|]. split; [lia|].
    intros x Hx. destruct (Z.eq_dec x h) as [->|Hne]; [now apply zmem_in | apply Hall; lia].
  - inversion H; subst. split; [intro Hin; apply zmem_in in Hin; congruence|]. split; [lia|]. intros x Hx. lia.
Qed.

(* Controller.allocate_connection_handle returns the smallest handle in 1..0xEFF that no
   link of this controller (LE, BR/EDR, SCO, CIS) uses. *)
Theorem alloc_spec : forall c h, alloc c = Some h ->
  ~ In h (handles c) /\ 1 <= h <= max_handle /\ (forall x, 1 <= x < h -> In x (handles c)).
Proof.
  unfold alloc. intros c h H. apply first_free_spec in H. destruct H as [H1 [H2 H3]].
  split; [assumption|]. split; [|assumption].
  rewrite Z2Nat.id in H2 by (unfold max_handle; lia). lia.
Qed.

Lemma upd_length : forall cs i c, length (upd cs i c) = length cs.
Proof. induction cs as [|c0 cs IH]; destruct i; simpl; intros; auto. Qed.

Lemma nth_upd_same : forall cs i c, (i < length cs)%nat -> nth_error (upd cs i c) i = Some c.
Proof.
  induction cs as [|c0 cs IH]; destruct i; simpl; intros c H; try lia; [reflexivity|].
  apply IH. lia.
Qed.

Lemma nth_upd_other : forall cs i j c, i <> j -> nth_error (upd cs i c) j = nth_error cs j.
Proof.
  induction cs as [|c0 cs IH]; destruct i, j; simpl; intros c H; try reflexivity; try congruence.
  apply IH. congruence.
Qed.

Lemma nth_error_lt : forall {A} (l : list A) i x, nth_error l i = Some x -> (i < length l)%nat.
Proof. intros A l i x H. apply nth_error_Some. congruence. Qed.

Lemma nth_upd : forall cs i j c c0, nth_error cs i = Some c0 ->
  nth_error (upd cs i c) j = if Nat.eqb i j then Some c else nth_error cs j.
Proof.
  intros cs i j c c0 H. destruct (Nat.eqb i j) eqn:E.
  - apply Nat.eqb_eq in E. subst j. apply nth_upd_same. eapply nth_error_lt; eassumption.
  - apply Nat.eqb_neq in E. now apply nth_upd_other.
Qed.

Inductive step_kind (s : state) (l : label) (s' : state) (evs : list (nat * ev)) (out : list packet) : Prop :=
| SkStutter : s' = s -> evs = [] -> out = [] -> step_kind s l s' evs out
| SkLocal : forall i c c' e,
    label_ctrl l = Some i -> nth_error (st_cs s) i = Some c ->
    local (st_cs s) (length (st_cs s)) i c l = (c', e, out) ->
    s' = mkState (upd (st_cs s) i c') (st_net s ++ out) -> evs = tag i e ->
    step_kind s l s' evs out
| SkDeliver : forall k src dst m c c' e,
    l = LDeliver k -> nth_error (st_net s) k = Some (src, dst, m) ->
    existsb (same_pair src dst) (firstn k (st_net s)) = false ->
    nth_error (st_cs s) dst = Some c ->
    on_message (st_cs s) (length (st_cs s)) dst c m = (c', e, out) ->
    s' = mkState (upd (st_cs s) dst c') (remove_nth k (st_net s) ++ out) -> evs = tag dst e ->
    step_kind s l s' evs out
| SkLost : forall k src dst m,
    l = LDeliver k -> nth_error (st_net s) k = Some (src, dst, m) ->
    nth_error (st_cs s) dst = None ->
    s' = mkState (st_cs s) (remove_nth k (st_net s)) -> evs = [] -> out = [] ->
    step_kind s l s' evs out.

Lemma step_shape : forall s l s' evs out, step s l = (s', evs, out) -> step_kind s l s' evs out.
Proof.
  intros s l s' evs out H.
  assert (Hloc : forall i, label_ctrl l = Some i ->
            match nth_error (st_cs s) i with
            | None => (s, [], [])
            | Some c => let '(c', e, o) := local (st_cs s) (length (st_cs s)) i c l in
                        (mkState (upd (st_cs s) i c') (st_net s ++ o), tag i e, o)
            end = (s', evs, out) -> step_kind s l s' evs out).
  { intros i Hi Hm. destruct (nth_error (st_cs s) i) as [c|] eqn:Hc.
    - destruct (local (st_cs s) (length (st_cs s)) i c l) as [[c' e] o] eqn:Hl.
      inversion Hm; subst. eapply SkLocal; eauto.
    - inversion Hm; subst. now apply SkStutter. }
  destruct l; try (unfold step in H; simpl label_ctrl in H; apply (Hloc i); [reflexivity | exact H]).
  unfold step in H.
  destruct (nth_error (st_net s) k) as [[[src dst] m]|] eqn:Hk.
  - destruct (existsb (same_pair src dst) (firstn k (st_net s))) eqn:Hb.
    + inversion H; subst. now apply SkStutter.
    + destruct (nth_error (st_cs s) dst) as [c|] eqn:Hc.
      * destruct (on_message (st_cs s) (length (st_cs s)) dst c m) as [[c' e] o] eqn:Hm.
        inversion H; subst. eapply SkDeliver; eauto.
      * inversion H; subst. eapply SkLost; eauto.
  - inversion H; subst. now apply SkStutter.
Qed.

(* The next three are used together, on a hypothesis H : handler ... = (c', e, o), where a fact is
   read off every branch of the handlers (local_events, message_events, local_sends and the like).
   break_all: destruct, with its equation, every [match] scrutinee in the context, until none is left. *)
Ltac break_all :=
  repeat match goal with
  | H : context [match ?x with _ => _ end] |- _ => destruct x eqn:?
  end.
(* inv_pairs: invert every equation between tuples, so H yields c', e, o of the branch. *)
Ltac inv_pairs :=
  repeat match goal with
  | H : (_, _) = (_, _) |- _ => inversion H; subst; clear H
  end.
(* unfold_handlers H: unfold in H every handler that [local] and [on_message] call, to expose their branches. *)
Ltac unfold_handlers H :=
  unfold tick, ext_tick, send_acl, conn_by_handle, disconnect, cl_connect, cl_accept, classic_complete,
         on_adv, create_le_connection, on_connect_ind, on_terminate, on_acl, on_lmp_conn_req,
         on_lmp_accepted, on_lmp_detach, classic_complete, sco_setup, sco_accept, sco_complete, set_cig,
         on_lmp_esco_req, on_lmp_accepted_esco, on_lmp_remove_sco in H;
  unfold sco_complete, classic_complete, refuse in H.

Fixpoint count (h : Z) (l : list Z) : nat :=
  match l with
  | [] => O
  | x :: l' => ((if Z.eqb x h then 1 else 0) + count h l')%nat
  end.

Lemma count_app : forall h l1 l2, count h (l1 ++ l2) = (count h l1 + count h l2)%nat.
Proof. induction l1; simpl; intros; [reflexivity | rewrite IHl1; lia]. Qed.

Lemma count_zero_notin : forall h l, ~ In h l -> count h l = O.
Proof.
  induction l as [|x l IH]; simpl; intros H; [reflexivity|].
  destruct (x =? h) eqn:E; [apply Z.eqb_eq in E; exfalso; apply H; now left|].
  rewrite IH; [reflexivity | intro; apply H; now right].
Qed.

Lemma count_pos_in : forall h l, In h l -> (1 <= count h l)%nat.
Proof.
  induction l as [|x l IH]; simpl; intros H; [contradiction|].
  destruct H as [->|H]; [rewrite Z.eqb_refl; lia | specialize (IH H); lia].
Qed.

Lemma count_set : forall t k h,
  (count h (map k_handle (tbl_set t k)) <= count h (map k_handle t) + (if Z.eqb (k_handle k) h then 1 else 0))%nat.
Proof.
  induction t as [|k0 t IH]; simpl; intros k h; [lia|].
  destruct (k_peer k0 =? k_peer k); simpl; [lia|]. specialize (IH k h). lia.
Qed.

Lemma count_del : forall t p h, (count h (map k_handle (tbl_del t p)) <= count h (map k_handle t))%nat.
Proof.
  induction t as [|k0 t IH]; simpl; intros p h; [lia|].
  destruct (k_peer k0 =? p); simpl; [lia|]. specialize (IH p h). lia.
Qed.

Lemma by_handle_absent : forall t h, count h (map k_handle t) = O -> by_handle t h = None.
Proof.
  induction t as [|k0 t IH]; simpl; intros h H; [reflexivity|].
  destruct (k_handle k0 =? h); [discriminate | auto].
Qed.

Lemma by_handle_unique : forall t k, In k t -> (count (k_handle k) (map k_handle t) <= 1)%nat ->
  by_handle t (k_handle k) = Some k.
Proof.
  induction t as [|k0 t IH]; simpl; intros k Hk Hc; [contradiction|].
  destruct (Z.eqb_spec (k_handle k0) (k_handle k)) as [E|E].
  - destruct Hk as [->|Hk]; [reflexivity|]. apply (in_map k_handle), count_pos_in in Hk. lia.
  - destruct Hk as [->|Hk]; [congruence | auto].
Qed.

Record cinv (c : ctrl) : Prop := mkCinv {
  ci_le_keys : keys_nodup (c_le c);
  ci_cl_keys : keys_nodup (c_cl c);
  ci_le_pos : forall k, In k (c_le c) -> 1 <= k_handle k;
  ci_cl_nonneg : forall k, In k (c_cl c) -> 0 <= k_handle k;
  ci_sco_keys : keys_nodup (c_sco c);
  ci_sco_nonneg : forall k, In k (c_sco c) -> 0 <= k_handle k;
  ci_cis_pos : forall x, In x (c_cis c) -> 1 <= cis_handle x;
  ci_distinct : forall h, h <> 0 -> (count h (handles c) <= 1)%nat
}.

Lemma cinv_new : forall p r x, cinv (new_ctrl p r x).
Proof.
  intros. constructor; simpl; try (intros; contradiction); try constructor.
  intros; unfold handles; simpl; lia.
Qed.

Lemma count_filter_le : forall (f : Z * Z * Z -> bool) l h,
  (count h (map cis_handle (filter f l)) <= count h (map cis_handle l))%nat.
Proof.
  induction l as [|x l IH]; simpl; intros h; [lia|]. specialize (IH h).
  destruct (f x); simpl; lia.
Qed.

(* by_counts H: split [count h (handles _)] table by table, add the count fact H about the table that
   changed, and conclude by lia; used for each update in prim_cinv. *)
Ltac by_counts H := (unfold handles; simpl; rewrite ?map_app, !count_app; pose proof H; simpl; lia).

(* handles stay distinct when an update adds at most one handle x to those in use, and x is
   the placeholder 0 or freshly allocated *)
Lemma distinct_step : forall c l x, cinv c -> x = 0 \/ alloc c = Some x ->
  (forall h, (count h l <= count h (handles c) + (if Z.eqb x h then 1 else 0))%nat) ->
  forall h, h <> 0 -> (count h l <= 1)%nat.
Proof.
  intros c l x I Hx Hl h Hh. specialize (Hl h). pose proof (ci_distinct c I h Hh).
  destruct (Z.eqb_spec x h) as [->|]; [|lia]. destruct Hx as [->|Ha]; [congruence|].
  apply alloc_spec in Ha. rewrite (count_zero_notin _ _ (proj1 Ha)) in Hl. lia.
Qed.

Lemma cinv_same_tables : forall c c', c_le c' = c_le c -> c_cl c' = c_cl c -> c_sco c' = c_sco c ->
  c_cis c' = c_cis c -> cinv c -> cinv c'.
Proof.
  intros c c' H1 H2 H3 H4 I. destruct I. constructor; unfold handles in *; rewrite ?H1, ?H2, ?H3, ?H4; auto.
Qed.

Definition owns (c : ctrl) (a : Z) : Prop := a = c_public c \/ a = c_random c.

Record ainv (c : ctrl) : Prop := mkAinv {
  ai_self : forall k, In k (c_le c) -> owns c (k_self k);
  ai_sets : forall s, In s (c_sets c) -> a_random s = None \/ a_random s = Some (c_random c)
}.

Definition addr_same (c c' : ctrl) : Prop := c_public c' = c_public c /\ c_random c' = c_random c.

Lemma owns_same : forall c c' a, addr_same c c' -> (owns c' a <-> owns c a).
Proof. unfold addr_same, owns. intros c c' a [-> ->]. tauto. Qed.

Lemma addr_same_refl : forall c, addr_same c c.
Proof. split; reflexivity. Qed.
#[export] Hint Resolve addr_same_refl : core.

Definition msg_ok (c : ctrl) (m : msg) : Prop :=
  match m with
  | MAdv a _ _ | MConnInd a _ | MTerm a _ | MAcl a true _ => owns c a
  | MAcl a false _ | MLmpConnReq a | MLmpAccepted a | MLmpDetach a _
  | MLmpEscoReq a | MLmpAcceptedEsco a | MLmpRemoveSco a _ => a = c_public c
  end.

Lemma msg_ok_same : forall c c' m, addr_same c c' -> msg_ok c m -> msg_ok c' m.
Proof.
  intros c c' m H. pose proof (fun a => owns_same c c' a H) as Ho. destruct H as [Hp Hr].
  destruct m; simpl; try (intros; apply Ho; assumption); try (intros ->; congruence).
  destruct le; [intros; apply Ho; assumption | intros ->; congruence].
Qed.

Lemma set_get_in : forall l h s, set_get l h = Some s -> In s l /\ a_handle s = h.
Proof.
  induction l as [|s0 l IH]; simpl; intros h s H; [discriminate|].
  destruct (a_handle s0 =? h) eqn:E.
  - inversion H; subst. split; [now left | now apply Z.eqb_eq].
  - destruct (IH _ _ H). split; [now right | assumption].
Qed.

Lemma set_put_in : forall l s x, In x (set_put l s) -> x = s \/ In x l.
Proof.
  induction l as [|s0 l IH]; simpl; intros s x H.
  - destruct H as [<-|[]]. now left.
  - destruct (a_handle s0 =? a_handle s).
    + destruct H as [<-|H]; [now left | right; now right].
    + destruct H as [<-|H]; [right; now left|]. destruct (IH _ _ H); [now left | right; now right].
Qed.

Lemma set_del_in : forall l h x, In x (set_del l h) -> In x l.
Proof.
  induction l as [|s0 l IH]; simpl; intros h x H; [contradiction|].
  destruct (a_handle s0 =? h); [now right|]. destruct H as [<-|H]; [now left | right; eauto].
Qed.

Lemma find_set_in : forall c l adv s, find_set c l adv = Some s ->
  In s l /\ set_address c s = Some adv /\ a_enabled s = true.
Proof.
  induction l as [|s0 l IH]; simpl; intros adv s H; [discriminate|].
  destruct (andb (opt_eqb (set_address c s0) adv) (a_enabled s0)) eqn:E.
  - inversion H; subst. apply andb_true_iff in E. destruct E as [E1 E2].
    split; [now left|]. split; [|assumption].
    unfold opt_eqb in E1. destruct (set_address c s); [|discriminate]. apply Z.eqb_eq in E1. now subst.
  - destruct (IH _ _ H) as [? ?]. split; [now right | assumption].
Qed.

(* [claims c] lists the addresses controller c uses; under [ainv] they are all its own *)
Lemma in_set_randoms : forall c a, In a (set_randoms c) <-> exists s, In s (c_sets c) /\ a_random s = Some a.
Proof.
  unfold set_randoms. intros c a. rewrite in_flat_map. split.
  - intros [s [Hs Ha]]. exists s. split; [assumption|]. destruct (a_random s); [|contradiction].
    destruct Ha as [->|[]]. reflexivity.
  - intros [s [Hs Ha]]. exists s. split; [assumption|]. rewrite Ha. now left.
Qed.

Lemma in_claims : forall c a, In a (claims c) <->
  a = c_public c \/ a = c_random c \/ In a (set_randoms c) \/ exists k, In k (c_le c) /\ k_self k = a.
Proof.
  intros c a. unfold claims. simpl. rewrite in_app_iff, in_map_iff.
  split; intros [H|[H|[H|[k [H1 H2]]]]]; eauto 6.
Qed.

Lemma set_address_claimed : forall c s a, In s (c_sets c) -> set_address c s = Some a -> In a (claims c).
Proof.
  unfold set_address. intros c s a Hs H. apply in_claims. destruct (a_params s) as [[|]|]; [| |discriminate].
  - inversion H. now left.
  - right. right. left. apply in_set_randoms. eauto.
Qed.

Lemma claims_owned : forall c a, ainv c -> In a (claims c) -> owns c a.
Proof.
  intros c a I H. apply in_claims in H. destruct H as [H|[H|[H|[k [Hk <-]]]]]; [now left | now right | |].
  - apply in_set_randoms in H. destruct H as [s [Hs Ha]].
    destruct (ai_sets c I s Hs) as [E|E]; rewrite E in Ha; [discriminate|]. inversion Ha. now right.
  - exact (ai_self c I k Hk).
Qed.

Lemma set_address_owns : forall c s a, ainv c -> In s (c_sets c) -> set_address c s = Some a -> owns c a.
Proof. intros c s a I Hs H. eapply claims_owned, set_address_claimed; eauto. Qed.

Lemma own_address_owns : forall c a, ainv c -> own_address c a = true -> owns c a.
Proof.
  unfold own_address. intros c a I H. apply orb_true_iff in H. destruct H as [H|H].
  - apply orb_true_iff in H. destruct H as [H|H]; apply Z.eqb_eq in H; [now left | now right].
  - apply existsb_exists in H. destruct H as [s [Hs Ha]]. unfold opt_eqb in Ha.
    destruct (set_address c s) as [x|] eqn:E; [|discriminate]. apply Z.eqb_eq in Ha. subst x.
    eapply set_address_owns; eauto.
Qed.

(* the address a label newly gives to its controller *)
Definition new_addr (l : label) : option Z :=
  match l with
  | LSetRandom _ a | LExtRandom _ _ a => Some a
  | _ => None
  end.

(* the random address r of an advertising set is one that a set of c had already, or the new one *)
Definition known (na : option Z) (c : ctrl) (r : option Z) : Prop :=
  forall x, r = Some x -> In x (set_randoms c) \/ na = Some x.

Definition same_links (c c' : ctrl) : Prop :=
  c_public c' = c_public c /\ c_random c' = c_random c /\ c_sets c' = c_sets c /\
  c_le c' = c_le c /\ c_cl c' = c_cl c /\ c_sco c' = c_sco c /\ c_cis c' = c_cis c.

(* Every handler takes its controller through a sequence of these updates ([evolves]), where na
   is the new address of the label, if any.  A new table entry carries a freshly allocated
   handle (or, in the BR/EDR and SCO tables, the placeholder 0) and, in the LE table, an own
   address the controller uses already.  Each invariant is checked once, against this list. *)
Inductive prim (na : option Z) (c : ctrl) : ctrl -> Prop :=
| p_frame c' : same_links c c' -> prim na c c'
| p_le_set k : alloc c = Some (k_handle k) -> In (k_self k) (claims c) -> prim na c (set_le c (tbl_set (c_le c) k))
| p_le_del p : prim na c (set_le c (tbl_del (c_le c) p))
| p_cl_set k : k_handle k = 0 \/ alloc c = Some (k_handle k) -> prim na c (set_cl c (tbl_set (c_cl c) k))
| p_cl_del p : prim na c (set_cl c (tbl_del (c_cl c) p))
| p_sco_set k : k_handle k = 0 \/ alloc c = Some (k_handle k) -> prim na c (set_sco c (tbl_set (c_sco c) k))
| p_sco_del p : prim na c (set_sco c (tbl_del (c_sco c) p))
| p_cis_filter f : prim na c (set_cis c (filter f (c_cis c)))
| p_cis_add h cig x : alloc c = Some h -> prim na c (set_cis c (c_cis c ++ [(h, cig, x)]))
| p_sets sets : (forall s, In s sets -> known na c (a_random s)) -> prim na c (set_sets c sets)
| p_random a : na = Some a -> prim na c (set_random c a).

Inductive evolves (na : option Z) (c : ctrl) : ctrl -> Prop :=
| ev_refl : evolves na c c
| ev_step c1 c' : prim na c c1 -> evolves na c1 c' -> evolves na c c'.

Lemma ev_one : forall na c c', prim na c c' -> evolves na c c'.
Proof. intros na c c' H. exact (ev_step na c c' c' H (ev_refl na c')). Qed.

Lemma known_old : forall na c s, In s (c_sets c) -> known na c (a_random s).
Proof. intros na c s Hs x Hx. left. apply in_set_randoms. eauto. Qed.

Lemma p_put : forall na c s, known na c (a_random s) -> prim na c (set_sets c (set_put (c_sets c) s)).
Proof.
  intros na c s H. apply p_sets. intros s0 H0. apply set_put_in in H0. destruct H0 as [->|H0]; [exact H | now apply known_old].
Qed.

(* frame: the new controller differs from the old in none of the fields of [same_links] (all seven
   equations hold by computation); used in local_evolves and message_evolves. *)
Ltac frame := solve [apply ev_one, p_frame; repeat split].

Lemma classic_complete_evolves : forall na c p c' e, classic_complete c p = (c', e) -> evolves na c c'.
Proof.
  unfold classic_complete. intros na c p c' e H. destruct (alloc c) as [h|] eqn:Ha; [|inversion H; apply ev_refl].
  destruct (tbl_get (c_cl c) p); inversion H; apply ev_one, p_cl_set; now right.
Qed.

Lemma sco_complete_evolves : forall na c p c' e, sco_complete c p = (c', e) -> evolves na c c'.
Proof.
  unfold sco_complete. intros na c p c' e H.
  destruct (alloc c) as [h|] eqn:Ha; inversion H; [apply ev_one, p_sco_set; now right | apply ev_refl].
Qed.

Lemma add_cis_evolves : forall na cis c cig c' hs ok, add_cis c cig cis = (c', hs, ok) -> evolves na c c'.
Proof.
  induction cis as [|x cis IH]; simpl; intros c cig c' hs ok H; [inversion H; apply ev_refl|].
  destruct (alloc c) as [h|] eqn:Ha; [|inversion H; apply ev_refl].
  destruct (add_cis (set_cis c (c_cis c ++ [(h, cig, x)])) cig cis) as [[c1 hs1] ok1] eqn:Hr.
  inversion H; subst. exact (ev_step _ _ _ _ (p_cis_add _ _ h cig x Ha) (IH _ _ _ _ _ Hr)).
Qed.

Lemma disconnect_cases : forall cs i c h r c' e o, disconnect cs i c h r = (c', e, o) ->
  c' = c \/ (exists k, c' = set_cl c (tbl_del (c_cl c) (k_peer k)))
  \/ (exists k, c' = set_le c (tbl_del (c_le c) (k_peer k)))
  \/ (exists k, c' = set_sco c (tbl_del (c_sco c) (k_peer k))).
Proof.
  intros cs i c h r c' e o H. unfold disconnect in H.
  destruct (conn_by_handle c h); destruct (by_handle (c_cl c) h); destruct (by_handle (c_le c) h);
    destruct (by_handle (c_sco c) h); inversion H; subst; eauto 6.
Qed.

(* Controller.on_advertising_pdu: the scan reports, and then either the pending connection to
   this advertiser is made, or nothing changes (at most the handle generator runs dry) *)
Definition adv_reports (c : ctrl) (adv : Z) (data srsp : bytes) : list ev :=
  if c_scan c then EAdvReport (c_extrep c) false adv data ::
                   (if c_active c then [EAdvReport (c_extrep c) true adv srsp] else []) else [].

Lemma on_adv_cases : forall n i c adv data srsp,
  (exists own h, c_pending c = Some (adv, own) /\ tbl_get (c_le c) adv = None /\ alloc c = Some h /\
     let self := if own then c_public c else c_random c in
     on_adv n i c adv data srsp =
       (set_pending (set_le c (tbl_set (c_le c) (mkConn adv self h true))) None,
        adv_reports c adv data srsp ++ [ELeConn h true adv], broadcast n i (MConnInd self adv))) \/
  (exists x, (x = [] \/ x = [EError 1]) /\
     on_adv n i c adv data srsp = (c, adv_reports c adv data srsp ++ x, [])).
Proof.
  intros n i c adv data srsp. unfold on_adv, create_le_connection. fold (adv_reports c adv data srsp).
  assert (Hq : forall r : list ev, exists x, (x = [] \/ x = [EError 1]) /\ (c, r, @nil packet) = (c, r ++ x, []))
    by (intros r; exists []; now rewrite app_nil_r; auto).
  destruct (c_pending c) as [[peer own]|]; [|right; apply Hq].
  destruct (Z.eqb_spec peer adv) as [->|]; [|right; apply Hq].
  destruct (tbl_get (c_le c) adv); [right; exists []; auto|].
  destruct (alloc c) as [h|]; [left; exists own, h; auto | right; exists [EError 1]; auto].
Qed.

Lemma message_evolves : forall cs n j c m c' e o, on_message cs n j c m = (c', e, o) -> evolves None c c'.
Proof.
  intros cs n j c m c' e o H. destruct m; simpl in H.
  - destruct (on_adv_cases n j c adv data srsp) as [(own & h & _ & _ & Ha & E)|(x & _ & E)];
      rewrite E in H; inversion H; [|apply ev_refl].
    eapply ev_step; [apply (p_le_set _ _ (mkConn adv (if own then c_public c else c_random c) h true) Ha) | frame].
    destruct own; simpl; auto.
  - unfold on_connect_ind in H. destruct (andb (leg_address c =? adv) (c_leg_enabled c)) eqn:E.
    + destruct (alloc c) as [h|] eqn:Ha; inversion H; [|apply ev_refl].
      eapply ev_step; [apply (p_le_set _ _ (mkConn init adv h false) Ha) | frame]. simpl k_self.
      apply andb_true_iff in E. destruct E as [E _]. apply Z.eqb_eq in E. rewrite <- E.
      unfold leg_address. destruct (c_leg_pub c); simpl; auto.
    + destruct (find_set c (c_sets c) adv) as [s0|] eqn:F; [|inversion H; apply ev_refl].
      destruct (alloc c) as [h|] eqn:Ha; inversion H; [|apply ev_refl].
      apply find_set_in in F. destruct F as [F1 [F2 _]].
      eapply ev_step; [apply (p_le_set _ _ (mkConn init adv h false) Ha); eapply set_address_claimed; eauto|].
      apply ev_one, (p_put _ (set_le c _) (disable_set s0)). exact (known_old _ (set_le c _) s0 F1).
  - unfold on_terminate in H. destruct (tbl_get (c_le c) sender); inversion H; [apply ev_one, p_le_del | apply ev_refl].
  - unfold on_acl in H. destruct (tbl_get (if le then c_le c else c_cl c) src); inversion H; apply ev_refl.
  - inversion H. apply ev_one, p_cl_set. now left.
  - unfold on_lmp_accepted in H. destruct (lmp_get (c_lmp c) sender) as [[|]|]; try (inversion H; apply ev_refl).
    destruct (classic_complete _ sender) as [c1 e1] eqn:Hc. inversion H; subst.
    eapply ev_step; [|eapply classic_complete_evolves, Hc]. apply p_frame; repeat split.
  - unfold on_lmp_detach in H. destruct (tbl_get (c_cl c) sender); inversion H; [apply ev_one, p_cl_del | apply ev_refl].
  - inversion H. apply ev_one, p_sco_set. now left.
  - unfold on_lmp_accepted_esco in H. destruct (lmp_get (c_lmp_sco c) sender) as [[|]|]; try (inversion H; apply ev_refl).
    destruct (sco_complete _ sender) as [c1 e1] eqn:Hc. inversion H; subst.
    eapply ev_step; [|eapply sco_complete_evolves, Hc]. apply p_frame; repeat split.
  - unfold on_lmp_remove_sco in H. destruct (tbl_get (c_sco c) sender); inversion H; [apply ev_one, p_sco_del | apply ev_refl].
Qed.

Lemma enable_sets_known : forall na c hs l b, (forall s, In s l -> known na c (a_random s)) ->
  forall s, In s (enable_sets l b hs) -> known na c (a_random s).
Proof.
  induction hs as [|h hs IH]; simpl; intros l b H s Hs; [auto|].
  destruct (set_get l h) as [s0|] eqn:G; [|eapply IH; eauto].
  eapply IH; [|eassumption]. intros x Hx. apply set_put_in in Hx. destruct Hx as [->|Hx]; [|auto].
  apply set_get_in in G. destruct G as [G _]. specialize (H _ G). destruct b; exact H.
Qed.

Lemma local_evolves : forall cs n i c l c' e o, local cs n i c l = (c', e, o) -> evolves (new_addr l) c c'.
Proof.
  intros cs n i c l c' e o H.
  destruct l; simpl in H; try (inversion H; first [apply ev_refl | frame]).
  - inversion H. now apply ev_one, p_random.
  - inversion H. apply ev_one, p_put. intros x [= <-]. now right.
  - inversion H. apply ev_one, p_put. unfold get_or_new_set. simpl.
    destruct (set_get (c_sets c) h) as [s|] eqn:G; [exact (known_old _ c s (proj1 (set_get_in _ _ _ G))) | discriminate].
  - destruct (set_get (c_sets c) h) as [s|] eqn:G; inversion H; [|apply ev_refl].
    apply ev_one, p_put. exact (known_old _ c s (proj1 (set_get_in _ _ _ G))).
  - destruct (set_get (c_sets c) h) as [s|] eqn:G; inversion H; [|apply ev_refl].
    apply ev_one, p_put. exact (known_old _ c s (proj1 (set_get_in _ _ _ G))).
  - assert (Hd : prim None c (set_sets c (map disable_set (c_sets c)))).
    { apply p_sets. intros s Hs. apply in_map_iff in Hs. destruct Hs as [s0 [<- Hs0]]. exact (known_old _ c s0 Hs0). }
    assert (He : forall b' hs', prim None c (set_sets c (enable_sets (c_sets c) b' hs'))).
    { intros. apply p_sets, enable_sets_known. apply known_old. }
    destruct b, hs; inversion H; apply ev_one;
      first [exact Hd | exact (He true []) | exact (He true (z :: hs)) | exact (He false (z :: hs))].
  - inversion H. apply ev_one, p_sets. intros s Hs. apply set_del_in in Hs. now apply known_old.
  - inversion H. apply ev_one, p_sets. intros s [].
  - unfold tick in H. destruct (andb (c_leg_enabled c) (c_leg_advind c)); inversion H; apply ev_refl.
  - unfold ext_tick in H. destruct (set_get (c_sets c) h) as [s|]; [|inversion H; apply ev_refl].
    destruct (a_enabled s); [|inversion H; apply ev_refl]. destruct (set_address c s); inversion H; apply ev_refl.
  - destruct (c_scan c); inversion H; [apply ev_refl | frame].
  - destruct (c_pending c); inversion H; [apply ev_refl | frame].
  - destruct (c_pending c) as [[pp po]|]; inversion H; [frame | apply ev_refl].
  - unfold send_acl in H. destruct (conn_by_handle c h) as [[[|] k]|]; [| |inversion H; apply ev_refl].
    + destruct (find_le cs (k_peer k)); inversion H; apply ev_refl.
    + destruct (find_classic cs (k_peer k)); inversion H; apply ev_refl.
  - destruct (disconnect_cases _ _ _ _ _ _ _ _ H) as [->|[[k ->]|[[k ->]|[k ->]]]];
      [apply ev_refl | apply ev_one, p_cl_del | apply ev_one, p_le_del | apply ev_one, p_sco_del].
  - unfold cl_connect in H. destruct (c_pending c); [inversion H; apply ev_refl|].
    match type of H with (if ?b then _ else _) = _ => destruct b end; [inversion H; apply ev_refl|].
    eapply ev_step; [apply (p_cl_set _ _ (mkConn peer (c_public c) 0 true)); now left|].
    destruct (find_classic cs peer); inversion H; [frame | apply ev_one, (p_cl_del _ (set_cl c _) peer)].
  - unfold cl_accept in H. destruct (tbl_get (c_cl c) peer); [|inversion H; apply ev_refl].
    destruct (classic_complete c peer) as [c1 e1] eqn:Hc. inversion H; subst. eapply classic_complete_evolves, Hc.
  - unfold sco_setup in H. destruct (conn_by_handle c h) as [[b k]|]; inversion H; [frame | apply ev_refl].
  - unfold sco_accept in H. destruct (tbl_get (c_cl c) peer); [|inversion H; apply ev_refl].
    destruct (sco_complete c peer) as [c1 e1] eqn:Hc. inversion H; subst. eapply sco_complete_evolves, Hc.
  - unfold set_cig in H.
    destruct (add_cis (set_cis c (filter (not_cig cig) (c_cis c))) cig cis) as [[c1 hs] ok] eqn:Ha.
    inversion H; subst. eapply ev_step; [|eapply add_cis_evolves, Ha]. apply p_cis_filter.
  - inversion H. apply ev_one, p_cis_filter.
Qed.

Lemma prim_cinv : forall na c c', prim na c c' -> cinv c -> cinv c'.
Proof.
  intros na c c' P I. pose proof (fun l x => distinct_step c l x I) as Hd.
  assert (Hlb : forall x, x = 0 \/ alloc c = Some x -> 0 <= x)
    by (intros x [->|Ha]; [lia | apply alloc_spec in Ha; lia]).
  destruct P as [c' (_ & _ & _ & H1 & H2 & H3 & H4)| | | | | | | | | |];
    try (now apply (cinv_same_tables c)); destruct I; constructor; simpl; auto.
  (* keys and bounds: the entries of the new table are the one added and old ones *)
  all: try (now apply tbl_set_nodup); try (now apply tbl_del_nodup).
  all: try (intros y Hy;
            first [apply tbl_set_in_weak in Hy; destruct Hy as [->|Hy] | apply tbl_del_in in Hy
                  | apply filter_In in Hy; destruct Hy | apply in_app_or in Hy; destruct Hy as [Hy|[<-|[]]]]; auto).
  (* distinct handles: count them table by table *)
  all: try (apply alloc_spec in H; unfold cis_handle; simpl; lia).
  - apply (Hd _ (k_handle k)); auto. intros h. by_counts (count_set (c_le c) k h).
  - apply (Hd _ 0); auto. intros h. by_counts (count_del (c_le c) p h).
  - apply (Hd _ (k_handle k)); auto. intros h. by_counts (count_set (c_cl c) k h).
  - apply (Hd _ 0); auto. intros h. by_counts (count_del (c_cl c) p h).
  - apply (Hd _ (k_handle k)); auto. intros h. by_counts (count_set (c_sco c) k h).
  - apply (Hd _ 0); auto. intros h. by_counts (count_del (c_sco c) p h).
  - apply (Hd _ 0); auto. intros h. by_counts (count_filter_le f (c_cis c) h).
  - apply (Hd _ h); auto. intros h1. unfold handles. simpl. rewrite map_app, !count_app. simpl.
    change (cis_handle (h, cig, x)) with h. lia.
Qed.

Lemma evolves_cinv : forall na c c', evolves na c c' -> cinv c -> cinv c'.
Proof. induction 1; eauto using prim_cinv. Qed.

Lemma ainv_same_le_sets : forall c c', c_le c' = c_le c -> c_sets c' = c_sets c -> addr_same c c' ->
  ainv c -> ainv c'.
Proof.
  intros c c' H1 H2 Hs I. destruct I. constructor.
  - rewrite H1. intros k Hk. apply (owns_same c c' _ Hs). auto.
  - rewrite H2. destruct Hs as [_ ->]. auto.
Qed.

(* as long as the label brings in no address but the controller's random address *)
Lemma prim_ainv : forall na c c', prim na c c' -> (forall a, na = Some a -> a = c_random c) -> ainv c ->
  addr_same c c' /\ ainv c'.
Proof.
  intros na c c' P Hna I. destruct P as [c' (Hp & Hr & Hs & Hl & _)| | | | | | | | | |];
    try (split; [split; reflexivity | now apply (ainv_same_le_sets c)]).
  - split; [now split | now apply (ainv_same_le_sets c)].
  - split; [split; reflexivity|]. constructor; [|exact (ai_sets c I)]. intros x Hx.
    apply tbl_set_in_weak in Hx. destruct Hx as [->|Hx]; [exact (claims_owned c _ I H0) | exact (ai_self c I x Hx)].
  - split; [split; reflexivity|]. constructor; [|exact (ai_sets c I)]. intros x Hx.
    apply tbl_del_in in Hx. exact (ai_self c I x Hx).
  - split; [split; reflexivity|]. constructor; [exact (ai_self c I)|]. simpl. intros s Hs.
    destruct (a_random s) as [x|] eqn:E; [right | now left].
    destruct (H s Hs x E) as [Hx|Hx]; [|now rewrite (Hna x Hx)].
    apply in_set_randoms in Hx. destruct Hx as [s0 [Hs0 E0]].
    destruct (ai_sets c I s0 Hs0) as [E1|E1]; congruence.
  - rewrite (Hna a H). split; [split; reflexivity|]. destruct I. now constructor.
Qed.

Lemma evolves_ainv : forall na c c', evolves na c c' -> (forall a, na = Some a -> a = c_random c) -> ainv c ->
  addr_same c c' /\ ainv c'.
Proof.
  induction 1 as [|c c1 c' P E IH]; intros Hna I; [auto|].
  destruct (prim_ainv na c c1 P Hna I) as [[Hp Hr] I1].
  destruct IH as [[Hp' Hr'] I']; [rewrite Hr; exact Hna | exact I1|]. split; [split; congruence | exact I'].
Qed.

Lemma cinv_message : forall cs n j c m c' e o, cinv c -> on_message cs n j c m = (c', e, o) -> cinv c'.
Proof. intros cs n j c m c' e o I H. exact (evolves_cinv _ _ _ (message_evolves _ _ _ _ _ _ _ _ H) I). Qed.

Lemma cinv_local : forall cs n i c l c' e o, cinv c -> local cs n i c l = (c', e, o) -> cinv c'.
Proof. intros cs n i c l c' e o I H. exact (evolves_cinv _ _ _ (local_evolves _ _ _ _ _ _ _ _ H) I). Qed.

Lemma broadcast_src : forall n i m s d x, In (s, d, x) (broadcast n i m) -> s = i /\ x = m.
Proof.
  unfold broadcast. intros n i m s d x H. apply in_map_iff in H. destruct H as [y [Hy _]].
  inversion Hy; subst. split; reflexivity.
Qed.

Definition sends_ok (i : nat) (c : ctrl) (o : list packet) : Prop :=
  forall s d x, In (s, d, x) o -> s = i /\ msg_ok c x.

Lemma sends_nil : forall i c, sends_ok i c [].
Proof. intros i c s d x []. Qed.

Lemma sends_one : forall i c j x, msg_ok c x -> sends_ok i c [(i, j, x)].
Proof. intros i c j x H s d y [E|[]]. inversion E; subst. auto. Qed.

Lemma sends_broadcast : forall n i c x, msg_ok c x -> sends_ok i c (broadcast n i x).
Proof. intros n i c x H s d y Hin. apply broadcast_src in Hin. destruct Hin as [-> ->]. auto. Qed.

Lemma message_sends : forall cs n j c m c' e o, ainv c -> on_message cs n j c m = (c', e, o) -> sends_ok j c o.
Proof.
  intros cs n j c m c' e o I H.
  destruct m; simpl in H; [| |unfold_handlers H; break_all; inv_pairs; apply sends_nil ..].
  - destruct (on_adv_cases n j c adv data srsp) as [(own & h & _ & _ & _ & E)|(x & _ & E)];
      rewrite E in H; inversion H; [|apply sends_nil].
    apply sends_broadcast. destruct own; [now left | now right].
  - unfold on_connect_ind in H.
    destruct (andb (leg_address c =? adv) (c_leg_enabled c)); [destruct (alloc c); inversion H; apply sends_nil|].
    destruct (find_set c (c_sets c) adv); [destruct (alloc c); inversion H; apply sends_nil|].
    inversion H; subst. unfold refuse. destruct (own_address c' adv) eqn:E; [|apply sends_nil].
    destruct (find_le cs init); [apply sends_one; exact (own_address_owns c' adv I E) | apply sends_nil].
Qed.

Lemma owns_random : forall c, owns c (c_random c).
Proof. now right. Qed.

Lemma leg_address_owns : forall c, owns c (leg_address c).
Proof. intros c. unfold leg_address. destruct (c_leg_pub c); [now left | now right]. Qed.

Lemma self_of_peer : forall c p k, ainv c -> tbl_get (c_le c) p = Some k -> owns c (k_self k).
Proof. intros c p k I H. exact (ai_self c I k (proj1 (tbl_get_in _ _ _ H))). Qed.

Lemma self_of_handle : forall c h k, ainv c -> by_handle (c_le c) h = Some k -> owns c (k_self k).
Proof. intros c h k I H. exact (ai_self c I k (proj1 (by_handle_in _ _ _ H))). Qed.

Lemma ext_address_owns : forall c h s a, ainv c -> set_get (c_sets c) h = Some s -> set_address c s = Some a ->
  owns c a.
Proof. intros c h s a I G H. exact (set_address_owns c s a I (proj1 (set_get_in _ _ _ G)) H). Qed.

(* Finite inspection of the handler branches: every branch sends nothing, or one message from i, or
   a broadcast from i, and the address it carries is the advertiser's address on an advertisement
   (leg_address_owns, ext_address_owns), the own address of the connection on LE data and on a
   TerminateInd (self_of_peer, self_of_handle, owns_random when no entry), the public address on
   everything BR/EDR (reflexivity). *)
Lemma local_sends : forall cs n i c l c' e o, ainv c -> local cs n i c l = (c', e, o) -> sends_ok i c o.
Proof.
  intros cs n i c l c' e o I H.
  destruct l; simpl in H; unfold_handlers H; break_all; inv_pairs; try apply sends_nil;
    (first [apply sends_one | apply sends_broadcast]); simpl; try reflexivity;
    eauto using owns_random, leg_address_owns, self_of_peer, self_of_handle, ext_address_owns.
Qed.

Definition static_c (c : ctrl) (l : label) : Prop :=
  match l with
  | LSetRandom _ a | LExtRandom _ _ a => a = c_random c
  | _ => True
  end.

Lemma message_ainv : forall cs n j c m c' e o, ainv c -> on_message cs n j c m = (c', e, o) ->
  addr_same c c' /\ ainv c' /\ (forall s d x, In (s, d, x) o -> s = j /\ msg_ok c x).
Proof.
  intros cs n j c m c' e o I H.
  destruct (evolves_ainv _ _ _ (message_evolves _ _ _ _ _ _ _ _ H)) as [Hs I']; [discriminate | exact I|].
  exact (conj Hs (conj I' (message_sends _ _ _ _ _ _ _ _ I H))).
Qed.

Lemma local_ainv : forall cs n i c l c' e o, ainv c -> static_c c l -> local cs n i c l = (c', e, o) ->
  addr_same c c' /\ ainv c' /\ (forall s d x, In (s, d, x) o -> s = i /\ msg_ok c x).
Proof.
  intros cs n i c l c' e o I G H.
  destruct (evolves_ainv _ _ _ (local_evolves _ _ _ _ _ _ _ _ H)) as [Hs I']; [|exact I|].
  - intros a Ha. destruct l; try discriminate; inversion Ha; subst; exact G.
  - exact (conj Hs (conj I' (local_sends _ _ _ _ _ _ _ _ I H))).
Qed.

Definition addr_unique (cs : list ctrl) : Prop :=
  forall i j ci cj a, nth_error cs i = Some ci -> nth_error cs j = Some cj ->
                      owns ci a -> owns cj a -> i = j.

Record ginv (s : state) : Prop := mkGinv {
  g_c : forall i c, nth_error (st_cs s) i = Some c -> cinv c /\ ainv c;
  g_net : forall src dst m, In (src, dst, m) (st_net s) ->
          exists c, nth_error (st_cs s) src = Some c /\ msg_ok c m;
  g_uniq : addr_unique (st_cs s)
}.

Lemma remove_nth_in : forall {A} k (l : list A) x, In x (remove_nth k l) -> In x l.
Proof.
  induction k as [|k IH]; destruct l as [|y l]; simpl; intros x H; try contradiction.
  - now right.
  - destruct H as [<-|H]; [now left | right; eauto].
Qed.

(* a step that replaces controller i by c' with the same addresses, removes messages and
   appends messages of i that are well-formed, preserves the invariant *)
Lemma ginv_update : forall s i c c' net' out,
  ginv s -> nth_error (st_cs s) i = Some c -> addr_same c c' -> cinv c' -> ainv c' ->
  (forall x, In x net' -> In x (st_net s)) ->
  (forall sr d x, In (sr, d, x) out -> sr = i /\ msg_ok c x) ->
  ginv (mkState (upd (st_cs s) i c') (net' ++ out)).
Proof.
  intros s i c c' net' out [Gc Gn Gu] Hi Hs Hci Hai Hsub Hout. constructor; simpl.
  - intros j cj Hj. rewrite (nth_upd _ _ _ _ _ Hi) in Hj. destruct (Nat.eqb i j); [inversion Hj; subst; auto | eauto].
  - intros src dst m Hin. apply in_app_or in Hin. destruct Hin as [Hin|Hin].
    + apply Hsub in Hin. destruct (Gn _ _ _ Hin) as [c0 [H0 Hm]].
      rewrite (nth_upd _ _ _ _ _ Hi). destruct (Nat.eqb i src) eqn:E.
      * apply Nat.eqb_eq in E. subst src. exists c'. split; [reflexivity|].
        rewrite Hi in H0. inversion H0; subst. eapply msg_ok_same; eauto.
      * exists c0. auto.
    + destruct (Hout _ _ _ Hin) as [-> Hm]. exists c'. split.
      * rewrite (nth_upd _ _ _ _ _ Hi), Nat.eqb_refl. reflexivity.
      * eapply msg_ok_same; eauto.
  - intros a b ca cb x Ha Hb Hoa Hob.
    rewrite (nth_upd _ _ a _ _ Hi) in Ha. rewrite (nth_upd _ _ b _ _ Hi) in Hb.
    assert (Hfix : forall j cj, (if Nat.eqb i j then Some c' else nth_error (st_cs s) j) = Some cj ->
                    exists c0, nth_error (st_cs s) j = Some c0 /\ (forall y, owns cj y -> owns c0 y)).
    { intros j cj Hj. destruct (Nat.eqb i j) eqn:E.
      - apply Nat.eqb_eq in E. subst j. inversion Hj; subst. exists c. split; [assumption|].
        intros y. apply (owns_same c cj y Hs).
      - exists cj. auto. }
    destruct (Hfix _ _ Ha) as [a0 [Ha0 Hoa0]]. destruct (Hfix _ _ Hb) as [b0 [Hb0 Hob0]].
    eapply Gu; eauto.
Qed.

Definition guard_static (s : state) (l : label) : bool := label_static (st_cs s) l.

Lemma guard_static_c : forall s l i c, guard_static s l = true -> label_ctrl l = Some i ->
  nth_error (st_cs s) i = Some c -> static_c c l.
Proof.
  unfold guard_static, label_static, static_c. intros s l i c G Hl Hc.
  destruct l; simpl in Hl; inversion Hl; subst; try exact Logic.I;
    rewrite Hc in G; apply Z.eqb_eq in G; now symmetry.
Qed.

Lemma ginv_step : forall s l s' evs out, ginv s -> guard_static s l = true ->
  step s l = (s', evs, out) -> ginv s'.
Proof.
  intros s l s' evs out I G H. apply step_shape in H. destruct H.
  - now subst.
  - subst s'. destruct (g_c s I _ _ H0) as [Hc Ha].
    pose proof (guard_static_c _ _ _ _ G H H0) as Hst.
    destruct (local_ainv _ _ _ _ _ _ _ _ Ha Hst H1) as [Hs [Ha' Hout]].
    eapply ginv_update; eauto. eapply cinv_local; eauto.
  - subst s'. destruct (g_c s I _ _ H2) as [Hc Ha].
    destruct (message_ainv _ _ _ _ _ _ _ _ Ha H3) as [Hs [Ha' Hout]].
    eapply ginv_update; eauto; [eapply cinv_message; eauto | intros x; apply remove_nth_in].
  - subst s'. destruct I as [Gc Gn Gu]. constructor; simpl; auto.
    intros sr d x Hin. apply remove_nth_in in Hin. exact (Gn _ _ _ Hin).
Qed.

Lemma run_state_cons : forall s l ls, run_state s (l :: ls) = run_state (fst (fst (step s l))) ls.
Proof.
  unfold run_state. intros s l ls. simpl. destruct (step s l) as [[s1 e] o]. simpl.
  destruct (run s1 ls). reflexivity.
Qed.

Lemma run_invariant : forall (P : state -> Prop) (guard : state -> label -> bool),
  (forall s l s' evs out, P s -> guard s l = true -> step s l = (s', evs, out) -> P s') ->
  forall ls s, P s -> run_ok guard s ls = true -> P (run_state s ls).
Proof.
  intros P guard Hstep. induction ls as [|l ls IH]; intros s I H; [exact I|].
  rewrite run_state_cons. simpl in H. apply andb_true_iff in H. destruct H as [G H].
  apply IH; [|exact H]. destruct (step s l) as [[s1 e] o] eqn:Hs. simpl. eauto.
Qed.

(* initial states: configurations whose addresses are pairwise distinct *)
Definition cfg_addrs (cfg : list (Z * Z * bool)) : list Z :=
  flat_map (fun '(p, r, _) => [p; r]) cfg.

Definition cfg_ok (cfg : list (Z * Z * bool)) : bool := zs_nodup (cfg_addrs cfg).

Lemma zs_nodup_NoDup : forall l, zs_nodup l = true -> NoDup l.
Proof.
  induction l as [|x l IH]; simpl; intros H; [constructor|].
  apply andb_true_iff in H. destruct H as [H1 H2]. constructor; [|auto].
  intro Hin. apply zmem_in in Hin. rewrite Hin in H1. discriminate.
Qed.

Lemma nodup_app_disjoint : forall (l1 l2 : list Z) x, NoDup (l1 ++ l2) -> In x l1 -> In x l2 -> False.
Proof.
  induction l1 as [|y l1 IH]; simpl; intros l2 x H H1 H2; [contradiction|].
  inversion H as [|? ? Hni Hnd]; subst. destruct H1 as [->|H1].
  - apply Hni. apply in_or_app. now right.
  - eauto.
Qed.

Lemma cfg_unique : forall cfg, NoDup (cfg_addrs cfg) ->
  forall i j pi ri xi pj rj xj a,
    nth_error cfg i = Some (pi, ri, xi) -> nth_error cfg j = Some (pj, rj, xj) ->
    (a = pi \/ a = ri) -> (a = pj \/ a = rj) -> i = j.
Proof.
  induction cfg as [|[[p r] x] cfg IH]; intros Hnd i j pi ri xi pj rj xj a Hi Hj Hai Haj.
  - destruct i; discriminate.
  - unfold cfg_addrs in Hnd. simpl in Hnd. fold (cfg_addrs cfg) in Hnd.
    assert (Htail : forall k pk rk xk, nth_error cfg k = Some (pk, rk, xk) -> (a = pk \/ a = rk) -> In a (cfg_addrs cfg)).
    { intros k pk rk xk Hk Hak. unfold cfg_addrs. apply in_flat_map. exists (pk, rk, xk).
      split; [eapply nth_error_In; eauto|]. simpl. destruct Hak; subst; auto. }
    inversion Hnd as [|? ? Hp Hnd1]; subst. inversion Hnd1 as [|? ? Hr Hnd2]; subst.
    destruct i as [|i], j as [|j]; simpl in Hi, Hj.
    + reflexivity.
    + inversion Hi; subst. exfalso. pose proof (Htail _ _ _ _ Hj Haj) as Hin.
      destruct Hai; subst; [apply Hp; now right | now apply Hr].
    + inversion Hj; subst. exfalso. pose proof (Htail _ _ _ _ Hi Hai) as Hin.
      destruct Haj; subst; [apply Hp; now right | now apply Hr].
    + f_equal. eapply IH; eauto.
Qed.

Lemma ginv_init : forall cfg, cfg_ok cfg = true -> ginv (init cfg).
Proof.
  intros cfg H. apply zs_nodup_NoDup in H.
  assert (Hnth : forall i c, nth_error (st_cs (init cfg)) i = Some c ->
            exists p r x, nth_error cfg i = Some (p, r, x) /\ c = new_ctrl p r x).
  { unfold init; simpl. intros i c Hc. rewrite nth_error_map in Hc.
    destruct (nth_error cfg i) as [[[p r] x]|]; [|discriminate]. simpl in Hc. inversion Hc; subst. eauto. }
  constructor.
  - intros i c Hc. destruct (Hnth _ _ Hc) as [p [r [x [_ ->]]]]. split; [apply cinv_new|].
    constructor; simpl; intros ? [].
  - simpl. intros ? ? ? [].
  - intros i j ci cj a Hi Hj Hoi Hoj.
    destruct (Hnth _ _ Hi) as [pi [ri [xi [Ei ->]]]]. destruct (Hnth _ _ Hj) as [pj [rj [xj [Ej ->]]]].
    eapply cfg_unique; eauto.
Qed.

Lemma upd_id : forall cs i c, nth_error cs i = Some c -> upd cs i c = cs.
Proof.
  induction cs as [|c0 cs IH]; destruct i; simpl; intros c H; try discriminate.
  - now inversion H.
  - f_equal. now apply IH.
Qed.

Lemma find_index_unique : forall f cs j cj n,
  nth_error cs j = Some cj -> f cj = true ->
  (forall i ci, nth_error cs i = Some ci -> f ci = true -> i = j) ->
  find_index f cs n = Some (n + j)%nat.
Proof.
  induction cs as [|c0 cs IH]; intros j cj n Hj Hf Hu; [destruct j; discriminate|].
  simpl. destruct j as [|j]; simpl in Hj.
  - inversion Hj; subst. rewrite Hf. f_equal. lia.
  - destruct (f c0) eqn:E.
    + specialize (Hu O c0 eq_refl E). discriminate.
    + rewrite (IH j cj (S n) Hj Hf); [f_equal; lia|].
      intros i ci Hi Hfi. specialize (Hu (S i) ci Hi Hfi). now inversion Hu.
Qed.

Lemma find_index_some : forall f cs n j, find_index f cs n = Some j ->
  exists cj, nth_error cs (j - n) = Some cj /\ f cj = true /\ (n <= j)%nat.
Proof.
  induction cs as [|c0 cs IH]; simpl; intros n j H; [discriminate|].
  destruct (f c0) eqn:E.
  - inversion H; subst. exists c0. rewrite Nat.sub_diag. auto.
  - apply IH in H. destruct H as [cj [H1 [H2 H3]]]. exists cj.
    replace (j - n)%nat with (S (j - S n)) by lia. simpl. split; [assumption|]. split; [assumption | lia].
Qed.

Lemma has_self_in : forall a c, has_self a c = true <-> exists k, In k (c_le c) /\ k_self k = a.
Proof.
  unfold has_self. intros a c. rewrite existsb_exists. split; intros [k [H1 H2]]; exists k; (split; [assumption|]).
  - now apply Z.eqb_eq. - now apply Z.eqb_eq.
Qed.

(* LocalLink.find_le_controller finds the one controller that holds a connection with
   that self address, LocalLink.find_classic_controller the one with that public address *)
Lemma find_le_unique : forall cs j cj k, nth_error cs j = Some cj -> In k (c_le cj) ->
  (forall i ci k0, nth_error cs i = Some ci -> In k0 (c_le ci) -> k_self k0 = k_self k -> i = j) ->
  find_le cs (k_self k) = Some j.
Proof.
  intros cs j cj k Hj Hk Hu. unfold find_le.
  rewrite (find_index_unique _ _ j cj 0%nat Hj); [reflexivity | apply has_self_in; eauto |].
  intros i ci Hi Hf. apply has_self_in in Hf. destruct Hf as [k0 [Hk0 Hs0]]. eauto.
Qed.

Lemma find_classic_unique : forall cs j cj, nth_error cs j = Some cj ->
  (forall i ci, nth_error cs i = Some ci -> c_public ci = c_public cj -> i = j) ->
  find_classic cs (c_public cj) = Some j.
Proof.
  intros cs j cj Hj Hu. unfold find_classic.
  rewrite (find_index_unique _ _ j cj 0%nat Hj); [reflexivity | apply Z.eqb_refl |].
  intros i ci Hi Hf. apply Z.eqb_eq in Hf. eauto.
Qed.

Lemma find_le_holder : forall s j cj k, ginv s -> nth_error (st_cs s) j = Some cj ->
  In k (c_le cj) -> find_le (st_cs s) (k_self k) = Some j.
Proof.
  intros s j cj k I Hj Hk. apply (find_le_unique _ _ _ _ Hj Hk). intros i ci k0 Hi Hk0 E.
  apply (g_uniq s I i j ci cj (k_self k) Hi Hj).
  - rewrite <- E. exact (ai_self ci (proj2 (g_c s I _ _ Hi)) _ Hk0).
  - exact (ai_self cj (proj2 (g_c s I _ _ Hj)) _ Hk).
Qed.

Lemma find_classic_owner : forall s j cj, ginv s -> nth_error (st_cs s) j = Some cj ->
  find_classic (st_cs s) (c_public cj) = Some j.
Proof.
  intros s j cj I Hj. apply (find_classic_unique _ _ _ Hj). intros i ci Hi E.
  apply (g_uniq s I i j ci cj (c_public cj) Hi Hj); [rewrite <- E|]; now left.
Qed.

(* a non-zero handle belongs to exactly one link of the controller, whatever its kind *)
Lemma handle_once : forall c h, cinv c -> h <> 0 ->
  (count h (map k_handle (c_le c)) + count h (map k_handle (c_cl c)) + count h (map k_handle (c_sco c)) <= 1)%nat.
Proof.
  intros c h I Hh. pose proof (ci_distinct c I h Hh) as H. unfold handles in H. rewrite !count_app in H. lia.
Qed.

(* handle_owner: from handle_once and one occurrence of k's handle in its own table, by_handle finds k
   there and nothing in the other tables; closes the three *_handle_owner lemmas below. *)
Ltac handle_owner c k I Hk Hnz :=
  pose proof (handle_once c (k_handle k) I Hnz); pose proof (count_pos_in _ _ (in_map k_handle _ _ Hk));
  repeat split; first [apply by_handle_unique | apply by_handle_absent]; auto; lia.

Lemma le_handle_owner : forall c k, cinv c -> In k (c_le c) ->
  by_handle (c_le c) (k_handle k) = Some k /\ by_handle (c_cl c) (k_handle k) = None.
Proof.
  intros c k I Hk. assert (Hnz : k_handle k <> 0) by (pose proof (ci_le_pos c I k Hk); lia).
  handle_owner c k I Hk Hnz.
Qed.

Lemma cl_handle_owner : forall c k, cinv c -> In k (c_cl c) -> k_handle k <> 0 ->
  by_handle (c_le c) (k_handle k) = None /\ by_handle (c_cl c) (k_handle k) = Some k.
Proof. intros c k I Hk Hnz. handle_owner c k I Hk Hnz. Qed.

Lemma sco_handle_owner : forall c k, cinv c -> In k (c_sco c) -> k_handle k <> 0 ->
  by_handle (c_le c) (k_handle k) = None /\ by_handle (c_cl c) (k_handle k) = None /\
  by_handle (c_sco c) (k_handle k) = Some k.
Proof. intros c k I Hk Hnz. handle_owner c k I Hk Hnz. Qed.

(* a command or timer label is its handler applied to the addressed controller, a delivery is
   the receiver's message handler; cs' is the resulting list of controllers, so that a handler
   that returns its controller unchanged can give [st_cs s] itself ([upd_id]) *)
Lemma step_local : forall s l i c c' e o cs', label_ctrl l = Some i -> nth_error (st_cs s) i = Some c ->
  local (st_cs s) (length (st_cs s)) i c l = (c', e, o) -> upd (st_cs s) i c' = cs' ->
  step s l = (mkState cs' (st_net s ++ o), tag i e, o).
Proof.
  intros s l i c c' e o cs' Hl Hc H <-.
  destruct l; try discriminate; injection Hl as ->; unfold step; simpl label_ctrl; cbv iota; now rewrite Hc, H.
Qed.

Lemma step_deliver : forall s k i j c m c' e cs', nth_error (st_net s) k = Some (i, j, m) ->
  existsb (same_pair i j) (firstn k (st_net s)) = false -> nth_error (st_cs s) j = Some c ->
  on_message (st_cs s) (length (st_cs s)) j c m = (c', e, []) -> upd (st_cs s) j c' = cs' ->
  step s (LDeliver k) = (mkState cs' (remove_nth k (st_net s)), tag j e, []).
Proof. intros s k i j c m c' e cs' Hk Hf Hj H <-. unfold step. now rewrite Hk, Hf, Hj, H, app_nil_r. Qed.

(* what Controller.send_acl does with a PDU on the handle of a connection e, once the link
   finds controller j for the peer address: one message to j, labelled for LE with the address
   the connection was made with (D06a), for BR/EDR with the public address *)
Lemma send_acl_le : forall cs i j c e p d, cinv c -> In e (c_le c) -> find_le cs p = Some j -> p = k_peer e ->
  send_acl cs i c (k_handle e) d = (c, [ECompleted (k_handle e)], [(i, j, MAcl (k_self e) true d)]).
Proof.
  intros cs i j c e p d I He Hf ->. unfold send_acl, conn_by_handle.
  now rewrite (proj1 (le_handle_owner c e I He)), (tbl_get_of_in _ _ (ci_le_keys c I) He), Hf.
Qed.

Lemma send_acl_classic : forall cs i j c e p d, cinv c -> In e (c_cl c) -> k_handle e <> 0 ->
  find_classic cs p = Some j -> p = k_peer e ->
  send_acl cs i c (k_handle e) d = (c, [ECompleted (k_handle e)], [(i, j, MAcl (c_public c) false d)]).
Proof.
  intros cs i j c e p d I He Hnz Hf ->. unfold send_acl, conn_by_handle.
  destruct (cl_handle_owner c e I He Hnz) as [-> ->]. now rewrite Hf.
Qed.

(* A PDU handed to controller i on the handle of an LE connection e whose peer address is
   held (as self address) by controller j: exactly one message is put on the link, it goes to j.
   (This and the four theorems below for [ginv]: Props/C06.v proves the same under the weaker [rinv].) *)
Theorem acl_le_send : forall s i j ci cj e e' d, ginv s ->
  nth_error (st_cs s) i = Some ci -> In e (c_le ci) ->
  nth_error (st_cs s) j = Some cj -> In e' (c_le cj) -> k_self e' = k_peer e ->
  step s (LAcl i (k_handle e) d) =
    (mkState (st_cs s) (st_net s ++ [(i, j, MAcl (k_self e) true d)]),
     [(i, ECompleted (k_handle e))], [(i, j, MAcl (k_self e) true d)]).
Proof.
  intros s i j ci cj e e' d I Hi He Hj He' Hm.
  exact (step_local s (LAcl _ _ _) i ci _ _ _ _ eq_refl Hi
           (send_acl_le _ i j ci e _ d (proj1 (g_c s I _ _ Hi)) He (find_le_holder s j cj e' I Hj He') Hm)
           (upd_id _ _ _ Hi)).
Qed.

(* BR/EDR: the destination is the controller whose public address is the peer address *)
Theorem acl_classic_send : forall s i j ci cj e d, ginv s ->
  nth_error (st_cs s) i = Some ci -> In e (c_cl ci) -> k_handle e <> 0 ->
  nth_error (st_cs s) j = Some cj -> c_public cj = k_peer e ->
  step s (LAcl i (k_handle e) d) =
    (mkState (st_cs s) (st_net s ++ [(i, j, MAcl (c_public ci) false d)]),
     [(i, ECompleted (k_handle e))], [(i, j, MAcl (c_public ci) false d)]).
Proof.
  intros s i j ci cj e d I Hi He Hnz Hj Hm.
  exact (step_local s (LAcl _ _ _) i ci _ _ _ _ eq_refl Hi
           (send_acl_classic _ i j ci e _ d (proj1 (g_c s I _ _ Hi)) He Hnz (find_classic_owner s j cj I Hj) Hm)
           (upd_id _ _ _ Hi)).
Qed.

(* what the receiving controller does with an ACL message, a TerminateInd, an LMP detach or an
   LMP SCO removal when it has an entry for the sender: the bytes go to the host on the handle
   of that entry, resp. the entry is deleted and the host told, and nothing else happens *)
Lemma on_acl_found : forall c a (le : bool) d e', tbl_get (if le then c_le c else c_cl c) a = Some e' ->
  on_acl c a le d = (c, [EAcl (k_handle e') d], []).
Proof. intros c a le d e' H. unfold on_acl. now rewrite H. Qed.

Lemma on_terminate_found : forall c a r e', tbl_get (c_le c) a = Some e' ->
  on_terminate c a r = (set_le c (tbl_del (c_le c) a), [EDisc (k_handle e') r], []).
Proof. intros c a r e' H. unfold on_terminate. now rewrite H. Qed.

Lemma on_lmp_detach_found : forall c a e', tbl_get (c_cl c) a = Some e' ->
  on_lmp_detach c a = (set_cl c (tbl_del (c_cl c) a), [EDisc (k_handle e') 19], []).
Proof. intros c a e' H. unfold on_lmp_detach. now rewrite H. Qed.

Lemma on_lmp_remove_sco_found : forall c a r e', tbl_get (c_sco c) a = Some e' ->
  on_lmp_remove_sco c a r = (set_sco c (tbl_del (c_sco c) a), [EDisc (k_handle e') r], []).
Proof. intros c a r e' H. unfold on_lmp_remove_sco. now rewrite H. Qed.

(* each_event Hin: Hin : In x e with e a literal list; take each event of e in turn: it is of a kind the
   statement allows ([True]), or an EClConn whose entry was just stored (tbl_get_set_same). *)
Ltac each_event Hin :=
  simpl in Hin; repeat (destruct Hin as [<-|Hin]); try contradiction; try exact Logic.I;
  try (eexists; split; [apply tbl_get_set_same | reflexivity]); eauto.

(* What a controller can tell its host in answer to a command or a timer.  Finite inspection of the
   handler branches: every branch emits only status, disconnection, completed-packets, failure, CIG
   and error events, or (cl_accept) an EClConn with the handle of the entry it has just filed under
   that peer; never received data, never an LE connection. *)
Lemma local_events : forall cs n i c l c' e o, local cs n i c l = (c', e, o) ->
  forall x, In x e ->
  match x with
  | EAcl _ _ | ELeConn _ _ _ => False
  | EClConn h p => exists k, tbl_get (c_cl c') p = Some k /\ k_handle k = h
  | _ => True
  end.
Proof.
  intros cs n i c l c' e o H x Hin.
  destruct l; simpl in H; unfold_handlers H; break_all; inv_pairs; each_event Hin.
Qed.

(* What a controller can tell its host on a delivery.  Finite inspection of the handler branches:
   only on_acl emits EAcl, with the bytes of its message; only on_adv emits a central ELeConn, to
   the advertiser of its message; an EClConn (on_lmp_accepted) carries the handle of the entry just
   filed under that peer. *)
Lemma message_events : forall cs n j c m c' e o, on_message cs n j c m = (c', e, o) ->
  forall x, In x e ->
  match x with
  | EAcl _ d => exists a le, m = MAcl a le d
  | ELeConn _ true p => exists d sr, m = MAdv p d sr
  | EClConn h p => exists k, tbl_get (c_cl c') p = Some k /\ k_handle k = h
  | _ => True
  end.
Proof.
  intros cs n j c m c' e o H x Hin.
  destruct m; simpl in H; unfold_handlers H; break_all; inv_pairs; each_event Hin.
Qed.

Lemma in_tag : forall i j x e, In (i, x) (tag j e) -> i = j /\ In x e.
Proof.
  unfold tag. intros i j x e H. apply in_map_iff in H. destruct H as [y [E H]]. now inversion E; subst.
Qed.

(* nobody but the addressed controller is handed ACL data in a step, and only a delivered
   ACL message produces it *)
Theorem acl_only_from_delivery : forall s l s' evs out j h d, step s l = (s', evs, out) ->
  In (j, EAcl h d) evs ->
  exists k i a le, l = LDeliver k /\ nth_error (st_net s) k = Some (i, j, MAcl a le d).
Proof.
  intros s l s' evs out j h d H Hin. apply step_shape in H. destruct H; subst; try contradiction;
    apply in_tag in Hin; destruct Hin as [-> Hin].
  - destruct (local_events _ _ _ _ _ _ _ _ H1 _ Hin).
  - destruct (message_events _ _ _ _ _ _ _ _ H3 _ Hin) as [a [le ->]]. eauto 8.
Qed.

(* A ConnectInd(initiator a, advertiser b) delivered to a controller that does not own b
   changes nothing and tells its host nothing.  A controller that reports a connection for
   it owns b, files the connection under the initiator's address a with own address b and
   a freshly allocated handle, in the peripheral role.  Nothing is sent. *)
Theorem connect_ind_effect : forall cs n j c a b c' e o, ainv c ->
  on_message cs n j c (MConnInd a b) = (c', e, o) ->
  (~ owns c b -> c' = c /\ e = [] /\ o = []) /\
  (forall h ce p, In (ELeConn h ce p) e ->
     ce = false /\ p = a /\ owns c b /\ alloc c = Some h /\ o = [] /\
     tbl_get (c_le c') a = Some (mkConn a b h false)) /\
  (o = [] \/ (c' = c /\ e = [] /\ owns c b /\ exists i, find_le cs a = Some i /\ o = [(j, i, MTerm b 62)])).
Proof.
  intros cs n j c a b c' e o I H. simpl in H. unfold on_connect_ind in H.
  destruct (andb (leg_address c =? b) (c_leg_enabled c)) eqn:E.
  - apply andb_true_iff in E. destruct E as [E _]. apply Z.eqb_eq in E.
    assert (Ho : owns c b) by (rewrite <- E; unfold leg_address; destruct (c_leg_pub c); [now left | now right]).
    destruct (alloc c) as [h|] eqn:Ha; inversion H; subst; (split; [intros Hn; contradiction|]); (split; [|now left]).
    + intros h0 ce p [Hin|[]]. inversion Hin; subst. repeat split; auto. simpl.
      apply (tbl_get_set_same (c_le c) (mkConn p (leg_address c) h0 false)).
    + intros h0 ce p [Hin|[]]. discriminate.
  - destruct (find_set c (c_sets c) b) as [s0|] eqn:F.
    + apply find_set_in in F. destruct F as [F1 [F2 F3]].
      assert (Ho : owns c b) by (eapply set_address_owns; eauto).
      destruct (alloc c) as [h|] eqn:Ha; inversion H; subst; (split; [intros Hn; contradiction|]); (split; [|now left]).
      * intros h0 ce p [Hin|[Hin|[]]]; [|discriminate]. inversion Hin; subst. repeat split; auto. simpl.
        apply (tbl_get_set_same (c_le c) (mkConn p b h0 false)).
      * intros h0 ce p [Hin|[]]. discriminate.
    + inversion H; subst. unfold refuse.
      destruct (own_address c' b) eqn:Eo.
      * pose proof (own_address_owns _ _ I Eo) as Ho.
        split; [intros Hn; contradiction|]. split; [intros h ce p []|].
        destruct (find_le cs a) as [i|]; [right; repeat split; eauto | now left].
      * split; [auto|]. split; [intros h ce p []| now left].
Qed.

Definition is_report (e : ev) : bool := match e with EAdvReport _ _ _ _ => true | _ => false end.

(* An advertisement (advertiser address b, data, scan response) delivered to a controller:
   - a scanning controller reports exactly the advertising data and, when scanning
     actively, exactly the scan-response data (D06b); a controller that does not scan
     reports nothing;
   - a central connection is reported only when a connection to b was pending; it is to b,
     under the own address the host asked for, with a fresh handle, and the ConnectInd is
     broadcast; otherwise nothing is sent and the LE table is unchanged. *)
Theorem adv_effect : forall cs n i c b data srsp c' e o,
  on_message cs n i c (MAdv b data srsp) = (c', e, o) ->
  filter is_report e =
    (if c_scan c then EAdvReport (c_extrep c) false b data ::
                      (if c_active c then [EAdvReport (c_extrep c) true b srsp] else []) else []) /\
  (forall h ce p, In (ELeConn h ce p) e ->
     ce = true /\ p = b /\ exists own, c_pending c = Some (b, own) /\ tbl_get (c_le c) b = None /\
       alloc c = Some h /\
       tbl_get (c_le c') b = Some (mkConn b (if own then c_public c else c_random c) h true) /\
       o = broadcast n i (MConnInd (if own then c_public c else c_random c) b) /\ c_pending c' = None) /\
  ((forall h ce p, ~ In (ELeConn h ce p) e) -> o = [] /\ c_le c' = c_le c).
Proof.
  intros cs n i c b data srsp c' e o H. simpl in H. fold (adv_reports c b data srsp).
  assert (Hr : filter is_report (adv_reports c b data srsp) = adv_reports c b data srsp)
    by (unfold adv_reports; destruct (c_scan c), (c_active c); reflexivity).
  assert (Hnr : forall h ce p, ~ In (ELeConn h ce p) (adv_reports c b data srsp))
    by (unfold adv_reports; intros h ce p; destruct (c_scan c), (c_active c); simpl; intuition discriminate).
  destruct (on_adv_cases n i c b data srsp) as [(own & h & Hp & Hg & Ha & E)|(x & Hx & E)];
    rewrite E in H; inversion H; subst; clear H E; rewrite filter_app, Hr.
  - split; [simpl; now rewrite app_nil_r|]. split.
    + intros h0 ce p Hin. apply in_app_or in Hin. destruct Hin as [Hin|[Hin|[]]]; [now apply Hnr in Hin|].
      inversion Hin; subst. split; [reflexivity|]. split; [reflexivity|]. exists own. repeat split; auto. simpl.
      apply (tbl_get_set_same (c_le c) (mkConn p (if own then c_public c else c_random c) h0 true)).
    + intros Hno. exfalso. apply (Hno h true b). apply in_or_app. right. now left.
  - split; [destruct Hx as [->| ->]; simpl; now rewrite app_nil_r|]. split; [|auto].
    intros h ce p Hin. apply in_app_or in Hin. destruct Hin as [Hin|Hin]; [now apply Hnr in Hin|].
    destruct Hx as [->| ->]; simpl in Hin; intuition discriminate.
Qed.

(* LocalLink.send_advertising_pdu reaches every other controller exactly once *)
Lemma broadcast_spec : forall n i m s d x,
  In (s, d, x) (broadcast n i m) <-> s = i /\ (d < n)%nat /\ d <> i /\ x = m.
Proof.
  unfold broadcast. intros n i m s d x. rewrite in_map_iff. split.
  - intros [y [Hy Hin]]. inversion Hy; subst. apply filter_In in Hin. destruct Hin as [Hin Hne].
    apply in_seq in Hin. apply negb_true_iff, Nat.eqb_neq in Hne. repeat split; auto; lia.
  - intros [-> [Hd [Hne ->]]]. exists d. split; [reflexivity|]. apply filter_In. split.
    + apply in_seq. lia.
    + apply negb_true_iff, Nat.eqb_neq. assumption.
Qed.

Lemma broadcast_nodup : forall n i m, NoDup (broadcast n i m).
Proof.
  unfold broadcast. intros n i m. apply Injective_map_NoDup.
  - intros x y H. now inversion H.
  - apply NoDup_filter. apply seq_NoDup.
Qed.

(* Controller.on_hci_disconnect_command on the handle of an established link e of each kind,
   once the link finds controller j for the peer address: the entry leaves its table (the other
   tables are untouched), the local host is told, one message goes to j. *)
Lemma disconnect_le_entry : forall cs i j c e p r, cinv c -> In e (c_le c) -> find_le cs p = Some j ->
  p = k_peer e ->
  disconnect cs i c (k_handle e) r =
    (set_le c (tbl_del (c_le c) (k_peer e)), [EStatus 0; EDisc (k_handle e) r], [(i, j, MTerm (k_self e) r)]).
Proof.
  intros cs i j c e p r I He Hf ->. unfold disconnect, conn_by_handle.
  destruct (le_handle_owner c e I He) as [-> ->]. now rewrite Hf.
Qed.

Lemma disconnect_classic_entry : forall cs i j c e p r, cinv c -> In e (c_cl c) -> k_handle e <> 0 ->
  find_classic cs p = Some j -> p = k_peer e ->
  disconnect cs i c (k_handle e) r =
    (set_cl c (tbl_del (c_cl c) (k_peer e)), [EStatus 0; EDisc (k_handle e) r], [(i, j, MLmpDetach (c_public c) r)]).
Proof.
  intros cs i j c e p r I He Hnz Hf ->. unfold disconnect, conn_by_handle.
  destruct (cl_handle_owner c e I He Hnz) as [-> ->]. now rewrite Hf.
Qed.

Lemma disconnect_sco_entry : forall cs i j c e p r, cinv c -> In e (c_sco c) -> k_handle e <> 0 ->
  find_classic cs p = Some j -> p = k_peer e ->
  disconnect cs i c (k_handle e) r =
    (set_sco c (tbl_del (c_sco c) (k_peer e)), [EStatus 0; EDisc (k_handle e) r], [(i, j, MLmpRemoveSco (c_public c) r)]).
Proof.
  intros cs i j c e p r I He Hnz Hf ->. unfold disconnect, conn_by_handle.
  destruct (sco_handle_owner c e I He Hnz) as [-> [-> ->]]. now rewrite Hf.
Qed.

Theorem disconnect_le : forall s i j ci cj e e' r, ginv s ->
  nth_error (st_cs s) i = Some ci -> In e (c_le ci) ->
  nth_error (st_cs s) j = Some cj -> In e' (c_le cj) -> k_self e' = k_peer e ->
  step s (LDisconnect i (k_handle e) r) =
    (mkState (upd (st_cs s) i (set_le ci (tbl_del (c_le ci) (k_peer e))))
             (st_net s ++ [(i, j, MTerm (k_self e) r)]),
     [(i, EStatus 0); (i, EDisc (k_handle e) r)], [(i, j, MTerm (k_self e) r)]).
Proof.
  intros s i j ci cj e e' r I Hi He Hj He' Hm.
  exact (step_local s (LDisconnect _ _ _) i ci _ _ _ _ eq_refl Hi
           (disconnect_le_entry _ i j ci e _ r (proj1 (g_c s I _ _ Hi)) He (find_le_holder s j cj e' I Hj He') Hm)
           eq_refl).
Qed.

Theorem disconnect_classic : forall s i j ci cj e r, ginv s ->
  nth_error (st_cs s) i = Some ci -> In e (c_cl ci) -> k_handle e <> 0 ->
  nth_error (st_cs s) j = Some cj -> c_public cj = k_peer e ->
  step s (LDisconnect i (k_handle e) r) =
    (mkState (upd (st_cs s) i (set_cl ci (tbl_del (c_cl ci) (k_peer e))))
             (st_net s ++ [(i, j, MLmpDetach (c_public ci) r)]),
     [(i, EStatus 0); (i, EDisc (k_handle e) r)], [(i, j, MLmpDetach (c_public ci) r)]).
Proof.
  intros s i j ci cj e r I Hi He Hnz Hj Hm.
  exact (step_local s (LDisconnect _ _ _) i ci _ _ _ _ eq_refl Hi
           (disconnect_classic_entry _ i j ci e _ r (proj1 (g_c s I _ _ Hi)) He Hnz (find_classic_owner s j cj I Hj) Hm)
           eq_refl).
Qed.

Theorem disconnect_sco : forall s i j ci cj e r, ginv s ->
  nth_error (st_cs s) i = Some ci -> In e (c_sco ci) -> k_handle e <> 0 ->
  nth_error (st_cs s) j = Some cj -> c_public cj = k_peer e ->
  step s (LDisconnect i (k_handle e) r) =
    (mkState (upd (st_cs s) i (set_sco ci (tbl_del (c_sco ci) (k_peer e))))
             (st_net s ++ [(i, j, MLmpRemoveSco (c_public ci) r)]),
     [(i, EStatus 0); (i, EDisc (k_handle e) r)], [(i, j, MLmpRemoveSco (c_public ci) r)]).
Proof.
  intros s i j ci cj e r I Hi He Hnz Hj Hm.
  exact (step_local s (LDisconnect _ _ _) i ci _ _ _ _ eq_refl Hi
           (disconnect_sco_entry _ i j ci e _ r (proj1 (g_c s I _ _ Hi)) He Hnz (find_classic_owner s j cj I Hj) Hm)
           eq_refl).
Qed.

Lemma tbl_del_only : forall t k x, keys_nodup t -> In k t ->
  (In x (tbl_del t (k_peer k)) <-> In x t /\ x <> k).
Proof.
  unfold keys_nodup. induction t as [|k0 t IH]; simpl; intros k x Hnd Hk; [contradiction|].
  inversion Hnd as [|? ? Hni Hnd']; subst.
  destruct (k_peer k0 =? k_peer k) eqn:E.
  - apply Z.eqb_eq in E. destruct Hk as [->|Hk].
    + split.
      * intros Hx. split; [now right|]. intros ->. apply Hni. now apply in_map.
      * intros [[->|Hx] Hne]; [congruence | assumption].
    + exfalso. apply Hni. rewrite E. now apply in_map.
  - apply Z.eqb_neq in E. destruct Hk as [->|Hk]; [congruence|]. simpl. rewrite (IH k x Hnd' Hk).
    split.
    + intros [->|[Hx Hne]]; [split; [now left | intros ->; congruence] | split; [now right | assumption]].
    + intros [[->|Hx] Hne]; [now left | right; auto].
Qed.

(* Whatever event completes the pending LE connect() of device i (Device.connect_le's matching
   rule) is the connection to the address that connect() asked for: it is reported only while
   that very connection is pending in the controller, it is filed under that address with the
   own address asked for, and it ends the pending state, so no second event can complete the
   same call.  A connection accepted as a peripheral while the call is pending never matches. *)
Theorem connect_le_handed : forall s l s' evs out i e, step s l = (s', evs, out) ->
  In (i, e) evs -> completes_le e = true ->
  exists h t own c c', e = ELeConn h true t /\
    nth_error (st_cs s) i = Some c /\ c_pending c = Some (t, own) /\
    nth_error (st_cs s') i = Some c' /\ c_pending c' = None /\
    tbl_get (c_le c') t = Some (mkConn t (if own then c_public c else c_random c) h true).
Proof.
  intros s l s' evs out i e H Hin Hc.
  destruct e; try discriminate. destruct central; [|discriminate]. clear Hc.
  apply step_shape in H. destruct H; subst; try contradiction; apply in_tag in Hin; destruct Hin as [-> Hin].
  - destruct (local_events _ _ _ _ _ _ _ _ H1 _ Hin).
  - destruct (message_events _ _ _ _ _ _ _ _ H3 _ Hin) as [d [sr ->]].
    destruct (adv_effect _ _ _ _ _ _ _ _ _ _ H3) as [_ [Hce _]].
    destruct (Hce _ _ _ Hin) as [_ [_ [own [Hp [_ [_ [Hg [_ Hn]]]]]]]].
    exists handle, peer, own, c, c'. repeat split; auto.
    simpl. apply nth_upd_same. eapply nth_error_lt; eauto.
Qed.

(* BR/EDR: the matching rule compares the peer address; the connection handed over is the
   entry of the classic table filed under that address *)
Theorem connect_classic_handed : forall s l s' evs out i e t, step s l = (s', evs, out) ->
  In (i, e) evs -> completes_classic t e = true ->
  exists h c' k, e = EClConn h t /\ nth_error (st_cs s') i = Some c' /\
    tbl_get (c_cl c') t = Some k /\ k_handle k = h.
Proof.
  intros s l s' evs out i e t H Hin Hc.
  destruct e; try discriminate. simpl in Hc. apply Z.eqb_eq in Hc. subst peer.
  apply step_shape in H. destruct H; subst; try contradiction; apply in_tag in Hin; destruct Hin as [-> Hin].
  - destruct (local_events _ _ _ _ _ _ _ _ H1 _ Hin) as [k [Hk Hh]].
    exists handle, c', k. repeat split; auto. simpl. apply nth_upd_same. eapply nth_error_lt; eauto.
  - destruct (message_events _ _ _ _ _ _ _ _ H3 _ Hin) as [k0 [Hk Hh]].
    exists handle, c', k0. repeat split; auto. simpl. apply nth_upd_same. eapply nth_error_lt; eauto.
Qed.

Definition chan (a b : nat) (net : list packet) : list packet := filter (same_pair a b) net.

Lemma filter_remove_first : forall {A} (f : A -> bool) k l p,
  nth_error l k = Some p -> f p = true -> existsb f (firstn k l) = false ->
  filter f l = p :: filter f (remove_nth k l).
Proof.
  induction k as [|k IH]; destruct l as [|x l]; simpl; intros p Hn Hf He; try discriminate.
  - inversion Hn; subst. now rewrite Hf.
  - apply orb_false_iff in He. destruct He as [Hx He]. rewrite Hx. now apply IH.
Qed.

Lemma filter_remove_other : forall {A} (f : A -> bool) k l p,
  nth_error l k = Some p -> f p = false -> filter f (remove_nth k l) = filter f l.
Proof.
  induction k as [|k IH]; destruct l as [|x l]; simpl; intros p Hn Hf; try discriminate.
  - inversion Hn; subst. now rewrite Hf.
  - destruct (f x); [f_equal|]; eapply IH; eauto.
Qed.

Lemma same_pair_eq : forall a b s d m, same_pair a b (s, d, m) = true <-> a = s /\ b = d.
Proof.
  intros. simpl. rewrite andb_true_iff, !Nat.eqb_eq. tauto.
Qed.

Lemma existsb_ext_false : forall {A} (f g : A -> bool) l, (forall x, g x = true -> f x = true) ->
  existsb f l = false -> existsb g l = false.
Proof.
  induction l as [|x l IH]; simpl; intros H He; [reflexivity|].
  apply orb_false_iff in He. destruct He as [Hx He]. rewrite (IH H He), orb_false_r.
  destruct (g x) eqn:G; [rewrite (H _ G) in Hx; discriminate | reflexivity].
Qed.

Definition taken (s : state) (l : label) : list packet :=
  match l with
  | LDeliver k =>
      match nth_error (st_net s) k with
      | Some (src, dst, m) =>
          if existsb (same_pair src dst) (firstn k (st_net s)) then [] else [(src, dst, m)]
      | None => []
      end
  | _ => []
  end.

(* One step, seen on the channel from a to b: the message taken (if it is of this pair) was
   the oldest one of the pair, and what the step sends is appended behind everything else. *)
Theorem link_fifo_step : forall s l s' evs out a b, step s l = (s', evs, out) ->
  chan a b (taken s l) ++ chan a b (st_net s') = chan a b (st_net s) ++ chan a b out.
Proof.
  intros s l s' evs out a b H.
  assert (Hloc : (forall k, l <> LDeliver k) -> chan a b (taken s l) ++ chan a b (st_net s') = chan a b (st_net s) ++ chan a b out).
  { intros Hl. assert (Ht : taken s l = []) by (destruct l; try reflexivity; exfalso; eapply Hl; reflexivity).
    rewrite Ht. apply step_shape in H. destruct H; subst; try (exfalso; eapply Hl; reflexivity).
    - unfold chan. simpl. now rewrite app_nil_r.
    - unfold chan. simpl. now rewrite filter_app. }
  destruct l; try (apply Hloc; intros; discriminate). clear Hloc.
  unfold step in H. unfold taken.
  destruct (nth_error (st_net s) k) as [[[src dst] m]|] eqn:Hk.
  2:{ inversion H; subst. unfold chan. simpl. now rewrite app_nil_r. }
  destruct (existsb (same_pair src dst) (firstn k (st_net s))) eqn:Hb.
  { inversion H; subst. unfold chan. simpl. now rewrite app_nil_r. }
  assert (Hrem : chan a b [(src, dst, m)] ++ chan a b (remove_nth k (st_net s)) = chan a b (st_net s)).
  { unfold chan.
    change (filter (same_pair a b) [(src, dst, m)])
      with (if same_pair a b (src, dst, m) then [(src, dst, m)] else []).
    destruct (same_pair a b (src, dst, m)) eqn:E.
    - apply same_pair_eq in E. destruct E as [-> ->].
      rewrite (filter_remove_first _ _ _ _ Hk); [reflexivity | apply same_pair_eq; auto | assumption].
    - simpl. now rewrite (filter_remove_other _ _ _ _ Hk E). }
  destruct (nth_error (st_cs s) dst) as [c|].
  - destruct (on_message (st_cs s) (length (st_cs s)) dst c m) as [[c' e] o]. inversion H; subst. simpl st_net.
    unfold chan in *. rewrite filter_app, app_assoc, Hrem. reflexivity.
  - inversion H; subst. simpl st_net. unfold chan in *. simpl. now rewrite app_nil_r.
Qed.

(* Whole runs: per ordered pair of controllers, the messages delivered so far followed by
   those still in flight are exactly those that were in flight at the start followed by
   those sent since, in that order: nothing is lost, duplicated, reordered or invented. *)
Fixpoint run_taken (s : state) (ls : list label) : list packet :=
  match ls with
  | [] => []
  | l :: ls' => taken s l ++ run_taken (fst (fst (step s l))) ls'
  end.

Fixpoint run_sent (s : state) (ls : list label) : list packet :=
  match ls with
  | [] => []
  | l :: ls' => snd (step s l) ++ run_sent (fst (fst (step s l))) ls'
  end.

Theorem link_fifo_run : forall ls s a b,
  chan a b (run_taken s ls) ++ chan a b (st_net (run_state s ls)) =
  chan a b (st_net s) ++ chan a b (run_sent s ls).
Proof.
  induction ls as [|l ls IH]; intros s a b.
  - unfold run_state, chan. simpl. now rewrite app_nil_r.
  - rewrite run_state_cons. simpl. destruct (step s l) as [[s1 e] o] eqn:Hs. simpl.
    unfold chan in *. rewrite !filter_app. rewrite <- app_assoc. rewrite IH.
    rewrite app_assoc. pose proof (link_fifo_step _ _ _ _ _ a b Hs) as H. unfold chan in H. rewrite H.
    now rewrite <- app_assoc.
Qed.
