(* UUID.from_bytes returns the bytes it was given whatever the registry holds; an Address survives its
   byte form and its colon-separated hex string. *)
From Coq Require Import ZArith List Bool Lia.
From BV Require Import Base.Bytes Proofs.Bytes Model.CodecsBase Proofs.CodecsBase
  Gen.C18Tables Model.CodecsUuid.
Import ListNotations.
Open Scope Z_scope.

Lemma zlist_eqb_refl : forall a, zlist_eqb a a = true.
Proof. intro a. apply zlist_eqb_eq. reflexivity. Qed.

(* whatever the registry holds, from_bytes returns an object with the bytes it was given *)
Theorem uuid_from_bytes_any_registry : forall reg b,
  uuid_len_ok b = true ->
  exists reg', uuid_from_bytes reg b = Some (reg', b) /\ In b reg' /\
               (forall x, In x reg -> In x reg').
Proof.
  intros reg b H. unfold uuid_from_bytes, register. rewrite H.
  destruct (existsb (zlist_eqb b) reg) eqn:E.
  - exists reg. split; [reflexivity|]. split; [|auto].
    apply existsb_exists in E as [x [Hin Hx]]. apply zlist_eqb_eq in Hx. subst x. exact Hin.
  - exists (reg ++ [b]). split; [reflexivity|]. split; [apply in_or_app; right; left; reflexivity|].
    intros x Hx. apply in_or_app. left. exact Hx.
Qed.

Corollary uuid_roundtrip_any_history : forall h b,
  uuid_len_ok b = true ->
  exists reg', uuid_from_bytes (uuid_run [] h) b = Some (reg', b).
Proof.
  intros h b H. destruct (uuid_from_bytes_any_registry (uuid_run [] h) b H) as [r [E _]]. eauto.
Qed.

Lemma uuid_from_bytes_bad_length : forall reg b, uuid_len_ok b = false -> uuid_from_bytes reg b = None.
Proof. intros reg b H. unfold uuid_from_bytes. rewrite H. reflexivity. Qed.

(* the registry never holds two entries with identical bytes, so the object returned for
   given bytes is unique *)
Lemma register_nodup : forall reg u, NoDup reg -> NoDup (fst (register reg u)).
Proof.
  intros reg u H. unfold register. destruct (existsb (zlist_eqb u) reg) eqn:E; cbn [fst]; [exact H|].
  assert (Hnot : ~ In u reg).
  { intro Hin. assert (existsb (zlist_eqb u) reg = true).
    { apply existsb_exists. exists u. split; [exact Hin|apply zlist_eqb_refl]. }
    congruence. }
  clear E. induction reg as [|x r IH]; [constructor; [intros []|constructor]|].
  inversion H; subst. cbn [app]. constructor.
  - intro Hin. apply in_app_or in Hin as [Hin | [Hin | []]]; [contradiction|].
    subst. apply Hnot. left. reflexivity.
  - apply IH; [assumption|]. intro Hin. apply Hnot. right. exact Hin.
Qed.

(* D18d: with the unfixed register a registered 16-bit UUID makes the 128-bit form of the
   same value come back two bytes long *)
Lemma uuid_unfixed_refuted :
  exists h b r reg', uuid_len_ok b = true /\
    uuid_from_bytes_unfixed (uuid_run_unfixed [] h) b = Some (reg', r) /\ r <> b.
Proof.
  exists [UFrom16 43981], (uuid_128 (le_encode 2 43981)). eexists. eexists.
  split; [vm_compute; reflexivity|]. split; [vm_compute; reflexivity|]. vm_compute. discriminate.
Qed.

Lemma uuid_base_length : length uuid_base = 12%nat.
Proof. reflexivity. Qed.

Theorem uuid_pdu_roundtrip : forall u,
  uuid_len_ok u = true ->
  uuid_len_ok (uuid_to_pdu_bytes u) = true /\ uuid_eq (uuid_to_pdu_bytes u) u = true.
Proof.
  intros u H. unfold uuid_to_pdu_bytes, uuid_to_bytes.
  destruct (lenZ u =? 4) eqn:E4.
  - apply Z.eqb_eq in E4. unfold uuid_128 at 1 2. rewrite E4. cbn [Z.eqb Pos.eqb].
    assert (Hl : lenZ (uuid_base ++ u) = 16) by (rewrite lenZ_app, E4; reflexivity).
    split.
    + unfold uuid_len_ok. rewrite Hl. reflexivity.
    + unfold uuid_eq, uuid_128. rewrite Hl, E4. cbn [Z.eqb Pos.eqb]. apply zlist_eqb_refl.
  - split; [exact H|]. unfold uuid_eq. apply zlist_eqb_refl.
Qed.

Theorem addr_value_roundtrip : forall a t tail,
  addr_ok a = true ->
  addr_parse t (addr_bytes a ++ tail) = Some ((fst a, t), tail).
Proof.
  intros [b ty] t tail H. unfold addr_ok in H. cbn [fst snd] in *.
  rewrite !andb_true_iff in H. destruct H as [[Hl _] _]. apply Nat.eqb_eq in Hl.
  unfold addr_parse, addr_bytes. cbn [fst].
  replace (6 <=? length (b ++ tail))%nat with true by (symmetry; apply Nat.leb_le; rewrite app_length; lia).
  rewrite <- Hl. rewrite firstn_app_exact, skipn_app_exact. reflexivity.
Qed.

Theorem addr_bytes_roundtrip : forall t d a rest,
  addr_parse t d = Some (a, rest) -> addr_bytes a ++ rest = d /\ length (addr_bytes a) = 6%nat /\ snd a = t.
Proof.
  intros t d a rest H. unfold addr_parse in H.
  destruct (6 <=? length d)%nat eqn:E; [|discriminate]. apply Nat.leb_le in E.
  apply some_pair_inv in H as [<- <-]. unfold addr_bytes. cbn [fst snd].
  split; [apply firstn_skipn|]. split; [apply firstn_length_le; exact E|reflexivity].
Qed.

Definition hex_digit_chk (d : Z) : bool :=
  match hexval (hexchar d) with Some v => v =? d | None => false end
  && negb (hexchar d =? 58) && negb (hexchar d =? 80).
Lemma hex_digit_all : forallb hex_digit_chk (zrange 16) = true.
Proof. vm_compute. reflexivity. Qed.
Lemma hex_digit : forall d, 0 <= d < 16 ->
  hexval (hexchar d) = Some d /\ (hexchar d =? 58) = false /\ (hexchar d =? 80) = false.
Proof.
  intros d Hd. pose proof (forall_range 16 _ hex_digit_all d ltac:(cbn; lia)) as H.
  unfold hex_digit_chk in H. rewrite !andb_true_iff in H. destruct H as [[H1 H2] H3].
  destruct (hexval (hexchar d)) as [v|]; [|discriminate]. apply Z.eqb_eq in H1. subst v.
  apply negb_true_iff in H2. apply negb_true_iff in H3. auto.
Qed.

Lemma byte_nibbles : forall b, 0 <= b < 256 -> 0 <= b / 16 < 16 /\ 0 <= b mod 16 < 16 /\ 16 * (b / 16) + b mod 16 = b.
Proof.
  intros b Hb. split; [split; [apply Z.div_pos; lia|apply Z.div_lt_upper_bound; lia]|].
  split; [apply Z.mod_pos_bound; lia|]. symmetry. apply Z.div_mod. lia.
Qed.

Lemma fromhex_hex2 : forall b r, 0 <= b < 256 ->
  fromhex (hex2 b ++ r) = match fromhex r with Some rest => Some (b :: rest) | None => None end.
Proof.
  intros b r Hb. destruct (byte_nibbles b Hb) as [Hh [Hl He]].
  destruct (hex_digit _ Hh) as [H1 _]. destruct (hex_digit _ Hl) as [H2 _].
  unfold hex2. cbn [app fromhex]. rewrite H1, H2. rewrite He. destruct (fromhex r); reflexivity.
Qed.

Lemma fromhex_concat : forall l, bytes_ok l = true -> fromhex (concat (map hex2 l)) = Some l.
Proof.
  induction l as [|b l IH]; intro H; [reflexivity|].
  rewrite bytes_ok_cons in H. apply andb_true_iff in H as [Hb Hl]. apply byte_ok_iff in Hb.
  cbn [map concat]. rewrite fromhex_hex2 by exact Hb. rewrite IH by exact Hl. reflexivity.
Qed.

Definition no_colon (c : Z) : bool := negb (c =? 58).

Lemma hex2_no_colon : forall b, 0 <= b < 256 -> filter no_colon (hex2 b) = hex2 b.
Proof.
  intros b Hb. destruct (byte_nibbles b Hb) as [Hh [Hl _]].
  destruct (hex_digit _ Hh) as [_ [H1 _]]. destruct (hex_digit _ Hl) as [_ [H2 _]].
  unfold hex2, no_colon. cbn [filter]. rewrite H1, H2. reflexivity.
Qed.

Lemma join_colon_filter : forall l, bytes_ok l = true ->
  filter no_colon (join_colon (map hex2 l)) = concat (map hex2 l).
Proof.
  induction l as [|b l IH]; intro H; [reflexivity|].
  rewrite bytes_ok_cons in H. apply andb_true_iff in H as [Hb Hl]. apply byte_ok_iff in Hb.
  destruct l as [|b' l'].
  - cbn [map join_colon concat]. rewrite app_nil_r. apply hex2_no_colon. exact Hb.
  - change (join_colon (map hex2 (b :: b' :: l'))) with (hex2 b ++ 58 :: join_colon (map hex2 (b' :: l'))).
    rewrite filter_app. rewrite hex2_no_colon by exact Hb.
    cbn [filter]. unfold no_colon at 1. cbn [Z.eqb Pos.eqb negb].
    rewrite IH by exact Hl. reflexivity.
Qed.

Lemma join_colon_length : forall l, l <> [] ->
  length (join_colon (map hex2 l)) = (3 * length l - 1)%nat.
Proof.
  induction l as [|b l IH]; intro H; [congruence|].
  destruct l as [|b' l'].
  - reflexivity.
  - change (join_colon (map hex2 (b :: b' :: l'))) with (hex2 b ++ 58 :: join_colon (map hex2 (b' :: l'))).
    rewrite app_length. cbn [length hex2]. rewrite IH by discriminate. cbn [length]. lia.
Qed.

Lemma join_colon_last : forall l d, bytes_ok l = true -> l <> [] ->
  (last (join_colon (map hex2 l)) d =? 80) = false.
Proof.
  induction l as [|b l IH]; intros d H Hne; [congruence|].
  rewrite bytes_ok_cons in H. apply andb_true_iff in H as [Hb Hl]. apply byte_ok_iff in Hb.
  destruct l as [|b' l'].
  - cbn [map join_colon hex2 last]. destruct (byte_nibbles b Hb) as [_ [Hlo _]].
    destruct (hex_digit _ Hlo) as [_ [_ H]]. exact H.
  - change (join_colon (map hex2 (b :: b' :: l'))) with (hex2 b ++ 58 :: join_colon (map hex2 (b' :: l'))).
    assert (Hne' : join_colon (map hex2 (b' :: l')) <> []).
    { intro E. pose proof (join_colon_length (b' :: l') ltac:(discriminate)) as L. rewrite E in L.
      cbn [length] in L. lia. }
    unfold hex2 at 1. cbn [app].
    destruct (join_colon (map hex2 (b' :: l'))) as [|c s] eqn:Ej; [congruence|].
    change (last (hexchar (b / 16) :: hexchar (b mod 16) :: 58 :: c :: s) d) with (last (c :: s) d).
    apply IH; [exact Hl|discriminate].
Qed.

Lemma last_app_2 : forall (s : list Z) x y d, last (s ++ [x; y]) d = y.
Proof.
  intros. replace (s ++ [x; y]) with ((s ++ [x]) ++ [y]) by (rewrite <- app_assoc; reflexivity).
  apply last_last.
Qed.
Lemma removelast_app_2 : forall (s : list Z) x y, removelast (removelast (s ++ [x; y])) = s.
Proof.
  intros. replace (s ++ [x; y]) with ((s ++ [x]) ++ [y]) by (rewrite <- app_assoc; reflexivity).
  rewrite removelast_last. apply removelast_last.
Qed.

Theorem addr_string_roundtrip : forall a t,
  addr_ok a = true -> is_public t = false ->
  exists a', addr_from_string (addr_to_string a) t = Some a' /\
             fst a' = fst a /\ is_public (snd a') = is_public (snd a).
Proof.
  intros [b ty] t H Ht. unfold addr_ok in H. cbn [fst snd] in *.
  rewrite !andb_true_iff in H. destruct H as [[Hl Hb] _]. apply Nat.eqb_eq in Hl.
  assert (Hrb : bytes_ok (rev b) = true) by (rewrite bytes_ok_rev; exact Hb).
  assert (Hrl : length (rev b) = 6%nat) by (rewrite rev_length; exact Hl).
  assert (Hne : rev b <> []) by (intro E; rewrite E in Hrl; discriminate).
  set (s := join_colon (map hex2 (rev b))).
  assert (Hs17 : length s = 17%nat) by (unfold s; rewrite join_colon_length by exact Hne; rewrite Hrl; reflexivity).
  assert (Hfin : forall t1 : Z,
     (let s2 := if (length s =? 17)%nat then filter (fun c => negb (c =? 58)) s else s in
      match fromhex s2 with
      | Some bs => if (length bs =? 6)%nat then Some (rev bs, t1) else None
      | None => None
      end) = Some (b, t1) :> option addr).
  { intro t1. cbv zeta. rewrite Hs17. cbn [Nat.eqb].
    change (fun c : Z => negb (c =? 58)) with no_colon.
    unfold s. rewrite join_colon_filter by exact Hrb. rewrite fromhex_concat by exact Hrb.
    rewrite Hrl. cbn [Nat.eqb]. rewrite rev_involutive. reflexivity. }
  unfold addr_to_string, addr_from_string. cbn [fst snd]. fold s.
  destruct (is_public ty) eqn:Ep.
  - rewrite last_app_2. cbn [Z.eqb Pos.eqb]. rewrite removelast_app_2.
    specialize (Hfin addr_type_PUBLIC_DEVICE). cbv zeta in Hfin. rewrite Hfin.
    eexists. split; [reflexivity|]. split; reflexivity.
  - rewrite app_nil_r. unfold s at 1. rewrite (join_colon_last (rev b) 0 Hrb Hne).
    specialize (Hfin t). cbv zeta in Hfin. fold s. rewrite Hfin.
    eexists. split; [reflexivity|]. split; [reflexivity|]. cbn [snd]. exact Ht.
Qed.
