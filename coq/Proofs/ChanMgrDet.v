(* C09 links_independent, determinacy form: what an event on connection a does -- the frames
   sent and everything of connection a afterwards -- is a function of a's projection of the
   manager: a's entries in the five tables, a's identifier counter, a's channel objects and
   the futures created for a.  Everything of other connections is forgotten by `local`
   (channel objects and futures of other connections are replaced by inert placeholders so that
   the ghost names, which are creation indices, stay the same).

   `local a` commutes with every primitive the handlers are made of (loc_hupd, loc_wres, ...,
   collected in the rewrite database `loc` together with what reading a field of `local a m`
   gives); that a handler commutes with it is then a chain of these rewritings along each of
   its paths. *)
From Coq Require Import ZArith List Bool Lia.
From BV Require Import Gen.C09Tables Model.ChanMgr Proofs.ChanMgrLib Proofs.ChanMgr.
Import ListNotations.
Open Scope Z_scope.

Definition akeep (a : Z) (l : list (Z * Z)) : list (Z * Z) := filter (fun e => Z.eqb (fst e) a) l.

Definition blank_c (a : Z) : chan := mkChan KCl (a - 1) 0 0 SClosed 0 0 0 true None None 0 false.
Definition blank_w (a : Z) : waiter := mkW O_RESULT WOpen (a - 1) 0.
Definition keep_c (a : Z) (c : chan) : chan := if Z.eqb (c_conn c) a then c else blank_c a.
Definition keep_w (a : Z) (x : waiter) : waiter := if Z.eqb (w_conn x) a then x else blank_w a.

Definition local (a : Z) (m : mgr) : mgr :=
  mkM (map (keep_c a) (m_heap m))
      (tconn a (m_chs m)) (tconn a (m_le m)) (tconn a (m_reqs m)) (tconn a (m_pend m))
      (akeep a (m_ids m)) (map (keep_w a) (m_w m)) (m_lesrv m) (m_clsrv m).

(* keeping the entries of connection a is a filter, and so are tdel, tdrop and adel *)
Lemma filter_comm {A} (p q : A -> bool) l : filter p (filter q l) = filter q (filter p l).
Proof.
  induction l as [|x l IH]; cbn; [reflexivity|].
  destruct (p x) eqn:P, (q x) eqn:Q; cbn; rewrite ?P, ?Q, IH; reflexivity.
Qed.

Section Tconn.
  Context {V : Type}.
  Implicit Types (t : table V).
  Lemma tget_cons h k (e : Z * Z * V) t : tget h k (e :: t) = if key_is h k e then Some (snd e) else tget h k t.
  Proof. reflexivity. Qed.
  Lemma tget_tconn a k t : tget a k (tconn a t) = tget a k t.
  Proof.
    induction t as [|e t IH]; [reflexivity|]. unfold tconn in *. cbn [filter].
    destruct (conn_is a e) eqn:E; rewrite !tget_cons, IH; [reflexivity|].
    unfold key_is. unfold conn_is in E. now rewrite E.
  Qed.
  Lemma tconn_idem a t : tconn a (tconn a t) = tconn a t.
  Proof.
    unfold tconn. induction t as [|e t IH]; cbn; auto. destruct (conn_is a e) eqn:E; cbn; rewrite ?E, ?IH; auto.
  Qed.
  Lemma tkeys_tconn a t : tkeys a (tconn a t) = tkeys a t.
  Proof. unfold tkeys. now rewrite tconn_idem. Qed.
  Lemma tconn_tdel a k t : tconn a (tdel a k t) = tdel a k (tconn a t).
  Proof. apply filter_comm. Qed.
  Lemma tconn_tset a k v t : tconn a (tset a k v t) = tset a k v (tconn a t).
  Proof.
    unfold tset. unfold tconn at 1. cbn [filter]. unfold conn_is at 1. cbn. rewrite Z.eqb_refl.
    f_equal. apply tconn_tdel.
  Qed.
  Lemma tconn_tdrop a t : tconn a (tdrop a t) = tdrop a (tconn a t).
  Proof. apply filter_comm. Qed.
End Tconn.

Lemma aget_akeep a l : aget a (akeep a l) = aget a l.
Proof.
  unfold akeep. induction l as [|[k v] l IH]; cbn; auto.
  destruct (Z.eqb_spec k a); cbn; subst.
  - now rewrite Z.eqb_refl.
  - destruct (Z.eqb_spec k a); [congruence|auto].
Qed.
Lemma akeep_adel a l : akeep a (adel a l) = adel a (akeep a l).
Proof. apply filter_comm. Qed.
Lemma akeep_cons a v l : akeep a ((a, v) :: l) = (a, v) :: akeep a l.
Proof. unfold akeep. cbn. now rewrite Z.eqb_refl. Qed.

Lemma chs_local a m : m_chs (local a m) = tconn a (m_chs m). Proof. reflexivity. Qed.
Lemma le_local a m : m_le (local a m) = tconn a (m_le m). Proof. reflexivity. Qed.
Lemma reqs_local a m : m_reqs (local a m) = tconn a (m_reqs m). Proof. reflexivity. Qed.
Lemma pend_local a m : m_pend (local a m) = tconn a (m_pend m). Proof. reflexivity. Qed.
Lemma ids_local a m : m_ids (local a m) = akeep a (m_ids m). Proof. reflexivity. Qed.
Lemma lesrv_local a m : m_lesrv (local a m) = m_lesrv m. Proof. reflexivity. Qed.
Lemma clsrv_local a m : m_clsrv (local a m) = m_clsrv m. Proof. reflexivity. Qed.
Lemma huid_local a m : huid (local a m) = huid m.
Proof. unfold huid, local. cbn. now rewrite map_length. Qed.
Lemma wuid_local a m : wuid (local a m) = wuid m.
Proof. unfold wuid, local. cbn. now rewrite map_length. Qed.
Lemma hget_local a m u : hget (local a m) u = option_map (keep_c a) (hget m u).
Proof. unfold hget, local. cbn. destruct (u <? 0); [reflexivity|]. apply nth_error_map. Qed.
Lemma wget_local a m w : wget (local a m) w = option_map (keep_w a) (wget m w).
Proof. unfold wget, local. cbn. destruct (w <? 0); [reflexivity|]. apply nth_error_map. Qed.
Lemma nid_local a m : nid (local a m) a = nid m a.
Proof. unfold nid. cbn. now rewrite aget_akeep. Qed.

Lemma keep_c_on a c : c_conn c = a -> keep_c a c = c.
Proof. intros <-. unfold keep_c. now rewrite Z.eqb_refl. Qed.
Lemma keep_w_on a x : w_conn x = a -> keep_w a x = x.
Proof. intros <-. unfold keep_w. now rewrite Z.eqb_refl. Qed.
Lemma keep_c_off a c : c_conn c <> a -> keep_c a c = blank_c a.
Proof. intros H. unfold keep_c. destruct (Z.eqb_spec (c_conn c) a); [contradiction|auto]. Qed.
Lemma keep_w_off a x : w_conn x <> a -> keep_w a x = blank_w a.
Proof. intros H. unfold keep_w. destruct (Z.eqb_spec (w_conn x) a); [contradiction|auto]. Qed.

(* For reference, what each primitive leaves untouched: the identifier a connection is at and the
   two server tables, under heap, waiter and table updates.  For the table setters, hnew, wnew
   (and next_id, for the servers) by computation; for the others by one statement each. *)
Definition same_rest (m m' : mgr) : Prop :=
  m_ids m' = m_ids m /\ m_lesrv m' = m_lesrv m /\ m_clsrv m' = m_clsrv m.

Lemma rest_hupd m u f : same_rest m (hupd m u f).
Proof. unfold hupd. now destruct (u <? 0). Qed.
Lemma rest_wres m w o : same_rest m (wres m w o).
Proof. unfold wres. now destruct (w <? 0). Qed.
Lemma rest_wres_opt m w o : same_rest m (wres_opt m w o).
Proof. destruct w; [apply rest_wres|easy]. Qed.
Lemma rest_occ m u c : same_rest m (on_channel_closed m u c).
Proof. unfold on_channel_closed. now repeat destruct (is_uid _ _). Qed.
Lemma rest_loa m u c : same_rest m (le_open_abandoned m u c).
Proof. unfold le_open_abandoned. now repeat destruct (is_uid _ _). Qed.
Lemma nid_rest m m' h : same_rest m m' -> nid m' h = nid m h.
Proof. intros (E & _). unfold nid. now rewrite E. Qed.

Lemma ids_next_id_same m a : m_ids (next_id m a) = (a, nid m a) :: adel a (m_ids m).
Proof. reflexivity. Qed.

Lemma nid_with_chs m x h : nid (with_chs m x) h = nid m h. Proof. reflexivity. Qed.
Lemma nid_with_le m x h : nid (with_le m x) h = nid m h. Proof. reflexivity. Qed.
Lemma nid_with_reqs m x h : nid (with_reqs m x) h = nid m h. Proof. reflexivity. Qed.
Lemma nid_with_pend m x h : nid (with_pend m x) h = nid m h. Proof. reflexivity. Qed.
Lemma nid_hnew m c h : nid (hnew m c) h = nid m h. Proof. reflexivity. Qed.
Lemma nid_wnew m o k h' r h : nid (wnew m o k h' r) h = nid m h. Proof. reflexivity. Qed.
Lemma nid_hupd m u f h : nid (hupd m u f) h = nid m h. Proof. apply nid_rest, rest_hupd. Qed.
Lemma nid_wres_opt m w o h : nid (wres_opt m w o) h = nid m h. Proof. apply nid_rest, rest_wres_opt. Qed.

Lemma lesrv_with_chs m x : m_lesrv (with_chs m x) = m_lesrv m. Proof. reflexivity. Qed.
Lemma lesrv_with_le m x : m_lesrv (with_le m x) = m_lesrv m. Proof. reflexivity. Qed.
Lemma lesrv_with_reqs m x : m_lesrv (with_reqs m x) = m_lesrv m. Proof. reflexivity. Qed.
Lemma lesrv_with_pend m x : m_lesrv (with_pend m x) = m_lesrv m. Proof. reflexivity. Qed.
Lemma lesrv_hnew m c : m_lesrv (hnew m c) = m_lesrv m. Proof. reflexivity. Qed.
Lemma lesrv_wnew m o k h r : m_lesrv (wnew m o k h r) = m_lesrv m. Proof. reflexivity. Qed.
Lemma lesrv_next_id m h : m_lesrv (next_id m h) = m_lesrv m. Proof. reflexivity. Qed.
Lemma lesrv_hupd m u f : m_lesrv (hupd m u f) = m_lesrv m. Proof. apply rest_hupd. Qed.
Lemma lesrv_wres m w o : m_lesrv (wres m w o) = m_lesrv m. Proof. apply rest_wres. Qed.
Lemma lesrv_wres_opt m w o : m_lesrv (wres_opt m w o) = m_lesrv m. Proof. apply rest_wres_opt. Qed.
Lemma lesrv_occ m u c : m_lesrv (on_channel_closed m u c) = m_lesrv m. Proof. apply rest_occ. Qed.
Lemma lesrv_loa m u c : m_lesrv (le_open_abandoned m u c) = m_lesrv m. Proof. apply rest_loa. Qed.
Lemma clsrv_with_chs m x : m_clsrv (with_chs m x) = m_clsrv m. Proof. reflexivity. Qed.
Lemma clsrv_with_le m x : m_clsrv (with_le m x) = m_clsrv m. Proof. reflexivity. Qed.
Lemma clsrv_with_reqs m x : m_clsrv (with_reqs m x) = m_clsrv m. Proof. reflexivity. Qed.
Lemma clsrv_with_pend m x : m_clsrv (with_pend m x) = m_clsrv m. Proof. reflexivity. Qed.
Lemma clsrv_hnew m c : m_clsrv (hnew m c) = m_clsrv m. Proof. reflexivity. Qed.
Lemma clsrv_wnew m o k h r : m_clsrv (wnew m o k h r) = m_clsrv m. Proof. reflexivity. Qed.
Lemma clsrv_next_id m h : m_clsrv (next_id m h) = m_clsrv m. Proof. reflexivity. Qed.
Lemma clsrv_hupd m u f : m_clsrv (hupd m u f) = m_clsrv m. Proof. apply rest_hupd. Qed.
Lemma clsrv_wres m w o : m_clsrv (wres m w o) = m_clsrv m. Proof. apply rest_wres. Qed.
Lemma clsrv_wres_opt m w o : m_clsrv (wres_opt m w o) = m_clsrv m. Proof. apply rest_wres_opt. Qed.
Lemma clsrv_occ m u c : m_clsrv (on_channel_closed m u c) = m_clsrv m. Proof. apply rest_occ. Qed.
Lemma clsrv_loa m u c : m_clsrv (le_open_abandoned m u c) = m_clsrv m. Proof. apply rest_loa. Qed.

(* a channel object of connection a is read through the projection as it is, and no primitive
   moves it to another connection *)
Definition chan_on (a : Z) (m : mgr) (u : Z) : Prop := exists c, hget m u = Some c /\ c_conn c = a.

Lemma chan_on_intro m u c : hget m u = Some c -> chan_on (c_conn c) m u.
Proof. intros H. exists c. auto. Qed.

Lemma hget_local_on m u c : hget m u = Some c -> hget (local (c_conn c) m) u = Some c.
Proof. intros H. rewrite hget_local, H. cbn. now rewrite keep_c_on. Qed.

(* what the tables of connection a point at *)
Lemma chs_on a m k u : Inv m -> tget a k (m_chs m) = Some u -> chan_on a m u.
Proof. intros I T. destruct (chs_pt _ I _ _ _ T) as (c & Hu & Hc & _). exists c. auto. Qed.
Lemma pend_on a m id w us : Inv m -> tget a id (m_pend m) = Some (w, us) -> forall u, In u us -> chan_on a m u.
Proof.
  intros I T u Hin. destruct (pend_ok _ I _ _ _ _ T) as (_ & _ & H).
  destruct (H u Hin) as (c & Hu & _ & Hc & _). exists c. auto.
Qed.

Lemma chan_on_heap a m m' u : m_heap m' = m_heap m -> chan_on a m u -> chan_on a m' u.
Proof. unfold chan_on, hget. now intros ->. Qed.
Lemma chan_on_hupd a m u f u' : (forall c, c_conn c = a -> c_conn (f c) = a) ->
  chan_on a m u' -> chan_on a (hupd m u f) u'.
Proof.
  intros Hf (c & Hu & Hc). unfold chan_on. rewrite hget_hupd, Hu. destruct (u' =? u); cbn; eauto.
Qed.
Lemma chan_on_new a m c : c_conn c = a -> chan_on a (hnew m c) (huid m).
Proof. intros H. exists c. now rewrite hget_hnew, Z.eqb_refl. Qed.
Lemma chan_on_wres a m w o u : chan_on a m u -> chan_on a (wres m w o) u.
Proof. apply chan_on_heap. unfold wres. now destruct (w <? 0). Qed.
Lemma chan_on_wres_opt a m w o u : chan_on a m u -> chan_on a (wres_opt m w o) u.
Proof. destruct w; [apply chan_on_wres|auto]. Qed.
Lemma chan_on_wnew a m o k h r u : chan_on a m u -> chan_on a (wnew m o k h r) u.
Proof. now apply chan_on_heap. Qed.
Lemma chan_on_next_id a m h u : chan_on a m u -> chan_on a (next_id m h) u.
Proof. now apply chan_on_heap. Qed.
Lemma chan_on_with_chs a m t u : chan_on a m u -> chan_on a (with_chs m t) u.
Proof. now apply chan_on_heap. Qed.
Lemma chan_on_occ a m u c u' : chan_on a m u' -> chan_on a (on_channel_closed m u c) u'.
Proof. apply chan_on_heap. unfold on_channel_closed. now repeat destruct (is_uid _ _). Qed.
Lemma chan_on_pend_set a m h i us u : chan_on a m u -> chan_on a (pend_set m h i us) u.
Proof. apply chan_on_heap. unfold pend_set. now destruct (tget h i (m_pend m)) as [[]|]. Qed.
Lemma chan_on_le_register a m u' u : chan_on a m u -> chan_on a (le_register m [u']) u.
Proof. apply chan_on_heap. cbn. now destruct (hget m u'). Qed.
Lemma chan_on_chs_unregister a m u' u : chan_on a m u -> chan_on a (chs_unregister m [u']) u.
Proof. apply chan_on_heap. cbn. now destruct (hget m u'). Qed.

#[export] Hint Resolve chan_on_intro chan_on_hupd chan_on_new chan_on_wres chan_on_wres_opt
  chan_on_wnew chan_on_next_id chan_on_with_chs chan_on_occ chan_on_pend_set chan_on_le_register chan_on_chs_unregister : on.
#[export] Hint Extern 1 (c_conn _ = _) => first [assumption | reflexivity] : on.

Lemma wout_local a m w x : wget m w = Some x -> w_conn x = a -> wout (local a m) w = wout m w.
Proof. intros H Hx. rewrite !wout_wget, wget_local, H. cbn. now rewrite keep_w_on. Qed.

(* connection_result of a channel is a future of the channel's connection *)
Lemma wpending_local m u c : Inv m -> hget m u = Some c ->
  wpending (local (c_conn c) m) (c_cw c) = wpending m (c_cw c).
Proof.
  intros I Hu. destruct (c_cw c) as [w|] eqn:E; [|reflexivity].
  destruct (ch_cw _ I _ _ _ Hu E) as (_ & _ & x & Hw & _ & _ & Hx & _).
  cbn. now rewrite (wout_local _ _ _ _ Hw Hx).
Qed.

Lemma wpending_hupd m u f w : wpending (hupd m u f) w = wpending m w.
Proof. unfold wpending, wout, hupd. now destruct (u <? 0). Qed.

Lemma lupd_map {A B} (g : A -> B) (f : B -> B) (f' : A -> A) l n :
  (forall x, nth_error l n = Some x -> f (g x) = g (f' x)) ->
  lupd (map g l) n f = map g (lupd l n f').
Proof.
  revert n. induction l as [|x l IH]; intros [|n] H; cbn; auto.
  - now rewrite (H x eq_refl).
  - now rewrite IH.
Qed.

(* channel updates used by the handlers keep the connection *)
Definition fpres (f : chan -> chan) : Prop := forall c, c_conn (f c) = c_conn c.
Lemma keep_c_f a f c : c_conn c = a -> c_conn (f c) = a -> keep_c a (f c) = f (keep_c a c).
Proof. intros H1 H2. now rewrite !keep_c_on. Qed.

Lemma loc_hupd a m u f : chan_on a m u -> (forall c, c_conn c = a -> c_conn (f c) = a) ->
  hupd (local a m) u f = local a (hupd m u f).
Proof.
  intros (c & Hu & Hc) Hf. unfold hupd. destruct (u <? 0) eqn:E; [reflexivity|].
  unfold local, with_heap. cbn [m_heap m_chs m_le m_reqs m_pend m_ids m_w m_lesrv m_clsrv]. f_equal.
  apply lupd_map. intros x Hx. unfold hget in Hu. rewrite E in Hu.
  assert (x = c) by congruence. subst x. symmetry. apply keep_c_f; auto.
Qed.
Lemma loc_hnew a m c : c_conn c = a -> hnew (local a m) c = local a (hnew m c).
Proof.
  intros H. unfold hnew, local, with_heap. cbn [m_heap m_chs m_le m_reqs m_pend m_ids m_w m_lesrv m_clsrv].
  rewrite map_app. cbn [map]. now rewrite keep_c_on.
Qed.

(* completing a future commutes with forgetting: the placeholder is not pending *)
Lemma wres1_keep a o x : wres1 o (keep_w a x) = keep_w a (wres1 o x).
Proof.
  unfold keep_w, wres1. destruct (Z.eqb (w_conn x) a) eqn:E.
  - destruct (Z.eqb (w_out x) O_PENDING); cbn; now rewrite E.
  - cbn. destruct (Z.eqb (w_out x) O_PENDING); cbn; now rewrite E.
Qed.

Lemma loc_wres a m w o : wres (local a m) w o = local a (wres m w o).
Proof.
  unfold wres. destruct (w <? 0); [reflexivity|].
  unfold local, with_w. cbn [m_heap m_chs m_le m_reqs m_pend m_ids m_w m_lesrv m_clsrv]. f_equal.
  apply lupd_map. intros x _. apply wres1_keep.
Qed.
Lemma loc_wres_opt a m w o : wres_opt (local a m) w o = local a (wres_opt m w o).
Proof. destruct w; [apply loc_wres|reflexivity]. Qed.
Lemma loc_wnew a m o k r : wnew (local a m) o k a r = local a (wnew m o k a r).
Proof.
  unfold wnew, local, with_w. cbn [m_heap m_chs m_le m_reqs m_pend m_ids m_w m_lesrv m_clsrv].
  rewrite map_app. cbn [map]. now rewrite keep_w_on.
Qed.
Lemma loc_next_id a m : next_id (local a m) a = local a (next_id m a).
Proof.
  unfold next_id. rewrite nid_local. unfold local, with_ids.
  cbn [m_heap m_chs m_le m_reqs m_pend m_ids m_w m_lesrv m_clsrv]. now rewrite akeep_cons, akeep_adel.
Qed.
Lemma loc_with_chs a m t : with_chs (local a m) (tconn a t) = local a (with_chs m t).
Proof. reflexivity. Qed.
Lemma loc_with_le a m t : with_le (local a m) (tconn a t) = local a (with_le m t).
Proof. reflexivity. Qed.
Lemma loc_with_reqs a m t : with_reqs (local a m) (tconn a t) = local a (with_reqs m t).
Proof. reflexivity. Qed.
Lemma loc_with_pend a m t : with_pend (local a m) (tconn a t) = local a (with_pend m t).
Proof. reflexivity. Qed.

(* `autorewrite with loc` moves `local a` outwards through a term built from the primitives,
   resolving what is read from the projection on the way.  It tries the rules declared last
   first: they are declared against the order in which the handlers nest the primitives, so
   that few passes are needed. *)
#[export] Hint Rewrite loc_hupd using solve [auto 12 with on] : loc.
#[export] Hint Rewrite loc_wres_opt loc_wres loc_wnew loc_next_id loc_with_pend loc_with_reqs loc_with_le
  loc_with_chs : loc.
#[export] Hint Rewrite loc_hnew using solve [auto with on] : loc.
#[export] Hint Rewrite <- @tconn_tdel @tconn_tset : loc.
#[export] Hint Rewrite @tkeys_tconn @tget_tconn nid_local wuid_local huid_local clsrv_local lesrv_local
  pend_local reqs_local le_local chs_local : loc.

(* what a handler returns, seen from connection a *)
Definition loc_out {B} (a : Z) (r : mgr * B) : mgr * B := (local a (fst r), snd r).

(* the end of a path through a handler: the same primitives applied to `local a m` and to m *)
Ltac loc_path := cbv zeta; cbn [loc_out fst snd]; autorewrite with loc; reflexivity.

Lemma loc_occ a m u c : c_conn c = a ->
  on_channel_closed (local a m) u c = local a (on_channel_closed m u c).
Proof.
  intros <-. unfold on_channel_closed. autorewrite with loc.
  destruct (is_uid (tget _ _ (m_chs m)) u); autorewrite with loc;
    destruct (is_uid (tget _ _ (m_le _)) u); loc_path.
Qed.
Lemma loc_loa a m u c : c_conn c = a ->
  le_open_abandoned (local a m) u c = local a (le_open_abandoned m u c).
Proof.
  intros <-. unfold le_open_abandoned. autorewrite with loc.
  destruct (is_uid (tget _ _ (m_reqs m)) _); autorewrite with loc;
    destruct (is_uid (tget _ _ (m_chs _)) u); loc_path.
Qed.
#[export] Hint Rewrite loc_occ loc_loa using solve [auto with on] : loc.

Lemma loc_pend_add a m i u : pend_add (local a m) a i u = local a (pend_add m a i u).
Proof.
  unfold pend_add. autorewrite with loc. destruct (tget a i (m_pend m)) as [[w us]|]; loc_path.
Qed.
Lemma loc_pend_set a m i us : pend_set (local a m) a i us = local a (pend_set m a i us).
Proof.
  unfold pend_set. autorewrite with loc. destruct (tget a i (m_pend m)) as [[w us']|]; loc_path.
Qed.
Lemma loc_le_register a m u : chan_on a m u -> le_register (local a m) [u] = local a (le_register m [u]).
Proof.
  intros (c & Hu & <-). cbn [le_register]. rewrite (hget_local_on _ _ _ Hu), Hu. loc_path.
Qed.
Lemma loc_chs_unregister a m u : chan_on a m u -> chs_unregister (local a m) [u] = local a (chs_unregister m [u]).
Proof.
  intros (c & Hu & <-). cbn [chs_unregister]. rewrite (hget_local_on _ _ _ Hu), Hu. loc_path.
Qed.
#[export] Hint Rewrite loc_pend_add loc_pend_set : loc.
#[export] Hint Rewrite loc_le_register loc_chs_unregister using solve [auto 12 with on] : loc.

Lemma loc_open_cl a m psm mode :
  open_cl (local a m) a psm mode = loc_out a (open_cl m a psm mode).
Proof.
  unfold open_cl. autorewrite with loc. destruct (find_free_bredr _); loc_path.
Qed.

Lemma loc_open_le a m psm credits :
  open_le (local a m) a psm credits = loc_out a (open_le m a psm credits).
Proof.
  unfold open_le. rewrite chs_local, tkeys_tconn. destruct (find_free_le _) as [scid|]; cbv zeta; autorewrite with loc.
  - destruct (tget a _ _); loc_path.
  - reflexivity.
Qed.

Lemma loc_new_le_chans a st credits r regle pairs : forall m,
  new_le_chans (local a m) a st credits r regle pairs = loc_out a (new_le_chans m a st credits r regle pairs).
Proof.
  induction pairs as [|[scid dcid] ps IH]; intros m; [reflexivity|].
  cbn [new_le_chans]. cbv zeta. destruct regle; autorewrite with loc; rewrite IH;
    destruct (new_le_chans _ a st credits r _ ps); reflexivity.
Qed.

Lemma loc_new_enh_chans a i scids : forall m,
  new_enh_chans (local a m) a i scids = local a (new_enh_chans m a i scids).
Proof.
  induction scids as [|scid rest IH]; intros m; [reflexivity|].
  cbn [new_enh_chans]. cbv zeta. autorewrite with loc. apply IH.
Qed.

Lemma loc_open_enh a m psm n credits :
  open_enh (local a m) a psm n credits = loc_out a (open_enh m a psm n credits).
Proof.
  unfold open_enh. autorewrite with loc. destruct (find_free_le_n _ _) as [|s ss]; cbv zeta; cbn [loc_out fst snd];
    autorewrite with loc; [|rewrite loc_new_enh_chans]; reflexivity.
Qed.

Lemma loc_close m u c : hget m u = Some c ->
  do_close (local (c_conn c) m) u = loc_out (c_conn c) (do_close m u).
Proof.
  intros Hu. unfold do_close. rewrite (hget_local_on _ _ _ Hu), Hu.
  destruct (negb _); cbv zeta; cbn [loc_out fst snd]; autorewrite with loc; [reflexivity|].
  rewrite loc_hupd; [reflexivity|auto 6 with on|]. intros x Hx. now destruct (c_kind x).
Qed.

Lemma loc_write m u k c : hget m u = Some c ->
  do_write (local (c_conn c) m) u k = loc_out (c_conn c) (do_write m u k).
Proof.
  intros Hu. unfold do_write. rewrite (hget_local_on _ _ _ Hu), Hu.
  destruct (c_kind c); [|reflexivity]. destruct (c_st c); try reflexivity. loc_path.
Qed.

Lemma loc_grant m u n c : hget m u = Some c ->
  do_grant (local (c_conn c) m) u n = loc_out (c_conn c) (do_grant m u n).
Proof.
  intros Hu. unfold do_grant. rewrite (hget_local_on _ _ _ Hu), Hu. loc_path.
Qed.

Lemma loc_abort m u c : Inv m -> hget m u = Some c ->
  abort_chan (local (c_conn c) m) u = local (c_conn c) (abort_chan m u).
Proof.
  intros I Hu. unfold abort_chan. rewrite (hget_local_on _ _ _ Hu), Hu, (wpending_local _ _ _ I Hu).
  destruct (c_kind c); cbv zeta.
  - destruct (wpending m (c_cw c)); destruct (c_st c); loc_path.
  - destruct (c_st c); loc_path.
Qed.
