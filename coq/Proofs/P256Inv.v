(* C14 - the model of pow(z, -1, p) (extended Euclid) returns a modular inverse, and returns
   it whenever there is one; to_affine therefore divides correctly: the affine coordinates it
   returns satisfy x * z^2 = X and y * z^3 = Y modulo p. *)
From Coq Require Import ZArith Zpow_facts List Bool Lia ZifyBool.
From BV Require Import Model.CryptoBytes Model.P256.
Import ListNotations.
Open Scope Z_scope.

(* invariant of the loop: both remainders are multiples of z modulo p *)
Lemma egcd_inv : forall fuel z p a b x0 x1 g x,
  (exists k, a = x0 * z + k * p) -> (exists k, b = x1 * z + k * p) ->
  egcd fuel a b x0 x1 = Some (g, x) ->
  exists k, g = x * z + k * p.
Proof.
  induction fuel as [|f IH]; intros z p a b x0 x1 g x Ha Hb H; [discriminate|].
  cbn [egcd] in H. destruct (b =? 0) eqn:E.
  - inversion H; subst. assumption.
  - apply (IH z p b (a mod b) x1 (x0 - a / b * x1) g x); auto.
    destruct Ha as [ka Ha]. destruct Hb as [kb Hb].
    rewrite Z.mod_eq by lia.
    remember (a / b) as q eqn:Hq. clear Hq.
    exists (ka - q * kb). rewrite Ha, Hb. ring.
Qed.

Theorem modinv_correct : forall z p x, 0 < p ->
  modinv z p = Some x -> (z * x) mod p = 1 mod p /\ 0 <= x < p.
Proof.
  intros z p x Hp H. unfold modinv in H.
  destruct (egcd _ (z mod p) p 1 0) as [[g x']|] eqn:E; [|discriminate].
  destruct (g =? 1) eqn:Eg; [|discriminate]. inversion H; subst x. clear H.
  apply Z.eqb_eq in Eg. subst g.
  split; [|apply Z.mod_pos_bound; assumption].
  apply egcd_inv with (z := z) (p := p) in E.
  - destruct E as [k Hk].
    rewrite Z.mul_mod_idemp_r by lia.
    replace (z * x') with (1 + (- k) * p) by lia.
    apply Z_mod_plus_full.
  - exists (- (z / p)). rewrite Z.mod_eq by lia. ring.
  - exists 1. ring.
Qed.

(* once the remainders are ordered their product at least halves at every step, because
   a mod b < a / 2 for b <= a: the loop ends within the fuel, with the gcd *)
Lemma egcd_total : forall fuel a b x0 x1, 0 <= b <= a -> a * b < 2 ^ Z.of_nat fuel ->
  exists x, egcd (S fuel) a b x0 x1 = Some (Z.gcd a b, x).
Proof.
  induction fuel as [|f IH]; intros a b x0 x1 Hab Hlt; cbn [egcd]; destruct (b =? 0) eqn:E.
  1,3: exists x0; apply Z.eqb_eq in E; subst b; rewrite Z.gcd_0_r, Z.abs_eq by lia; reflexivity.
  - exfalso. change (2 ^ Z.of_nat 0) with 1 in Hlt. nia.
  - pose proof (Z.mod_pos_bound a b ltac:(lia)) as Hr.
    pose proof (Z.div_mod a b ltac:(lia)) as Hd.
    pose proof (Z.div_str_pos a b ltac:(lia)) as Hq.
    rewrite Nat2Z.inj_succ, Z.pow_succ_r in Hlt by lia.
    rewrite <- (Z.gcd_comm b), <- (Z.gcd_mod a b), Z.gcd_comm by lia.
    apply IH; [lia|nia].
Qed.

Theorem modinv_complete : forall z p i, 0 < p ->
  (z * i) mod p = 1 -> modinv z p = Some (i mod p).
Proof.
  intros z p i Hp Hi.
  pose proof (Z.div_mod (z * i) p ltac:(lia)) as Hzi. rewrite Hi in Hzi. set (m := z * i / p) in Hzi.
  pose proof (Z.mod_pos_bound z p Hp) as Hr. pose proof (Z.mod_pos_bound (z * i) p Hp) as Hp1.
  (* the first step swaps (z mod p, p); then p * (z mod p) < p^2 < 2^(2*log2(p)+2) *)
  assert (E : exists x, modinv z p = Some (x mod p)).
  { unfold modinv. pose proof (Z.log2_nonneg p) as HL. destruct (Z.log2_spec p Hp) as [_ Hlt].
    replace (Z.to_nat (2 * Z.log2 p + 4)) with (S (S (Z.to_nat (2 * Z.log2 p + 2)))) by lia.
    set (f := S (Z.to_nat _)). cbn [egcd]. subst f. replace (p =? 0) with false by lia. rewrite Zmod_mod.
    destruct (egcd_total (Z.to_nat (2 * Z.log2 p + 2)) p (z mod p) 0 (1 - z mod p / p * 0)) as [x Hx].
    - lia.
    - rewrite Z2Nat.id by lia.
      replace (2 * Z.log2 p + 2) with (Z.succ (Z.log2 p) + Z.succ (Z.log2 p)) by lia.
      rewrite Z.pow_add_r by lia. nia.
    - exists x. rewrite Hx, Z.gcd_comm, Z.gcd_mod by lia.
      replace (Z.gcd p z) with 1; [reflexivity|].
      symmetry. apply Z.bezout_1_gcd. exists (- m), i. lia. }
  (* the inverse is unique: x = x * (z * i) = (z * x) * i = i modulo p *)
  destruct E as [x E]. rewrite E. f_equal.
  destruct (modinv_correct _ _ _ Hp E) as [Hx _].
  rewrite Z.mul_mod_idemp_r, Z.mod_1_l in Hx by lia.
  pose proof (Z.div_mod (z * x) p ltac:(lia)) as Hzx. rewrite Hx in Hzx. set (n := z * x / p) in Hzx.
  replace x with (i + (i * n - x * m) * p); [apply Z_mod_plus_full|].
  assert (H : x * (z * i) = i * (z * x)) by ring. rewrite Hzi, Hzx in H. lia.
Qed.

(* dividing by u^n is multiplying by v^n when v is the inverse of u *)
Lemma mul_pow_inverse : forall p a u v n, 0 < p -> 0 <= n -> (u * v) mod p = 1 mod p ->
  ((a * v ^ n) mod p * u ^ n) mod p = a mod p.
Proof.
  intros p a u v n Hp Hn H. rewrite Z.mul_mod_idemp_l by lia.
  replace (a * v ^ n * u ^ n) with (a * (u * v) ^ n) by (rewrite Z.pow_mul_l; ring).
  rewrite <- Z.mul_mod_idemp_r, Zpower_mod, H, <- Zpower_mod, Z.pow_1_l, Z.mul_mod_idemp_r by lia.
  f_equal. ring.
Qed.

(* to_affine: the returned coordinates are the Jacobian ones divided by z^2 and z^3 *)
Theorem to_affine_correct : forall c X Y Z0 x y, 0 < cp c ->
  to_affine c (X, Y, Z0) = Affine x y ->
  (x * Z0 ^ 2) mod cp c = X mod cp c /\ (y * Z0 ^ 3) mod cp c = Y mod cp c /\
  0 <= x < cp c /\ 0 <= y < cp c.
Proof.
  intros c X Y Z0 x y Hp H. unfold to_affine in H.
  destruct (Z0 =? 0); [discriminate|].
  destruct (modinv Z0 (cp c)) as [iz|] eqn:E; [|discriminate].
  injection H as <- <-.
  destruct (modinv_correct _ _ _ Hp E) as [Hinv _].
  repeat split; try (apply Z.mod_pos_bound; assumption);
    [apply (mul_pow_inverse _ X Z0 iz 2)|apply (mul_pow_inverse _ Y Z0 iz 3)]; (assumption || lia).
Qed.
