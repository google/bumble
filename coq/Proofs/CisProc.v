(* Proofs about Model/CisProc.v: the complete evaluation [cis_all_ok d s] covers every schedule of
   at most d steps over the alphabet whose steps satisfy the hypothesis. *)
From Coq Require Import ZArith List Bool.
From BV Require Import Model.CisProc Proofs.CtrlProcScope.
Import ListNotations.
Open Scope Z_scope.

Lemma crun_fold xs : forall s, fst (crun s xs) = fold_left (fun s o => fst (cstep s o)) xs s.
Proof.
  induction xs as [|x xs IH]; intros s; [reflexivity|]. cbn [crun fold_left]. rewrite <- IH.
  destruct (cstep s x) as [s1 o1]. cbn [fst]. destruct (crun s1 xs) as [s2 o2]. reflexivity.
Qed.

Lemma cis_all_ok_explore d s :
  cis_all_ok d s = explore cstate cop (fun s o => fst (cstep s o)) cconcludes cis_step_ok cis_alphabet d s.
Proof. reflexivity. Qed.

Lemma cis_all_ok_spec d : forall s, cis_all_ok d s = true ->
  forall xs, (length xs <= d)%nat -> Forall (fun o => In o cis_alphabet) xs -> cis_run_ok s xs = true ->
  cconcludes (fst (crun s xs)) = true.
Proof.
  intros s A xs L F R. rewrite cis_all_ok_explore in A. rewrite crun_fold.
  exact (explore_spec _ _ _ _ _ _ d s A xs L F R).
Qed.

Definition cstate_eq_dec (s t : cstate) : {s = t} + {s <> t}.
Proof. repeat decide equality. Defined.

(* [cis_all_ok], evaluated without the steps that change nothing *)
Definition cis_all_ok_moves : nat -> cstate -> bool :=
  explore_moves cstate cop (fun s o => fst (cstep s o)) cconcludes cis_step_ok cis_alphabet
                (fun s t => if cstate_eq_dec s t then true else false).

Lemma cis_all_ok_moves_sound d s : cis_all_ok_moves d s = true -> cis_all_ok d s = true.
Proof.
  intros A. rewrite cis_all_ok_explore. refine (explore_moves_sound _ _ _ _ _ _ _ _ d s A).
  intros s0 t. now destruct (cstate_eq_dec s0 t).
Qed.

