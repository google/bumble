(* Property C07: LE / enhanced credit-based channels - exact byte stream, credit
   discipline, progress.  The statements; each is closed by an [exact] or in a few lines from the
   lemmas of Proofs/LeCoc.v; refutations and source comparisons are evaluated.

   The system (Model/LeCoc.v): one channel between two managers A and B; each end
   has the sender half and the receiver half of LeCreditBasedChannel; the A->B and
   B->A wires are FIFOs carrying K-frames and credit packets interleaved; a schedule
   is any list of WriteA d / WriteB d / DeliverAB / DeliverBA (a delivery from an
   empty wire is a stutter).  All theorems are for
     - every pair of code paths (ka, kb) that filed the two channel objects in
       le_coc_channels (LE / enhanced, initiator / acceptor),
     - every pair of channel identifiers cid_a, cid_b (equal or different),
     - every MTU in 1..65535, MPS >= 1, initial credits >= 1 on each side (the
       legal ranges 23..65535 / 23..65533 / 1..65535 are inside),
     - every schedule whose writes are non-empty. *)
From Coq Require Import ZArith List Bool.
From BV Require Import Model.LeCoc Proofs.LeCoc Gen.C07Tables.
Import ListNotations.
Open Scope Z_scope.

(* ---- tie to the source: the le_coc_channels filing keys read from l2cap.py on
   this run are the ones the model uses (all four: the destination CID) *)
Theorem C07_filing_matches_source : forall k, gen_lecoc_keysel k = lecoc_keysel k.
Proof. intros []; reflexivity. Qed.
Print Assumptions C07_filing_matches_source.

(* the comparison operators and integer constants of LeCreditBasedChannel.__init__ / on_pdu /
   process_output read from l2cap.py on this run (the translator matches the whole normalised
   function bodies, also of write / on_credits / send_pdu, against a template and fails closed
   on any other difference) are the ones of the model ... *)
Theorem C07_shape_matches_source : gen_shape = model_shape.
Proof. vm_compute. reflexivity. Qed.
Print Assumptions C07_shape_matches_source.

(* ... so the model's receiver and sender ARE the generic ones instantiated with what the
   source says: `<=` against `max // 2`, `-= 1`, `>= 2`, `< 2 + length`, `!= 2 + length`,
   `[2:]`, `while credits > 0`, `len(payload) < peer_mtu`, ... *)
Theorem C07_model_is_source_shape :
  (forall r pdu, r_on_pdu r pdu = r_on_pdu_g gen_shape r pdu) /\
  (forall s, process_output s = process_output_g gen_shape s).
Proof. rewrite C07_shape_matches_source. split; [exact r_on_pdu_shape|exact process_output_shape]. Qed.
Print Assumptions C07_model_is_source_shape.

Theorem C07_ranges_covered :
  params_ok gen_min_mtu gen_min_mps 1 /\ params_ok gen_max_mtu gen_max_mps gen_max_credits.
Proof. split; constructor; vm_compute; intuition congruence. Qed.
Print Assumptions C07_ranges_covered.

Section C07.
  Variables (ka kb : kind) (cid_a cid_b mtu_a mps_a cr_a mtu_b mps_b cr_b : Z).
  Hypothesis (Ha : params_ok mtu_a mps_a cr_a) (Hb : params_ok mtu_b mps_b cr_b).
  Let init := sys0 ka kb cid_a cid_b mtu_a mps_a cr_a mtu_b mps_b cr_b.

  (* bytes handed to each sink are a prefix of the bytes written at the other end,
     in order; when nothing is in flight they are equal and both drain()s are done *)
  Theorem C07_stream_exact : forall ls, Forall label_ok ls ->
    let '(st, rs) := l_run init ls in
    (exists X, written_a ls = sunk_b rs ++ X) /\
    (exists Y, written_b ls = sunk_a rs ++ Y) /\
    (l_ab st = [] -> l_ba st = [] ->
       written_a ls = sunk_b rs /\ written_b ls = sunk_a rs /\
       s_drained (e_snd (l_a st)) = true /\ s_drained (e_snd (l_b st)) = true).
  Proof. exact (stream_exact ka kb cid_a cid_b mtu_a mps_a cr_a mtu_b mps_b cr_b Ha Hb). Qed.

  (* in every reachable state, both directions: sender's credits + frames in flight
     + credits in flight = the receiver's count of credits it has out, which stays
     within what it granted; the sender's credits are never negative *)
  Theorem C07_credit_safe : forall ls, Forall label_ok ls ->
    let st := fst (l_run init ls) in
    ledger (e_snd (l_a st)) (e_rcv (l_b st)) (l_ab st) (l_ba st) cr_b /\
    ledger (e_snd (l_b st)) (e_rcv (l_a st)) (l_ba st) (l_ab st) cr_a.
  Proof. exact (credit_safe ka kb cid_a cid_b mtu_a mps_a cr_a mtu_b mps_b cr_b Ha Hb). Qed.

  (* every K-frame on a wire is non-empty and within the MPS its receiver advertised *)
  Theorem C07_frame_le_mps : forall ls, Forall label_ok ls ->
    let st := fst (l_run init ls) in
    frames_within mps_b (l_ab st) /\ frames_within mps_a (l_ba st).
  Proof. exact (frame_le_mps ka kb cid_a cid_b mtu_a mps_a cr_a mtu_b mps_b cr_b Ha Hb). Qed.

  (* every SDU a receiver reassembles is within the MTU it advertised *)
  Theorem C07_sdu_le_mtu : forall ls, Forall label_ok ls ->
    let st := fst (l_run init ls) in
    (forall d, lr_sink_b (l_step st DeliverAB) = Some d -> 1 <= zlen d <= mtu_b) /\
    (forall d, lr_sink_a (l_step st DeliverBA) = Some d -> 1 <= zlen d <= mtu_a).
  Proof. exact (sdu_le_mtu ka kb cid_a cid_b mtu_a mps_a cr_a mtu_b mps_b cr_b Ha Hb). Qed.

  (* no K-frame and no credit packet is dropped by the CID lookups, and the
     reassembly never overflows, whatever the two identifiers are *)
  Theorem C07_credits_routed : forall ls, Forall label_ok ls -> Forall clean (snd (l_run init ls)).
  Proof. exact (credits_routed ka kb cid_a cid_b mtu_a mps_a cr_a mtu_b mps_b cr_b Ha Hb). Qed.

  (* not stuck: as long as something written is undelivered or a drain() is
     pending, a wire is non-empty, i.e. a delivery step is enabled *)
  Theorem C07_progress : forall ls, Forall label_ok ls ->
    let '(st, rs) := l_run init ls in
    (written_a ls <> sunk_b rs \/ written_b ls <> sunk_a rs \/
     s_drained (e_snd (l_a st)) = false \/ s_drained (e_snd (l_b st)) = false) ->
    l_ab st <> [] \/ l_ba st <> [].
  Proof. exact (progress ka kb cid_a cid_b mtu_a mps_a cr_a mtu_b mps_b cr_b Ha Hb). Qed.

  (* termination: from any reachable state, with no further writes, every schedule of
     enabled deliveries is finite (bounded by lmeasure) and one of them empties both
     wires; by C07_stream_exact the transfer is then complete in both directions *)
  Theorem C07_progress_terminates : forall ls, Forall label_ok ls ->
    let st := fst (l_run init ls) in
    (forall ds, l_all_enabled st ds -> zlen ds <= lmeasure st) /\
    (exists ds, l_all_enabled st ds /\ l_ab (fst (l_run st ds)) = [] /\ l_ba (fst (l_run st ds)) = []).
  Proof.
    intros ls Hok. pose proof (reach ka kb cid_a cid_b mtu_a mps_a cr_a mtu_b mps_b cr_b Ha Hb ls Hok) as H.
    subst init. destruct (l_run _ ls) as [st rs]. destruct H as (Hi & _).
    split; [intros ds; apply (l_deliveries_bounded ds st _ Hi)|exact (l_completes st _ Hi)].
  Qed.
End C07.
Print Assumptions C07_stream_exact.
Print Assumptions C07_credit_safe.
Print Assumptions C07_frame_le_mps.
Print Assumptions C07_sdu_le_mtu.
Print Assumptions C07_credits_routed.
Print Assumptions C07_progress.
Print Assumptions C07_progress_terminates.

(* a K-frame costs a credit: what the two sender entry points put on the wire is
   paid for one credit per frame (and by C07_credit_safe the balance stays >= 0) *)
Theorem C07_frame_costs_credit : forall s d n,
  (let '(s', fs) := s_write s d in s_credits s' = s_credits s - zlen fs) /\
  (let '(s', fs) := s_on_credits s n in s_credits s' = s_credits s + n - zlen fs).
Proof.
  intros s d n. pose proof (s_step_static s (SWrite d)) as Hw. pose proof (s_step_static s (SCredits n)) as Hc.
  cbn [s_step sev_credits] in Hw, Hc. rewrite Z.add_0_r in Hw.
  destruct (s_write s d), (s_on_credits s n). split; [apply Hw|apply Hc].
Qed.
Print Assumptions C07_frame_costs_credit.

(* ---- one direction of a channel (sender half, receiver half, frames one way,
   credits the other): the inductive invariant and termination of deliveries *)
Theorem C07_view_invariant : forall credits mtu mps ls,
  1 <= credits -> 1 <= mtu < 65536 -> 1 <= mps -> Forall vlabel_ok ls ->
  vinv (v_run (v_init credits mtu mps) ls).
Proof. intros. apply vinv_run; [apply vinv_init|]; assumption. Qed.
Print Assumptions C07_view_invariant.

(* with no further writes, every sequence of enabled deliveries is at most
   [measure] long ... *)
Theorem C07_progress_bounded : forall v ls, vinv v -> all_enabled v ls -> zlen ls <= measure v.
Proof. intros v ls. exact (deliveries_bounded ls v). Qed.
Print Assumptions C07_progress_bounded.

(* ... a delivery is enabled until the transfer is complete ... *)
Theorem C07_progress_enabled : forall v, vinv v -> ~ v_final v -> enabled v VFrame \/ enabled v VCredit.
Proof.
  intros v Hi Hnf. cbn [enabled].
  destruct (v_F v) eqn:EF; [|left; discriminate]. destruct (v_K v) eqn:EK; [|right; discriminate].
  elim Hnf. apply vinv_quiet_final; [exact Hi|split; assumption].
Qed.
Print Assumptions C07_progress_enabled.

(* ... and when none is, everything written has reached the sink and drain() is done *)
Theorem C07_quiescent_is_final : forall v, vinv v -> v_quiet v -> v_final v.
Proof. exact vinv_quiet_final. Qed.
Print Assumptions C07_quiescent_is_final.

(* ---- manager tables with any number of channels: a K-frame for a channel's source
   CID and a credit packet for its destination CID reach that channel, provided
   the local CIDs are pairwise distinct and so are the peer's *)
Theorem C07_tables_route_frame : forall cs c d,
  NoDup (srcs cs) -> In c cs -> route (file_all lecoc_keysel cs) (PFrame (cd_src c) d) = Some (cd_id c).
Proof. intros cs c d. exact (route_frame_ok lecoc_keysel cs c d). Qed.
Print Assumptions C07_tables_route_frame.

Theorem C07_tables_route_credit : forall cs c n,
  NoDup (dsts cs) -> In c cs -> route (file_all lecoc_keysel cs) (PCredit (cd_dst c) n) = Some (cd_id c).
Proof. intros cs c n. exact (route_credit_ok lecoc_keysel cs c n (fun _ => eq_refl)). Qed.
Print Assumptions C07_tables_route_credit.

(* ---- n channels on one link (two managers, each a list of channel endpoints, two shared
   FIFO wires, packets routed by the tables): for every set of channels with pairwise distinct
   CIDs on each side, every schedule and every channel k - whatever the other channels do -
   nothing is dropped by the lookups, channel k's sink bytes are a prefix of its written bytes,
   equal with drain() done as soon as none of ITS packets is in flight, its credit ledger
   holds and its frames are within the MPS *)
Theorem C07_multi_channel : forall cs, Forall cfg_ok cs ->
  NoDup (map cc_cid_a cs) -> NoDup (map cc_cid_b cs) ->
  forall ls k, Forall mlabel_ok ls -> (k < length cs)%nat ->
    let c := nth k cs dflt_cfg in
    let '(st, rs) := m_run (m_init cs) ls in
    let pk := proj k st in
    Forall (fun r => mr_dropped r = false) rs /\
    (exists X, m_written_a k ls = m_sunk_b k rs ++ X) /\
    (exists Y, m_written_b k ls = m_sunk_a k rs ++ Y) /\
    (l_ab pk = [] -> l_ba pk = [] ->
       m_written_a k ls = m_sunk_b k rs /\ m_written_b k ls = m_sunk_a k rs /\
       s_drained (e_snd (l_a pk)) = true /\ s_drained (e_snd (l_b pk)) = true) /\
    ledger (e_snd (l_a pk)) (e_rcv (l_b pk)) (l_ab pk) (l_ba pk) (cc_cr_b c) /\
    ledger (e_snd (l_b pk)) (e_rcv (l_a pk)) (l_ba pk) (l_ab pk) (cc_cr_a c) /\
    frames_within (cc_mps_b c) (l_ab pk) /\ frames_within (cc_mps_a c) (l_ba pk).
Proof.
  intros cs Hcfg Hnda Hndb ls k Hok Hk c.
  assert (Hkm : (k < length (m_a (m_init cs)))%nat) by (cbn; rewrite map_length; exact Hk).
  pose proof (m_run_proj ls (m_init cs) k (mwf_init cs Hnda Hndb) Hkm Hok) as H.
  destruct (m_run (m_init cs) ls) as [st rs]. destruct H as (_ & _ & Hd & ls' & Hok' & H).
  rewrite (proj_init cs k Hk) in H. fold c in H.
  destruct (proj1 (Forall_forall _ _) Hcfg c (nth_In _ _ Hk)) as (Ha & Hb).
  pose proof (stream_exact (cc_ka c) (cc_kb c) (cc_cid_a c) (cc_cid_b c) _ _ _ _ _ _ Ha Hb ls' Hok') as Hs.
  pose proof (credit_safe (cc_ka c) (cc_kb c) (cc_cid_a c) (cc_cid_b c) _ _ _ _ _ _ Ha Hb ls' Hok') as Hc.
  pose proof (frame_le_mps (cc_ka c) (cc_kb c) (cc_cid_a c) (cc_cid_b c) _ _ _ _ _ _ Ha Hb ls' Hok') as Hf.
  unfold cfg_sys in H. cbv zeta in Hc, Hf. destruct (l_run (sys0 _ _ _ _ _ _ _ _ _ _) ls') as [lst lrs].
  destruct H as (-> & <- & <- & <- & <-). cbn [fst] in Hc, Hf. cbv zeta. tauto.
Qed.
Print Assumptions C07_multi_channel.

(* the projection behind it: channel k of the n-channel run is a one-channel run *)
Theorem C07_multi_channel_projection : forall ls st k,
  mwf st -> (k < length (m_a st))%nat -> Forall mlabel_ok ls ->
  let '(st', rs) := m_run st ls in
  mwf st' /\ length (m_a st') = length (m_a st) /\ Forall (fun r => mr_dropped r = false) rs /\
  exists ls', Forall label_ok ls' /\
    let '(lst, lrs) := l_run (proj k st) ls' in
    proj k st' = lst /\ written_a ls' = m_written_a k ls /\ written_b ls' = m_written_b k ls /\
    sunk_a lrs = m_sunk_a k rs /\ sunk_b lrs = m_sunk_b k rs.
Proof. exact m_run_proj. Qed.
Print Assumptions C07_multi_channel_projection.

(* ---- one Bumble endpoint against an arbitrary peer (hostile but legal) *)
(* sender: for every sequence of non-empty writes and credit packets with any counts >= 0
   (the code does not enforce the 65535 ceiling: an over-grant is simply added), the credit
   balance stays >= 0, every frame ever emitted has 1..MPS bytes, the frames emitted so far
   followed by the unsent rest of out_sdu are whole SDUs of 1..MTU bytes on frame boundaries,
   and their payloads followed by out_queue are exactly the bytes written *)
Theorem C07_sender_robust : forall vs s F W, sinv s F W -> Forall sev_ok vs ->
  let '(s', fs) := s_run s vs in sinv s' (F ++ fs) (W ++ s_written vs).
Proof. exact sender_robust. Qed.
Print Assumptions C07_sender_robust.

(* receiver: for every sequence of frames (any number, any content) peer_credits stays in
   (max/2, max] - the "peer out of credits" branch of on_pdu is unreachable, a peer that
   overdraws cannot be told apart - every credit packet returns 1..max credits and the
   count is exact: credits out = credits out before - frames + credits returned *)
Theorem C07_receiver_robust : forall fs r, rinv r ->
  let '(r', cs) := r_run r fs in
  rinv r' /\ Forall (fun n => 1 <= n <= r_max r) cs /\
  r_credits r' = r_credits r - zlen fs + zsum cs.
Proof. exact receiver_robust. Qed.
Print Assumptions C07_receiver_robust.

(* ---- the hypothesis "the receiver has a sink" is needed (on_pdu returns before the credit
   accounting while sink is None): a frame that arrives before the sink is set is lost together
   with its credit, and with max_credits = 1 the sender, who paid its only credit for it, can
   never send the second SDU *)
Theorem C07_nosink_leak_refuted :
  let b0 := ep_init KDst 64 80 1 23 23 1 in
  let f1 := enc_sdu (mk_data 0 5) in let f2 := enc_sdu (mk_data 5 5) in
  let '(b, rs) := ep_run_s b0 [(false, ERecv (PFrame 64 f1)); (true, ERecv (PFrame 64 f2))] in
  map (fun r => (er_out r, er_sink r)) rs = [([], None); ([PCredit 64 1], Some (mk_data 5 5))] /\
  r_credits (e_rcv b) = 1.
Proof. vm_compute. split; reflexivity. Qed.
Print Assumptions C07_nosink_leak_refuted.

(* ---- D07 (fixed by fixes/D07.patch): with the enhanced acceptor filed under its
   source CID the statements above are false *)
Theorem C07_d07_tables_refuted :
  exists cs c n, NoDup (srcs cs) /\ NoDup (dsts cs) /\ In c cs /\
    route (file_all sel_d07 cs) (PCredit (cd_dst c) n) <> Some (cd_id c).
Proof.
  exists [mkCd 2 EnhInitiator 64 65; mkCd 1 EnhAcceptor 65 64], (mkCd 1 EnhAcceptor 65 64), 1.
  repeat split; [repeat constructor; cbn; intuition discriminate..|cbn; auto|vm_compute; discriminate].
Qed.
Print Assumptions C07_d07_tables_refuted.

(* the two-party system with a peer whose CID differs: the credit packet is dropped and the
   transfer is stuck with part of an SDU unsent and nothing in flight *)
Theorem C07_d07_stall_refuted :
  let st0 := l_init KDst (sel_d07 EnhAcceptor) 80 64 64 23 2 64 23 2 in
  let '(st, rs) := l_run st0 [WriteB (mk_data 0 60); DeliverBA; DeliverBA; DeliverAB; DeliverAB] in
  existsb lr_dropped rs = true /\ l_ab st = [] /\ l_ba st = [] /\
  s_sdu (e_snd (l_b st)) <> None /\ s_credits (e_snd (l_b st)) = 0.
Proof. vm_compute. repeat split; try reflexivity; discriminate. Qed.
Print Assumptions C07_d07_stall_refuted.

(* ---- non-vacuity *)
Example C07_params_satisfiable : params_ok 23 23 1 /\ params_ok 65535 65533 65535.
Proof. split; constructor; vm_compute; intuition congruence. Qed.

Example C07_run_nonvacuous :
  let '(st, rs) := l_run (l_init KDst KDst 64 80 23 23 1 30 25 2)
                         [WriteA (mk_data 0 40); DeliverAB; DeliverAB; DeliverBA; DeliverAB; DeliverBA; DeliverAB; DeliverBA] in
  sunk_b rs = mk_data 0 40 /\ l_ab st = [] /\ l_ba st = [] /\ Forall label_ok [WriteA (mk_data 0 40)].
Proof. vm_compute. repeat split. constructor; [discriminate|constructor]. Qed.

Example C07_multi_nonvacuous :
  let cs := [mkCfg LeInitiator LeAcceptor 64 65 23 23 1 64 23 2; mkCfg EnhAcceptor EnhInitiator 65 64 64 23 2 23 23 1] in
  let '(st, rs) := m_run (m_init cs) [MWriteA 0 (mk_data 0 30); MWriteB 1 (mk_data 7 9); MDeliverAB; MDeliverBA;
                                      MDeliverAB; MDeliverBA; MDeliverBA; MDeliverAB] in
  m_sunk_b 0 rs = mk_data 0 30 /\ m_sunk_a 1 rs = mk_data 7 9 /\ m_ab st = [] /\ m_ba st = [] /\
  NoDup (map cc_cid_a cs) /\ NoDup (map cc_cid_b cs).
Proof. vm_compute. repeat split; repeat constructor; cbn; intuition discriminate. Qed.

Example C07_sinv_satisfiable : sinv (snd_init 3 64 23) [] [] /\ rinv (rcv_init 3).
Proof. split; [apply sinv_init|apply rinv_init]; vm_compute; intuition congruence. Qed.
