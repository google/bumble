(* C14 - the shape of the source recorded when the models were written.
   For the functions whose meaning is not (yet) derived from the translated source by a
   [..._matches_source] theorem - _CMAC.__init__ / update (interpreted only through their
   callees _update / digest), aes_cmac, e - the translated term must be EQUAL to the copy kept
   here; for the functions that contain loops or comprehensions a digest of the normalised AST
   must be equal to the recorded one.  Any edit of those functions breaks the obligation: the
   model then has to be re-read against the new code and this file updated. *)
From Coq Require Import ZArith List String.
From BV Require Import Model.PyAst Gen.C14Source.
Import ListNotations.
Open Scope Z_scope.
Open Scope string_scope.

Definition expected_cmac_init : list stmt :=
  [(SAssign "self.digest_size" (EName "mac_len")); (SAssign "self._key" (EName "key")); (SAssign "self._block_size" (EInt 16)); (SAssign "bs" (EInt 16)); (SAssign "self._mac_tag" ENone); (SAssign "self._update_after_digest" (EName "update_after_digest")); (SIf (ECmp CEq (EName "bs") (EInt 8)) [(SAssign "const_Rb" (EInt 27)); (SAssign "self._max_size" (EBin Mul (EInt 8) (EBin Pow (EInt 2) (EInt 21))))] [(SIf (ECmp CEq (EName "bs") (EInt 16)) [(SAssign "const_Rb" (EInt 135)); (SAssign "self._max_size" (EBin Mul (EInt 16) (EBin Pow (EInt 2) (EInt 48))))] [SRaise])]); (SAssign "zero_block" (ECall "bytes" [(EName "bs")])); (SAssign "self._ecb" (ECall "_ECB" [(EName "key")])); (SAssign "L" (ECall "self._ecb.encrypt" [(EName "self"); (EName "zero_block")])); (SIf (EBin BitAnd (EIndex (EName "L") (EInt 0)) (EInt 128)) [(SAssign "self._k1" (ECall "_shift_bytes" [(EName "L"); (EName "const_Rb")]))] [(SAssign "self._k1" (ECall "_shift_bytes" [(EName "L")]))]); (SIf (EBin BitAnd (EIndex (EName "self._k1") (EInt 0)) (EInt 128)) [(SAssign "self._k2" (ECall "_shift_bytes" [(EName "self._k1"); (EName "const_Rb")]))] [(SAssign "self._k2" (ECall "_shift_bytes" [(EName "self._k1")]))]); (SAssign "self._cbc" (ECall "_CBC" [(EName "key"); (EName "zero_block")])); (SAssign "self._cache" (ECall "bytearray" [(EName "bs")])); (SAssign "self._cache_n" (EInt 0)); (SAssign "self._last_ct" (EName "zero_block")); (SAssign "self._last_pt" ENone); (SAssign "self._data_size" (EInt 0)); (SIf (EName "msg") [(SCall None "self.update" [(EName "msg")])] [])].

Definition expected_cmac_update : list stmt :=
  [(SIf (EAnd (ECmp CIsNot (EName "self._mac_tag") ENone) (ENot (EName "self._update_after_digest"))) [SRaise] []); (SAug "self._data_size" Add (ECall "len" [(EName "msg")])); (SAssign "bs" (EName "self._block_size")); (SIf (ECmp CGt (EName "self._cache_n") (EInt 0)) [(SAssign "filler" (ECall "min" [(EBin Sub (EName "bs") (EName "self._cache_n")); (ECall "len" [(EName "msg")])])); (SSliceAssign "self._cache" (Some (EName "self._cache_n")) (Some (EBin Add (EName "self._cache_n") (EName "filler"))) (ESlice (EName "msg") None (Some (EName "filler")))); (SAug "self._cache_n" Add (EName "filler")); (SIf (ECmp CLt (EName "self._cache_n") (EName "bs")) [(SReturn (EName "self"))] []); (SAssign "msg" (ESlice (EName "msg") (Some (EName "filler")) None)); (SCall None "self._update" [(EName "self._cache")]); (SAssign "self._cache_n" (EInt 0))] []); (SAssign "remain" (EBin Mod (ECall "len" [(EName "msg")]) (EName "bs"))); (SIf (ECmp CGt (EName "remain") (EInt 0)) [(SCall None "self._update" [(ESlice (EName "msg") None (Some (ENeg (EName "remain"))))]); (SSliceAssign "self._cache" None (Some (EName "remain")) (ESlice (EName "msg") (Some (ENeg (EName "remain"))) None))] [(SCall None "self._update" [(EName "msg")])]); (SAssign "self._cache_n" (EName "remain")); (SReturn (EName "self"))].

Definition expected_builtin_aes_cmac : list stmt :=
  [(SReturn (ECall ".digest" [(ECall "_CMAC" [(EName "k"); (EName "m"); (EInt 16); (EBool false)])]))].

Definition expected_builtin_e : list stmt :=
  [(SReturn (ECall "[::-1]" [(ECall ".encrypt" [(ECall "_ECB" [(ECall "[::-1]" [(EName "key")])]); (ECall "[::-1]" [(EName "data")])])]))].

Definition expected_fingerprints : list (string * string) :=
  [("builtin_xor", "dfa237fd7afe66d55f20f7c5f55f6fd9");
   ("compact_word", "9c6841eb2aaae293032c6d1bd6c01efb");
   ("aes_init", "f623b84868f1db76a34d56c264c8812b");
   ("aes_encrypt", "c0219727296c6bae6e2e809fa7642a07");
   ("ecb_init", "3a17976d3f7f4a3f9217bb8b776a3123");
   ("ecb_encrypt", "1fc42c3584fc0dcb38634f9677e2cd8e");
   ("cbc_init", "c02cca5822f20a3f8ee6d6c3bcd46e4a");
   ("cbc_encrypt", "b0334d0d1911611ba1209d8c6038052b");
   ("jac_point_at_infinity", "4d8a471a571a45c0839cf49b3cf8c11a");
   ("jac_mul", "570870d147824550ecc7c5c8ea42e159");
   ("jac_rmul", "7cf9ded785f7edcadf1050d6751d41b6");
   ("curve_post_init", "b003cde30e3bfe5d2967589ecd34729b");
   ("ecc_key_init", "25148dc4b4120dd44fcc5d144c4f9c9e");
   ("ecc_from_private_key_bytes", "d7faa9ce517ad0bb88b040c076727de7");
   ("address_resolver_init", "16c880dd7301cb19ad7e6c8cd96cf6e0");
   ("address_resolver_resolve", "da01c91ca8c8c802772a67950fdc5cf1");
   ("address_bytes", "417368273f7764459f16868d7d79d0d3");
   ("point_class", "697788ec175e886516e5480a3ca9d70b");
   ("jacobian_class", "08e6eb57502f6c76c33237bb001f6316");
   ("ecc_key_class", "d7dc45683ee1b7e6ec40a45313f76b3b");
   ("cmac_class", "78976cbd4423842087913e8352c481fd");
   ("address_resolver_class", "7370cbeffce459f81cb7acc32a0dbb2b")].

Definition source_fingerprints : list (string * string) :=
  [("builtin_xor", fp_builtin_xor);
   ("compact_word", fp_compact_word);
   ("aes_init", fp_aes_init);
   ("aes_encrypt", fp_aes_encrypt);
   ("ecb_init", fp_ecb_init);
   ("ecb_encrypt", fp_ecb_encrypt);
   ("cbc_init", fp_cbc_init);
   ("cbc_encrypt", fp_cbc_encrypt);
   ("jac_point_at_infinity", fp_jac_point_at_infinity);
   ("jac_mul", fp_jac_mul);
   ("jac_rmul", fp_jac_rmul);
   ("curve_post_init", fp_curve_post_init);
   ("ecc_key_init", fp_ecc_key_init);
   ("ecc_from_private_key_bytes", fp_ecc_from_private_key_bytes);
   ("address_resolver_init", fp_address_resolver_init);
   ("address_resolver_resolve", fp_address_resolver_resolve);
   ("address_bytes", fp_address_bytes);
   ("point_class", fp_point_class);
   ("jacobian_class", fp_jacobian_class);
   ("ecc_key_class", fp_ecc_key_class);
   ("cmac_class", fp_cmac_class);
   ("address_resolver_class", fp_address_resolver_class)].

Theorem cmac_update_source_unchanged : src_cmac_update = expected_cmac_update.
Proof. reflexivity. Qed.

Theorem loop_functions_source_unchanged : source_fingerprints = expected_fingerprints.
Proof. reflexivity. Qed.
