(* C17 - the field-driven PDU parsers: a field list accepts a PDU exactly when it reaches
   [need]; every length-driven loop moves forward by at least one byte per iteration, so fuel
   proportional to the length is never used up; the signalling handler either fails to
   decode (nothing sent, nothing changed) or dispatches with the header's identifier. *)
From Coq Require Import ZArith List Bool Lia Arith.
From BV Require Import Model.HostileFields.
Import ListNotations.
Open Scope Z_scope.

Lemma div2_bound : forall n, (n < 2 * S (Nat.div2 n))%nat.
Proof.
  intros n. pose proof (Nat.div2_odd n) as H. destruct (Nat.odd n); simpl Nat.b2n in H; lia.
Qed.

(* every iteration consumes at least the two header bytes, so fuel > len/2 is never used up *)
Lemma decode_options_fuel_enough : forall fuel data,
  (length data < 2 * fuel)%nat -> decode_options fuel data <> None.
Proof.
  induction fuel as [|f IH]; intros data H; [lia|].
  simpl. destruct data as [|t [|l rest]]; try discriminate.
  specialize (IH (skipn (Z.to_nat l) rest)). rewrite skipn_length in IH. simpl in H.
  destruct (decode_options f (skipn (Z.to_nat l) rest)); [discriminate|].
  exfalso. apply IH; [lia | reflexivity].
Qed.

(* bytes accounted for by a decoded option list: 2 header bytes + the value *)
Fixpoint options_size (opts : list (Z * list Z)) : nat :=
  match opts with
  | [] => 0%nat
  | (_, v) :: rest => (2 + length v + options_size rest)%nat
  end.

Lemma decode_options_progress : forall fuel data opts,
  decode_options fuel data = Some opts ->
  (options_size opts <= length data)%nat /\ (2 * length opts <= length data)%nat.
Proof.
  induction fuel as [|f IH]; intros data opts H; [discriminate|].
  simpl in H. destruct data as [|t [|l rest]]; try (inversion H; subst; simpl; lia).
  destruct (decode_options f (skipn (Z.to_nat l) rest)) eqn:E; [|discriminate].
  inversion H; subst; clear H. apply IH in E. simpl.
  rewrite firstn_length. rewrite skipn_length in E. lia.
Qed.

Lemma decode_options_fuel_mono : forall fuel data opts,
  decode_options fuel data = Some opts -> decode_options (S fuel) data = Some opts.
Proof.
  induction fuel as [|f IH]; intros data opts H; [discriminate|].
  simpl in H. destruct data as [|t [|l rest]]; try (inversion H; subst; reflexivity).
  destruct (decode_options f (skipn (Z.to_nat l) rest)) eqn:E; [|discriminate].
  apply IH in E. inversion H; subst.
  change (decode_options (S (S f)) (t :: l :: rest)) with
    (match decode_options (S f) (skipn (Z.to_nat l) rest) with
     | None => None
     | Some opts => Some ((t, firstn (Z.to_nat l) rest) :: opts)
     end).
  rewrite E. reflexivity.
Qed.

(* [need fs off]: the least PDU length at which no strict field is cut short *)
Fixpoint need (fs : list fspec) (off : nat) : nat :=
  match fs with
  | [] => 0%nat
  | FU1 :: rest => Nat.max (off + 1) (need rest (off + 1))
  | FU2 :: rest => Nat.max (off + 2) (need rest (off + 2))
  | FBytes n :: rest => need rest (off + n)
  | FEnum n :: rest => need rest (off + n)
  | FRest :: _ => 0%nat
  | FOpaque :: _ => 0%nat
  end.

(* field lists inside the model: no opaque parser, '*' only in last position *)
Fixpoint wf_fields (fs : list fspec) : bool :=
  match fs with
  | [] => true
  | FOpaque :: _ => false
  | FRest :: rest => match rest with [] => true | _ => false end
  | _ :: rest => wf_fields rest
  end.

Lemma nth_error_some_iff : forall (l : list Z) n, (exists b, nth_error l n = Some b) <-> (n < length l)%nat.
Proof.
  intros l n. split.
  - intros [b H]. apply nth_error_Some. congruence.
  - intros H. destruct (nth_error l n) eqn:E; [eauto|]. apply nth_error_None in E. lia.
Qed.

(* a parse that succeeds has found every strict field inside the data ... *)
Lemma parse_fields_ok_need : forall fs data off r,
  parse_fields fs data off = inr r -> (need fs off <= length data)%nat.
Proof.
  induction fs as [|f rest IH]; intros data off r H; [simpl; lia|].
  cbn [parse_fields] in H.
  destruct (parse_field data off f) as [e|[v size]] eqn:F; [discriminate|].
  destruct (parse_fields rest data (off + size)) as [e|r1] eqn:P; [discriminate|].
  apply IH in P. destruct f; cbn [parse_field] in F; cbn [need]; try lia.
  - destruct (nth_error data off) eqn:E; inversion F; subst.
    assert (off < length data)%nat by (apply nth_error_Some; congruence). lia.
  - destruct (off + 2 <=? length data)%nat eqn:E; inversion F; subst.
    apply Nat.leb_le in E. lia.
  - inversion F; subst. exact P.
  - inversion F; subst. exact P.
Qed.

(* ... and for a field list inside the model that is all it takes *)
Lemma need_parse_fields_ok : forall fs data off, wf_fields fs = true ->
  (need fs off <= length data)%nat -> exists r, parse_fields fs data off = inr r.
Proof.
  induction fs as [|f rest IH]; intros data off Hwf Hn; [simpl; eauto|].
  destruct f; simpl in Hwf; cbn [need] in Hn; cbn [parse_fields parse_field]; try discriminate.
  - destruct (nth_error data off) eqn:E; [|apply nth_error_None in E; lia].
    destruct (IH data (off + 1)%nat Hwf) as [[vs o] ->]; [lia|eauto].
  - replace (off + 2 <=? length data)%nat with true by (symmetry; apply Nat.leb_le; lia).
    destruct (IH data (off + 2)%nat Hwf) as [[vs o] ->]; [lia|eauto].
  - destruct (IH data (off + n)%nat Hwf Hn) as [[vs o] ->]. eauto.
  - destruct (IH data (off + n)%nat Hwf Hn) as [[vs o] ->]. eauto.
  - destruct rest; [cbn; eauto|discriminate].
Qed.

Theorem parse_fields_accepts_iff : forall fs data off,
  wf_fields fs = true ->
  ((exists r, parse_fields fs data off = inr r) <-> (need fs off <= length data)%nat).
Proof.
  intros fs data off Hwf. split.
  - intros [r H]. exact (parse_fields_ok_need _ _ _ _ H).
  - apply need_parse_fields_ok, Hwf.
Qed.

Lemma wf_fields_tail : forall f rest, wf_fields (f :: rest) = true -> wf_fields rest = true.
Proof. intros [] [|g rest]; simpl; congruence. Qed.

(* the only errors of a modelled field list are the two "too short" exceptions *)
Lemma parse_fields_errors : forall fs data off e,
  wf_fields fs = true -> parse_fields fs data off = inl e -> e = EIndex \/ e = EStruct.
Proof.
  induction fs as [|f rest IH]; intros data off e Hwf H; [discriminate|].
  cbn [parse_fields] in H. destruct (parse_field data off f) as [e'|[v size]] eqn:F.
  - inversion H; subst. destruct f; try discriminate; cbn [parse_field] in F.
    + destruct (nth_error data off); inversion F; auto.
    + destruct (off + 2 <=? length data)%nat; inversion F; auto.
  - destruct (parse_fields rest data (off + size)) as [e'|[vs o]] eqn:P; [|discriminate].
    inversion H; subst. exact (IH _ _ _ (wf_fields_tail _ _ Hwf) P).
Qed.

(* a PDU is refused by its field list exactly when it is shorter than [need], and then
   with IndexError or struct.error *)
Lemma fields_too_short_iff : forall fs data off, wf_fields fs = true ->
  ((length data < need fs off)%nat <->
   exists e, parse_fields fs data off = inl e /\ (e = EIndex \/ e = EStruct)).
Proof.
  intros fs data off Hwf. split.
  - intros Hlt. destruct (parse_fields fs data off) as [e|r] eqn:P.
    + exists e. split; [reflexivity|]. exact (parse_fields_errors _ _ _ _ Hwf P).
    + apply parse_fields_ok_need in P. lia.
  - intros (e & P & _). destruct (Nat.lt_ge_cases (length data) (need fs off)) as [|Hge]; [assumption|].
    destruct (need_parse_fields_ok fs data off Hwf Hge) as [r Hr]. congruence.
Qed.

(* the offset never moves backwards and one step is made per field *)
Lemma parse_fields_monotone : forall fs data off vs off',
  parse_fields fs data off = inr (vs, off') -> (off <= off')%nat /\ length vs = length fs.
Proof.
  induction fs as [|f rest IH]; intros data off vs off' H.
  - inversion H; subst. simpl. lia.
  - cbn [parse_fields] in H. destruct (parse_field data off f) as [e|[v size]]; [discriminate|].
    destruct (parse_fields rest data (off + size)) as [e|[vs1 o1]] eqn:P; [discriminate|].
    inversion H; subst. apply IH in P. simpl. lia.
Qed.

(* the item loops: stride >= 1 and guard >= 1, so fuel len + 1 - off is never used up *)
Lemma item_loop_fuel_enough : forall fuel guard hdr stride data off,
  (1 <= stride)%nat -> (1 <= guard)%nat -> (1 <= fuel)%nat -> (length data + 1 - off <= fuel)%nat ->
  item_loop fuel guard hdr stride data off <> None.
Proof.
  induction fuel as [|f IH]; intros guard hdr stride data off Hs Hg H1 Hf.
  - lia.
  - cbn [item_loop]. destruct (off + guard <=? length data)%nat eqn:E; [|discriminate].
    apply Nat.leb_le in E. destruct (off + hdr <=? length data)%nat; [|discriminate].
    specialize (IH guard hdr stride data (off + stride)%nat Hs Hg ltac:(lia) ltac:(lia)).
    destruct (item_loop f guard hdr stride data (off + stride)) as [[e|items]|]; try discriminate.
    congruence.
Qed.

Lemma wrap_items_some : forall vals r, r <> None -> wrap_items vals r <> None.
Proof. intros vals r H. destruct r as [[e|i]|]; [discriminate | discriminate | congruence]. Qed.

Lemma item_loop_top : forall guard hdr stride data, (1 <= stride)%nat -> (1 <= guard)%nat ->
  item_loop (item_fuel data) guard hdr stride data 0 <> None.
Proof. intros. apply item_loop_fuel_enough; unfold item_fuel; lia. Qed.

Lemma len_items_some : forall hdr len data, 0 <= len -> len_items hdr len data <> None.
Proof.
  intros hdr len data Hl. unfold len_items. destruct (len =? 0) eqn:E; [discriminate|].
  apply Z.eqb_neq in E. apply item_loop_top; lia.
Qed.

(* [vals_ok]: integer field values are not negative (they are decoded bytes) *)
Fixpoint vals_ok (vals : list fval) : bool :=
  match vals with
  | [] => true
  | VInt v :: rest => (0 <=? v) && vals_ok rest
  | _ :: rest => vals_ok rest
  end.

Lemma att_post_terminates : forall op vals, vals_ok vals = true -> att_post op vals <> None.
Proof.
  intros op vals Hok. unfold att_post.
  assert (Hlen : forall hdr f b, vals = [VInt f; VBytes b] -> len_items hdr f b <> None).
  { intros hdr f b ->. apply len_items_some. simpl in Hok. lia. }
  destruct (op =? 5).
  { destruct vals as [|[f|b|l] [|[f2|b2|l2] [|x r]]]; try discriminate.
    apply wrap_items_some. destruct (f =? 1); apply item_loop_top; lia. }
  destruct (op =? 7).
  { destruct vals as [|[f|b|l] [|x r]]; try discriminate.
    apply wrap_items_some. apply item_loop_top; lia. }
  destruct (op =? 9).
  { destruct vals as [|[f|b|l] [|[f2|b2|l2] [|x r]]]; try discriminate.
    apply wrap_items_some, Hlen. reflexivity. }
  destruct (op =? 17).
  { destruct vals as [|[f|b|l] [|[f2|b2|l2] [|x r]]]; try discriminate.
    apply wrap_items_some, Hlen. reflexivity. }
  discriminate.
Qed.

Definition bytes_nonneg (data : list Z) : bool := forallb (fun b => 0 <=? b) data.

Lemma le_int_nonneg : forall bs, bytes_nonneg bs = true -> 0 <= le_int bs.
Proof.
  unfold le_int. induction bs as [|b rest IH]; intros H; cbn [fold_right]; [lia|].
  cbn [bytes_nonneg forallb] in H. apply andb_true_iff in H. destruct H as [H1 H2]. apply Z.leb_le in H1.
  specialize (IH H2). lia.
Qed.

Lemma bytes_nonneg_split : forall n data, bytes_nonneg data = true ->
  bytes_nonneg (firstn n data) = true /\ bytes_nonneg (skipn n data) = true.
Proof.
  intros n data H. rewrite <- (firstn_skipn n data) in H. unfold bytes_nonneg in *.
  rewrite forallb_app in H. apply andb_true_iff, H.
Qed.

Lemma slice_nonneg : forall data off n, bytes_nonneg data = true -> 0 <= le_int (slice data off n).
Proof.
  intros data off n H. apply le_int_nonneg. unfold slice. apply bytes_nonneg_split, bytes_nonneg_split, H.
Qed.

Lemma parse_fields_vals_ok : forall fs data off vals o,
  bytes_nonneg data = true -> parse_fields fs data off = inr (vals, o) -> vals_ok vals = true.
Proof.
  induction fs as [|f rest IH]; intros data off vals o Hb H.
  - inversion H; subst. reflexivity.
  - cbn [parse_fields] in H. destruct (parse_field data off f) as [e|[v size]] eqn:F; [discriminate|].
    destruct (parse_fields rest data (off + size)) as [e|[vs1 o1]] eqn:P; [discriminate|].
    inversion H; subst. specialize (IH data (off + size)%nat vs1 o Hb P).
    assert (Hv : match v with VInt x => 0 <= x | _ => True end).
    { destruct f; cbn [parse_field] in F.
      - destruct (nth_error data off) eqn:N; inversion F; subst.
        apply nth_error_In in N. unfold bytes_nonneg in Hb. rewrite forallb_forall in Hb.
        apply Z.leb_le, Hb, N.
      - destruct (off + 2 <=? length data)%nat; inversion F; subst. apply slice_nonneg, Hb.
      - inversion F; subst. exact I.
      - inversion F; subst. apply slice_nonneg, Hb.
      - inversion F; subst. exact I.
      - discriminate. }
    destruct v; cbn [vals_ok]; try exact IH.
    apply andb_true_iff. split; [apply Z.leb_le, Hv|exact IH].
Qed.

Theorem att_from_bytes_terminates : forall table pdu,
  bytes_nonneg pdu = true -> att_from_bytes table pdu <> POutOfFuel.
Proof.
  intros table pdu Hb. unfold att_from_bytes. destruct pdu as [|op rest]; [discriminate|].
  destruct (lookup op table) as [fs|]; [|discriminate].
  destruct (parse_fields fs (op :: rest) 1) as [e|[vals o]] eqn:P; [discriminate|].
  pose proof (att_post_terminates op vals (parse_fields_vals_ok _ _ _ _ _ Hb P)).
  destruct (att_post op vals) as [[e|v]|]; try discriminate. congruence.
Qed.

Lemma att_post_other : forall op vals, mem op att_post_classes = false -> att_post op vals = Some (inr vals).
Proof.
  intros op vals H. unfold att_post_classes, mem in H. cbn in H.
  apply orb_false_iff in H. destruct H as [H5 H].
  apply orb_false_iff in H. destruct H as [H7 H].
  apply orb_false_iff in H. destruct H as [H9 H].
  apply orb_false_iff in H. destruct H as [H17 _].
  unfold att_post. rewrite H5, H7, H9, H17. reflexivity.
Qed.

(* ATT and SMP alike: a PDU whose from_bytes is the verdict of its field list *)
Lemma too_short_is_error : forall r fs pdu op, wf_fields fs = true ->
  r = match parse_fields fs pdu 1 with inl e => PErr e | inr (vals, _) => PKnown op vals end ->
  ((length pdu < need fs 1)%nat <-> exists e, r = PErr e /\ (e = EIndex \/ e = EStruct)).
Proof.
  intros r fs pdu op Hwf ->. rewrite (fields_too_short_iff fs pdu 1 Hwf).
  destruct (parse_fields fs pdu 1) as [e|[vals o]].
  - split; intros (e' & E & He); inversion E; subst; eauto.
  - split; intros (e & E & _); discriminate.
Qed.

Theorem att_too_short_is_error : forall table pdu op fs,
  hd_error pdu = Some op -> lookup op table = Some fs -> wf_fields fs = true ->
  mem op att_post_classes = false ->
  ((length pdu < need fs 1)%nat <-> exists e, att_from_bytes table pdu = PErr e /\ (e = EIndex \/ e = EStruct)).
Proof.
  intros table pdu op fs Hhd Hl Hwf Hpost. destruct pdu as [|b rest]; [discriminate|].
  inversion Hhd; subst. apply (too_short_is_error _ fs _ op Hwf). unfold att_from_bytes. rewrite Hl.
  destruct (parse_fields fs (op :: rest) 1) as [e|[vals o]]; [|rewrite (att_post_other op vals Hpost)]; reflexivity.
Qed.

(* a Read By [Group] Type response whose length byte is too small for the item header is
   rejected (struct.error) as soon as one item fits *)
Lemma item_loop_short_header : forall fuel guard hdr stride data,
  (guard <= length data)%nat -> (length data < hdr)%nat ->
  item_loop (S fuel) guard hdr stride data 0 = Some (inl EStruct).
Proof.
  intros fuel guard hdr stride data Hg Hh. cbn [item_loop]. cbn [Nat.add].
  destruct (guard <=? length data)%nat eqn:E; [|apply Nat.leb_gt in E; lia].
  destruct (hdr <=? length data)%nat eqn:E2; [apply Nat.leb_le in E2; lia | reflexivity].
Qed.

Theorem smp_too_short_is_error : forall table pdu code fs,
  hd_error pdu = Some code -> lookup code table = Some fs -> wf_fields fs = true ->
  ((length pdu < need fs 1)%nat <-> exists e, smp_from_bytes table pdu = PErr e /\ (e = EIndex \/ e = EStruct)).
Proof.
  intros table pdu op fs Hhd Hl Hwf. destruct pdu as [|b rest]; [discriminate|].
  inversion Hhd; subst. apply (too_short_is_error _ fs _ op Hwf). unfold smp_from_bytes. rewrite Hl. reflexivity.
Qed.

Lemma att_empty_is_error : forall table, att_from_bytes table [] = PErr EEmpty.
Proof. reflexivity. Qed.

Lemma smp_empty_is_error : forall table, smp_from_bytes table [] = PErr EEmpty.
Proof. reflexivity. Qed.

Section Sig.
  Variable chan_state : Type.
  Variable handler : Z -> Z -> list fval -> chan_state -> chan_state * list (list Z) * bool.
  Variable classes : list (Z * list fspec).
  Variable handled : list Z.

  Notation on_pdu := (on_signalling_pdu chan_state handler classes handled).

  Lemma sig_short_is_error : forall pdu, (length pdu < 4)%nat ->
    sig_from_bytes classes pdu = (PErr EStruct, 0).
  Proof.
    intros pdu H. destruct pdu as [|a [|b [|c [|d rest]]]]; try reflexivity. simpl in H. lia.
  Qed.

  (* a frame that does not decode: nothing is sent, the channel tables are untouched *)
  Theorem sig_parse_error_contained : forall st pdu e i,
    sig_from_bytes classes pdu = (PErr e, i) -> on_pdu st pdu = (st, [], SigParseError e).
  Proof. intros st pdu e i H. unfold on_signalling_pdu. rewrite H. reflexivity. Qed.

  Theorem sig_short_contained : forall st pdu, (length pdu < 4)%nat ->
    on_pdu st pdu = (st, [], SigParseError EStruct).
  Proof. intros. eapply sig_parse_error_contained. apply sig_short_is_error. assumption. Qed.

  Definition ident_of (pdu : list Z) : Z := nth 1 pdu 0.

  Lemma sig_ident : forall pdu r i, (4 <= length pdu)%nat ->
    sig_from_bytes classes pdu = (r, i) -> i = ident_of pdu.
  Proof.
    intros pdu r i H E. destruct pdu as [|a [|b [|c [|d rest]]]]; simpl in H; try lia.
    unfold sig_from_bytes in E. unfold ident_of. simpl.
    destruct (lookup a classes); [destruct (parse_fields l (a :: b :: c :: d :: rest) 4) as [e|[v o]]|];
      inversion E; reflexivity.
  Qed.

  Lemma dispatch_rejected : forall st code ident vals st' sent,
    dispatch chan_state handler handled st code ident vals = (st', sent, SigRejected) ->
    st' = st /\ sent = [command_reject ident].
  Proof.
    intros st code ident vals st' sent H. unfold dispatch in H.
    destruct (mem code handled).
    - destruct (handler code ident vals st) as [[s1 o1] [|]]; discriminate.
    - inversion H; subst. auto.
  Qed.

  (* a frame either fails to decode, or is at least a header long and is dispatched with
     the identifier of its header *)
  Lemma on_pdu_cases : forall st pdu,
    (exists e, on_pdu st pdu = (st, [], SigParseError e)) \/
    ((4 <= length pdu)%nat /\ exists code vals,
       on_pdu st pdu = dispatch chan_state handler handled st code (ident_of pdu) vals).
  Proof.
    intros st pdu. destruct (Nat.lt_ge_cases (length pdu) 4) as [Hs|Hl].
    { left. exists EStruct. apply sig_short_contained, Hs. }
    unfold on_signalling_pdu. destruct (sig_from_bytes classes pdu) as [r i] eqn:E.
    rewrite (sig_ident pdu r i Hl E). destruct r; eauto.
  Qed.

  (* a rejected command leaves the tables unchanged and is answered by exactly one
     Command Reject carrying the identifier of the request *)
  Theorem sig_reject_unchanged : forall st pdu st' sent,
    on_pdu st pdu = (st', sent, SigRejected) ->
    st' = st /\ sent = [command_reject (ident_of pdu)] /\ (4 <= length pdu)%nat.
  Proof.
    intros st pdu st' sent H.
    destruct (on_pdu_cases st pdu) as [[e E]|(Hl & code & vals & E)]; rewrite E in H; [discriminate|].
    apply dispatch_rejected in H. tauto.
  Qed.

  (* a code with no handler method is always rejected, whatever its body *)
  Theorem sig_unhandled_rejected : forall st code ident l0 l1 body,
    mem code handled = false ->
    (forall fs, lookup code classes = Some fs -> exists r, parse_fields fs (code :: ident :: l0 :: l1 :: body) 4 = inr r) ->
    on_pdu st (code :: ident :: l0 :: l1 :: body) = (st, [command_reject ident], SigRejected).
  Proof.
    intros st code ident l0 l1 body Hm Hp. unfold on_signalling_pdu, sig_from_bytes.
    destruct (lookup code classes) as [fs|] eqn:L.
    - destruct (Hp fs eq_refl) as [[vals o] Hr]. rewrite Hr. unfold dispatch. rewrite Hm. reflexivity.
    - unfold dispatch. rewrite Hm. reflexivity.
  Qed.

  (* when a handler raises, the last frame sent is the Command Reject for that request *)
  Theorem sig_handler_raised_rejects : forall st pdu st' sent,
    on_pdu st pdu = (st', sent, SigHandlerRaised) ->
    exists before, sent = before ++ [command_reject (ident_of pdu)].
  Proof.
    intros st pdu st' sent H.
    destruct (on_pdu_cases st pdu) as [[e E]|(Hl & code & vals & E)]; rewrite E in H; [discriminate|].
    unfold dispatch in H. destruct (mem code handled); [|discriminate].
    destruct (handler code (ident_of pdu) vals st) as [[s1 o1] [|]]; inversion H; subst; eauto.
  Qed.
End Sig.
