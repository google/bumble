(* Property C11: GATT attribute permissions gate every read and write path.
   Short proofs from the lemmas of Proofs/AttServer.v.  Same model as C10 (Model/AttServer.v);
   Attribute.read_value / write_value are modelled exactly as written, i.e. the READABLE / WRITEABLE bits are not
   consulted (known finding D11a): the theorems carry the hypothesis that excludes exactly
   that class of attributes, and the [_refuted] theorems show it is needed. *)
From Coq Require Import ZArith List Bool.
From BV Require Import Gen.C10Tables Gen.C10Skeleton Model.AttServer Model.AttSkeleton Proofs.AttServer.
Import ListNotations.
Open Scope Z_scope.

(* ..._matches_source: the permission checks (Attribute.read_value / write_value) and every
   function that calls them read today exactly as in the frozen reading the model was written
   from (see Props/C10.v); regenerated and re-checked on every run. *)
Theorem C11_src_Attribute_read_value : src_matches k_Attribute_read_value = true.
Proof. vm_compute. reflexivity. Qed.
Print Assumptions C11_src_Attribute_read_value.

Theorem C11_src_Attribute_write_value : src_matches k_Attribute_write_value = true.
Proof. vm_compute. reflexivity. Qed.
Print Assumptions C11_src_Attribute_write_value.

Theorem C11_src_all_modelled_functions : forallb src_matches skeleton_keys = true.
Proof. vm_compute. reflexivity. Qed.
Print Assumptions C11_src_all_modelled_functions.

(* read_gated (non-interference).  Two server states that differ at most in the values of
   attributes the bearer may not read ([attr_sim]: same handle, type, permissions, group end;
   the value may differ unless the attribute is READABLE, the link meets its encryption /
   authentication requirement, no authorisation is required and its read callback does not
   refuse) answer every PDU -- every opcode, in particular Read, Read Blob, Read By Type,
   Read By Group Type, Read Multiple, Read Multiple Variable and Find By Type Value, with any
   parameters -- with the same PDUs.  Hypothesis: no attribute of the database is a D11a
   witness (not READABLE yet served because no link requirement refuses it). *)
Theorem C11_read_gated : forall st1 st2 opc ps,
  st_sim st1 st2 -> d11a_free_read (s_b st1) (s_db st1) = true ->
  option_map snd (rx st1 opc ps) = option_map snd (rx st2 opc ps).
Proof.
  intros st1 st2 opc ps Hs Hd. pose proof (step_sim st1 st2 (Rx opc ps) Hs Hd) as H. cbn [step] in H.
  destruct (rx st1 opc ps) as [[s1 o1]|], (rx st2 opc ps) as [[s2 o2]|]; cbn in H |- *;
    try contradiction; [|reflexivity].
  destruct H as (-> & _). reflexivity.
Qed.
Print Assumptions C11_read_gated.

(* the same over whole histories, including writes (which keep the two databases similar),
   MTU exchanges, notifications and indications of the current value *)
Theorem C11_read_gated_history : forall ops st1 st2,
  st_sim st1 st2 -> d11a_free_read (s_b st1) (s_db st1) = true ->
  option_map snd (run st1 ops) = option_map snd (run st2 ops).
Proof. exact run_sim. Qed.
Print Assumptions C11_read_gated_history.

(* Several bearers on one server (Model: [msrv] = database + max_mtu + one [bst] per bearer
   holding its ATT_MTU, security attributes, subscriptions and indication state; a stimulus
   on bearer i is [step] on the database and the i-th [bst]; nothing else is shared).
   bearer_locality: the PDUs sent in reaction to a stimulus on bearer i, the resulting database
   and bearer i's resulting state depend only on the database, max_mtu and bearer i's own
   state -- not on which other bearers exist, nor on anything they did before. *)
Theorem C11_bearer_locality : forall m1 m2 i o,
  m_db m1 = m_db m2 -> m_max_mtu m1 = m_max_mtu m2 ->
  nth_error (m_bs m1) i = nth_error (m_bs m2) i ->
  match mstep m1 i o, mstep m2 i o with
  | Some (n1, o1), Some (n2, o2) =>
      o1 = o2 /\ m_db n1 = m_db n2 /\ nth_error (m_bs n1) i = nth_error (m_bs n2) i
  | None, None => True
  | _, _ => False
  end.
Proof. exact mstep_local. Qed.
Print Assumptions C11_bearer_locality.

(* a stimulus on bearer j leaves every other bearer's state untouched *)
Theorem C11_other_bearers_untouched : forall m j o n out i,
  mstep m j o = Some (n, out) -> i <> j -> nth_error (m_bs n) i = nth_error (m_bs m) i.
Proof. exact mstep_frame. Qed.
Print Assumptions C11_other_bearers_untouched.

(* read_gated over histories with several bearers.  Two servers with the same bearers whose
   databases differ only in values the observer on bearer i (security attributes b0) may not
   read: over EVERY history of stimuli (received PDUs of any opcode, notify / indicate calls,
   confirmations) on ANY bearers -- the other bearers may be entitled to read and write what
   the observer may not, and act arbitrarily in between -- bearer i is sent exactly the same
   PDUs.  ([msim]: databases [attr_sim]-similar for b0 and free of D11a witnesses, same
   max_mtu, same bearers with the same ATT_MTU / security / subscriptions, bearer i in the
   same state.) *)
Theorem C11_read_gated_several_bearers : forall ops i b0 m1 m2,
  msim i b0 m1 m2 ->
  option_map (fun r => outs_of i (snd r)) (mrun m1 ops) =
  option_map (fun r => outs_of i (snd r)) (mrun m2 ops).
Proof. exact mrun_sim. Qed.
Print Assumptions C11_read_gated_several_bearers.

(* D11a (known finding): without the hypothesis a WRITEABLE-only attribute is disclosed *)
Theorem C11_read_gated_refuted :
  exists b db1 db2 opc ps,
    Forall2 (attr_sim b) db1 db2 /\
    option_map snd (rx (init db1 b 517) opc ps) <> option_map snd (rx (init db2 b 517) opc ps).
Proof.
  exists (mkBearer 23 false false false).
  exists [mkAttr 1 [17; 17] 2 [1] 1 0 0 0], [mkAttr 1 [17; 17] 2 [2] 1 0 0 0], 10, [1; 0].
  split.
  - constructor; [|constructor]. unfold attr_sim, may_read. cbn. repeat split. discriminate.
  - vm_compute. discriminate.
Qed.
Print Assumptions C11_read_gated_refuted.

(* write_gated.  A Write Request / Write Command for an attribute the bearer may not write
   (not WRITEABLE, or the link does not meet the write requirement, or the write function
   refuses with ATT_Error or raises anything else) leaves the database and the subscription
   state unchanged; the request is answered with an Error Response (naming the handle, or
   handle 0 / UNLIKELY_ERROR when the write function raised), the command with nothing.  Hypothesis: the attribute is not a D11a
   witness (not WRITEABLE yet accepted because no link requirement refuses it). *)
Theorem C11_write_gated : forall st x y v a,
  find_attr (x + 256 * y) (s_db st) = Some a ->
  may_write (s_b st) a = false -> d11a_write_witness (s_b st) a = false ->
  (exists st' hh c, rx st 18 (x :: y :: v) = Some (st', [err_rsp 18 hh c]) /\
                    s_db st' = s_db st /\ s_subs st' = s_subs st) /\
  (exists st', rx st 82 (x :: y :: v) = Some (st', []) /\ s_db st' = s_db st /\ s_subs st' = s_subs st).
Proof.
  intros st x y v a Hf Hm Hd.
  destruct (write_gated_db (s_b st) (s_db st) (s_subs st) OP_WRITE_REQ (x + 256 * y) v a Hf Hm Hd) as ((hh & c & Hw) & Hc).
  rewrite rx_write, rx_write_cmd, Hw, Hc. split; eexists; [exists hh, c|]; repeat split.
Qed.
Print Assumptions C11_write_gated.

Theorem C11_write_gated_refuted :
  exists b db h v a,
    find_attr h db = Some a /\ may_write b a = false /\ fst (h_write_cmd b db [] h v) <> db.
Proof.
  exists (mkBearer 23 false false false), [mkAttr 1 [17; 17] 1 [1] 1 0 0 0], 1, [2].
  eexists. split; [reflexivity|]. split; [reflexivity|]. vm_compute. discriminate.
Qed.
Print Assumptions C11_write_gated_refuted.

(* a Write Request answered with anything but a Write Response changed nothing (no
   hypothesis), and no PDU other than Write Request / Write Command changes the database *)
Theorem C11_write_error_unchanged : forall b db subs op h v,
  snd (h_write b db subs op h v) <> [OP_WRITE_RSP] -> fst (h_write b db subs op h v) = (db, subs).
Proof.
  intros b db subs op h v.
  unfold h_write. destruct (find_attr h db) as [a|]; [|reflexivity].
  destruct (MAX_VALUE_SIZE <? len v); [reflexivity|].
  destruct (write_check b a); [reflexivity| |reflexivity]. cbn. intros H. contradiction H. reflexivity.
Qed.
Print Assumptions C11_write_error_unchanged.

Theorem C11_only_writes_change_db : forall st opc ps st' out,
  opc <> 18 -> opc <> 82 -> rx st opc ps = Some (st', out) ->
  s_db st' = s_db st /\ s_subs st' = s_subs st.
Proof.
  intros st opc ps st' out H18 H82 H. destruct (Z.eq_dec opc OP_CONFIRM) as [->|Hn].
  - injection H as H.
    destruct (confirm_cases st) as [E|(_ & [(_ & E)|(p & w & _ & E)])]; rewrite E in H;
      injection H as <- <-; auto.
  - destruct (rx_spec _ _ _ _ _ H Hn) as (_ & [->|[(m & _ & _ & ->)|(ds & [E|E] & _)]]);
      auto; contradiction.
Qed.
Print Assumptions C11_only_writes_change_db.

(* refusal_code.  The Error Response names the request, the handle, and the first failing
   requirement in the order encryption (0x0F), authentication (0x05), authorisation (0x08):
   Read Request and Read Blob Request ... *)
Theorem C11_refusal_code_read : forall st x y a c,
  find_attr (x + 256 * y) (s_db st) = Some a -> read_refusal (s_b st) (a_perm a) = Some c ->
  rx st 10 [x; y] = Some (st, [err_rsp 10 (x + 256 * y) c]) /\
  forall o1 o2, rx st 12 [x; y; o1; o2] = Some (st, [err_rsp 12 (x + 256 * y) c]).
Proof.
  intros st x y a c Hf Hr. apply (read_value_refusal (s_b st) (s_subs st)) in Hr.
  split; [rewrite rx_read|intros o1 o2; rewrite rx_blob]; unfold h_read, h_blob;
    rewrite find_view_views, Hf; cbn [option_map view_of v_read]; rewrite Hr; reflexivity.
Qed.
Print Assumptions C11_refusal_code_read.

(* ... Write Request (and the Write Command is silently dropped) *)
Theorem C11_refusal_code_write : forall st x y v a c,
  find_attr (x + 256 * y) (s_db st) = Some a -> write_refusal (s_b st) (a_perm a) = Some c ->
  len v <= 512 ->
  rx st 18 (x :: y :: v) = Some (set_dbs st (s_db st, s_subs st), [err_rsp 18 (x + 256 * y) c]) /\
  rx st 82 (x :: y :: v) = Some (set_dbs st (s_db st, s_subs st), []).
Proof.
  intros st x y v a c Hf Hr Hl. apply write_check_refusal in Hr.
  assert (Hlt : (MAX_VALUE_SIZE <? len v) = false) by (apply Z.ltb_ge; exact Hl).
  rewrite rx_write, rx_write_cmd. unfold h_write, h_write_cmd. rewrite Hf, Hlt, Hr. split; reflexivity.
Qed.
Print Assumptions C11_refusal_code_write.

(* Non-vacuity: a database satisfying the hypotheses in which a protected value differs, and
   the ranged / multi-handle reads that reach it. *)
Example C11_nonvacuous :
  let b := mkBearer 23 false false false in
  let db v := [mkAttr 1 [0; 40] 1 [170; 170] 5 0 0 0;
               mkAttr 2 [3; 40] 1 [10; 3; 0; 17; 17] 3 0 0 0; mkAttr 3 [17; 17] 1 [1; 2; 3] 3 0 0 0;
               mkAttr 4 [3; 40] 1 [10; 5; 0; 34; 34] 5 0 0 0; mkAttr 5 [34; 34] 5 v 5 0 0 0] in
  d11a_free_read b (db [7]) = true /\
  option_map snd (rx (init (db [7]) b 517) 8 [1; 0; 255; 255; 34; 34]) = Some [[1; 8; 5; 0; 15]] /\
  option_map snd (rx (init (db [7]) b 517) 6 [1; 0; 255; 255; 34; 34; 7]) = Some [[1; 6; 1; 0; 10]] /\
  option_map snd (rx (init (db [7]) b 517) 32 [3; 0; 5; 0]) =
  option_map snd (rx (init (db [9]) b 517) 32 [3; 0; 5; 0]) /\
  read_refusal b 5 = Some 15 /\ write_refusal (mkBearer 23 true false false) 42 = Some 5 /\
  (* several bearers: an authorised peer (bearer 0) reads the protected long value, the peer on
     the plain link (bearer 1) is refused whatever the offset, before and after *)
  (let long := mkb 40 48 1 in
   let m := minit [mkAttr 1 [0; 40] 1 [170; 170] 3 0 0 0; mkAttr 2 [3; 40] 1 [2; 3; 0; 34; 34] 3 0 0 0;
                   mkAttr 3 [34; 34] 5 long 3 0 0 0] 517
                  [mkBearer 23 true true false; b] in
   option_map (fun r => map (fun io => (fst io, map (firstn 2) (snd io))) (snd r))
     (mrun m [(1%nat, Rx 12 [3; 0; 22; 0]); (0%nat, Rx 10 [3; 0]); (1%nat, Rx 12 [3; 0; 22; 0]);
              (0%nat, Rx 12 [3; 0; 22; 0]); (1%nat, Rx 10 [3; 0])]) =
   Some [(1%nat, [[1; 12]]); (0%nat, [[11; 48]]); (1%nat, [[1; 12]]); (0%nat, [[13; 70]]); (1%nat, [[1; 10]])]).
Proof. vm_compute. repeat split. Qed.
