(* C09: the signalling identifier allocator (ChannelManager.next_identifier).  Identifiers are
   one byte, 0 is invalid: whatever the history, the identifier handed out is in 1..255, the
   next one is its successor with 255 followed by 1 (so consecutive identifiers differ), and
   every request / credit frame the manager sends carries such an identifier. *)
From Coq Require Import ZArith List Bool Lia.
From BV Require Import Gen.C09Tables Model.ChanMgr Proofs.ChanMgrLib Proofs.ChanMgr.
Import ListNotations.
Open Scope Z_scope.

Lemma nid_range m h : 1 <= nid m h <= 255.
Proof.
  unfold nid. cbv zeta.
  set (cur := match aget h (m_ids m) with Some v => v | None => 0 end).
  pose proof (Z.mod_pos_bound (cur + 1) 256 ltac:(lia)).
  destruct (Z.eqb_spec ((cur + 1) mod 256) 0); lia.
Qed.

Lemma aget_next_id m h : aget h (m_ids (next_id m h)) = Some (nid m h).
Proof. unfold next_id, with_ids. cbn. now rewrite Z.eqb_refl. Qed.

Lemma nid_successor m h :
  nid (next_id m h) h = if Z.eqb (nid m h) 255 then 1 else nid m h + 1.
Proof.
  pose proof (nid_range m h) as R.
  unfold nid at 1. rewrite aget_next_id. cbv zeta.
  destruct (Z.eqb_spec (nid m h) 255) as [E|E].
  - rewrite E. reflexivity.
  - rewrite Z.mod_small by lia. destruct (Z.eqb_spec (nid m h + 1) 0); [lia|reflexivity].
Qed.

Lemma nid_consecutive_differ m h : nid (next_id m h) h <> nid m h.
Proof. rewrite nid_successor. pose proof (nid_range m h). destruct (Z.eqb_spec (nid m h) 255); lia. Qed.

(* the identifier of a frame the manager originates (responses echo the peer's identifier) *)
Definition own_id (f : frame) : option Z :=
  match f with
  | FConnReq id _ _ | FConfReq id _ _ _ | FDiscReq id _ _ | FLeReq id _ _ _ _
  | FEnhReq id _ _ _ _ | FCredit id _ _ => Some id
  | _ => None
  end.

Definition ids_valid (fs : list frame) : Prop :=
  forall f i, In f fs -> own_id f = Some i -> 1 <= i <= 255.

Lemma ids_valid_nil : ids_valid [].
Proof. intros f i []. Qed.
Lemma ids_valid_cons f fs : (forall i, own_id f = Some i -> 1 <= i <= 255) -> ids_valid fs -> ids_valid (f :: fs).
Proof. intros H1 H2 g i [<-|Hin]; [apply H1|apply (H2 g i Hin)]. Qed.
Lemma ids_valid_datas cid n : ids_valid (datas cid n).
Proof. unfold datas. intros f i Hin. apply repeat_spec in Hin. subst f. discriminate. Qed.

(* follows the branches of a handler down to the frame lists it returns, which are literals: an
   identifier of the manager's own in them is always `nid _ _` *)
Ltac ids_tac :=
  repeat match goal with
         | |- ids_valid [] => apply ids_valid_nil
         | |- ids_valid (datas _ _) => apply ids_valid_datas
         | |- ids_valid (_ :: _) => apply ids_valid_cons; [cbn [own_id]; intros ? E; try discriminate; injection E as <-; apply nid_range|]
         | |- ids_valid (snd (if ?b then _ else _)) => destruct b
         | |- ids_valid (snd (match ?x with _ => _ end)) => destruct x
         | |- ids_valid (snd (let '(_, _) := ?x in _)) => destruct x
         | |- ids_valid (snd (_, _)) => cbn [snd]
         end.

(* every request, configuration request and credit frame sent in any state for any event carries
   an identifier of 1..255 *)
Theorem sent_identifiers_valid m e : ids_valid (snd (step m e)).
Proof.
  destruct e as [h kind psm n mode credits|u|u|w|u k|u n|h f|h]; cbn [step].
  - unfold open_le, open_enh, open_cl. cbv zeta. ids_tac.
  - unfold do_close. cbv zeta. ids_tac.
  - ids_tac.
  - ids_tac.
  - unfold do_write. cbv zeta. ids_tac.
  - unfold do_grant. ids_tac.
  - destruct f; cbn [recv]; unfold recv_conn_req, recv_conn_rsp, recv_conf_req, recv_conf_rsp, recv_disc_req,
      recv_disc_rsp, recv_le_req, recv_le_rsp, recv_enh_req, recv_enh_rsp, recv_credit; cbv zeta; ids_tac.
  - ids_tac.
Qed.
