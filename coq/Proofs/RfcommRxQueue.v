(* Proofs about Model/RfcommRxQueue.v: a sink that is set late still receives the exact
   stream as long as no more than the queue size of data frames arrived before.  With one
   frame more the oldest data is lost (known finding D20h): Props/C20.v evaluates that on
   [numbered 33]. *)
From Coq Require Import ZArith List Bool Lia.
From BV Require Import Model.RfcommRxQueue.
Import ListNotations.
Open Scope Z_scope.

Lemma dq_append_fits maxlen q x :
  Z.of_nat (length q) + 1 <= maxlen -> dq_append maxlen q x = q ++ [x].
Proof.
  intros H. unfold dq_append. rewrite app_length. cbn [length].
  destruct (Z.of_nat (length q + 1) >? maxlen) eqn:E; [|reflexivity].
  rewrite Z.gtb_ltb in E. apply Z.ltb_lt in E. lia.
Qed.

Lemma recv_nosink_fits maxlen : forall frames q out,
  Z.of_nat (length q) + Z.of_nat (length frames) <= maxlen ->
  rxq_recv maxlen (mkRxq false q out) frames = mkRxq false (q ++ frames) out.
Proof.
  induction frames as [|f r IH]; intros q out H; cbn [rxq_recv fold_left].
  - now rewrite app_nil_r.
  - unfold rxq_data at 2. cbn [q_sink q_queue q_out]. cbn [length] in H.
    rewrite dq_append_fits by lia.
    change (fold_left (rxq_data maxlen) r ?s) with (rxq_recv maxlen s r).
    rewrite IH by (rewrite app_length; cbn [length]; lia).
    now rewrite <- app_assoc.
Qed.

Lemma recv_sink maxlen : forall frames q out,
  rxq_recv maxlen (mkRxq true q out) frames = mkRxq true q (out ++ concat frames).
Proof.
  induction frames as [|f r IH]; intros q out; cbn [rxq_recv fold_left concat].
  - now rewrite app_nil_r.
  - unfold rxq_data at 2. cbn [q_sink q_queue q_out].
    change (fold_left (rxq_data maxlen) r ?s) with (rxq_recv maxlen s r).
    rewrite IH. now rewrite <- app_assoc.
Qed.

(* late_sink_exact: at most maxlen frames before the sink is set, any number after *)
Lemma late_sink_exact maxlen before after :
  Z.of_nat (length before) <= maxlen ->
  q_out (rxq_recv maxlen (rxq_set_sink (rxq_recv maxlen rxq_init before)) after)
  = concat before ++ concat after.
Proof.
  intros H. unfold rxq_init. rewrite recv_nosink_fits by (cbn [length]; lia).
  unfold rxq_set_sink. cbn [q_out q_queue app]. rewrite recv_sink. reflexivity.
Qed.

(* n one-byte frames, the k-th holding k *)
Definition numbered (n : nat) : list (list Z) := map (fun k => [Z.of_nat k]) (seq 0 n).
