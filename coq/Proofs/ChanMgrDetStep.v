(* C09 determinacy (see ChanMgrDet.v): cancellation by the caller, link loss, the step and the
   theorems *)
From Coq Require Import ZArith List Bool Lia.
From BV Require Import Gen.C09Tables Model.ChanMgr Proofs.ChanMgrLib Proofs.ChanMgr Proofs.ChanMgrDet Proofs.ChanMgrDetRecv.
Import ListNotations.
Open Scope Z_scope.

Lemma loc_cancel m w x : Inv m -> wget m w = Some x ->
  do_cancel (local (w_conn x) m) w = local (w_conn x) (do_cancel m w).
Proof.
  intros I Hw. unfold do_cancel. rewrite (wget_m_eq m w), (wget_m_eq (local (w_conn x) m) w), wget_local, Hw.
  cbn [option_map]. rewrite keep_w_on by reflexivity.
  destruct (negb (w_out x =? O_PENDING)) eqn:P; [reflexivity|].
  assert (Hp : w_out x = O_PENDING) by (apply negb_false_iff in P; now apply Z.eqb_eq in P).
  pose proof (w_own _ I _ _ Hw Hp) as O.
  destruct (w_kind x) eqn:K.
  - destruct O as (c & Hu & Hcw).
    destruct (ch_cw _ I _ _ _ Hu Hcw) as (_ & _ & x' & Hw' & _ & _ & Hxc & _).
    assert (x' = x) by congruence. subst x'. rewrite Hxc, (hget_local_on _ _ _ Hu), Hu.
    destruct (is_uid _ _); [|reflexivity]. destruct (c_kind c); loc_path.
  - destruct O as (us & T). autorewrite with loc. rewrite T, Z.eqb_refl.
    apply loc_enh_finish. eapply pend_on; eauto.
  - destruct O as (c & Hu & Hdw).
    destruct (ch_dw _ I _ _ _ Hu Hdw) as (_ & _ & x' & Hw' & _ & _ & Hxc & _).
    assert (x' = x) by congruence. subst x'. rewrite Hxc, (hget_local_on _ _ _ Hu), Hu.
    destruct (is_uid _ _); [|reflexivity]. loc_path.
Qed.

Lemma flat_map_from_map_ext {A B} (f : Z -> A -> list B) (g : A -> A) l : forall i,
  (forall n x, nth_error l n = Some x -> f (i + Z.of_nat n) (g x) = f (i + Z.of_nat n) x) ->
  flat_map_from f i (map g l) = flat_map_from f i l.
Proof.
  induction l as [|x l IH]; intros i H; cbn; [reflexivity|].
  rewrite (IH (i + 1)).
  - f_equal. specialize (H O x eq_refl). now rewrite Z.add_0_r in H.
  - intros n y Hn. specialize (H (S n) y Hn). now replace (i + 1 + Z.of_nat n) with (i + Z.of_nat (S n)) by lia.
Qed.

Lemma map_from_map_comm {A} (f : Z -> A -> A) (g : A -> A) l :
  (forall j x, f j (g x) = g (f j x)) -> forall i, map_from f i (map g l) = map g (map_from f i l).
Proof. intros H. induction l as [|x l IH]; intros i; cbn; [reflexivity|]. now rewrite H, IH. Qed.

(* the channels aborted when connection a is lost are channels of a *)
Lemma down_us_off a m n c : Inv m -> nth_error (m_heap m) n = Some c -> c_conn c <> a ->
  memz (Z.of_nat n) (down_us m a) = false.
Proof.
  intros I Hn E. apply memz_false. intros Hin. apply (down_us_spec _ _ _ I) in Hin as (c' & Hu & Hc & _).
  apply nth_hget in Hn. congruence.
Qed.

Lemma down_cancels_local a m : Inv m ->
  down_cancels (local a m) a (down_us m a) = down_cancels m a (down_us m a).
Proof.
  intros I. unfold down_cancels. rewrite pend_local, tconn_idem. f_equal.
  unfold local. cbn [m_heap]. apply flat_map_from_map_ext. intros n c Hn. cbn [Z.add].
  destruct (Z.eq_dec (c_conn c) a) as [E|E]; [now rewrite keep_c_on|]. rewrite keep_c_off by exact E.
  rewrite (down_us_off _ _ _ _ I Hn E). cbn. apply Z.eqb_neq in E. rewrite E. now destruct (a - 1 =? a), (c_kind c).
Qed.

Lemma down_results_local a m : Inv m ->
  down_results (local a m) (down_us m a) = down_results m (down_us m a).
Proof.
  intros I. unfold down_results, local. cbn [m_heap]. apply flat_map_from_map_ext. intros n c Hn. cbn [Z.add].
  destruct (Z.eq_dec (c_conn c) a) as [E|E]; [now rewrite keep_c_on|]. rewrite keep_c_off by exact E.
  now rewrite (down_us_off _ _ _ _ I Hn E).
Qed.

Lemma down_chan_conn h us u c : c_conn (down_chan h us u c) = c_conn c.
Proof.
  unfold down_chan, aborted. destruct (c_kind c), (c_conn c =? h), (memz u us); cbn;
    repeat match goal with |- context [if ?b then _ else _] => destruct b end; reflexivity.
Qed.

Lemma down_chan_keep a us u c : down_chan a us u (keep_c a c) = keep_c a (down_chan a us u c).
Proof.
  destruct (Z.eq_dec (c_conn c) a) as [E|E].
  - now rewrite !keep_c_on by (rewrite ?down_chan_conn; exact E).
  - rewrite !keep_c_off by (rewrite ?down_chan_conn; exact E).
    unfold down_chan, aborted, blank_c. cbn. destruct (Z.eqb_spec (a - 1) a); [lia|]. now destruct (memz u us).
Qed.

Lemma loc_down a m : Inv m -> do_down (local a m) a = local a (do_down m a).
Proof.
  intros I. unfold do_down. cbv zeta. rewrite chs_local, le_local, !tconn_idem. fold (down_us m a).
  rewrite (down_cancels_local a m I), (down_results_local a m I).
  unfold local. cbn [m_heap m_chs m_le m_reqs m_pend m_ids m_w m_lesrv m_clsrv].
  rewrite !tconn_tdrop, akeep_adel. f_equal; apply map_from_map_comm; intros j x.
  - apply down_chan_keep.
  - repeat destruct (memz j _); auto using wres1_keep.
Qed.

Lemma loc_recv a m f : Inv m -> recv (local a m) a f = loc_out a (recv m a f).
Proof.
  intros I. destruct f; cbn [recv]; auto using loc_recv_conn_req, loc_recv_conn_rsp, loc_recv_conf_req,
    loc_recv_conf_rsp, loc_recv_disc_req, loc_recv_disc_rsp, loc_recv_le_req, loc_recv_le_rsp, loc_recv_enh_req,
    loc_recv_enh_rsp, loc_recv_credit.
Qed.

Lemma chan_on_ev a m u : option_map c_conn (hget m u) = Some a -> chan_on a m u.
Proof. unfold chan_on. destruct (hget m u) as [c|]; [intros [= <-]; eauto|discriminate]. Qed.

(* An event on connection a does to a's projection exactly what it does to the whole manager:
   it reads nothing else and sends the same frames. *)
Theorem step_local m e a : Inv m -> ev_conn m e = Some a ->
  step (local a m) e = (local a (fst (step m e)), snd (step m e)).
Proof.
  intros I Ha. destruct e as [h kind psm n mode credits|u|u|w|u k|u n|h f|h]; cbn [step ev_conn fst snd] in *.
  - injection Ha as ->. destruct (Z.eqb kind K_LE); [apply loc_open_le|].
    destruct (Z.eqb kind K_ENH); [apply loc_open_enh|apply loc_open_cl].
  - apply chan_on_ev in Ha as (c & Hu & <-). now apply loc_close.
  - apply chan_on_ev in Ha as (c & Hu & <-). now rewrite (loc_abort m u c).
  - destruct (wget m w) as [x|] eqn:Hw; [|discriminate]. injection Ha as <-. now rewrite (loc_cancel m w x).
  - apply chan_on_ev in Ha as (c & Hu & <-). now apply loc_write.
  - apply chan_on_ev in Ha as (c & Hu & <-). now apply loc_grant.
  - injection Ha as ->. now apply loc_recv.
  - injection Ha as ->. now rewrite loc_down.
Qed.

(* whether an event is one of connection a is itself decided by a's projection *)
Lemma keep_c_inv a c c' : keep_c a c = c' -> c_conn c' = a -> c = c'.
Proof.
  unfold keep_c. destruct (Z.eqb_spec (c_conn c) a); [auto|]. intros <-. cbn. lia.
Qed.
Lemma keep_w_inv a x x' : keep_w a x = x' -> w_conn x' = a -> x = x'.
Proof.
  unfold keep_w. destruct (Z.eqb_spec (w_conn x) a); [auto|]. intros <-. cbn. lia.
Qed.

Lemma keep_c_conn a c : c_conn (keep_c a c) = a <-> c_conn c = a.
Proof. split; intros H; [now rewrite (keep_c_inv a c _ eq_refl H)|now rewrite keep_c_on]. Qed.
Lemma keep_w_conn a x : w_conn (keep_w a x) = a <-> w_conn x = a.
Proof. split; intros H; [now rewrite (keep_w_inv a x _ eq_refl H)|now rewrite keep_w_on]. Qed.

Lemma ev_conn_local m e a : ev_conn m e = Some a <-> ev_conn (local a m) e = Some a.
Proof.
  destruct e as [h kind psm n mode credits|u|u|w|u k|u n|h f|h]; cbn [ev_conn]; try tauto;
    rewrite ?hget_local, ?wget_local.
  1,2,4,5: destruct (hget m u) as [c|]; cbn [option_map]; [|tauto]; split; intros [= H]; f_equal;
    now apply keep_c_conn.
  destruct (wget m w) as [x|]; cbn [option_map]; [|tauto]; split; intros [= H]; f_equal; now apply keep_w_conn.
Qed.

(* ---- links_independent, determinacy form.  Two managers that agree on connection a (same
   projection: a's table entries, identifier counter, channel objects and futures) react to an
   event of connection a with the same frames and agree on connection a afterwards, whatever
   else they hold for other connections. *)
Theorem links_determinate m1 m2 e a : Inv m1 -> Inv m2 -> local a m1 = local a m2 ->
  ev_conn m1 e = Some a ->
  ev_conn m2 e = Some a /\ snd (step m1 e) = snd (step m2 e) /\
  local a (fst (step m1 e)) = local a (fst (step m2 e)).
Proof.
  intros I1 I2 E Ha.
  assert (Ha2 : ev_conn m2 e = Some a).
  { apply (proj2 (ev_conn_local m2 e a)). rewrite <- E. apply (proj1 (ev_conn_local m1 e a)). exact Ha. }
  pose proof (step_local m1 e a I1 Ha) as S1. pose proof (step_local m2 e a I2 Ha2) as S2.
  rewrite E in S1. rewrite S1 in S2. repeat split; congruence.
Qed.

(* the same for a whole history of events of connection a *)
Fixpoint all_on (a : Z) (m : mgr) (es : list event) : Prop :=
  match es with
  | [] => True
  | e :: es' => ev_conn m e = Some a /\ all_on a (fst (step m e)) es'
  end.

Theorem run_determinate a : forall es m1 m2, Inv m1 -> Inv m2 -> local a m1 = local a m2 ->
  evs_ok m1 es = true -> evs_ok m2 es = true -> all_on a m1 es ->
  snd (run m1 es) = snd (run m2 es) /\ local a (fst (run m1 es)) = local a (fst (run m2 es)).
Proof.
  induction es as [|e es IH]; intros m1 m2 I1 I2 E O1 O2 A; cbn [run]; [auto|].
  cbn [evs_ok all_on] in *. apply andb_true_iff in O1 as [O1 O1']. apply andb_true_iff in O2 as [O2 O2'].
  destruct A as [Ha A].
  destruct (links_determinate m1 m2 e a I1 I2 E Ha) as (_ & Ho & Em).
  pose proof (step_inv m1 e I1 O1) as J1. pose proof (step_inv m2 e I2 O2) as J2.
  destruct (step m1 e) as [m1' o1]. destruct (step m2 e) as [m2' o2]. cbn [fst snd] in *.
  destruct (IH m1' m2' J1 J2 Em O1' O2' A) as [Hos Hms].
  destruct (run m1' es) as [m1'' os1]. destruct (run m2' es) as [m2'' os2]. cbn [fst snd] in *.
  split; congruence.
Qed.

(* non-vacuity: two managers that differ (an LE channel is being opened on connection 2 in
   one, a classic channel in the other), agree on connection 1, and an event of connection 1
   that changes the projection *)
Example determinate_nonvacuous :
  let m0 := m_init [(128, 2)] [(4097, 0)] in
  let m1 := fst (step m0 (EOpen 2 K_LE 128 1 0 3)) in
  let m2 := fst (step m0 (EOpen 2 K_CL 4097 1 0 0)) in
  m1 <> m2 /\ local 1 m1 = local 1 m2 /\ ev_conn m1 (EOpen 1 K_LE 128 1 0 3) = Some 1 /\
  local 1 (fst (step m1 (EOpen 1 K_LE 128 1 0 3))) <> local 1 m1.
Proof. cbv. repeat split; discriminate. Qed.
