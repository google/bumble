(* Property C13: pairing ends the same way on both sides, with honest authentication.
   This file contains only statements, each closed by [exact].

   Vocabulary (Model/Pairing.v): [config] is one device's PairingConfig + delegate (IO
   capability, SC, MITM, bonding, key-distribution masks); [env] the user's answers and injected
   faults; [toolbox] the cryptographic functions and random values of a run, constrained only by
   [toolbox_ok]; [pair_with T e ci cr] the outcome of a pairing started by the device configured
   [ci] (initiator, central) with the device configured [cr] (responder, peripheral): per side
   the outcome, what Session.on_pairing writes to the key store, and the user prompts.  The
   generated table Gen/C13Tables.v is Session.PAIRING_METHODS as read from bumble/smp.py by this
   run. *)
From Coq Require Import ZArith List Bool.
From BV Require Import Gen.C13Tables Gen.C13Skeleton Model.Pairing Model.PairingMsg Model.PairingSkel Proofs.Pairing Proofs.PairingMsg Proofs.PairingSkel.
Import ListNotations.
Open Scope Z_scope.

(* ---------------------------------------------------------------- association model *)
(* the enum values the delegates use are the specification's IO capability codes *)
Theorem C13_io_codes :
  IO_DISPLAY_ONLY = io_code DisplayOnly /\ IO_DISPLAY_YES_NO = io_code DisplayYesNo /\
  IO_KEYBOARD_ONLY = io_code KeyboardOnly /\ IO_NO_INPUT_NO_OUTPUT = io_code NoInputNoOutput /\
  IO_KEYBOARD_DISPLAY = io_code KeyboardDisplay.
Proof. exact io_codes_match. Qed.
Print Assumptions C13_io_codes.

(* For all 5 x 5 capabilities and legacy / secure connections, when either side asks for MITM
   protection, Session.decide_pairing_method over Session.PAIRING_METHODS selects on BOTH sides
   the model Core Vol 3 Part H Table 2.8 prescribes, and passkey_display is the role the table
   gives that side. *)
Theorem C13_table_matches_spec : forall i r sc m ri rr self_mitm auth_req,
  spec_method i r sc = (m, ri, rr) ->
  self_mitm || has_flag auth_req AUTH_MITM = true ->
  decide false self_mitm sc true false auth_req (io_code i) (io_code r) = Some (method_code m, displays ri) /\
  decide false self_mitm sc false false auth_req (io_code i) (io_code r) = Some (method_code m, displays rr).
Proof. exact table_matches_spec_mitm. Qed.
Print Assumptions C13_table_matches_spec.

(* neither side asks for MITM protection: Just Works, whatever the capabilities *)
Theorem C13_no_mitm_just_works : forall sc init prev auth_req i r,
  has_flag auth_req AUTH_MITM = false ->
  decide false false sc init prev auth_req i r = Some (PM_JUST_WORKS, prev).
Proof. exact decide_no_mitm. Qed.
Print Assumptions C13_no_mitm_just_works.

(* The roles are complementary: both sides select the same model; with passkey entry never both
   display, a displaying side has a display, an inputting side has a keyboard, and both input
   only when both are KeyboardOnly; numeric comparison only with secure connections between
   devices that can show a number and take yes/no. *)
Theorem C13_roles_complementary : forall i r sc mi di mr dr,
  decide false true sc true false 0 (io_code i) (io_code r) = Some (mi, di) ->
  decide false true sc false false 0 (io_code i) (io_code r) = Some (mr, dr) ->
  mi = mr /\
  (mi = PM_PASSKEY ->
     (di && dr = false) /\
     (di = true -> has_display i = true) /\ (di = false -> has_keyboard i = true) /\
     (dr = true -> has_display r = true) /\ (dr = false -> has_keyboard r = true) /\
     (di = false -> dr = false -> i = KeyboardOnly /\ r = KeyboardOnly)) /\
  (mi = PM_NUMERIC_COMPARISON -> has_yes_no i = true /\ has_yes_no r = true /\ sc = true) /\
  (mi <> PM_PASSKEY -> di = false /\ dr = false).
Proof. exact roles_complementary. Qed.
Print Assumptions C13_roles_complementary.

(* ---------------------------------------------------------------- negotiation, key distribution *)
(* After request / response both sessions hold the same SC, bonding, CT2 flags, the same masks
   and the same method, for all configurations, all masks and any answer of the responder's
   delegate that the initiator accepts. *)
Theorem C13_negotiation_agrees : forall ci cr ans sr si,
  responder_session false cr ans (request_of ci) = Some sr ->
  initiator_session false ci (response_of cr sr) = NegOk si ->
  negotiated_ok false ci cr ans si sr.
Proof. exact negotiation. Qed.
Print Assumptions C13_negotiation_agrees.

(* What one side waits for (compute_peer_expected_distributions) is exactly what the other
   sends (distribute_keys): for every mask, SC on or off, LE or BR/EDR. *)
Theorem C13_expectations_match : forall sc bredr kd, expected sc bredr kd = distributed sc bredr kd.
Proof. exact expectations_match. Qed.
Print Assumptions C13_expectations_match.

(* hence the key distribution phase completes on both sides: nobody waits for a key that is not
   sent, nobody receives a key it does not expect *)
Theorem C13_key_distribution_completes : forall ci cr ans si sr,
  negotiated_ok false ci cr ans si sr -> phase3 false si sr = (Completed, Completed).
Proof. exact (phase3_completes_b false). Qed.
Print Assumptions C13_key_distribution_completes.

(* the same through request, response and phase 3, for all masks, SC and bonding on each side (the
   masks need not even be in range); the expected lists literally equal the sent lists *)
Theorem C13_expectations_match_finite : forall sci scr bi br ii ri ir rr,
  0 <= ii < 16 -> 0 <= ri < 16 -> 0 <= ir < 16 -> 0 <= rr < 16 ->
  phase3_case sci scr bi br ii ri ir rr = true.
Proof. exact (fun sci scr bi br ii ri ir rr _ _ _ _ => phase3_case_true sci scr bi br ii ri ir rr). Qed.
Print Assumptions C13_expectations_match_finite.

(* ---------------------------------------------------------------- outcome *)
(* Both sides complete (and both write keys) or both report failure with the same reason and
   neither writes anything; for all configurations, user answers, faults and every toolbox. *)
Theorem C13_both_or_neither : forall T e ci cr i r si sr link,
  pair_with T e ci cr = Res i r si sr link ->
  (r_outcome i = Completed /\ r_outcome r = Completed /\ r_store i <> None /\ r_store r <> None)
  \/ (exists reason, nothing_stored_tb i r reason).
Proof. exact (fun T => both_or_neither _ _ _ _ _ _ _ _ _ _ _ _ _ _ _ _). Qed.
Print Assumptions C13_both_or_neither.

Theorem C13_never_hangs_model : forall T e ci cr i r si sr link,
  pair_with T e ci cr = Res i r si sr link -> r_outcome i <> Hung /\ r_outcome r <> Hung.
Proof. exact (fun T => never_hangs _ _ _ _ _ _ _ _ _ _ _ _ _ _ _ _). Qed.
Print Assumptions C13_never_hangs_model.

(* the link is encrypted under one shared key (STK or LTK) *)
Theorem C13_link_key_shared : forall T, toolbox_ok T -> forall e ci cr i r si sr a b,
  pair_with T e ci cr = Res i r si sr (Some (a, b)) ->
  e_bad_confirm_i e = false -> e_bad_confirm_r e = false -> a = b.
Proof. exact (fun T Tok => link_key_shared _ _ _ _ _ _ _ _ _ _ _ _ _ _ _ _ (ok_veqb T Tok) (ok_c1 T Tok) (ok_dh T Tok)). Qed.
Print Assumptions C13_link_key_shared.

(* The property end to end (modelled flows): both completed, with one shared link key, keys stored
   on both sides, and on a later connection in either role order the peripheral's store yields the
   key the central's store yields - or both report the same failure and neither stored anything. *)
Theorem C13_pairing_end_to_end : forall T, toolbox_ok T -> forall e ci cr i r si sr link,
  pair_with T e ci cr = Res i r si sr link ->
  (r_outcome i = Completed /\ r_outcome r = Completed /\
   exists ki kr, r_store i = Some ki /\ r_store r = Some kr /\
     (forall k, central_request _ ki = Some k -> peripheral_reply _ kr = Some k) /\
     (forall k, central_request _ kr = Some k -> peripheral_reply _ ki = Some k) /\
     (e_bad_confirm_i e = false -> e_bad_confirm_r e = false ->
      forall a b, link = Some (a, b) -> a = b))
  \/ (exists reason, nothing_stored_tb i r reason).
Proof. exact pairing_end_to_end. Qed.
Print Assumptions C13_pairing_end_to_end.

(* ---------------------------------------------------------------- a failed check stores nothing *)
Theorem C13_wrong_passkey_stores_nothing : forall T, toolbox_ok T ->
  forall e ci cr i r s_i s_r link pi pr,
  pair_with T e ci cr = Res i r (Some s_i) (Some s_r) link ->
  s_method s_i = PM_PASSKEY ->
  e_bad_confirm_i e = false -> e_bad_confirm_r e = false -> env_ok e = true ->
  own_passkey e s_i (e_typed_i e) = Some pi -> own_passkey e s_r (e_typed_r e) = Some pr ->
  pi <> pr ->
  nothing_stored_tb i r ERR_CONFIRM_VALUE_FAILED.
Proof. exact (fun T Tok => wrong_passkey_stores_nothing _ _ _ _ _ _ _ _ _ _ _ _ _ _ _ _ (ok_veqb T Tok) (ok_c1 T Tok) (ok_tk T Tok) (ok_f4 T Tok)). Qed.
Print Assumptions C13_wrong_passkey_stores_nothing.

(* a Pairing Confirm value or a DHKey Check that does not match (altered in transit, the rest of
   the run honest) *)
Theorem C13_mismatching_check_stores_nothing : forall T, toolbox_ok T ->
  forall e ci cr i r s_i s_r link,
  pair_with T e ci cr = Res i r (Some s_i) (Some s_r) link ->
  same_passkeys e s_i s_r ->
  relevant_tamper e s_i = true ->
  exists reason, nothing_stored_tb i r reason.
Proof. exact (fun T Tok => tampered_check_stores_nothing _ _ _ _ _ _ _ _ _ _ _ _ _ _ _ _ (ok_veqb T Tok) (ok_tamper T Tok) (ok_dh T Tok)). Qed.
Print Assumptions C13_mismatching_check_stores_nothing.

(* the user refuses the confirmation or says the numbers differ *)
Theorem C13_user_refusal_stores_nothing : forall T e ci cr i r s_i s_r link,
  pair_with T e ci cr = Res i r (Some s_i) (Some s_r) link ->
  s_sc s_i = true ->
  (s_method s_i = PM_JUST_WORKS /\ e_confirm_i e && e_confirm_r e = false) \/
  (s_method s_i = PM_NUMERIC_COMPARISON /\ e_compare_i e && e_compare_r e = false) ->
  nothing_stored_tb i r ERR_CONFIRM_VALUE_FAILED.
Proof. exact (fun T => user_refusal_stores_nothing _ _ _ _ _ _ _ _ _ _ _ _ _ _ _ _). Qed.
Print Assumptions C13_user_refusal_stores_nothing.

Theorem C13_reject_stores_nothing : forall T e ci cr,
  e_accept e = false ->
  pair_with T e ci cr = failed_both _ ERR_PAIRING_NOT_SUPPORTED None None.
Proof. exact (fun T => reject_stores_nothing _ _ _ _ _ _ _ _ _ _ _ _ _ _ _ _). Qed.
Print Assumptions C13_reject_stores_nothing.

(* ---------------------------------------------------------------- honest authentication *)
(* Any key either side stores with authenticated = True implies: the pairing completed on both
   sides, with passkey entry or numeric comparison, MITM protection was requested by a side, and
   the model was really exercised: with numeric comparison both users confirmed (and secure
   connections was used); with passkey entry both sides worked with the same passkey. *)
Theorem C13_authenticated_only_if_mitm_model : forall T, toolbox_ok T ->
  forall e ci cr i r si sr link ks,
  pair_with T e ci cr = Res i r si sr link ->
  r_store i = Some ks \/ r_store r = Some ks ->
  any_auth ks = true ->
  exists s_i s_r, si = Some s_i /\ sr = Some s_r /\
    r_outcome i = Completed /\ r_outcome r = Completed /\
    s_method s_i = s_method s_r /\
    (s_method s_i = PM_PASSKEY \/ s_method s_i = PM_NUMERIC_COMPARISON) /\
    c_mitm ci || c_mitm cr = true /\
    (s_method s_i = PM_NUMERIC_COMPARISON ->
       e_compare_i e = true /\ e_compare_r e = true /\ s_sc s_i = true) /\
    (s_method s_i = PM_PASSKEY -> e_bad_confirm_i e = false -> e_bad_confirm_r e = false ->
       env_ok e = true ->
       exists p, own_passkey e s_i (e_typed_i e) = Some p /\ own_passkey e s_r (e_typed_r e) = Some p).
Proof. exact (fun T Tok => authenticated_only_if_mitm_model _ _ _ _ _ _ _ _ _ _ _ _ _ _ _ _ (ok_veqb T Tok) (ok_c1 T Tok) (ok_tk T Tok) (ok_f4 T Tok)). Qed.
Print Assumptions C13_authenticated_only_if_mitm_model.

(* cross-transport key derivation (fixes/D13b.patch): derived keys are authenticated only when
   the BR/EDR link key they come from is *)
Theorem C13_ctkd_authenticated_inherits : forall (V : Type) (lk : V -> V) e s own cmds peer,
  s_method s = PM_CTKD_OVER_CLASSIC ->
  any_auth (stored V lk e true s own cmds peer) = true -> e_lk_auth e = true.
Proof. exact ctkd_store_authenticated. Qed.
Print Assumptions C13_ctkd_authenticated_inherits.

(* ---------------------------------------------------------------- a later connection *)
(* Whatever key Device.encrypt on the central reads from its store, Device.get_long_term_key
   on the peripheral returns the same key: with the initiator as central again, and in swapped
   roles (fixes/D13a.patch). *)
Theorem C13_reconnect_same_key : forall T, toolbox_ok T ->
  forall e ci cr i r si sr link ki kr,
  pair_with T e ci cr = Res i r si sr link ->
  r_store i = Some ki -> r_store r = Some kr ->
  (forall k, central_request _ ki = Some k -> peripheral_reply _ kr = Some k) /\
  (forall k, central_request _ kr = Some k -> peripheral_reply _ ki = Some k).
Proof. exact (fun T Tok => reconnect_same_key _ _ _ _ _ _ _ _ _ _ _ _ _ _ _ _ (ok_dh T Tok)). Qed.
Print Assumptions C13_reconnect_same_key.

(* ... and a key is available exactly when one was negotiated for that direction *)
Theorem C13_reconnect_available : forall T e ci cr i r s_i s_r link ki kr,
  pair_with T e ci cr = Res i r (Some s_i) (Some s_r) link ->
  r_store i = Some ki -> r_store r = Some kr ->
  (central_request _ ki <> None <-> s_sc s_i = true \/ has_flag (s_rkd s_r) KD_ENC_KEY = true) /\
  (central_request _ kr <> None <-> s_sc s_i = true \/ has_flag (s_ikd s_i) KD_ENC_KEY = true).
Proof. exact (fun T => reconnect_available _ _ _ _ _ _ _ _ _ _ _ _ _ _ _ _). Qed.
Print Assumptions C13_reconnect_available.

(* both sides store a BR/EDR link key only after secure connections, and then the same one
   (fixes/D13d.patch) *)
Theorem C13_link_key_store_shared : forall T, toolbox_ok T ->
  forall e ci cr i r s_i s_r link ki kr,
  pair_with T e ci cr = Res i r (Some s_i) (Some s_r) link ->
  r_store i = Some ki -> r_store r = Some kr ->
  (s_sc s_i = false -> ks_link_key ki = None /\ ks_link_key kr = None) /\
  (forall a b, ks_link_key ki = Some a -> ks_link_key kr = Some b -> k_value a = k_value b).
Proof. exact (fun T Tok => link_key_store_shared _ _ _ _ _ _ _ _ _ _ _ _ _ _ _ _ (ok_dh T Tok)). Qed.
Print Assumptions C13_link_key_store_shared.

(* ---------------------------------------------------------------- CTKD over BR/EDR *)
(* for every pair of configurations and every mask the two sessions select CTKD and the key
   distribution phase completes on both sides (fixes/D13e.patch: a side that expects no key
   completes instead of waiting for ever) *)
Theorem C13_ctkd_flow_completes : forall ci cr ans sr si,
  responder_session true cr ans (request_of ci) = Some sr ->
  initiator_session true ci (response_of cr sr) = NegOk si ->
  phase3 true si sr = (Completed, Completed) /\
  (c_oob ci || c_oob cr = false -> s_method si = PM_CTKD_OVER_CLASSIC /\ s_method sr = PM_CTKD_OVER_CLASSIC).
Proof. exact ctkd_flow_completes. Qed.
Print Assumptions C13_ctkd_flow_completes.

(* what a CTKD session stores is authenticated only when the link key is; a side whose own
   negotiated mask has ENC_KEY does store; one whose mask lacks it reports and stores nothing -
   Session.on_pairing raises for want of self.ltk (known finding D13f) *)
Theorem C13_ctkd_store_authenticated : forall (V : Type) e s lk ltk cmds ks,
  s_method s = PM_CTKD_OVER_CLASSIC ->
  ctkd_store V e s lk ltk cmds = Some ks -> any_auth ks = true -> e_lk_auth e = true.
Proof. exact ctkd_flow_store_authenticated. Qed.
Print Assumptions C13_ctkd_store_authenticated.

Theorem C13_ctkd_with_enc_key_stores : forall (V : Type) e s lk ltk cmds,
  has_flag (own_kd s) KD_ENC_KEY = true -> ctkd_store V e s lk ltk cmds <> None.
Proof. exact ctkd_with_enc_key_stores. Qed.
Print Assumptions C13_ctkd_with_enc_key_stores.

Theorem C13_ctkd_without_enc_key_refuted : forall (V : Type) e s lk ltk cmds,
  has_flag (own_kd s) KD_ENC_KEY = false -> ctkd_store V e s lk ltk cmds = None.
Proof. exact ctkd_without_enc_key_refuted. Qed.
Print Assumptions C13_ctkd_without_enc_key_refuted.

(* ---------------------------------------------------------------- every schedule (message level) *)
(* Model/PairingMsg.v: the two sessions as reactive handlers over FIFO inboxes; a schedule is any
   list of labels (deliver to the initiator / to the responder, the initiator's / the responder's
   user answers), of any length; a disabled label is a stutter.  For every configuration of the
   family (9 method/role shapes x all 16x16 masks; every combination of rejection, answer outside
   the request, each user's yes/no, right / refused / wrong passkey on each side, each Confirm and
   DHKey check altered or not; a wrong passkey differing first at each of the 20 bits) and EVERY
   schedule: never one side completed and the other failed; whenever nothing is enabled both
   sides have ended (no deadlock); a run that must fail never completes on either side and one
   that need not never fails; two failures carry the same reason; fewer than FUEL = 400 effective
   steps (no livelock). *)
Theorem C13_every_schedule : forall c, In c family -> forall sched,
  let s := mrun c sched in
  d_err (m_i s) = false /\ d_err (m_r s) = false /\
  ~ (d_out (m_i s) = 1 /\ d_out (m_r s) = 2) /\ ~ (d_out (m_i s) = 2 /\ d_out (m_r s) = 1) /\
  (quiescent s = true -> d_out (m_i s) <> 0 /\ d_out (m_r s) <> 0) /\
  (must_fail c = true -> d_out (m_i s) <> 1 /\ d_out (m_r s) <> 1) /\
  (must_fail c = false -> d_out (m_i s) <> 2 /\ d_out (m_r s) <> 2) /\
  (d_out (m_i s) = 2 -> d_out (m_r s) = 2 -> d_reason (m_i s) = d_reason (m_r s)) /\
  (effective c minit sched < FUEL)%nat.
Proof. exact schedules_ok. Qed.
Print Assumptions C13_every_schedule.

(* the exploration behind it is a verified reachability check, for any configuration *)
Theorem C13_exploration_sound : forall c, explore_ok c = true ->
  forall sched, minv c (mrun c sched) = true /\ (effective c minit sched < FUEL)%nat.
Proof. exact explore_sound. Qed.
Print Assumptions C13_exploration_sound.

(* The value-level model ends exactly as the message-level model does (same outcome, same
   reasons), and its message-level configuration keeps the invariant under every schedule: all
   5x5 capabilities x SC on each side x MITM on each side x 18 environments. *)
Theorem C13_levels_agree : forall ci cr e, In (ci, cr, e) concrete ->
  agrees ci cr e = true /\
  forall c, abs_of ci cr e = Some c -> forall sched, minv c (mrun c sched) = true.
Proof. exact concrete_agrees. Qed.
Print Assumptions C13_levels_agree.

(* ---------------------------------------------------------------- the model's shape is the source's *)
(* compute_peer_expected_distributions and distribute_keys (both roles) as parsed from the
   current source compute the model's lists and link-key condition *)
Theorem C13_distribution_matches_source : forall sc bredr kd, 0 <= kd < 256 ->
  interp_expected expected_skeleton sc bredr kd = expected sc bredr kd /\
  interp_distribute distribute_skeleton_initiator sc bredr kd = distributed sc bredr kd /\
  interp_distribute distribute_skeleton_responder sc bredr kd = distributed sc bredr kd /\
  interp_link distribute_skeleton_initiator sc bredr kd = model_link sc bredr kd /\
  interp_link distribute_skeleton_responder sc bredr kd = model_link sc bredr kd.
Proof. exact distribution_matches_source. Qed.
Print Assumptions C13_distribution_matches_source.

(* the statements of Session.on_pairing, Device.encrypt, Device.get_long_term_key and
   Session.get_long_term_key that file or read a key are the ones the model was written from *)
Theorem C13_filing_matches_source :
  on_pairing_source = on_pairing_reading /\
  encrypt_source = encrypt_reading /\
  provider_source = provider_reading /\
  session_provider_source = session_provider_reading.
Proof. exact filing_matches_source. Qed.
Print Assumptions C13_filing_matches_source.

(* on_smp_pairing_request_command_async / on_smp_pairing_response_command: the negotiated fields are
   assigned, the method decided, the masks set, the expectations computed and phase 2 started in the
   order the models assume (sc is negotiated before decide_pairing_method reads it) *)
Theorem C13_handlers_match_source :
  request_handler_source = request_handler_reading /\
  response_handler_source = response_handler_reading.
Proof. exact handlers_match_source. Qed.
Print Assumptions C13_handlers_match_source.

(* ---------------------------------------------------------------- sessions across connections *)
(* Manager.sessions over any sequence of pairings, session ends and disconnections, on any handles
   (handles are reused): no session stays registered for a connection that has gone down *)
Theorem C13_no_stale_session : forall ops, mgr_ok (mgr_run ops) = true.
Proof. exact mgr_always_ok. Qed.
Print Assumptions C13_no_stale_session.

Theorem C13_disconnect_ends_session : forall g h,
  find_session h (mg_sessions (mgr_step g (OpDisconnect h))) = None.
Proof. exact disconnect_ends_session. Qed.
Print Assumptions C13_disconnect_ends_session.

(* a pairing on a reused handle starts from a fresh, not completed session, whether this device
   initiates (Manager.pair) or receives the Pairing Request (Manager.on_smp_pdu) *)
Theorem C13_fresh_session_after_disconnect : forall g h,
  (forall s, In s (mg_sessions g) -> ms_id s < mg_next g) ->
  let g1 := mgr_step g (OpDisconnect h) in
  (exists s, find_session h (mg_sessions (mgr_step g1 (OpPair h))) = Some s /\ ms_id s = mg_next g /\ ms_completed s = false) /\
  (exists s, find_session h (mg_sessions (mgr_step g1 (OpPdu h true))) = Some s /\ ms_id s = mg_next g /\ ms_completed s = false).
Proof. exact fresh_session_after_disconnect. Qed.
Print Assumptions C13_fresh_session_after_disconnect.

(* sparing completed sessions at disconnection (seeded change C13-e) breaks both *)
Theorem C13_spare_completed_refuted :
  let g := fold_left mgr_step_spare [OpPdu 1 true; OpEnded 1 false; OpDisconnect 1] mgr0 in
  mgr_ok g = false /\
  exists s, find_session 1 (mg_sessions (mgr_step_spare g (OpPdu 1 true))) = Some s /\ ms_completed s = true.
Proof. exact spare_completed_refuted. Qed.
Print Assumptions C13_spare_completed_refuted.

(* Session.on_disconnection, Session.on_pairing_failure, Manager.on_session_end, Manager.pair and
   Manager.on_smp_pdu maintain the table the way [mgr_step] assumes *)
Theorem C13_session_table_matches_source :
  session_on_disconnection_source = session_on_disconnection_reading /\
  session_on_pairing_failure_source = session_on_pairing_failure_reading /\
  manager_on_session_end_source = manager_on_session_end_reading /\
  manager_pair_source = manager_pair_reading /\
  manager_on_smp_pdu_source = manager_on_smp_pdu_reading.
Proof. exact session_table_matches_source. Qed.
Print Assumptions C13_session_table_matches_source.

(* ---------------------------------------------------------------- the hypotheses are satisfiable *)
Theorem C13_toolbox_satisfiable : toolbox_ok term_toolbox.
Proof. exact term_toolbox_ok. Qed.
Print Assumptions C13_toolbox_satisfiable.

(* ---------------------------------------------------------------- the code before the fixes *)
(* D13a: the original slots of Session.on_pairing: the central reads the responder's LTK, the
   peripheral returns the initiator's, in both role orders *)
Theorem C13_reconnect_refuted_before_D13a :
  central_request term (orig_store true) = Some (TLtk false) /\
  peripheral_reply term (orig_store false) = Some (TLtk true) /\
  central_request term (orig_store false) = Some (TLtk false) /\
  peripheral_reply term (orig_store true) = Some (TLtk true) /\
  TLtk false <> TLtk true.
Proof. exact reconnect_refuted_orig. Qed.
Print Assumptions C13_reconnect_refuted_before_D13a.

(* D13b: the original flag marks CTKD keys authenticated whatever the link key was *)
Theorem C13_ctkd_authenticated_refuted_before_D13b :
  let s := mkSession true true true false PM_CTKD_OVER_CLASSIC false 3 3 [] in
  ks_ltk (stored_orig term TLk true s (TLtk true) [] TZero TZero) = Some (mkKey (TLtk true) true false).
Proof. exact ctkd_authenticated_refuted_orig. Qed.
Print Assumptions C13_ctkd_authenticated_refuted_before_D13b.

(* ---------------------------------------------------------------- non-vacuity *)
(* legacy, both distribute everything: completes; the central's key is the responder's LTK in
   the same roles and the initiator's LTK in swapped roles *)
Example C13_nonvacuous_legacy :
  run_obs (mkConfig 3 false false true 15 15 false) (mkConfig 3 false false true 15 15 false) honest_env =
  (true,
   (((0, 0), [[]; [2; 0]; [1; 0]; [0]; [0]; []], []), ((0, 0), [[]; [1; 0]; [2; 0]; [0]; [0]; []], [0])),
   ([0; 0; 1; 0; 15; 15; 0], [0; 0; 1; 0; 15; 15; 0]), [4; 4; 1], ([2; 2], [1; 1])).
Proof. vm_compute. reflexivity. Qed.

(* secure connections passkey entry with the right passkey: authenticated keys; with a wrong
   one: both fail with Confirm Value Failed and store nothing *)
Example C13_nonvacuous_passkey :
  run_obs (mkConfig 4 true true true 15 15 false) (mkConfig 2 true true true 15 15 false) honest_env =
  (true,
   (((0, 0), [[3; 1]; []; []; [1]; [1]; [1]], [4]), ((0, 0), [[3; 1]; []; []; [1]; [1]; [1]], [0; 3])),
   ([2; 1; 1; 0; 15; 15; 1], [2; 1; 1; 0; 15; 15; 0]), [3; 3; 1], ([3; 3], [3; 3])).
Proof. vm_compute. reflexivity. Qed.

Example C13_nonvacuous_wrong_passkey :
  run_obs (mkConfig 4 true true true 15 15 false) (mkConfig 2 true true true 15 15 false)
          (mkEnv true None true true true true 123456 (Some 123456) (Some 123457) false false false false false) =
  (true, (((1, 4), [], []), ((1, 4), [], [])),
   ([2; 1; 1; 0; 15; 15; 1], [2; 1; 1; 0; 15; 15; 0]), [], ([], [])).
Proof. vm_compute. reflexivity. Qed.

(* the family of the schedule theorem is inhabited; a must-fail and a need-not-fail member *)
Example C13_family_nonempty : In (honest (true, PM_PASSKEY, true, false) 7 5) family.
Proof. exact family_nonempty. Qed.

Example C13_must_fail_examples :
  must_fail (honest (true, PM_PASSKEY, true, false) 7 5) = false /\
  must_fail (mk (true, PM_PASSKEY, true, false) true true true true EntryOk (EntryWrong 7)
                false false false false 7 5) = true.
Proof. vm_compute. split; reflexivity. Qed.
