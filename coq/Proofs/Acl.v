(* Proofs about Model/Acl.v (property C05).  Fragmentation cuts an SDU into chunks whose
   concatenation is the SDU; the assembler waits exactly while what it holds is a proper prefix
   of a well-formed PDU, so the fragments of a PDU are delivered whole from any state and for
   any cut, and a malformed sequence costs only itself.  The codecs on the path round-trip, the
   relay composes these, and the DataPacketQueue (C04) hands the fragments over in order. *)
(* ZifyBool lets [lia] decide goals about [<?], [<=?], [&&] (e.g. [u16_ok_iff], [l2cap_to_bytes_none]). *)
From Coq Require Import ZArith List Bool Lia ZifyBool.
From BV Require Import Model.Acl Model.DataQueue Proofs.DataQueue.
From BV Require Proofs.BitFields.
Import ListNotations.
Open Scope Z_scope.

Lemma blen_app a b : blen (a ++ b) = blen a + blen b.
Proof. unfold blen. rewrite app_length. lia. Qed.

Lemma blen_nonneg a : 0 <= blen a.
Proof. unfold blen. lia. Qed.

Lemma blen_nil_iff a : blen a = 0 <-> a = [].
Proof. unfold blen. destruct a; cbn [length]; split; intros; try reflexivity; try discriminate; lia. Qed.

Lemma rd16_le16 v : match le16 v with [b0; b1] => rd16 b0 b1 = v | _ => False end.
Proof. unfold le16, rd16. pose proof (Z.div_mod v 256). lia. Qed.

Lemma u16_ok_iff v : u16_ok v = true <-> 0 <= v < 65536.
Proof. unfold u16_ok. lia. Qed.

(* every fragment but the last is exactly m bytes; the last is 1..m bytes *)
Fixpoint full_but_last (m : nat) (cs : list bytes) : Prop :=
  match cs with
  | [] => True
  | c :: r =>
      match r with
      | [] => (1 <= length c <= m)%nat
      | _ :: _ => length c = m /\ full_but_last m r
      end
  end.

Lemma chunks_spec m : (1 <= m)%nat -> forall fuel l, (length l <= fuel)%nat ->
  exists cs, chunks fuel m l = Some cs /\ concat cs = l /\
             Forall (fun c => (1 <= length c <= m)%nat) cs /\ full_but_last m cs.
Proof.
  intros Hm. induction fuel as [|f IH]; intros l Hl.
  - destruct l; [|cbn in Hl; lia]. exists []. cbn. repeat split; constructor.
  - destruct l as [|x l'].
    + exists []. cbn. repeat split; constructor.
    + assert (Hne : (1 <= length (x :: l'))%nat) by (cbn [length]; lia).
      destruct (IH (skipn m (x :: l'))) as (cs & Hc & Hcat & Hall & Hfull).
      { rewrite skipn_length. lia. }
      assert (Hch : chunks (S f) m (x :: l') = Some (firstn m (x :: l') :: cs)).
      { cbn [chunks]. rewrite Hc. reflexivity. }
      set (l := x :: l') in *. clearbody l.
      exists (firstn m l :: cs).
      assert (Hf : (1 <= length (firstn m l) <= m)%nat) by (rewrite firstn_length; lia).
      split; [|split; [|split]].
      * exact Hch.
      * cbn [concat]. rewrite Hcat. apply firstn_skipn.
      * constructor; assumption.
      * cbn [full_but_last]. destruct cs as [|c2 r2]; [exact Hf|].
        split; [|exact Hfull].
        (* a second chunk exists and is not empty, so l is longer than m *)
        apply (f_equal (@length Z)) in Hcat. rewrite skipn_length in Hcat. cbn [concat] in Hcat.
        rewrite app_length in Hcat. pose proof (Forall_inv Hall) as Hc2. cbn beta in Hc2. rewrite firstn_length. lia.
Qed.

Lemma chunks_none_m0 fuel l : l <> [] -> chunks fuel 0 l = None.
Proof.
  revert l. induction fuel as [|f IH]; intros l Hl; destruct l as [|x l']; try congruence; cbn [chunks]; [reflexivity|].
  cbn [skipn]. rewrite IH by congruence. reflexivity.
Qed.

Definition cont (h : Z) (c : bytes) : acl := mkAcl h 1 0 (blen c) c.
Definition start (h pb : Z) (c : bytes) : acl := mkAcl h pb 0 (blen c) c.

Lemma mark_frags_eq h pb c r : mark_frags h pb (c :: r) = start h pb c :: map (cont h) r.
Proof. reflexivity. Qed.

Lemma mark_frags_data h pb cs : map a_data (mark_frags h pb cs) = cs.
Proof.
  destruct cs as [|c r]; [reflexivity|]. cbn [mark_frags map a_data]. f_equal.
  rewrite map_map. cbn [a_data]. apply map_id.
Qed.

Lemma fragment_chunks h pb m sdu : 1 <= m ->
  exists cs, fragment h pb m sdu = Some (mark_frags h pb cs) /\ concat cs = sdu /\
             Forall (fun c => (1 <= length c <= Z.to_nat m)%nat) cs /\ full_but_last (Z.to_nat m) cs.
Proof.
  intros Hm. unfold fragment.
  destruct (m <=? 0) eqn:E; [lia|].
  destruct (chunks_spec (Z.to_nat m) ltac:(lia) (length sdu) sdu (le_n _)) as (cs & Hc & Hcat & Hall & Hfull).
  exists cs. rewrite Hc. cbn [option_map]. auto.
Qed.

(* what the property says about the fragments of one SDU *)
Definition frag_ok (h m : Z) (p : acl) : Prop :=
  a_handle p = h /\ a_bc p = 0 /\ a_len p = blen (a_data p) /\ 1 <= blen (a_data p) <= m.

Definition flags_ok (pb0 : Z) (ps : list acl) : Prop :=
  match ps with
  | [] => True
  | p :: r => a_pb p = pb0 /\ Forall (fun q => a_pb q = 1) r
  end.

Lemma fragment_spec h pb m sdu : 1 <= m ->
  exists ps, fragment h pb m sdu = Some ps /\
             concat (map a_data ps) = sdu /\
             Forall (frag_ok h m) ps /\ flags_ok pb ps /\
             full_but_last (Z.to_nat m) (map a_data ps) /\
             (ps = [] <-> sdu = []).
Proof.
  intros Hm. destruct (fragment_chunks h pb m sdu Hm) as (cs & Hf & Hcat & Hall & Hfull).
  exists (mark_frags h pb cs). rewrite mark_frags_data. repeat split; auto.
  - destruct cs as [|c r]; [constructor|]. rewrite mark_frags_eq.
    inversion Hall as [|? ? Hc Hr]; subst.
    constructor.
    + unfold frag_ok, start, blen. cbn. repeat split; lia.
    + apply Forall_map. eapply Forall_impl; [|exact Hr]. intros c' Hc'. cbn beta in Hc'.
      unfold frag_ok, cont, blen. cbn. repeat split; lia.
  - destruct cs as [|c r]; [exact I|]. rewrite mark_frags_eq. cbn. split; [reflexivity|].
    apply Forall_map, Forall_forall. reflexivity.
  - intros E. destruct cs; [subst; reflexivity|discriminate].
  - intros E. destruct cs as [|c r]; [reflexivity|]. exfalso.
    rewrite E in Hcat. cbn [concat] in Hcat. apply app_eq_nil in Hcat. destruct Hcat as [Hc0 _].
    inversion Hall as [|? ? Hc _]. rewrite Hc0 in Hc. cbn [length] in Hc. lia.
Qed.

(* range(0, len, 0) raises *)
Lemma fragment_m0 h pb sdu : fragment h pb 0 sdu = None.
Proof. reflexivity. Qed.

Lemma asm_run_app s ps qs :
  asm_run s (ps ++ qs) =
  let '(s1, o1) := asm_run s ps in let '(s2, o2) := asm_run s1 qs in (s2, o1 ++ o2).
Proof.
  revert s. induction ps as [|p ps IH]; intros s; cbn [asm_run app].
  - destruct (asm_run s qs). reflexivity.
  - destruct (feed s p) as [s1 o1]. rewrite IH.
    destruct (asm_run s1 ps) as [s2 o2]. destruct (asm_run s2 qs) as [s3 o3].
    rewrite app_assoc. reflexivity.
Qed.

Lemma deliveries_app a b : deliveries (a ++ b) = deliveries a ++ deliveries b.
Proof.
  induction a as [|e a IH]; [reflexivity|]. destruct e; cbn [deliveries app]; rewrite ?IH; reflexivity.
Qed.

Lemma asm_check_eq cur l : blen cur = l + 4 -> asm_check cur l = (asm_init, [Deliver cur]).
Proof. intros H. unfold asm_check. rewrite (proj2 (Z.eqb_eq _ _) H). reflexivity. Qed.

Lemma asm_check_lt cur l : blen cur < l + 4 -> asm_check cur l = ((Some cur, l), []).
Proof.
  intros H. unfold asm_check.
  destruct (blen cur =? l + 4) eqn:E1; [lia|]. destruct (blen cur >? l + 4) eqn:E2; [lia|]. reflexivity.
Qed.

Lemma asm_check_gt cur l : blen cur > l + 4 -> asm_check cur l = (asm_init, [Overflow]).
Proof.
  intros H. unfold asm_check.
  destruct (blen cur =? l + 4) eqn:E1; [lia|]. destruct (blen cur >? l + 4) eqn:E2; [|lia]. reflexivity.
Qed.

(* a well-formed PDU as the assembler sees it: at least the 4 header bytes, length field
   (first two bytes, little endian) = number of bytes after the header *)
Definition pdu_wf (pdu : bytes) : Prop :=
  match pdu with
  | b0 :: b1 :: _ => blen pdu = rd16 b0 b1 + 4
  | _ => False
  end.

(* accumulated data that makes feed_packet wait: the length field is not complete yet, or
   fewer bytes than announced *)
Definition pending (cur : bytes) : Prop :=
  match cur with
  | b0 :: b1 :: _ => blen cur < rd16 b0 b1 + 4
  | _ => True
  end.

Lemma asm_tail_pending cur l0 : pending cur -> exists l, asm_tail cur l0 = ((Some cur, l), []).
Proof.
  destruct cur as [|b0 [|b1 t]]; cbn [pending asm_tail]; intros H; try (eexists; reflexivity).
  exists (rd16 b0 b1). apply asm_check_lt. exact H.
Qed.

Lemma asm_tail_wf pdu l0 : pdu_wf pdu -> asm_tail pdu l0 = (asm_init, [Deliver pdu]).
Proof.
  destruct pdu as [|b0 [|b1 t]]; cbn [pdu_wf asm_tail]; try contradiction. apply asm_check_eq.
Qed.

Lemma asm_tail_2 b0 b1 t l0 : asm_tail (b0 :: b1 :: t) l0 = asm_check (b0 :: b1 :: t) (rd16 b0 b1).
Proof. reflexivity. Qed.

(* the tail of feed_packet waits, delivers what it holds, or overflows *)
Lemma asm_tail_cases cur l0 :
  (exists l, asm_tail cur l0 = ((Some cur, l), [])) \/
  (pdu_wf cur /\ asm_tail cur l0 = (asm_init, [Deliver cur])) \/
  asm_tail cur l0 = (asm_init, [Overflow]).
Proof.
  destruct cur as [|b0 [|b1 t]]; [left; eexists; reflexivity..|]. rewrite asm_tail_2. cbn [pdu_wf].
  destruct (Z.lt_total (blen (b0 :: b1 :: t)) (rd16 b0 b1 + 4)) as [H|[H|H]].
  - left. eexists. apply asm_check_lt, H.
  - right. left. split; [exact H|apply asm_check_eq, H].
  - right. right. apply asm_check_gt. lia.
Qed.

(* a step is that tail on some data, or ignores the packet with one error event *)
Lemma feed_cases s p :
  (exists cur l, feed s p = asm_tail cur l) \/ feed s p = (s, [ContNoStart]) \/ feed s p = (s, [NoData]).
Proof.
  unfold feed. destruct ((a_pb p =? 0) || (a_pb p =? 2)); [eauto|].
  destruct (a_pb p =? 1); destruct (fst s); eauto.
Qed.

(* every proper prefix of a well-formed PDU is pending: this is why ANY cut works, also one
   that leaves fewer than two bytes in the start fragment *)
Lemma strict_prefix_pending pdu p q : pdu_wf pdu -> pdu = p ++ q -> q <> [] -> pending p.
Proof.
  intros Hwf -> Hq. destruct p as [|b0 [|b1 t]]; cbn [pending]; auto.
  cbn [app pdu_wf] in Hwf. rewrite <- Hwf.
  change (b0 :: b1 :: t ++ q) with ((b0 :: b1 :: t) ++ q). rewrite blen_app.
  assert (0 < blen q); [|lia]. destruct q; [congruence|]. unfold blen. cbn [length]. lia.
Qed.

Definition cont_pkt_is (h : Z) (c : bytes) : feed (None, 0) (cont h c) = ((None, 0), [ContNoStart]) := eq_refl.

Lemma feed_start s h pb c : pb = 0 \/ pb = 2 -> feed s (start h pb c) = asm_tail c 0.
Proof. intros [-> | ->]; reflexivity. Qed.

Lemma feed_cont cur l h c : feed (Some cur, l) (cont h c) = asm_tail (cur ++ c) l.
Proof. reflexivity. Qed.

(* waiting is inherited by prefixes: a shorter accumulation has the same length field or none *)
Lemma pending_prefix p q : pending (p ++ q) -> pending p.
Proof.
  destruct p as [|b0 [|b1 t]]; cbn [pending app]; auto.
  change (b0 :: b1 :: t ++ q) with ((b0 :: b1 :: t) ++ q). rewrite blen_app.
  pose proof (blen_nonneg q). lia.
Qed.

(* continuation fragments on top of stored data: if what is there before the last fragment
   still waits, nothing happens until the last fragment, which decides *)
Lemma conts_run h : forall r cur l0, r <> [] -> pending (cur ++ concat (removelast r)) ->
  exists l, asm_run (Some cur, l0) (map (cont h) r) = asm_tail (cur ++ concat r) l.
Proof.
  induction r as [|c r IH]; intros cur l0 Hne Hp; [congruence|].
  destruct r as [|c' r'].
  - exists l0. cbn [map asm_run concat]. rewrite app_nil_r, feed_cont.
    destruct (asm_tail (cur ++ c) l0). rewrite app_nil_r. reflexivity.
  - change (removelast (c :: c' :: r')) with (c :: removelast (c' :: r')) in Hp.
    cbn [concat] in Hp. rewrite app_assoc in Hp.
    destruct (asm_tail_pending (cur ++ c) l0 (pending_prefix _ _ Hp)) as (l1 & Hl1).
    destruct (IH (cur ++ c) l1 ltac:(congruence) Hp) as (l2 & Hl2).
    exists l2. change (map (cont h) (c :: c' :: r')) with (cont h c :: map (cont h) (c' :: r')).
    cbn [asm_run]. rewrite feed_cont, Hl1. cbv beta iota. unfold bytes in *. rewrite Hl2. clear Hl2.
    cbn [concat]. rewrite <- app_assoc. destruct (asm_tail _ l2). reflexivity.
Qed.

(* One fragment sequence, any cut: a start fragment (of any length, also 0 or 1 bytes), then
   continuation fragments.  If the data before the last fragment still waits, the outcome is
   the length test on the total. *)
Lemma one_sequence_gen s h pb c0 r :
  pb = 0 \/ pb = 2 ->
  (r <> [] -> pending (c0 ++ concat (removelast r))) ->
  exists l, asm_run s (start h pb c0 :: map (cont h) r) = asm_tail (c0 ++ concat r) l.
Proof.
  intros Hpb Hp. cbn [asm_run]. rewrite feed_start by exact Hpb.
  destruct r as [|c r'].
  - exists 0. cbn [map asm_run concat]. rewrite app_nil_r. destruct (asm_tail c0 0). rewrite app_nil_r. reflexivity.
  - specialize (Hp ltac:(congruence)).
    destruct (asm_tail_pending c0 0 (pending_prefix _ _ Hp)) as (l1 & ->).
    destruct (conts_run h (c :: r') c0 l1 ltac:(congruence) Hp) as (l2 & Hl2).
    exists l2. cbv beta iota. unfold bytes in *. rewrite Hl2. clear Hl2. destruct (asm_tail _ l2). reflexivity.
Qed.

(* with the length field in the start fragment, waiting is a bound on the byte count *)
Lemma one_sequence s h pb b0 b1 rest r :
  pb = 0 \/ pb = 2 ->
  let c0 := b0 :: b1 :: rest in
  let l := rd16 b0 b1 in
  (r <> [] -> blen (c0 ++ concat (removelast r)) < l + 4) ->
  asm_run s (start h pb c0 :: map (cont h) r) = asm_check (c0 ++ concat r) l.
Proof.
  intros Hpb c0 l Hlt. destruct (one_sequence_gen s h pb c0 r Hpb Hlt) as (l' & ->). reflexivity.
Qed.

Lemma blen_concat_removelast (r : list bytes) : blen (concat (removelast r)) <= blen (concat r).
Proof.
  destruct r as [|c r']; [cbn; lia|]. pose proof (blen_nonneg (concat [last (c :: r') []])).
  rewrite (app_removelast_last [] (l := c :: r')) at 2 by discriminate. rewrite concat_app, blen_app. lia.
Qed.

(* fewer bytes than announced: nothing happens, the data is kept *)
Lemma truncated_run s h pb b0 b1 rest r :
  pb = 0 \/ pb = 2 ->
  blen ((b0 :: b1 :: rest) ++ concat r) < rd16 b0 b1 + 4 ->
  asm_run s (start h pb (b0 :: b1 :: rest) :: map (cont h) r) =
  ((Some ((b0 :: b1 :: rest) ++ concat r), rd16 b0 b1), []).
Proof.
  intros Hpb Hlt. rewrite one_sequence; [apply asm_check_lt, Hlt|exact Hpb|]. intros _.
  pose proof (blen_concat_removelast r). rewrite blen_app in *. unfold bytes in *. lia.
Qed.

Lemma concat_removelast_lt (cs : list bytes) :
  cs <> [] -> Forall (fun c => (1 <= length c)%nat) cs ->
  blen (concat (removelast cs)) < blen (concat cs).
Proof.
  intros Hne Hall. destruct (exists_last Hne) as (a & b & ->).
  rewrite removelast_last. rewrite concat_app, blen_app. cbn [concat]. rewrite app_nil_r.
  rewrite Forall_forall in Hall. specialize (Hall b ltac:(apply in_or_app; right; left; reflexivity)).
  unfold blen. lia.
Qed.

(* RESYNC, single PDU: from ANY assembler state the fragments of a well-formed PDU, cut by
   ANY m >= 1 and with either start marker, deliver exactly that PDU and leave the initial state *)
Theorem asm_fragment s h pb m pdu ps :
  1 <= m -> pb = 0 \/ pb = 2 -> pdu_wf pdu ->
  fragment h pb m pdu = Some ps ->
  asm_run s ps = (asm_init, [Deliver pdu]).
Proof.
  intros Hm Hpb Hwf Hf.
  destruct (fragment_chunks h pb m pdu Hm) as (cs & Hf' & Hcat & Hall & _).
  rewrite Hf in Hf'. inversion Hf'; subst ps. clear Hf Hf'.
  destruct cs as [|c0 r].
  { cbn [concat] in Hcat. subst pdu. contradiction. }
  rewrite mark_frags_eq. destruct (one_sequence_gen s h pb c0 r Hpb) as (l & ->).
  - (* the last chunk is not empty, so what precedes it is a proper prefix of the PDU *)
    intros Hr. destruct (exists_last Hr) as (r' & c & ->). rewrite removelast_last.
    apply (strict_prefix_pending pdu _ c Hwf).
    + rewrite <- Hcat. cbn [concat]. rewrite concat_app. cbn [concat]. rewrite app_nil_r. apply app_assoc.
    + apply Forall_inv_tail, Forall_app, proj2, Forall_inv in Hall. destruct c; [cbn in Hall; lia|discriminate].
  - cbn [concat] in Hcat. rewrite Hcat. apply asm_tail_wf. exact Hwf.
Qed.

(* before fix D05b the statement was false for m = 1: the start fragment cannot carry the
   length field and the code raised struct.error *)
Fixpoint asm_run_before_d05b (s : asm) (ps : list acl) : asm * list asm_ev :=
  match ps with
  | [] => (s, [])
  | p :: ps' =>
      let '(s1, o1) := feed_before_d05b s p in
      let '(s2, o2) := asm_run_before_d05b s1 ps' in
      (s2, o1 ++ o2)
  end.

(* a stream is a list of (arbitrary packets, then the fragments of one well-formed PDU) *)
Record item := mkItem { it_junk : list acl; it_h : Z; it_pb : Z; it_m : Z; it_pdu : bytes }.

Definition item_wf (i : item) : Prop :=
  1 <= it_m i /\ (it_pb i = 0 \/ it_pb i = 2) /\ pdu_wf (it_pdu i).

Definition item_packets (i : item) : list acl :=
  it_junk i ++ match fragment (it_h i) (it_pb i) (it_m i) (it_pdu i) with Some ps => ps | None => [] end.

(* what a malformed sequence delivers is a function of that sequence alone, evaluated from
   the INITIAL state (for every item but the first): it cannot touch its neighbours *)
Fixpoint stream_spec (s : asm) (items : list item) : list bytes :=
  match items with
  | [] => []
  | i :: r => deliveries (snd (asm_run s (it_junk i))) ++ [it_pdu i] ++ stream_spec asm_init r
  end.

Theorem asm_stream : forall items s, Forall item_wf items ->
  deliveries (snd (asm_run s (flat_map item_packets items))) = stream_spec s items /\
  (items <> [] -> fst (asm_run s (flat_map item_packets items)) = asm_init).
Proof.
  induction items as [|i r IH]; intros s Hwf.
  - cbn. split; [reflexivity|congruence].
  - inversion Hwf as [|? ? (Hm & Hpb & Hp) Hr]; subst.
    destruct (fragment_spec (it_h i) (it_pb i) (it_m i) (it_pdu i) Hm) as (ps & Hf & _).
    destruct (asm_run s (it_junk i)) as [s1 o1] eqn:Ej.
    destruct (IH asm_init Hr) as [IHd IHs].
    destruct (asm_run asm_init (flat_map item_packets r)) as [s3 o3] eqn:Er.
    assert (Hrun : asm_run s (flat_map item_packets (i :: r)) = (s3, o1 ++ [Deliver (it_pdu i)] ++ o3)).
    { cbn [flat_map]. unfold item_packets at 1. rewrite Hf. rewrite <- app_assoc. rewrite asm_run_app, Ej.
      rewrite asm_run_app. rewrite (asm_fragment s1 _ _ _ _ ps Hm Hpb Hp Hf). rewrite Er. reflexivity. }
    rewrite Hrun. cbn [fst snd] in *. split.
    + rewrite !deliveries_app. cbn [deliveries stream_spec snd app]. rewrite Ej. cbn [snd]. rewrite IHd. reflexivity.
    + intros _. destruct r as [|i2 r2]; [cbn in Er; inversion Er; reflexivity|].
      apply IHs. congruence.
Qed.

(* sequences of well-formed PDUs compose: each delivered once, in order *)
Definition clean (h pb m : Z) (pdu : bytes) : item := mkItem [] h pb m pdu.

Lemma stream_spec_clean h pb m pdus s :
  stream_spec s (map (clean h pb m) pdus) = pdus.
Proof.
  revert s. induction pdus as [|p r IH]; intros s; [reflexivity|].
  cbn [map stream_spec clean it_junk it_pdu asm_run snd deliveries app]. rewrite IH. reflexivity.
Qed.

Theorem asm_sequence h pb m pdus s :
  1 <= m -> pb = 0 \/ pb = 2 -> Forall pdu_wf pdus ->
  deliveries (snd (asm_run s (flat_map item_packets (map (clean h pb m) pdus)))) = pdus.
Proof.
  intros Hm Hpb Hwf.
  assert (Hi : Forall item_wf (map (clean h pb m) pdus)).
  { apply Forall_map. eapply Forall_impl; [|exact Hwf]. intros p Hp. exact (conj Hm (conj Hpb Hp)). }
  rewrite (proj1 (asm_stream (map (clean h pb m) pdus) s Hi)). apply stream_spec_clean.
Qed.

(* continuation without start: ignored, one by one, the state stays empty *)
Theorem conts_without_start : forall ps l, Forall (fun p => a_pb p = 1) ps ->
  asm_run (None, l) ps = ((None, l), map (fun _ => ContNoStart) ps).
Proof.
  induction ps as [|p r IH]; intros l Hall; [reflexivity|].
  inversion Hall as [|? ? Hp Hr]; subst. cbn [asm_run map].
  unfold feed. rewrite Hp. cbn. rewrite (IH l Hr). reflexivity.
Qed.

(* a PDU whose start fragment was lost: every remaining fragment is ignored *)
Theorem lost_start h pb m pdu p ps :
  1 <= m -> fragment h pb m pdu = Some (p :: ps) ->
  asm_run asm_init ps = (asm_init, map (fun _ => ContNoStart) ps).
Proof.
  intros Hm Hf. destruct (fragment_spec h pb m pdu Hm) as (ps' & Hf' & _ & _ & Hfl & _).
  rewrite Hf in Hf'. inversion Hf'; subst ps'. destruct Hfl as [_ Hfl].
  apply conts_without_start. exact Hfl.
Qed.

(* data beyond the announced length: the start fragment of a PDU followed by continuation
   fragments that exceed the announced length with the last one -> Overflow, state reset,
   nothing delivered; whatever continuation fragments follow are ignored *)
Theorem overflow_costs_one_pdu s h pb b0 b1 rest r more :
  pb = 0 \/ pb = 2 ->
  let c0 := b0 :: b1 :: rest in
  (r <> [] -> blen (c0 ++ concat (removelast r)) < rd16 b0 b1 + 4) ->
  blen (c0 ++ concat r) > rd16 b0 b1 + 4 ->
  Forall (fun p => a_pb p = 1) more ->
  asm_run s (start h pb c0 :: map (cont h) r ++ more) =
  (asm_init, Overflow :: map (fun _ => ContNoStart) more).
Proof.
  intros Hpb c0 Hlt Hgt Hmore. subst c0.
  change (start h pb (b0 :: b1 :: rest) :: map (cont h) r ++ more)
    with ((start h pb (b0 :: b1 :: rest) :: map (cont h) r) ++ more).
  rewrite asm_run_app. rewrite one_sequence by assumption.
  rewrite asm_check_gt by exact Hgt.
  unfold asm_init. rewrite conts_without_start by exact Hmore. reflexivity.
Qed.

(* no step ever delivers and keeps data: after a delivery or an overflow the state is initial *)
Theorem feed_resets s p s' o :
  feed s p = (s', o) -> (exists d, In (Deliver d) o) \/ In Overflow o -> s' = asm_init.
Proof.
  intros H Ho.
  destruct (feed_cases s p) as [(cur & l & E)|[E|E]]; rewrite E in H;
    [destruct (asm_tail_cases cur l) as [(l' & T)|[(_ & T)|T]]; rewrite T in H|..];
    injection H as <- <-; try reflexivity; exfalso; destruct Ho as [(d & Hd)|Hd]; cbn [In] in Hd;
    intuition discriminate.
Qed.

(* SOUNDNESS of deliveries, from ANY state and for ANY packets: whatever the assembler hands
   to L2CAP has a length field that matches its size (it can be parsed, nothing is cut off) *)
Theorem feed_delivers_wf s p s' o d : feed s p = (s', o) -> In (Deliver d) o -> pdu_wf d.
Proof.
  intros H Hd.
  destruct (feed_cases s p) as [(cur & l & E)|[E|E]]; rewrite E in H;
    [destruct (asm_tail_cases cur l) as [(l' & T)|[(Hwf & T)|T]]; rewrite T in H|..];
    injection H as <- <-; cbn [In] in Hd; try contradiction; destruct Hd as [Hd|[]]; try discriminate.
  injection Hd as <-. exact Hwf.
Qed.

Lemma in_deliveries d o : In d (deliveries o) -> In (Deliver d) o.
Proof.
  induction o as [|e o IH]; [auto|]. destruct e; cbn [deliveries In]; try tauto.
  intros [->|H]; auto.
Qed.

Theorem asm_run_delivers_wf : forall ps s d, In d (deliveries (snd (asm_run s ps))) -> pdu_wf d.
Proof.
  induction ps as [|p r IH]; intros s d; cbn [asm_run]; [intros []|].
  destruct (feed s p) as [s1 o1] eqn:Ef. destruct (asm_run s1 r) as [s2 o2] eqn:Er.
  cbn [snd]. rewrite deliveries_app, in_app_iff. intros [Hin|Hin].
  - exact (feed_delivers_wf s p s1 o1 d Ef (in_deliveries d o1 Hin)).
  - apply (IH s1 d). rewrite Er. exact Hin.
Qed.

Lemma Z2Nat_blen (p : bytes) : Z.to_nat (blen p) = length p.
Proof. unfold blen. apply Nat2Z.id. Qed.

Theorem l2cap_roundtrip cid payload b :
  l2cap_to_bytes cid payload = Some b ->
  l2cap_from_bytes b = Some (cid, payload) /\ pdu_wf b /\ blen b = blen payload + 4.
Proof.
  unfold l2cap_to_bytes. destruct (u16_ok (blen payload) && u16_ok cid) eqn:E; [|discriminate].
  intros H. inversion H; subst b. clear H.
  pose proof (rd16_le16 (blen payload)) as Hl. pose proof (rd16_le16 cid) as Hc.
  unfold le16 in *. cbn [app]. cbn [l2cap_from_bytes pdu_wf]. rewrite Hl, Hc.
  rewrite Z2Nat_blen, firstn_all. repeat split.
  - unfold blen. cbn [length]. lia.
  - unfold blen. cbn [length]. lia.
Qed.

Lemma l2cap_to_bytes_some cid payload :
  blen payload <= 65535 -> 0 <= cid <= 65535 -> exists b, l2cap_to_bytes cid payload = Some b.
Proof.
  intros Hp Hc. unfold l2cap_to_bytes.
  assert (u16_ok (blen payload) && u16_ok cid = true) as ->.
  { pose proof (blen_nonneg payload). unfold u16_ok. lia. }
  eexists; reflexivity.
Qed.

(* struct.pack('<HH') refuses what does not fit: nothing is sent *)
Lemma l2cap_to_bytes_none cid payload :
  blen payload > 65535 \/ cid < 0 \/ cid > 65535 -> l2cap_to_bytes cid payload = None.
Proof.
  intros H. unfold l2cap_to_bytes.
  assert (u16_ok (blen payload) && u16_ok cid = false) as ->; [|reflexivity].
  unfold u16_ok. lia.
Qed.

(* with FCS: the receiver's from_bytes sees payload ++ FCS (the channel strips it) *)
Theorem l2cap_fcs_roundtrip cid payload b :
  l2cap_to_bytes_fcs cid payload = Some b ->
  exists f0 f1, l2cap_from_bytes b = Some (cid, payload ++ [f0; f1]) /\ pdu_wf b /\
                [f0; f1] = le16 (crc16 (le16 (blen payload + 2) ++ le16 cid ++ payload)).
Proof.
  unfold l2cap_to_bytes_fcs. destruct (u16_ok (blen payload + 2) && u16_ok cid) eqn:E; [|discriminate].
  set (body := le16 (blen payload + 2) ++ le16 cid ++ payload).
  destruct (u16_ok (crc16 body)); [|discriminate]. intros [= <-].
  exists (crc16 body mod 256), (crc16 body / 256).
  (* the frame is the plain frame of payload ++ FCS *)
  assert (Hb : l2cap_to_bytes cid (payload ++ le16 (crc16 body)) = Some (body ++ le16 (crc16 body))).
  { unfold l2cap_to_bytes. rewrite blen_app. change (blen (le16 (crc16 body))) with 2. rewrite E.
    unfold body. rewrite <- !app_assoc. reflexivity. }
  destruct (l2cap_roundtrip _ _ _ Hb) as (Hf & Hwf & _). repeat split; assumption.
Qed.

(* A 12-bit field below two 2-bit fields at bits 12 and 14: the fields do not overlap, so
   the ors are sums, and masks and shifts are remainders and quotients. *)
Lemma hdr_word h a b : 0 <= h < 4096 -> 0 <= a < 4 ->
  Z.lor (Z.lor (Z.shiftl a 12) (Z.shiftl b 14)) h = h + 4096 * a + 16384 * b.
Proof.
  intros Hh Ha. rewrite (Z.lor_comm (Z.shiftl a 12)), (Proofs.BitFields.pack3_sum 2 12) by lia. lia.
Qed.

Lemma hdr_fields x h a b : 0 <= h < 4096 -> 0 <= a < 4 -> 0 <= b < 4 ->
  x = h + 4096 * a + 16384 * b ->
  u16_ok x = true /\ Z.land x 4095 = h /\ Z.land (Z.shiftr x 12) 3 = a /\
  Z.land (Z.shiftr x 14) 3 = b /\ Z.land (Z.shiftr x 14) 1 = b mod 2.
Proof.
  intros Hh Ha Hb Hx. unfold u16_ok.
  change 4095 with (Z.ones 12). change 3 with (Z.ones 2). change (Z.land (Z.shiftr x 14) 1) with (Z.land (Z.shiftr x 14) (Z.ones 1)).
  rewrite !Z.land_ones, !Z.shiftr_div_pow2 by lia.
  change (2 ^ 12) with 4096. change (2 ^ 14) with 16384. change (2 ^ 2) with 4. change (2 ^ 1) with 2.
  subst x. repeat split; Z.to_euclidean_division_equations; lia.
Qed.

Definition acl_ok (p : acl) : Prop :=
  0 <= a_handle p < 4096 /\ 0 <= a_pb p < 4 /\ 0 <= a_bc p < 4 /\
  a_len p = blen (a_data p) /\ blen (a_data p) <= 65535.

Theorem acl_wire_roundtrip p : acl_ok p ->
  exists b, acl_to_bytes p = Some b /\ acl_from_bytes b = Some p.
Proof.
  intros (Hh & Hpb & Hbc & Hlen & Hmax). destruct p as [h pb bc len data]. cbn [a_handle a_pb a_bc a_len a_data] in *.
  destruct (hdr_fields _ h pb bc Hh Hpb Hbc (hdr_word h pb bc Hh Hpb)) as (Hu & Hhv & Hpbv & Hbcv & _).
  fold (acl_hdr h pb bc) in Hu, Hhv, Hpbv, Hbcv.
  unfold acl_to_bytes. cbn [a_handle a_pb a_bc a_len a_data]. rewrite Hu.
  assert (u16_ok len = true) as -> by (pose proof (blen_nonneg data); unfold u16_ok; lia).
  cbn [andb]. eexists. split; [reflexivity|].
  pose proof (rd16_le16 (acl_hdr h pb bc)) as H1. pose proof (rd16_le16 len) as H2.
  unfold le16 in *. cbn [app acl_from_bytes]. rewrite H1, H2.
  rewrite Hlen at 1. rewrite Z.eqb_refl. rewrite Hhv, Hpbv, Hbcv. reflexivity.
Qed.

Lemma wire1_id p : acl_ok p -> wire1 p = [p].
Proof.
  intros H. destruct (acl_wire_roundtrip p H) as (b & Hb & Hf). unfold wire1. rewrite Hb, Hf. reflexivity.
Qed.

Lemma wire_id ps : Forall acl_ok ps -> wire ps = ps.
Proof.
  induction 1 as [|p r Hp Hr IH]; [reflexivity|].
  unfold wire in *. cbn [flat_map]. rewrite wire1_id by exact Hp. rewrite IH. reflexivity.
Qed.

(* data_total_length above 65535 cannot be serialised: the packet is lost (this is D05's failure) *)
Lemma wire1_too_long p : a_len p > 65535 -> wire1 p = [].
Proof.
  intros H. unfold wire1, acl_to_bytes.
  assert (u16_ok (a_len p) = false) as -> by (unfold u16_ok; lia).
  rewrite andb_false_r. reflexivity.
Qed.

Lemma fragment_acl_ok h pb m sdu ps :
  0 <= h < 4096 -> 0 <= pb < 4 -> 1 <= m <= 65535 ->
  fragment h pb m sdu = Some ps -> Forall acl_ok ps.
Proof.
  intros Hh Hpb Hm Hf. destruct (fragment_spec h pb m sdu ltac:(lia)) as (ps' & Hf' & _ & Hok & Hfl & _).
  rewrite Hf in Hf'. inversion Hf'; subst ps'. clear Hf'.
  assert (Hpbs : Forall (fun q => 0 <= a_pb q < 4) ps).
  { destruct ps as [|p r]; [constructor|]. destruct Hfl as [Hp Hr]. constructor; [lia|].
    eapply Forall_impl; [|exact Hr]. cbn. intros; lia. }
  rewrite Forall_forall in *. intros q Hq. destruct (Hok q Hq) as (H1 & H2 & H3 & H4).
  specialize (Hpbs q Hq). unfold acl_ok. repeat split; try lia.
Qed.

Lemma concat_opt_some {A} (f : A -> option (list acl)) (g : A -> list acl) xs :
  (forall x, In x xs -> f x = Some (g x)) -> concat_opt (map f xs) = Some (flat_map g xs).
Proof.
  induction xs as [|x r IH]; intros H; [reflexivity|].
  cbn [map concat_opt flat_map]. rewrite (H x (or_introl eq_refl)).
  rewrite IH by (intros y Hy; apply H; right; exact Hy). reflexivity.
Qed.

(* (cid, payload) pairs that L2CAP can carry *)
Definition sendable (cp : Z * bytes) : Prop := 0 <= fst cp <= 65535 /\ blen (snd cp) <= 65535.

Definition l2bytes (cp : Z * bytes) : bytes :=
  match l2cap_to_bytes (fst cp) (snd cp) with Some b => b | None => [] end.

Lemma l2bytes_spec cp : sendable cp ->
  l2cap_to_bytes (fst cp) (snd cp) = Some (l2bytes cp) /\ pdu_wf (l2bytes cp) /\
  host_on_acl_pdu (l2bytes cp) = [cp].
Proof.
  intros [Hc Hp]. destruct (l2cap_to_bytes_some (fst cp) (snd cp) Hp Hc) as (b & Hb).
  unfold l2bytes. rewrite Hb. destruct (l2cap_roundtrip _ _ _ Hb) as (Hf & Hwf & _).
  repeat split; auto. unfold host_on_acl_pdu. rewrite Hf. destruct cp; reflexivity.
Qed.

Definition frags (h pb m : Z) (pdu : bytes) : list acl :=
  match fragment h pb m pdu with Some ps => ps | None => [] end.

Lemma frags_spec h pb m pdu : 1 <= m -> fragment h pb m pdu = Some (frags h pb m pdu).
Proof. intros Hm. unfold frags. destruct (fragment_spec h pb m pdu Hm) as (ps & -> & _). reflexivity. Qed.

Lemma item_packets_clean h pb m pdu : item_packets (clean h pb m pdu) = frags h pb m pdu.
Proof. reflexivity. Qed.

Lemma flat_map_clean h pb m pdus :
  flat_map item_packets (map (clean h pb m) pdus) = flat_map (frags h pb m) pdus.
Proof. induction pdus as [|p r IH]; [reflexivity|]. cbn [map flat_map]. rewrite IH. reflexivity. Qed.

(* what the sending host emits: per PDU the fragments of its L2CAP bytes, in order *)
Lemma host_tx_spec h m pdus : 1 <= m -> Forall sendable pdus ->
  host_tx h m pdus = Some (flat_map (fun cp => frags h 0 m (l2bytes cp)) pdus).
Proof.
  intros Hm Hs. unfold host_tx. apply concat_opt_some. intros cp Hin.
  rewrite Forall_forall in Hs. destruct (l2bytes_spec cp (Hs cp Hin)) as (Hb & _).
  unfold send_l2cap_pdu. rewrite Hb. cbn [send_acl_sdu]. apply frags_spec. exact Hm.
Qed.

Lemma flat_map_frags_ok h pb m pdus :
  0 <= h < 4096 -> 0 <= pb < 4 -> 1 <= m <= 65535 -> Forall acl_ok (flat_map (frags h pb m) pdus).
Proof.
  intros Hh Hpb Hm. induction pdus as [|p r IH]; [constructor|].
  cbn [flat_map]. apply Forall_app. split; [|exact IH].
  eapply fragment_acl_ok; try eassumption. apply frags_spec. lia.
Qed.

(* reassembly of a clean fragment stream, through the wire *)
Lemma rx_clean h pb m pdus :
  0 <= h < 4096 -> pb = 0 \/ pb = 2 -> 1 <= m <= 65535 -> Forall pdu_wf pdus ->
  deliveries (snd (asm_run asm_init (wire (flat_map (frags h pb m) pdus)))) = pdus.
Proof.
  intros Hh Hpb Hm Hwf. rewrite wire_id by (apply flat_map_frags_ok; lia).
  rewrite <- flat_map_clean. apply asm_sequence; [lia|exact Hpb|exact Hwf].
Qed.

Lemma flat_map_map {A B C} (f : A -> B) (g : B -> list C) xs :
  flat_map g (map f xs) = flat_map (fun x => g (f x)) xs.
Proof. induction xs as [|x r IH]; [reflexivity|]. cbn [map flat_map]. rewrite IH. reflexivity. Qed.

Lemma l2bytes_wf pdus : Forall sendable pdus -> Forall pdu_wf (map l2bytes pdus).
Proof.
  intros Hs. apply Forall_map. eapply Forall_impl; [|exact Hs]. intros cp Hcp. apply (l2bytes_spec cp Hcp).
Qed.

Lemma host_on_acl_pdu_l2bytes pdus : Forall sendable pdus ->
  flat_map host_on_acl_pdu (map l2bytes pdus) = pdus.
Proof.
  induction 1 as [|cp r Hcp _ IH]; [reflexivity|]. cbn [map flat_map].
  rewrite (proj2 (proj2 (l2bytes_spec cp Hcp))), IH. reflexivity.
Qed.

(* the sending controller reassembles the L2CAP frames the host fragmented *)
Lemma ctrl_rx_host_tx h m pdus : 0 <= h < 4096 -> 1 <= m <= 65535 -> Forall sendable pdus ->
  ctrl_rx_pdus (flat_map (fun cp => frags h 0 m (l2bytes cp)) pdus) = map l2bytes pdus.
Proof.
  intros Hh Hm Hs. unfold ctrl_rx_pdus. rewrite <- (flat_map_map l2bytes (frags h 0 m)).
  apply rx_clean; auto using l2bytes_wf.
Qed.

(* END TO END: any list of sendable PDUs, any fragment sizes 1..65535 on either side, any
   handles: the receiving host's L2CAP layer sees exactly the PDUs sent, once each, in order *)
Theorem relay_intact hA mA hB mB pdus :
  0 <= hA < 4096 -> 0 <= hB < 4096 -> 1 <= mA <= 65535 -> 1 <= mB <= 65535 ->
  Forall sendable pdus ->
  relay hA mA hB mB pdus = Some pdus.
Proof.
  intros HhA HhB HmA HmB Hs. unfold relay.
  rewrite host_tx_spec, ctrl_rx_host_tx by (lia || exact Hs). unfold ctrl_tx.
  rewrite (concat_opt_some (ctrl_to_host hB mB) (frags hB 2 mB)).
  2:{ intros b _. unfold ctrl_to_host. apply frags_spec. lia. }
  f_equal. unfold host_rx. rewrite rx_clean by auto using l2bytes_wf.
  apply host_on_acl_pdu_l2bytes. exact Hs.
Qed.

(* D05 as it was: one ACL packet per PDU towards the host.  A whole frame is its own start
   fragment; one of more than 65535 bytes (payload above 65531) cannot be serialised and is
   lost, the others arrive. *)
Lemma asm_run_whole s h pb pdu ps : pb = 0 \/ pb = 2 -> pdu_wf pdu ->
  asm_run s (start h pb pdu :: ps) = (fst (asm_run asm_init ps), Deliver pdu :: snd (asm_run asm_init ps)).
Proof.
  intros Hpb Hwf. cbn [asm_run]. rewrite feed_start, asm_tail_wf by assumption.
  destruct (asm_run asm_init ps). reflexivity.
Qed.

Theorem relay_unfragmented_spec hA mA hB pdus :
  0 <= hA < 4096 -> 0 <= hB < 4096 -> 1 <= mA <= 65535 -> Forall sendable pdus ->
  relay_unfragmented hA mA hB pdus = Some (filter (fun cp => blen (snd cp) + 4 <=? 65535) pdus).
Proof.
  intros HhA HhB HmA Hs. unfold relay_unfragmented.
  rewrite host_tx_spec, ctrl_rx_host_tx by (lia || exact Hs). f_equal. unfold host_rx, wire.
  induction Hs as [|cp r Hcp _ IH]; [reflexivity|].
  destruct (l2bytes_spec cp Hcp) as (Hb & Hwf & Hrx). apply l2cap_roundtrip in Hb. destruct Hb as (_ & _ & Hlen).
  cbn [map flat_map filter ctrl_to_host_unfragmented app].
  change (mkAcl hB 2 0 (blen (l2bytes cp)) (l2bytes cp)) with (start hB 2 (l2bytes cp)).
  destruct (blen (snd cp) + 4 <=? 65535) eqn:E.
  - rewrite wire1_id by (unfold acl_ok, start; cbn [a_handle a_pb a_bc a_len a_data]; lia).
    cbn [app]. rewrite asm_run_whole by auto.
    cbn [snd deliveries flat_map]. rewrite Hrx, IH. reflexivity.
  - rewrite wire1_too_long by (unfold start; cbn [a_len]; lia). exact IH.
Qed.

Lemma blen_pattern n a b : blen (pattern n a b) = Z.of_nat n.
Proof. unfold blen. f_equal. revert b. induction n as [|n IH]; intros b; cbn [pattern length]; auto. Qed.

Lemma relay_unfragmented_refuted :
  relay_unfragmented 1 1021 2 [(62, pattern (Z.to_nat 65532) 7 1); (62, [1; 2; 3])] = Some [(62, [1; 2; 3])].
Proof.
  assert (Hp : blen (pattern (Z.to_nat 65532) 7 1) = 65532) by (rewrite blen_pattern; apply Z2Nat.id; lia).
  rewrite relay_unfragmented_spec; try lia.
  - cbn [filter snd]. rewrite Hp. reflexivity.
  - repeat constructor; cbn [fst snd]; rewrite ?Hp; cbn; lia.
Qed.

(* shape of the packets of one SDU: markers 10 (single) / 00 01* 11, SDU info on the first
   fragment only, data_total_length = header + fragment *)
Fixpoint iso_shape (first : bool) (seq total : Z) (ps : list iso) : Prop :=
  match ps with
  | [] => True
  | p :: r =>
      i_pb p = (match first, r with
                | true, [] => 2 | true, _ :: _ => 0 | false, [] => 3 | false, _ :: _ => 1 end) /\
      (if first
       then i_seq p = Some seq /\ i_sdu_len p = Some total /\ i_psf p = Some 0 /\ i_len p = 4 + blen (i_frag p)
       else i_seq p = None /\ i_sdu_len p = None /\ i_psf p = None /\ i_len p = blen (i_frag p)) /\
      i_ts p = None /\ iso_shape false seq total r
  end.

Lemma firstn_blen_min n (l : bytes) : 0 <= n -> blen (firstn (Z.to_nat n) l) = Z.min n (blen l).
Proof. intros Hn. unfold blen. rewrite firstn_length. lia. Qed.

Lemma iso_loop_spec h maxp seq total : 4 < maxp ->
  forall fuel rest first, (length rest <= fuel)%nat ->
  exists ps, iso_loop fuel h maxp seq total first rest = Some ps /\
             concat (map i_frag ps) = rest /\
             Forall (fun p => i_handle p = h /\ 1 <= blen (i_frag p) /\ 0 <= i_len p <= maxp) ps /\
             iso_shape first seq total ps.
Proof.
  intros Hmax. induction fuel as [|f IH]; intros rest first Hlen.
  - destruct rest; [|cbn in Hlen; lia]. exists []. cbn. repeat split; constructor.
  - destruct rest as [|x rest'].
    + exists []. cbn. repeat split; constructor.
    + set (l := x :: rest') in *.
      assert (Hl : 1 <= blen l) by (unfold blen, l; cbn [length]; lia).
      set (hl := if first then 4 else 0).
      assert (Hhl : 0 <= hl <= 4) by (unfold hl; destruct first; lia).
      set (n := Z.min (blen l) (maxp - hl)).
      assert (Hn : 1 <= n <= blen l) by (unfold n; lia).
      destruct (IH (skipn (Z.to_nat n) l) false) as (ps & Hps & Hcat & Hall & Hshape).
      { rewrite skipn_length. unfold blen in *. lia. }
      assert (Hfl : blen (firstn (Z.to_nat n) l) = n) by (rewrite firstn_blen_min; lia).
      eexists. split; [|split; [|split]].
      * unfold l at 1. cbn [iso_loop]. fold l. fold hl.
        destruct (maxp <=? hl) eqn:E; [lia|]. fold n. rewrite Hps. reflexivity.
      * cbn [map concat]. rewrite Hcat.
        destruct first; cbn [i_frag]; apply firstn_skipn.
      * constructor; [|exact Hall].
        destruct first; cbn [i_handle i_frag i_len]; rewrite Hfl; unfold hl in *; repeat split; lia.
      * assert (Hlast : (blen l =? n) = match ps with [] => true | _ :: _ => false end).
        { (* this is the last fragment iff nothing remains *)
          apply (f_equal (@length Z)) in Hcat. rewrite skipn_length in Hcat.
          destruct ps as [|p r]; cbn [map concat length] in Hcat;
            [|pose proof (Forall_inv Hall) as (_ & Hp & _); rewrite app_length in Hcat]; unfold blen in *; lia. }
        rewrite Hlast.
        destruct first, ps; cbn [iso_shape i_pb i_seq i_sdu_len i_psf i_len i_frag i_ts]; rewrite Hfl; unfold hl;
          repeat split; apply Hshape.
Qed.

Lemma land_ffff x : Z.land x 65535 = x mod 65536.
Proof. change 65535 with (Z.ones 16). rewrite Z.land_ones by lia. reflexivity. Qed.

(* one SDU: fragments concatenate to the SDU; sizes; markers; SDU length; sequence number;
   the link's counter advances by one modulo 2^16 *)
Theorem send_iso_sdu_spec h maxp seq sdu : 4 < maxp -> 0 <= seq ->
  exists ps, send_iso_sdu h maxp seq sdu = (Some ps, (seq + 1) mod 65536) /\
             concat (map i_frag ps) = sdu /\
             Forall (fun p => i_handle p = h /\ 1 <= blen (i_frag p) /\ 0 <= i_len p <= maxp) ps /\
             iso_shape true seq (blen sdu) ps.
Proof.
  intros Hmax Hseq. unfold send_iso_sdu.
  destruct (iso_loop_spec h maxp seq (blen sdu) Hmax (length sdu) sdu true (le_n _)) as (ps & -> & H).
  exists ps. rewrite land_ffff. split; [reflexivity|exact H].
Qed.

(* ISO data packet length <= 4 cannot carry the SDU header: refused, nothing sent, counter kept *)
Lemma send_iso_sdu_refused h maxp seq x sdu : maxp <= 4 -> send_iso_sdu h maxp seq (x :: sdu) = (None, seq).
Proof.
  intros H. unfold send_iso_sdu. cbn [iso_loop length].
  destruct (maxp <=? 4) eqn:E; [reflexivity|lia].
Qed.

(* sequences of SDUs: the k-th SDU carries (seq0 + k) mod 2^16 *)
Fixpoint iso_seq_spec (h maxp seq : Z) (sdus : list bytes) (outs : list (option (list iso))) : Prop :=
  match sdus, outs with
  | [], [] => True
  | s :: r, Some ps :: outs' =>
      concat (map i_frag ps) = s /\ iso_shape true seq (blen s) ps /\
      Forall (fun p => i_handle p = h /\ 1 <= blen (i_frag p) /\ 0 <= i_len p <= maxp) ps /\
      iso_seq_spec h maxp ((seq + 1) mod 65536) r outs'
  | _, _ => False
  end.

Theorem send_iso_sdus_spec h maxp : 4 < maxp -> forall sdus seq, 0 <= seq < 65536 ->
  iso_seq_spec h maxp seq sdus (fst (send_iso_sdus h maxp seq sdus)) /\
  snd (send_iso_sdus h maxp seq sdus) = (seq + Z.of_nat (length sdus)) mod 65536.
Proof.
  intros Hmax. induction sdus as [|s r IH]; intros seq Hseq.
  - cbn. split; [exact I|]. rewrite Z.add_0_r, Z.mod_small by lia. reflexivity.
  - cbn [send_iso_sdus].
    destruct (send_iso_sdu_spec h maxp seq s Hmax ltac:(lia)) as (ps & -> & Hcat & Hall & Hshape).
    assert (Hs1 : 0 <= (seq + 1) mod 65536 < 65536) by (apply Z.mod_pos_bound; lia).
    destruct (IH ((seq + 1) mod 65536) Hs1) as [IH1 IH2].
    destruct (send_iso_sdus h maxp ((seq + 1) mod 65536) r) as [os s2]. cbn [fst snd] in *.
    split; [cbn [iso_seq_spec]; auto|].
    rewrite IH2. cbn [length]. rewrite Nat2Z.inj_succ.
    rewrite Zplus_mod_idemp_l. f_equal. lia.
Qed.

Definition iso_first_ok (p : iso) : Prop :=
  0 <= i_handle p < 4096 /\ (i_pb p = 0 \/ i_pb p = 2) /\ 0 <= i_len p <= 65535 /\ i_ts p = None /\
  (exists s l, i_seq p = Some s /\ i_sdu_len p = Some l /\ i_psf p = Some 0 /\ 0 <= s <= 65535 /\ 0 <= l < 4096).
Definition iso_cont_ok (p : iso) : Prop :=
  0 <= i_handle p < 4096 /\ (i_pb p = 1 \/ i_pb p = 3) /\ 0 <= i_len p <= 65535 /\ i_ts p = None /\
  i_seq p = None /\ i_sdu_len p = None /\ i_psf p = None.

(* the packets send_iso_sdu builds survive the wire format (SDU length < 2^12, the width of
   the field that from_bytes keeps) *)
Theorem iso_wire_roundtrip p : iso_first_ok p \/ iso_cont_ok p ->
  exists b, iso_to_bytes p = Some b /\ iso_from_bytes b = Some p.
Proof.
  destruct p as [h pb len ts sq sl psf frag]. unfold iso_first_ok, iso_cont_ok.
  cbn [i_handle i_pb i_len i_ts i_seq i_sdu_len i_psf]. intros H.
  assert (Hc : 0 <= h < 4096 /\ 0 <= pb < 4 /\ u16_ok len = true /\ ts = None)
    by (unfold u16_ok; destruct H as [H|H]; intuition lia).
  destruct Hc as (Hh & Hpb & Hlen & ->).
  (* the header word, ts_flag 0 *)
  destruct (hdr_fields (iso_hdr 0 pb h) h pb 0 Hh Hpb ltac:(lia)) as (A1 & A2 & A3 & _ & A4).
  { unfold iso_hdr. rewrite (Z.lor_comm (Z.shiftl 0 14)). apply hdr_word; assumption. }
  change (0 mod 2) with 0 in A4.
  pose proof (rd16_le16 (iso_hdr 0 pb h)) as R1. pose proof (rd16_le16 len) as R2.
  unfold iso_to_bytes. cbn [i_handle i_pb i_len i_ts i_seq i_sdu_len i_psf i_frag]. rewrite A1, Hlen.
  destruct H as [(_ & Hpbv & _ & _ & s & l & -> & -> & -> & Hs & Hl)|(_ & Hpbv & _ & _ & -> & -> & ->)].
  - (* the SDU info word, packet_status_flag 0 *)
    destruct (hdr_fields (Z.lor l (Z.shiftl 0 14)) l 0 0 Hl ltac:(lia) ltac:(lia)) as (B1 & B2 & _ & B3 & _).
    { rewrite Z.shiftl_0_l, Z.lor_0_r. lia. }
    pose proof (rd16_le16 s) as R3. pose proof (rd16_le16 (Z.lor l (Z.shiftl 0 14))) as R4.
    assert (u16_ok s = true) as -> by (unfold u16_ok; lia). rewrite B1. cbn [andb].
    eexists. split; [reflexivity|].
    unfold le16 in *. cbn [app iso_from_bytes]. rewrite R1, A2, A3, A4. cbn [Z.eqb].
    assert (Z.land pb 1 =? 0 = true) as -> by (destruct Hpbv as [-> | ->]; reflexivity).
    rewrite R2, R3, R4, B2, B3. reflexivity.
  - cbn [andb]. eexists. split; [reflexivity|].
    unfold le16 in *. cbn [app iso_from_bytes]. rewrite R1, A2, A3, A4. cbn [Z.eqb].
    assert (Z.land pb 1 =? 0 = false) as -> by (destruct Hpbv as [-> | ->]; reflexivity).
    rewrite R2. reflexivity.
Qed.

Lemma iso_shape_ok h maxp seq total : 0 <= h < 4096 -> maxp <= 65535 -> 0 <= seq <= 65535 -> 0 <= total < 4096 ->
  forall ps first, iso_shape first seq total ps ->
  Forall (fun p => i_handle p = h /\ 1 <= blen (i_frag p) /\ 0 <= i_len p <= maxp) ps ->
  Forall (fun p => iso_first_ok p \/ iso_cont_ok p) ps.
Proof.
  intros Hh Hmax Hseq Htot. induction ps as [|p r IH]; intros first Hshape Hall; [constructor|].
  cbn [iso_shape] in Hshape. destruct Hshape as (Hpb & Hinfo & Hts & Hrest).
  pose proof (Forall_inv Hall) as (Hph & _ & Hlen). pose proof (Forall_inv_tail Hall) as Hall'.
  constructor; [|apply (IH false Hrest Hall')].
  destruct first.
  - left. destruct Hinfo as (Hs & Hl & Hf & _). unfold iso_first_ok. rewrite Hph.
    repeat split; try lia; try exact Hts.
    + destruct r; [right|left]; exact Hpb.
    + exists seq, total. repeat split; auto; lia.
  - right. destruct Hinfo as (Hs & Hl & Hf & _). unfold iso_cont_ok. rewrite Hph.
    repeat split; try lia; auto.
    destruct r; [right|left]; exact Hpb.
Qed.

(* every packet send_iso_sdu emits survives the wire format, byte for byte (SDU < 2^12 bytes):
   the receiving host's HCI_IsoDataPacket.from_bytes sees the same handle, markers, sequence
   number, SDU length and fragment *)
Theorem iso_sdu_wire_intact h maxp seq sdu :
  0 <= h < 4096 -> 4 < maxp <= 65535 -> 0 <= seq <= 65535 -> blen sdu < 4096 ->
  exists ps, fst (send_iso_sdu h maxp seq sdu) = Some ps /\
             concat (map i_frag ps) = sdu /\
             Forall (fun p => exists b, iso_to_bytes p = Some b /\ iso_from_bytes b = Some p) ps.
Proof.
  intros Hh Hmax Hseq Hlen.
  destruct (send_iso_sdu_spec h maxp seq sdu ltac:(lia) ltac:(lia)) as (ps & Hs & Hcat & Hall & Hshape).
  exists ps. rewrite Hs. split; [reflexivity|]. split; [exact Hcat|].
  pose proof (iso_shape_ok h maxp seq (blen sdu) Hh ltac:(lia) Hseq ltac:(pose proof (blen_nonneg sdu); lia)
                ps true Hshape Hall) as Hok.
  eapply Forall_impl; [|exact Hok]. intros p Hp. apply iso_wire_roundtrip. exact Hp.
Qed.

Lemma map_nth_seq {A} (l : list A) d : map (fun i => nth i l d) (seq 0 (length l)) = l.
Proof.
  induction l as [|x r IH]; [reflexivity|].
  cbn [length seq map nth]. f_equal. rewrite <- seq_shift, map_map. exact IH.
Qed.

(* The host enqueues the fragments of a connection as packets 0, 1, 2, ... (interleaved with
   ANY other queue activity: other connections, completion reports, flushes of others).  By the
   C04 fifo theorem what was handed to the controller for it so far is a prefix of the fragment
   list, and all of it once nothing of that connection is waiting. *)
Lemma handed_over maxf ops h (pk : list acl) d :
  enqueued h ops = map (fun i => (Z.of_nat i, h)) (seq 0 (length pk)) ->
  flushes h ops = false ->
  let sent := filter (is_handle h) (snd (q_run (q_init maxf) ops)) in
  map (fun ph => nth (Z.to_nat (fst ph)) pk d) sent = firstn (length sent) pk /\
  (filter (is_handle h) (q_wait (fst (q_run (q_init maxf) ops))) = [] -> length sent = length pk).
Proof.
  intros Henq Hfl. pose proof (fifo_per_handle h ops (q_init maxf) Hfl) as H.
  destruct (q_run (q_init maxf) ops) as [s' out]. cbn [fst snd q_init q_wait filter app] in *.
  rewrite Henq in H. set (sent := filter (is_handle h) out) in *. split.
  - assert (Hs : sent = firstn (length sent) (map (fun i => (Z.of_nat i, h)) (seq 0 (length pk)))).
    { rewrite <- H, firstn_app, Nat.sub_diag, firstn_all. cbn [firstn]. symmetry. apply app_nil_r. }
    rewrite Hs at 1. rewrite <- firstn_map, map_map. cbn [fst]. f_equal.
    rewrite <- (map_nth_seq pk d) at 2. apply map_ext. intros i. rewrite Nat2Z.id. reflexivity.
  - intros Hw. rewrite Hw, app_nil_r in H. rewrite H, map_length, seq_length. reflexivity.
Qed.

(* several connections sharing one queue: what happens to OTHER handles cannot disturb h *)
Lemma flushes_others h ops :
  Forall (fun o => match o with Flush h' => h' <> h | _ => True end) ops -> flushes h ops = false.
Proof.
  induction 1 as [|o r Ho _ IH]; [reflexivity|]. destruct o as [p h'|h'|n h']; cbn [flushes]; [exact IH| |exact IH].
  rewrite IH, orb_false_r. apply Z.eqb_neq, Ho.
Qed.

(* AT EVERY POINT of the drain (not only at the end), for any history in which h itself is not
   flushed - whatever is enqueued, completed or FLUSHED for other handles in between - what
   the controller was handed for h is a prefix of h's fragment list, in order *)
Theorem queue_prefix_in_order maxf ops h (pk : list acl) d :
  enqueued h ops = map (fun i => (Z.of_nat i, h)) (seq 0 (length pk)) ->
  flushes h ops = false ->
  exists k, map (fun ph => nth (Z.to_nat (fst ph)) pk d)
                (filter (is_handle h) (snd (q_run (q_init maxf) ops))) = firstn k pk.
Proof.
  intros Henq Hfl. eexists. apply (handed_over maxf ops h pk d Henq Hfl).
Qed.

(* what the receiving host is fed: before each PDU's fragments an arbitrary packet sequence *)
Definition faulty_stream (hB mB : Z) (xs : list (list acl * (Z * bytes))) : list acl :=
  flat_map (fun x => fst x ++ frags hB 2 mB (l2bytes (snd x))) xs.

Definition silent (junk : list acl) : Prop := deliveries (snd (asm_run asm_init junk)) = [].

(* "a malformed fragment sequence costs only the affected PDU and never corrupts the next one":
   if the injected sequences deliver nothing by themselves (truncated, start lost, too long, ...),
   the L2CAP layer sees exactly the PDUs sent, once, in order - whatever the sequences are *)
Theorem rx_with_faults hB mB xs :
  1 <= mB -> Forall sendable (map snd xs) -> Forall (fun x => silent (fst x)) xs ->
  flat_map host_on_acl_pdu (deliveries (snd (asm_run asm_init (faulty_stream hB mB xs)))) = map snd xs.
Proof.
  intros Hm Hs Hj.
  set (items := map (fun x => mkItem (fst x) hB 2 mB (l2bytes (snd x))) xs).
  assert (Hpk : faulty_stream hB mB xs = flat_map item_packets items).
  { unfold faulty_stream, items. rewrite flat_map_map. apply flat_map_ext. intros x.
    unfold item_packets, frags. cbn [it_junk it_h it_pb it_m it_pdu]. reflexivity. }
  assert (Hwf : Forall item_wf items).
  { unfold items. apply Forall_map. rewrite Forall_map in Hs. eapply Forall_impl; [|exact Hs]. intros x Hx.
    split; [exact Hm|]. split; [right; reflexivity|]. apply (l2bytes_spec (snd x) Hx). }
  rewrite Hpk. rewrite (proj1 (asm_stream items asm_init Hwf)). unfold items. clear Hpk Hwf items.
  induction xs as [|x r IH]; [reflexivity|].
  inversion Hs as [|? ? Hx Hr]; subst. inversion Hj as [|? ? Hjx Hjr]; subst.
  cbn [map stream_spec it_junk it_pdu]. unfold silent in Hjx. rewrite Hjx. cbn [app flat_map].
  rewrite (proj2 (proj2 (l2bytes_spec (snd x) Hx))). rewrite IH by assumption. reflexivity.
Qed.

(* ignored continuations deliver nothing *)
Lemma deliveries_conts {A} (ps : list A) : deliveries (map (fun _ => ContNoStart) ps) = [].
Proof. induction ps; [reflexivity|assumption]. Qed.
