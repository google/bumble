(* Proofs about Model/AttServer.v (properties C10 and C11).
   What every handler sends is an [answer]; [rx_total] and [rx_spec] say what one received PDU
   makes the server send and do to its state, [step_shape] what any stimulus does to the
   state.  The results of C10 on one PDU, on histories, on several bearers and on bursts are
   read off these.  C11 is a simulation between servers whose databases differ in values the
   observer may not read.  [step_both] goes through the handlers once: how the state evolves
   does not depend on values, and what is sent depends on the database through the views
   only.  [step_sim] (the observer's own bearer) and [step_weak] (the other bearers) are its
   two readings; [mstep_sim] puts them together. *)
From Coq Require Import ZArith List Bool Lia.
From BV Require Import Gen.C10Tables Model.AttServer.
Import ListNotations.
Open Scope Z_scope.

Lemma len_nonneg {A} (l : list A) : 0 <= len l.
Proof. unfold len. lia. Qed.

Lemma len_cons {A} (x : A) l : len (x :: l) = 1 + len l.
Proof. unfold len. cbn [length]. lia. Qed.

Lemma len_app {A} (a b : list A) : len (a ++ b) = len a + len b.
Proof. unfold len. rewrite app_length. lia. Qed.

Lemma len_take_le {A} n (l : list A) : 0 <= n -> len (take n l) <= n.
Proof.
  intros Hn. unfold len, take. rewrite firstn_length.
  pose proof (Nat.le_min_l (Z.to_nat n) (length l)). lia.
Qed.

Lemma len_take_le_len {A} n (l : list A) : len (take n l) <= len l.
Proof.
  unfold len, take. rewrite firstn_length.
  pose proof (Nat.le_min_r (Z.to_nat n) (length l)). lia.
Qed.

Lemma len_le16 n : len (le16 n) = 2.
Proof. reflexivity. Qed.

Lemma len_err_rsp op h c : len (err_rsp op h c) = 5.
Proof. reflexivity. Qed.

Lemma len_drop {A} n (l : list A) : 0 <= n -> n <= len l -> len (drop n l) = len l - n.
Proof. intros H0 H1. unfold len, drop in *. rewrite skipn_length. lia. Qed.

Lemma len_flat_map_cons {A} (f : A -> bytes) x l :
  len (flat_map f (x :: l)) = len (f x) + len (flat_map f l).
Proof. cbn [flat_map]. apply len_app. Qed.

Lemma memz_In x l : memz x l = true <-> In x l.
Proof.
  induction l as [|y l IH]; cbn [memz In]; [split; [discriminate|contradiction]|].
  rewrite orb_true_iff, Z.eqb_eq, IH. split; intros [H|H]; auto.
Qed.

Lemma assoc_In {A} k (l : list (Z * A)) v : assoc k l = Some v -> In k (map fst l).
Proof.
  induction l as [|[k' w] l IH]; cbn [assoc map fst In]; [discriminate|].
  destruct (Z.eqb_spec k k'); auto.
Qed.

Lemma nth_set_same {A} (l : list A) : forall i x y, nth_error l i = Some y -> nth_error (set_nth i x l) i = Some x.
Proof.
  induction l as [|z l IH]; intros [|i] x y H; cbn in *; try discriminate; [reflexivity|].
  eapply IH; exact H.
Qed.

Lemma nth_set_other {A} (l : list A) : forall i j x, i <> j -> nth_error (set_nth j x l) i = nth_error l i.
Proof.
  induction l as [|z l IH]; intros [|i] [|j] x H; cbn; try reflexivity; [contradiction|].
  apply IH. congruence.
Qed.

Lemma Forall2_set_nth {A} (R : A -> A -> Prop) l1 : forall l2 j x1 x2,
  Forall2 R l1 l2 -> R x1 x2 -> Forall2 R (set_nth j x1 l1) (set_nth j x2 l2).
Proof.
  induction l1 as [|a l1 IH]; intros l2 j x1 x2 HF HR; inversion HF; subst; destruct j; cbn;
    constructor; auto.
Qed.

Lemma map_set_nth {A B} (f : A -> B) l : forall i x, map f (set_nth i x l) = set_nth i (f x) (map f l).
Proof. induction l as [|y l IH]; intros [|i] x; cbn; try reflexivity. rewrite IH. reflexivity. Qed.

Lemma set_nth_none {A} (l : list A) i x : nth_error l i = None -> set_nth i x l = l.
Proof.
  revert i. induction l as [|y l IH]; intros [|i] H; cbn in *; try discriminate; try reflexivity.
  rewrite IH; [reflexivity|exact H].
Qed.

Lemma Forall_set_nth {A} (P : A -> Prop) l : forall i x, Forall P l -> P x -> Forall P (set_nth i x l).
Proof.
  induction l as [|y l IH]; intros [|i] x HF Hx; inversion HF; subst; cbn; constructor; auto.
Qed.

Lemma Forall2_nth {A} (R : A -> A -> Prop) l1 : forall l2 j,
  Forall2 R l1 l2 ->
  match nth_error l1 j, nth_error l2 j with
  | Some x, Some y => R x y
  | None, None => True
  | _, _ => False
  end.
Proof.
  induction l1 as [|a l1 IH]; intros l2 j HF; inversion HF; subst; destruct j; cbn; auto.
  apply IH. assumption.
Qed.

(* What the handler of request [op] sends: an Error Response naming [op], or the response
   PDU [rsp :: body], which fits as soon as the ATT_MTU has its minimum value of 23. *)
Inductive answer (mtu op rsp : Z) : bytes -> Prop :=
| answer_err h c : answer mtu op rsp (err_rsp op h c)
| answer_rsp body : (23 <= mtu -> 1 + len body <= mtu) -> answer mtu op rsp (rsp :: body).

Lemma answer_reply mtu op p : answer mtu op (op + 1) p -> reply_for op p = true.
Proof.
  intros [h c|body _]; unfold reply_for; cbn [err_rsp le16 app]; rewrite !Z.eqb_refl;
    [apply orb_true_r|reflexivity].
Qed.

Lemma answer_len mtu op rsp p : 23 <= mtu -> answer mtu op rsp p -> len p <= mtu.
Proof. intros Hm [h c|body Hb]; [rewrite len_err_rsp|rewrite len_cons]; lia. Qed.

Lemma answer_not_ind mtu op rsp p : rsp <> OP_INDICATE -> answer mtu op rsp p -> is_indication p = false.
Proof. intros Hr [h c|body _]; [reflexivity|apply Z.eqb_neq; exact Hr]. Qed.

Lemma fi_collect_len l : forall space usz first,
  0 <= space -> len (flat_map fi_entry (fi_collect space usz first l)) <= space.
Proof.
  induction l as [|x l IH]; intros space usz first Hs; cbn [fi_collect].
  - cbn. exact Hs.
  - destruct (negb first && negb (len (uuid_pdu (v_type x)) =? usz)); [cbn; exact Hs|].
    destruct (space <? 2 + len (uuid_pdu (v_type x))) eqn:E; [cbn; exact Hs|].
    apply Z.ltb_ge in E. rewrite len_flat_map_cons.
    specialize (IH (space - (2 + len (uuid_pdu (v_type x)))) (len (uuid_pdu (v_type x))) false).
    unfold fi_entry at 1. rewrite len_app, len_le16. lia.
Qed.

Lemma h_find_info_answer mtu vs op s e : answer mtu op OP_FIND_INFO_RSP (h_find_info mtu vs op s e).
Proof.
  unfold h_find_info. destruct ((s =? 0) || (e <? s)); [apply answer_err|].
  pose proof (fi_collect_len (filter (in_range s e) vs) (mtu - 2) 0 true) as H.
  destruct (fi_collect _ _ _ _) as [|x r]; [apply answer_err|].
  apply answer_rsp. intros Hm. rewrite len_cons. lia.
Qed.

Lemma fbtv_collect_len s e t v vs : forall space,
  0 <= space ->
  match fbtv_collect s e t v space vs with
  | Some r => len (flat_map fbtv_entry r) <= space
  | None => True
  end.
Proof.
  induction vs as [|x vs IH]; intros space Hs; cbn [fbtv_collect].
  - cbn. exact Hs.
  - destruct (in_range s e x && uuid_eqb (v_type x) t && read_raises x); [exact I|].
    destruct (in_range s e x && uuid_eqb (v_type x) t && value_matches x v && (4 <=? space)) eqn:E.
    + apply andb_true_iff in E. destruct E as [_ E]. apply Z.leb_le in E.
      specialize (IH (space - 4) ltac:(lia)).
      destruct (fbtv_collect s e t v (space - 4) vs) as [r|]; cbn [option_map]; [|exact I].
      rewrite len_flat_map_cons. unfold fbtv_entry at 1. rewrite len_app, !len_le16. lia.
    + apply IH; exact Hs.
Qed.

Lemma h_fbtv_answer mtu vs op s e t v : answer mtu op OP_FBTV_RSP (h_fbtv mtu vs op s e t v).
Proof.
  unfold h_fbtv. pose proof (fbtv_collect_len s e t v vs (mtu - 2)) as H.
  destruct (fbtv_collect _ _ _ _ _ _) as [[|x r]|]; try apply answer_err.
  apply answer_rsp. lia.
Qed.

Lemma rb_collect_len (f : view * bytes -> bytes) hdr cap :
  (forall p, len (f p) = hdr + len (snd p)) ->
  forall l space flen, 0 <= space ->
  match rb_collect hdr cap space flen l with
  | Some re => len (flat_map f (fst re)) <= space
  | None => True
  end.
Proof.
  intros Hf. induction l as [|x l IH]; intros space flen Hs; cbn [rb_collect].
  - cbn. exact Hs.
  - destruct (space =? 0); [cbn; exact Hs|].
    destruct (v_read x) as [c|v|]; [cbn; exact Hs| |exact I].
    destruct (negb _); [cbn; exact Hs|].
    destruct (space <? hdr + len (take cap v)) eqn:E; [cbn; exact Hs|].
    apply Z.ltb_ge in E.
    specialize (IH (space - (hdr + len (take cap v))) (Some (len (take cap v))) ltac:(lia)).
    destruct (rb_collect hdr cap (space - (hdr + len (take cap v))) (Some (len (take cap v))) l) as [[r e0]|];
      [|exact I].
    cbn [fst] in *. rewrite len_flat_map_cons, Hf. cbn [snd]. lia.
Qed.

(* Read By Type and Read By Group Type share their loop: one answer for both *)
Lemma rb_answer mtu op rsp s (f : view * bytes -> bytes) hdr cap l :
  (forall p, len (f p) = hdr + len (snd p)) ->
  answer mtu op rsp
    match rb_collect hdr cap (mtu - 2) None l with
    | None => exc_rsp op
    | Some ([], Some (h, c)) => err_rsp op h c
    | Some ([], None) => err_rsp op s E_NOT_FOUND
    | Some ((x, v0) :: r, _) => [rsp; hdr + len v0] ++ flat_map f ((x, v0) :: r)
    end.
Proof.
  intros Hf. pose proof (rb_collect_len f hdr cap Hf l (mtu - 2) None) as H.
  destruct (rb_collect _ _ _ _ _) as [[[|[x v0] r] [[h c]|]]|]; try apply answer_err;
    apply answer_rsp; cbn [fst] in H; rewrite len_cons; lia.
Qed.

Lemma h_rbt_answer mtu vs op s e t : answer mtu op OP_RBT_RSP (h_rbt mtu vs op s e t).
Proof.
  unfold h_rbt. destruct ((s =? 0) || (e <? s)); [apply answer_err|].
  apply rb_answer. intros p. unfold rbt_entry. rewrite len_app, len_le16. reflexivity.
Qed.

Lemma h_rbgt_answer mtu vs op s e t : answer mtu op OP_RBGT_RSP (h_rbgt mtu vs op s e t).
Proof.
  unfold h_rbgt. destruct (negb _); [apply answer_err|].
  apply rb_answer. intros p. unfold rbgt_entry. rewrite !len_app, !len_le16. lia.
Qed.

Lemma h_read_answer mtu vs op h : answer mtu op OP_READ_RSP (h_read mtu vs op h).
Proof.
  unfold h_read. destruct (find_view h vs) as [x|]; [|apply answer_err].
  destruct (v_read x) as [c|v|]; try apply answer_err.
  apply answer_rsp. intros Hm. pose proof (len_nonneg v).
  pose proof (len_take_le (Z.min (mtu - 1) (len v)) v). lia.
Qed.

Lemma h_blob_answer mtu vs op h off : answer mtu op OP_BLOB_RSP (h_blob mtu vs op h off).
Proof.
  unfold h_blob. destruct (find_view h vs) as [x|]; [|apply answer_err].
  destruct (v_read x) as [c|v|]; try apply answer_err.
  destruct (len v <? off) eqn:E; [apply answer_err|]. apply Z.ltb_ge in E.
  destruct ((off =? 0) && (len v <=? mtu - 1)); [apply answer_err|].
  apply answer_rsp. intros Hm.
  pose proof (len_take_le (Z.min (mtu - 1) (len v - off)) (drop off v)). lia.
Qed.

Lemma rm_collect_len mtu vs hs : forall space, 0 <= space ->
  match rm_collect mtu vs space hs with MOk r => len (concat r) <= space | _ => True end.
Proof.
  induction hs as [|h hs IH]; intros space Hs; cbn [rm_collect].
  - cbn. exact Hs.
  - destruct (find_view h vs) as [x|]; [|exact I].
    destruct (v_read x) as [c|v|]; [exact I| |exact I].
    destruct (space <? len (take (Z.min (mtu - 1) 251) v)) eqn:E; [cbn; exact Hs|].
    apply Z.ltb_ge in E.
    specialize (IH (space - len (take (Z.min (mtu - 1) 251) v)) ltac:(lia)).
    destruct (rm_collect mtu vs (space - len (take (Z.min (mtu - 1) 251) v)) hs) as [r|h0 c0|];
      [|exact I|exact I].
    cbn [concat]. rewrite len_app. lia.
Qed.

Lemma h_rm_answer mtu vs op hs : answer mtu op OP_RM_RSP (h_rm mtu vs op hs).
Proof.
  unfold h_rm. pose proof (rm_collect_len mtu vs hs (mtu - 1)) as H.
  destruct (rm_collect _ _ _ _) as [r|h c|]; try apply answer_err.
  apply answer_rsp. lia.
Qed.

Lemma rmv_collect_len vs hs : forall space, 2 <= space ->
  match rmv_collect vs space hs with MOk r => len (flat_map rmv_entry r) <= space | _ => True end.
Proof.
  assert (He : forall p, len (rmv_entry p) = 2 + len (snd p))
    by (intros p; unfold rmv_entry; rewrite len_app, len_le16; reflexivity).
  induction hs as [|h hs IH]; intros space Hs; cbn [rmv_collect].
  - cbn. lia.
  - destruct (find_view h vs) as [x|]; [|exact I].
    destruct (v_read x) as [c|v|]; [exact I| |exact I].
    pose proof (len_take_le (Z.min (space - 2) 251) v ltac:(lia)) as Ht.
    pose proof (len_nonneg (take (Z.min (space - 2) 251) v)) as Hn.
    destruct (space - (2 + len (take (Z.min (space - 2) 251) v)) <? 2) eqn:E.
    + rewrite len_flat_map_cons, He. cbn [snd flat_map]. change (len (@nil Z)) with 0. lia.
    + apply Z.ltb_ge in E.
      specialize (IH (space - (2 + len (take (Z.min (space - 2) 251) v))) E).
      destruct (rmv_collect vs (space - (2 + len (take (Z.min (space - 2) 251) v))) hs) as [r|h0 c0|];
        [|exact I|exact I].
      rewrite len_flat_map_cons, He. cbn [snd]. lia.
Qed.

Lemma h_rmv_answer mtu vs op hs : answer mtu op OP_RMV_RSP (h_rmv mtu vs op hs).
Proof.
  unfold h_rmv. pose proof (rmv_collect_len vs hs (mtu - 1)) as H.
  destruct (rmv_collect _ _ _) as [r|h c|]; try apply answer_err.
  apply answer_rsp. lia.
Qed.

Lemma h_write_answer mtu b db subs op h v : answer mtu op OP_WRITE_RSP (snd (h_write b db subs op h v)).
Proof.
  unfold h_write. destruct (find_attr h db) as [a|]; [|apply answer_err].
  destruct (MAX_VALUE_SIZE <? len v); [apply answer_err|].
  destruct (write_check b a); try apply answer_err. apply answer_rsp. cbn. lia.
Qed.

(* the opcode whose handler interprets a request *)
Definition req_op (r : req) : option Z :=
  match r with
  | RMtu _ => Some OP_MTU_REQ | RFindInfo _ _ => Some OP_FIND_INFO_REQ | RFbtv _ _ _ _ => Some OP_FBTV_REQ
  | RRbt _ _ _ => Some OP_RBT_REQ | RRead _ => Some OP_READ_REQ | RBlob _ _ => Some OP_BLOB_REQ
  | RRm _ => Some OP_RM_REQ | RRbgt _ _ _ => Some OP_RBGT_REQ | RWrite _ _ => Some OP_WRITE_REQ
  | RConfirm => Some OP_CONFIRM | RRmv _ => Some OP_RMV_REQ | RWriteCmd _ _ => Some OP_WRITE_CMD
  | ROther => None
  end.

Lemma to_req_op op fv o : req_op (to_req op fv) = Some o -> o = op.
Proof.
  unfold to_req.
  repeat match goal with |- context [op =? ?k] => destruct (Z.eqb_spec op k) as [->|_] end;
    repeat match goal with |- context [match ?x with _ => _ end] => destruct x end;
    cbn [req_op]; intros [= <-]; reflexivity.
Qed.

(* the parser yields one value per field, of the kind the layout asks for *)
Definition field_ok (k : Z) (f : fval) : bool :=
  match f with
  | FInt _ => (k =? 1) || (k =? 2)
  | FBytes _ => (k =? 0) || (k =? 3) || (k =? 4)
  | FHandles _ => k =? 5
  end.

Fixpoint fields_ok (sh : list Z) (fv : list fval) : bool :=
  match sh, fv with
  | [], [] => true
  | k :: sh', f :: fv' => field_ok k f && fields_ok sh' fv'
  | _, _ => false
  end.

Lemma parse_fields_ok sh : forall d fv, parse_fields sh d = Some fv -> fields_ok sh fv = true.
Proof.
  induction sh as [|k sh IH]; intros d fv; cbn [parse_fields]; [intros [= <-]; reflexivity|].
  assert (Hc : forall f d', field_ok k f = true ->
            option_map (cons f) (parse_fields sh d') = Some fv -> fields_ok (k :: sh) fv = true).
  { intros f d' Hf H. destruct (parse_fields sh d') as [fv'|] eqn:E; [|discriminate].
    injection H as <-. cbn [fields_ok]. rewrite Hf. exact (IH d' fv' E). }
  repeat match goal with |- context [k =? ?n] => destruct (Z.eqb_spec k n) as [->|_] end;
    try discriminate;
    [destruct d as [|x d]|destruct d as [|x [|y d]]| |destruct (uuid_len_ok d)
     |destruct d as [|x [|y d]]|destruct (parse_handles d)];
    try discriminate; apply Hc; reflexivity.
Qed.

(* a well-formed PDU with a handler parses to the request that handler interprets: the field
   layouts of [m_shapes] are those [to_req] expects *)
Lemma parse_handled opc ps r k :
  assoc opc m_handlers = Some k -> parse_pdu opc ps = POk r -> req_op r = Some opc.
Proof.
  intros Hk. apply assoc_In in Hk. unfold parse_pdu. cbn [m_handlers map fst In] in Hk.
  repeat destruct Hk as [<-|Hk]; [..|contradiction];
    cbn [assoc m_shapes Z.eqb Pos.eqb];
    (destruct (parse_fields _ ps) as [fv|] eqn:E; [|discriminate]); apply parse_fields_ok in E;
    intros [= <-];
    repeat (destruct fv as [|[] fv]; try discriminate E); reflexivity.
Qed.

Lemma rx_confirm st ps : rx st OP_CONFIRM ps = Some (h_confirm st).
Proof. reflexivity. Qed.

Lemma rx_total st opc ps : exists st' out, rx st opc ps = Some (st', out).
Proof.
  unfold rx. destruct (parse_pdu opc ps) as [|r] eqn:E; [eauto|].
  destruct (assoc opc m_handlers) as [k|] eqn:Ek; [|eauto].
  pose proof (parse_handled _ _ _ _ Ek E) as Hop.
  destruct r; try discriminate Hop; cbn [handle];
    try destruct (h_mtu _ _); try destruct (h_write _ _ _ _ _ _); try destruct (h_confirm _); eauto.
Qed.

(* the PDUs sent in reaction to a PDU with opcode [opc] that is not a confirmation: exactly
   one, an answer to it, if [opc] is a request; none otherwise *)
Definition replies (st : srv) (opc : Z) (out : list bytes) : Prop :=
  (memz opc spec_requests = true /\ exists p, out = [p] /\ answer (mtu_of st) opc (opc + 1) p) \/
  (memz opc spec_requests = false /\ out = []).

Lemma replies_err st opc c :
  replies st opc (if memz opc spec_requests then [err_rsp opc 0 c] else []).
Proof.
  unfold replies. destruct (memz opc spec_requests); [left|right]; split; try reflexivity.
  eexists. split; [reflexivity|apply answer_err].
Qed.

(* ... and what it does to the state: nothing, or (Exchange MTU on a fixed bearer) a new
   ATT_MTU, or (Write Request, Write Command) a new database and subscription state *)
Lemma rx_spec st opc ps st' out :
  rx st opc ps = Some (st', out) -> opc <> OP_CONFIRM ->
  replies st opc out /\
  (st' = st \/
   (exists m, b_enh (s_b st) = false /\ 23 <= m /\ st' = set_mtu st (Z.min (s_max_mtu st) m)) \/
   (exists ds, (opc = OP_WRITE_REQ \/ opc = OP_WRITE_CMD) /\ st' = set_dbs st ds)).
Proof.
  unfold rx. intros H Hn.
  destruct (parse_pdu opc ps) as [|r] eqn:E;
    [injection H as <- <-; split; [apply replies_err|left; reflexivity]|].
  destruct (assoc opc m_handlers) as [k|] eqn:Ek;
    [|injection H as <- <-; split; [apply replies_err|left; reflexivity]].
  pose proof (parse_handled _ _ _ _ Ek E) as Hop. clear E Ek.
  assert (Hone : forall st1 p, memz opc spec_requests = true -> answer (mtu_of st) opc (opc + 1) p ->
            Some (st1, [p]) = Some (st', out) -> replies st opc out /\ st' = st1).
  { intros st1 p Hm Ha [= <- <-]. split; [left; eauto|reflexivity]. }
  destruct r; try discriminate Hop; injection Hop as <-; cbn [handle] in H.
  (* the eight reading handlers leave the state alone *)
  all: try (eapply Hone in H as (Hr & ->);
            [auto|reflexivity
            |first [apply h_find_info_answer|apply h_fbtv_answer|apply h_rbt_answer|apply h_read_answer
                   |apply h_blob_answer|apply h_rm_answer|apply h_rbgt_answer|apply h_rmv_answer]]).
  - unfold h_mtu, negotiated_mtu in H. destruct (b_enh (s_b st)) eqn:Ee.
    + destruct (Hone _ _ eq_refl (answer_err _ _ _ _ _) H) as (Hr & ->). auto.
    + assert (Ha : answer (mtu_of st) OP_MTU_REQ (OP_MTU_REQ + 1) ([OP_MTU_RSP] ++ le16 (s_max_mtu st)))
        by (apply answer_rsp; cbn; lia).
      destruct (Hone _ _ eq_refl Ha H) as (Hr & ->). split; [exact Hr|].
      destruct (Z.leb_spec DEFAULT_MTU m); [right; left; exists m|]; auto.
  - pose proof (h_write_answer (mtu_of st) (s_b st) (s_db st) (s_subs st) OP_WRITE_REQ h v) as Ha.
    destruct (h_write _ _ _ _ _ _) as [ds p].
    destruct (Hone _ _ eq_refl Ha H) as (Hr & ->). split; [exact Hr|right; right; exists ds; auto].
  - injection H as <- <-. split; [right; split; reflexivity|right; right; eexists; auto].
  - contradiction.
Qed.

(* C10: a request is answered exactly once, by its response or an Error Response naming it,
   within ATT_MTU *)
Lemma rx_request_one st opc ps :
  In opc spec_requests ->
  exists st' p, rx st opc ps = Some (st', [p]) /\ reply_for opc p = true /\
                (23 <= mtu_of st -> len p <= mtu_of st).
Proof.
  intros Hin. apply memz_In in Hin. destruct (rx_total st opc ps) as (st' & out & E).
  assert (Hn : opc <> OP_CONFIRM) by (intros ->; discriminate).
  destruct (rx_spec _ _ _ _ _ E Hn) as ([(_ & p & -> & Ha)|(Hf & _)] & _); [|congruence].
  exists st', p. split; [exact E|].
  split; [exact (answer_reply _ _ _ Ha)|intros Hm; exact (answer_len _ _ _ _ Hm Ha)].
Qed.

(* what a confirmation does: nothing, or the indication state is cleared, or the oldest
   waiting indication is sent *)
Lemma confirm_cases st :
  h_confirm st = (st, []) \/
  (s_pending st = true /\
   (s_waiting st = [] /\ h_confirm st = (set_ind st false [], []) \/
    exists p w, s_waiting st = p :: w /\ h_confirm st = (set_ind st true w, [p]))).
Proof.
  unfold h_confirm. destruct (s_pending st); [right; split; [reflexivity|]|left; reflexivity].
  destruct (s_waiting st) as [|p w]; [left|right]; eauto.
Qed.

Definition req_count (opc : Z) : Z := if memz opc spec_requests then 1 else 0.

Definition all_le (m : Z) (out : list bytes) : Prop := Forall (fun p => len p <= m) out.

Lemma pdus_le_iff m out : pdus_le m out = true <-> all_le m out.
Proof.
  unfold pdus_le, all_le. rewrite forallb_forall, Forall_forall.
  split; intros H p Hp; apply Z.leb_le, H, Hp.
Qed.

Lemma all_le_one m p : len p <= m -> all_le m [p].
Proof. intros H. constructor; [exact H|constructor]. Qed.

Lemma all_le_mono m m' out : m <= m' -> all_le m out -> all_le m' out.
Proof. intros Hm H. eapply Forall_impl; [|exact H]. cbn. intros; lia. Qed.

Lemma replies_shape st opc out :
  replies st opc out ->
  len out = req_count opc /\ Forall (fun p => is_indication p = false) out /\
  (23 <= mtu_of st -> all_le (mtu_of st) out).
Proof.
  unfold req_count. intros [(Hm & p & -> & Ha)|(Hm & ->)]; rewrite Hm.
  - split; [reflexivity|]. split; [|intros H; exact (all_le_one _ _ (answer_len _ _ _ _ H Ha))].
    constructor; [|constructor]. refine (answer_not_ind _ _ _ _ _ Ha).
    intros E. replace opc with 28 in Hm by (unfold OP_INDICATE in E; lia). discriminate Hm.
  - repeat split; constructor.
Qed.

Lemma hv_pdu_len op mtu h x : 3 <= mtu -> len (hv_pdu op mtu h x) <= mtu.
Proof.
  intros Hm. unfold hv_pdu. rewrite !len_app, len_le16. change (len [op]) with 1.
  pose proof (len_take_le (mtu - 3) x ltac:(lia)). lia.
Qed.

Lemma hv_pdu_head op mtu h x : exists rest, hv_pdu op mtu h x = op :: rest.
Proof. unfold hv_pdu. eexists. reflexivity. Qed.

Lemma hv_notify_not_ind mtu h x : is_indication (hv_pdu OP_NOTIFY mtu h x) = false.
Proof. reflexivity. Qed.

Lemma hv_indicate_ind mtu h x : is_indication (hv_pdu OP_INDICATE mtu h x) = true.
Proof. reflexivity. Qed.

Lemma notify_cases st h v f :
  notify st h v f = (st, []) \/ exists x, notify st h v f = (st, [hv_pdu OP_NOTIFY (mtu_of st) h x]).
Proof.
  unfold notify. destruct (find_attr h (s_db st)) as [a|]; [|auto].
  destruct (f || _); [|auto]. destruct (server_value st a v); eauto.
Qed.

(* an indication is built (truncated) when indicate is called; it is transmitted at once
   if none is outstanding, otherwise it waits *)
Lemma indicate_cases st h v f :
  indicate st h v f = (st, []) \/
  exists x, let p := hv_pdu OP_INDICATE (mtu_of st) h x in
    s_pending st = true /\ indicate st h v f = (set_ind st true (s_waiting st ++ [p]), []) \/
    s_pending st = false /\ indicate st h v f = (set_ind st true (s_waiting st), [p]).
Proof.
  unfold indicate. destruct (find_attr h (s_db st)) as [a|]; [|auto].
  destruct (f || _); [|auto]. destruct (server_value st a v) as [x|]; [|auto].
  right. exists x. destruct (s_pending st); auto.
Qed.

(* a notification is truncated to ATT_MTU - 3 value bytes: the PDU never exceeds ATT_MTU *)
Lemma notify_spec st h v f :
  23 <= mtu_of st ->
  fst (notify st h v f) = st /\
  (snd (notify st h v f) = [] \/
   exists x, snd (notify st h v f) = [hv_pdu OP_NOTIFY (mtu_of st) h x] /\
             len (hv_pdu OP_NOTIFY (mtu_of st) h x) <= mtu_of st).
Proof.
  intros Hm. destruct (notify_cases st h v f) as [->|(x & ->)]; [auto|].
  split; [reflexivity|]. right. exists x. split; [reflexivity|apply hv_pdu_len; lia].
Qed.

Lemma indicate_spec st h v f :
  23 <= mtu_of st ->
  let st' := fst (indicate st h v f) in
  let out := snd (indicate st h v f) in
  mtu_of st' = mtu_of st /\ s_max_mtu st' = s_max_mtu st /\ s_db st' = s_db st /\
  ((st' = st /\ out = []) \/
   exists x, let p := hv_pdu OP_INDICATE (mtu_of st) h x in
     len p <= mtu_of st /\
     ((s_pending st = true /\ out = [] /\ s_pending st' = true /\ s_waiting st' = s_waiting st ++ [p]) \/
      (s_pending st = false /\ out = [p] /\ s_pending st' = true /\ s_waiting st' = s_waiting st))).
Proof.
  intros Hm. cbn zeta.
  destruct (indicate_cases st h v f) as [->|(x & [(Hp & ->)|(Hp & ->)])]; [auto 6| |];
    repeat split; right; exists x; (split; [apply hv_pdu_len; lia|]); auto 6.
Qed.

Lemma step_shape st o st' out :
  step st o = Some (st', out) ->
  st' = st \/
  (exists m, b_enh (s_b st) = false /\ 23 <= m /\ st' = set_mtu st (Z.min (s_max_mtu st) m)) \/
  (exists ds, st' = set_dbs st ds) \/ (exists p w, st' = set_ind st p w).
Proof.
  intros H. destruct o as [opc ps| |h v f|h v f]; cbn [step] in H.
  1: destruct (Z.eq_dec opc OP_CONFIRM) as [->|Hn];
       [rewrite rx_confirm in H
       |destruct (rx_spec _ _ _ _ _ H Hn) as (_ & [->|[Hm|(ds & _ & ->)]]); eauto].
  1,2: destruct (confirm_cases st) as [E|(_ & [(_ & E)|(p & w & _ & E)])]; rewrite E in H;
       injection H as <- <-; eauto 7.
  - destruct (notify_cases st h v f) as [E|(x & E)]; rewrite E in H; injection H as <- <-; auto.
  - destruct (indicate_cases st h v f) as [E|(x & [(_ & E)|(_ & E)])]; rewrite E in H;
      injection H as <- <-; eauto 7.
Qed.

Definition sec_eq (b b' : bearer) : Prop := b_enc b = b_enc b' /\ b_auth b = b_auth b'.

(* no step changes max_mtu or the security attributes of the bearer, or lets ATT_MTU fall below 23 *)
Lemma step_frame st o st' out :
  step st o = Some (st', out) ->
  s_max_mtu st' = s_max_mtu st /\ sec_eq (s_b st') (s_b st) /\
  (23 <= s_max_mtu st -> 23 <= mtu_of st -> 23 <= mtu_of st').
Proof.
  intros H. unfold sec_eq.
  destruct (step_shape _ _ _ _ H) as [->|[(m & _ & Hm & ->)|[(ds & ->)|(p & w & ->)]]]; cbn; auto.
  repeat split. lia.
Qed.

Definition inv (st : srv) : Prop :=
  23 <= mtu_of st /\ 23 <= s_max_mtu st /\ all_le (mtu_of st) (s_waiting st).

Definition is_nil {A} (l : list A) : bool := match l with [] => true | _ => false end.

(* no Exchange MTU Request lowers the ATT_MTU while an indication is waiting *)
Fixpoint mtu_kept (st : srv) (ops : list op) : bool :=
  match ops with
  | [] => true
  | o :: ops' =>
      match step st o with
      | None => true
      | Some (st1, _) =>
          ((mtu_of st <=? mtu_of st1) || is_nil (s_waiting st1)) && mtu_kept st1 ops'
      end
  end.

Lemma confirm_inv st st' out :
  inv st -> h_confirm st = (st', out) -> inv st' /\ all_le (mtu_of st) out.
Proof.
  intros (Hm & Hx & Hw).
  destruct (confirm_cases st) as [->|(_ & [(_ & ->)|(p & w & Ew & ->)])]; intros [= <- <-].
  - split; [repeat split; assumption|constructor].
  - split; [repeat split; try assumption|]; constructor.
  - rewrite Ew in Hw. inversion Hw; subst.
    split; [repeat split; assumption|apply all_le_one; assumption].
Qed.

Lemma step_inv st o st' out :
  inv st -> step st o = Some (st', out) ->
  (mtu_of st <= mtu_of st' \/ s_waiting st' = []) ->
  inv st' /\ all_le (mtu_of st) out.
Proof.
  intros Hi Hs Hk. pose proof Hi as (Hm & Hx & Hw).
  destruct o as [opc ps| |h v f|h v f]; cbn [step] in Hs.
  - destruct (Z.eq_dec opc OP_CONFIRM) as [->|Hn];
      [injection Hs as Hs; exact (confirm_inv _ _ _ Hi Hs)|].
    destruct (rx_spec _ _ _ _ _ Hs Hn) as (Hr & Hc). split; [|apply (replies_shape _ _ _ Hr), Hm].
    destruct Hc as [->|[(m & _ & Hm' & ->)|(ds & _ & ->)]]; [exact Hi| |exact Hi].
    (* the ATT_MTU changes: what waits was built for the old one *)
    unfold inv. cbn in *. split; [lia|]. split; [exact Hx|].
    destruct Hk as [Hk| ->]; [exact (all_le_mono _ _ _ Hk Hw)|constructor].
  - injection Hs as Hs. exact (confirm_inv _ _ _ Hi Hs).
  - destruct (notify_cases st h v f) as [E|(x & E)]; rewrite E in Hs; injection Hs as <- <-;
      (split; [exact Hi|]); [constructor|apply all_le_one, hv_pdu_len; lia].
  - destruct (indicate_cases st h v f) as [E|(x & Hc)];
      [rewrite E in Hs; injection Hs as <- <-; split; [exact Hi|constructor]|].
    pose proof (hv_pdu_len OP_INDICATE (mtu_of st) h x ltac:(lia)) as Hl. cbn zeta in Hc.
    destruct Hc as [(_ & E)|(_ & E)]; rewrite E in Hs; injection Hs as <- <-.
    + split; [|constructor]. repeat split; try assumption.
      apply Forall_app. split; [exact Hw|apply all_le_one, Hl].
    + split; [repeat split; assumption|apply all_le_one, Hl].
Qed.

Lemma run_le_mtu ops : forall st st' outs,
  inv st -> mtu_kept st ops = true -> run st ops = Some (st', outs) ->
  outs_le_mtu outs = true /\ inv st'.
Proof.
  induction ops as [|o ops IH]; intros st st' outs Hi Hk Hr; cbn [run mtu_kept] in *.
  - inversion Hr; subst. split; [reflexivity|exact Hi].
  - destruct (step st o) as [[st1 out]|] eqn:Es; [|discriminate].
    destruct (run st1 ops) as [[st2 outs2]|] eqn:Er; [|discriminate].
    inversion Hr; subst. apply andb_true_iff in Hk. destruct Hk as [Hk1 Hk2].
    assert (Hk : mtu_of st <= mtu_of st1 \/ s_waiting st1 = []).
    { apply orb_true_iff in Hk1. destruct Hk1 as [H|H]; [left; apply Z.leb_le; exact H|right].
      destruct (s_waiting st1); [reflexivity|discriminate]. }
    destruct (step_inv st o st1 out Hi Es Hk) as (Hi1 & Hl).
    destruct (IH st1 st' outs2 Hi1 Hk2 Er) as (Ho & Hi2).
    split; [|exact Hi2]. unfold outs_le_mtu. cbn [forallb fst snd].
    apply andb_true_iff. split; [apply pdus_le_iff; exact Hl|exact Ho].
Qed.

Lemma inv_init db b max_mtu : 23 <= b_mtu b -> 23 <= max_mtu -> inv (init db b max_mtu).
Proof. intros H1 H2. unfold inv, init. cbn. repeat split; try assumption. constructor. Qed.

(* the indication state of a bearer: indications wait only behind an outstanding one *)
Definition ind_inv (pending : bool) (waiting : list bytes) : Prop :=
  (pending = false -> waiting = []) /\ Forall (fun p => is_indication p = true) waiting.

Lemma sent_ok_none b out : Forall (fun p => is_indication p = false) out -> sent_ok b out = Some b.
Proof. induction 1 as [|p out Hp _ IH]; cbn [sent_ok]; [|rewrite Hp]; auto. Qed.

Lemma confirm_ind st st' out :
  ind_inv (s_pending st) (s_waiting st) -> h_confirm st = (st', out) ->
  ind_inv (s_pending st') (s_waiting st') /\ sent_ok false out = Some (s_pending st').
Proof.
  intros (H1 & H2). unfold h_confirm. destruct (s_pending st) eqn:Ep.
  - destruct (s_waiting st) as [|p w]; intros [= <- <-]; cbn.
    + split; [split; [reflexivity|constructor]|reflexivity].
    + inversion H2 as [|? ? Hp Hw]; subst. rewrite Hp. split; [split; [discriminate|exact Hw]|reflexivity].
  - intros [= <- <-]. rewrite Ep. split; [split; assumption|reflexivity].
Qed.

Lemma step_ind st o st' out :
  ind_inv (s_pending st) (s_waiting st) -> step st o = Some (st', out) ->
  ind_inv (s_pending st') (s_waiting st') /\
  sent_ok (if is_confirm o then false else s_pending st) out = Some (s_pending st').
Proof.
  intros Hi Hs. destruct o as [opc ps| |h v f|h v f]; cbn [step is_confirm] in *.
  - destruct (Z.eqb_spec opc OP_CONFIRM) as [->|Hn];
      [injection Hs as Hs; exact (confirm_ind _ _ _ Hi Hs)|].
    destruct (rx_spec _ _ _ _ _ Hs Hn) as (Hr & Hc).
    rewrite (sent_ok_none _ _ (proj1 (proj2 (replies_shape _ _ _ Hr)))).
    destruct Hc as [->|[(m & _ & _ & ->)|(ds & _ & ->)]]; auto.
  - injection Hs as Hs. exact (confirm_ind _ _ _ Hi Hs).
  - destruct (notify_cases st h v f) as [E|(x & E)]; rewrite E in Hs; injection Hs as <- <-; auto.
  - destruct (indicate_cases st h v f) as [E|(x & [(Ep & E)|(Ep & E)])]; rewrite E in Hs;
      injection Hs as <- <-; cbn; rewrite ?Ep; [auto| |]; destruct Hi as (H1 & H2).
    + split; [split; [discriminate|]|reflexivity].
      apply Forall_app. split; [exact H2|]. constructor; [reflexivity|constructor].
    + split; [split; [discriminate|exact H2]|reflexivity].
Qed.

(* Over every history: an indication is transmitted only when none awaits its confirmation. *)
Lemma run_ind_ok ops : forall st st' outs,
  ind_inv (s_pending st) (s_waiting st) ->
  run st ops = Some (st', outs) -> ind_ok (s_pending st) ops outs = true.
Proof.
  induction ops as [|o ops IH]; intros st st' outs Hi Hr; cbn [run] in Hr.
  - inversion Hr; subst. reflexivity.
  - destruct (step st o) as [[st1 out]|] eqn:Es; [|discriminate].
    destruct (run st1 ops) as [[st2 outs2]|] eqn:Er; [|discriminate].
    inversion Hr; subst. cbn [ind_ok].
    destruct (step_ind st o st1 out Hi Es) as (Hi1 & ->). exact (IH _ _ _ Hi1 Er).
Qed.

Lemma ind_inv_init : ind_inv false [].
Proof. split; [reflexivity|constructor]. Qed.

(* C11, reads.  The one gate: a bearer that may not read an attribute gets the same result
   from [read_value] whatever the value is; every reading handler sees the database only
   through [views]. *)
Lemma read_value_sim b subs a1 a2 :
  attr_sim b a1 a2 -> d11a_read_witness b a1 = false ->
  read_value b subs a1 = read_value b subs a2.
Proof.
  intros (Hh & Ht & Hp & He & Hr & Hw & Hc & Hv) Hd. unfold read_value. rewrite <- Hp, <- Hr, <- Hc.
  destruct (Z.testbit (a_perm a1) PB_READ_ENC && negb (b_enc b)) eqn:E1; [reflexivity|].
  destruct (Z.testbit (a_perm a1) PB_READ_AUTHN && negb (b_auth b)) eqn:E2; [reflexivity|].
  destruct (Z.testbit (a_perm a1) PB_READ_AUTHZ) eqn:E3; [reflexivity|].
  destruct (negb (a_cccd a1 =? 0)) eqn:E5; [reflexivity|].
  destruct (a_rerr a1 =? 0) eqn:E4; [|reflexivity].
  f_equal. apply Hv. unfold may_read, link_ok_read, rd_ok. rewrite E1, E2, E3, E4, E5.
  unfold d11a_read_witness, link_ok_read, rd_ok in Hd. rewrite E1, E2, E3, E4, E5 in Hd.
  destruct (Z.testbit (a_perm a1) PB_READABLE); [reflexivity|cbn in Hd; discriminate Hd].
Qed.

Lemma views_sim b subs db1 db2 :
  Forall2 (attr_sim b) db1 db2 -> d11a_free_read b db1 = true ->
  map (view_of b subs) db1 = map (view_of b subs) db2.
Proof.
  induction 1 as [|a1 a2 l1 l2 Ha Hl IH]; intros Hd; [reflexivity|].
  cbn [d11a_free_read forallb] in Hd. apply andb_true_iff in Hd. destruct Hd as [Hd1 Hd2].
  cbn [map]. rewrite (IH Hd2). f_equal. unfold view_of.
  rewrite (read_value_sim b subs a1 a2 Ha) by (destruct (d11a_read_witness b a1); [discriminate|reflexivity]).
  destruct Ha as (-> & -> & _ & -> & _). reflexivity.
Qed.

Definition st_sim (st1 st2 : srv) : Prop :=
  Forall2 (attr_sim (s_b st1)) (s_db st1) (s_db st2) /\ s_b st1 = s_b st2 /\
  s_max_mtu st1 = s_max_mtu st2 /\ s_subs st1 = s_subs st2 /\ s_pending st1 = s_pending st2 /\
  s_waiting st1 = s_waiting st2.

Lemma find_attr_sim b h db1 db2 :
  Forall2 (attr_sim b) db1 db2 ->
  match find_attr h db1, find_attr h db2 with
  | Some a1, Some a2 => attr_sim b a1 a2
  | None, None => True
  | _, _ => False
  end.
Proof.
  induction 1 as [|a1 a2 l1 l2 Ha Hl IH]; cbn [find_attr]; [exact I|].
  destruct Ha as (Hh & Hrest). rewrite <- Hh.
  destruct (a_handle a1 =? h); [split; assumption|exact IH].
Qed.

Lemma write_check_sim b bw a1 a2 : attr_sim b a1 a2 -> write_check bw a1 = write_check bw a2.
Proof.
  intros (_ & _ & Hp & _ & _ & Hw & Hc & _). unfold write_check. rewrite Hp, Hw, Hc. reflexivity.
Qed.

Lemma set_value_sim b a1 a2 v : attr_sim b a1 a2 -> attr_sim b (set_value a1 v) (set_value a2 v).
Proof. unfold attr_sim, set_value, may_read, link_ok_read, rd_ok. cbn. tauto. Qed.

Lemma db_set_sim b h v db1 db2 :
  Forall2 (attr_sim b) db1 db2 -> Forall2 (attr_sim b) (db_set h v db1) (db_set h v db2).
Proof.
  induction 1 as [|a1 a2 l1 l2 Ha Hl IH]; cbn [db_set]; [constructor|].
  pose proof Ha as (Hh & _). rewrite <- Hh.
  destruct (a_handle a1 =? h); constructor; auto using set_value_sim.
Qed.

Lemma d11a_free_read_set b h v db : d11a_free_read b (db_set h v db) = d11a_free_read b db.
Proof.
  induction db as [|a db IH]; [reflexivity|]. cbn [db_set].
  destruct (a_handle a =? h); cbn [d11a_free_read forallb]; [reflexivity|].
  unfold d11a_free_read in IH. rewrite IH. reflexivity.
Qed.

Lemma store_sim b subs a1 a2 h v db1 db2 :
  Forall2 (attr_sim b) db1 db2 -> attr_sim b a1 a2 ->
  snd (store db1 subs a1 h v) = snd (store db2 subs a2 h v) /\
  Forall2 (attr_sim b) (fst (store db1 subs a1 h v)) (fst (store db2 subs a2 h v)) /\
  d11a_free_read b (fst (store db1 subs a1 h v)) = d11a_free_read b db1.
Proof.
  intros Hs Ha. unfold store. destruct Ha as (_ & _ & _ & _ & _ & _ & Hc & _). rewrite <- Hc.
  destruct (negb (a_cccd a1 =? 0)); cbn [fst snd]; [auto|].
  split; [reflexivity|]. split; [apply db_set_sim; exact Hs|apply d11a_free_read_set].
Qed.

Lemma h_write_sim b bw subs op h v db1 db2 :
  Forall2 (attr_sim b) db1 db2 ->
  let r1 := h_write bw db1 subs op h v in
  let r2 := h_write bw db2 subs op h v in
  snd r1 = snd r2 /\ snd (fst r1) = snd (fst r2) /\
  Forall2 (attr_sim b) (fst (fst r1)) (fst (fst r2)) /\
  d11a_free_read b (fst (fst r1)) = d11a_free_read b db1.
Proof.
  intros Hs. cbn zeta. unfold h_write. pose proof (find_attr_sim b h db1 db2 Hs) as Hf.
  destruct (find_attr h db1) as [a1|], (find_attr h db2) as [a2|]; try contradiction;
    [|cbn; auto].
  destruct (MAX_VALUE_SIZE <? len v); [cbn; auto|].
  rewrite <- (write_check_sim b bw a1 a2 Hf).
  destruct (write_check bw a1); cbn [fst snd]; [auto| |auto].
  destruct (store_sim b subs a1 a2 h v db1 db2 Hs Hf) as (H1 & H2 & H3). auto.
Qed.

(* a Write Command does to the database what the Write Request does; it is just not answered *)
Lemma h_write_cmd_eq b db subs op h v : h_write_cmd b db subs h v = fst (h_write b db subs op h v).
Proof.
  unfold h_write_cmd, h_write. destruct (find_attr h db) as [a|]; [|reflexivity].
  destruct (MAX_VALUE_SIZE <? len v); [reflexivity|]. destruct (write_check b a); reflexivity.
Qed.

Definition step_rel (r1 r2 : option (srv * list bytes)) : Prop :=
  match r1, r2 with
  | Some (s1, o1), Some (s2, o2) =>
      o1 = o2 /\ st_sim s1 s2 /\ d11a_free_read (s_b s1) (s_db s1) = true
  | None, None => True
  | _, _ => False
  end.

Lemma st_sim_views st1 st2 :
  st_sim st1 st2 -> d11a_free_read (s_b st1) (s_db st1) = true -> views st1 = views st2.
Proof.
  intros (Hdb & Hb & _ & Hsub & _) Hd. unfold views. rewrite <- Hb, <- Hsub. apply views_sim; assumption.
Qed.

Lemma attr_sim_sec b b' a1 a2 : sec_eq b b' -> attr_sim b a1 a2 -> attr_sim b' a1 a2.
Proof.
  intros (He & Ha). unfold attr_sim, may_read, link_ok_read. rewrite He, Ha. tauto.
Qed.

Lemma d11a_free_read_sec b b' db : sec_eq b b' -> d11a_free_read b db = d11a_free_read b' db.
Proof.
  intros (He & Ha). unfold d11a_free_read, d11a_read_witness, link_ok_read. rewrite He, Ha. reflexivity.
Qed.

Lemma Forall2_attr_sim_sec b b' db1 db2 :
  sec_eq b b' -> Forall2 (attr_sim b) db1 db2 -> Forall2 (attr_sim b') db1 db2.
Proof.
  intros Hs H. induction H as [|a1 a2 l1 l2 Ha Hl IH]; constructor; [|exact IH].
  eapply attr_sim_sec; eassumption.
Qed.

Lemma find_view_views st h :
  find_view h (views st) = option_map (view_of (s_b st) (s_subs st)) (find_attr h (s_db st)).
Proof.
  unfold views. induction (s_db st) as [|a db IH]; [reflexivity|].
  cbn [map find_view find_attr view_of v_handle].
  destruct (a_handle a =? h); [reflexivity|exact IH].
Qed.

(* What a step does to the database, the ATT_MTU and the subscriptions does not depend on the
   values of attributes, nor on the indication state: two states of the SAME bearer over
   databases that are similar for some observer b0 evolve into such states again. *)
Definition weak_rel (b0 : bearer) (st1 st2 : srv) : Prop :=
  Forall2 (attr_sim b0) (s_db st1) (s_db st2) /\ s_b st1 = s_b st2 /\
  s_max_mtu st1 = s_max_mtu st2 /\ s_subs st1 = s_subs st2.

Definition weak_step_rel (b0 : bearer) (d0 : list attr) (r1 r2 : option (srv * list bytes)) : Prop :=
  match r1, r2 with
  | Some (t1, _), Some (t2, _) =>
      weak_rel b0 t1 t2 /\ d11a_free_read b0 (s_db t1) = d11a_free_read b0 d0
  | None, None => True
  | _, _ => False
  end.

Lemma weak_out b0 st1 t1 t2 o1 o2 :
  weak_rel b0 t1 t2 -> s_db t1 = s_db st1 ->
  weak_step_rel b0 (s_db st1) (Some (t1, o1)) (Some (t2, o2)).
Proof. intros H E. split; [exact H|]. rewrite E. reflexivity. Qed.

(* what the peer and the indication state show of a step *)
Definition same_obs (r1 r2 : option (srv * list bytes)) : Prop :=
  match r1, r2 with
  | Some (t1, o1), Some (t2, o2) => o1 = o2 /\ s_pending t1 = s_pending t2 /\ s_waiting t1 = s_waiting t2
  | None, None => True
  | _, _ => False
  end.

(* ... is determined by the views and the indication state *)
Definition obs_eq (st1 st2 : srv) : Prop :=
  views st1 = views st2 /\ s_pending st1 = s_pending st2 /\ s_waiting st1 = s_waiting st2.

(* the states stay related whatever the values and the indication states are; the same is
   sent as long as the two states look alike *)
Definition both_rel (b0 : bearer) (st1 st2 : srv) (r1 r2 : option (srv * list bytes)) : Prop :=
  weak_step_rel b0 (s_db st1) r1 r2 /\ (obs_eq st1 st2 -> same_obs r1 r2).

Lemma handle_rel b0 st1 st2 op r :
  weak_rel b0 st1 st2 -> both_rel b0 st1 st2 (handle st1 op r) (handle st2 op r).
Proof.
  intros Hw. pose proof Hw as (Hdb & Hb & Hx & Hsub).
  assert (Hm : mtu_of st1 = mtu_of st2) by (unfold mtu_of; rewrite Hb; reflexivity).
  unfold handle. rewrite <- Hm.
  destruct r; try exact (conj I (fun _ => I));
    try (split; [apply weak_out; [exact Hw|reflexivity]|intros (<- & Hp & Hq); cbn [same_obs]; auto]).
  - unfold h_mtu, negotiated_mtu. rewrite <- Hx, <- Hb.
    destruct (b_enh (s_b st1)); [|destruct (DEFAULT_MTU <=? m)];
      (split; [apply weak_out; [|reflexivity]|intros (_ & Hp & Hq); cbn [same_obs]; auto]);
      try exact Hw.
    unfold weak_rel, set_mtu. cbn [s_db s_b s_max_mtu s_subs]. rewrite <- Hb. repeat split; assumption.
  - rewrite <- Hb, <- Hsub.
    destruct (h_write_sim b0 (s_b st1) (s_subs st1) op h v (s_db st1) (s_db st2) Hdb) as (Ho & Hsb & Hf & Hk).
    destruct (h_write (s_b st1) (s_db st1) (s_subs st1) op h v) as [ds1 p1],
             (h_write (s_b st1) (s_db st2) (s_subs st1) op h v) as [ds2 p2].
    cbn [fst snd] in Ho. subst p2.
    split; [split; [repeat split; assumption|exact Hk]|intros (_ & Hp & Hq); cbn [same_obs]; auto].
  - rewrite !(h_write_cmd_eq _ _ _ op), <- Hb, <- Hsub.
    destruct (h_write_sim b0 (s_b st1) (s_subs st1) op h v (s_db st1) (s_db st2) Hdb) as (_ & Hsb & Hf & Hk).
    split; [split; [repeat split; assumption|exact Hk]|intros (_ & Hp & Hq); cbn [same_obs]; auto].
  - split.
    + destruct (confirm_cases st1) as [->|(_ & [(_ & ->)|(p1 & w1 & _ & ->)])],
               (confirm_cases st2) as [->|(_ & [(_ & ->)|(p2 & w2 & _ & ->)])];
        apply weak_out; first [exact Hw|reflexivity].
    + intros (_ & Hp & Hq). unfold h_confirm. rewrite <- Hp, <- Hq.
      destruct (s_pending st1) eqn:Ep; [destruct (s_waiting st1)|]; cbn; repeat split; congruence.
Qed.

(* the value a notification or indication carries is read through the views as well *)
Lemma server_value_views st1 st2 h v :
  s_b st1 = s_b st2 -> s_subs st1 = s_subs st2 -> views st1 = views st2 ->
  match find_attr h (s_db st1), find_attr h (s_db st2) with
  | Some a1, Some a2 => server_value st1 a1 v = server_value st2 a2 v
  | None, None => True
  | _, _ => False
  end.
Proof.
  intros Hb Hsub Hv. pose proof (f_equal (find_view h) Hv) as Hf. rewrite !find_view_views in Hf.
  destruct (find_attr h (s_db st1)) as [a1|], (find_attr h (s_db st2)) as [a2|];
    try discriminate Hf; [|exact I].
  unfold server_value. destruct v; [reflexivity|]. injection Hf as _ _ _ ->. reflexivity.
Qed.

Lemma step_both b0 st1 st2 o :
  weak_rel b0 st1 st2 -> both_rel b0 st1 st2 (step st1 o) (step st2 o).
Proof.
  intros Hw. pose proof Hw as (Hdb & Hb & Hx & Hsub).
  assert (Hsame : forall out, both_rel b0 st1 st2 (Some (st1, out)) (Some (st2, out))).
  { intros out. split; [apply weak_out; [exact Hw|reflexivity]|intros (_ & Hp & Hq); cbn; auto]. }
  destruct o as [opc ps| |h v f|h v f]; cbn [step].
  - unfold rx. destruct (parse_pdu opc ps) as [|r]; [apply Hsame|].
    destruct (assoc opc m_handlers); [apply handle_rel; exact Hw|apply Hsame].
  - apply (handle_rel b0 st1 st2 OP_CONFIRM RConfirm Hw).
  - split.
    + destruct (notify_cases st1 h v f) as [->|(x1 & ->)], (notify_cases st2 h v f) as [->|(x2 & ->)];
        apply weak_out; first [exact Hw|reflexivity].
    + intros (Hv & Hp & Hq). pose proof (server_value_views st1 st2 h v Hb Hsub Hv) as Hsv.
      unfold notify, mtu_of. rewrite <- Hsub, <- Hb.
      destruct (find_attr h (s_db st1)) as [a1|], (find_attr h (s_db st2)) as [a2|]; try contradiction;
        [|cbn; auto].
      destruct (f || cccd_allows 0 (s_subs st1) h); [|cbn; auto].
      rewrite <- Hsv. destruct (server_value st1 a1 v); cbn; auto.
  - split.
    + destruct (indicate_cases st1 h v f) as [->|(x1 & [(_ & ->)|(_ & ->)])],
               (indicate_cases st2 h v f) as [->|(x2 & [(_ & ->)|(_ & ->)])];
        apply weak_out; first [exact Hw|reflexivity].
    + intros (Hv & Hp & Hq). pose proof (server_value_views st1 st2 h v Hb Hsub Hv) as Hsv.
      unfold indicate, mtu_of. rewrite <- Hsub, <- Hb, <- Hp, <- Hq.
      destruct (find_attr h (s_db st1)) as [a1|], (find_attr h (s_db st2)) as [a2|]; try contradiction;
        [|cbn; auto].
      destruct (f || cccd_allows 1 (s_subs st1) h); [|cbn; auto].
      rewrite <- Hsv. destruct (server_value st1 a1 v); [|cbn; auto].
      destruct (s_pending st1); cbn; auto.
Qed.

Lemma step_weak b0 st1 st2 o :
  weak_rel b0 st1 st2 -> weak_step_rel b0 (s_db st1) (step st1 o) (step st2 o).
Proof. intros Hw. exact (proj1 (step_both b0 st1 st2 o Hw)). Qed.

Lemma step_sim st1 st2 o :
  st_sim st1 st2 -> d11a_free_read (s_b st1) (s_db st1) = true ->
  step_rel (step st1 o) (step st2 o).
Proof.
  intros Hs Hd. pose proof Hs as (Hdb & Hb & Hx & Hsub & Hp & Hq).
  destruct (step_both (s_b st1) st1 st2 o) as (Hwk & Hobs); [repeat split; assumption|].
  specialize (Hobs (conj (st_sim_views _ _ Hs Hd) (conj Hp Hq))).
  destruct (step st1 o) as [[t1 o1]|] eqn:E1, (step st2 o) as [[t2 o2]|];
    cbn [weak_step_rel same_obs step_rel] in *; try contradiction; [|exact I].
  destruct Hwk as ((Hdb' & Hb' & Hx' & Hsub') & Hk), Hobs as (-> & Hp' & Hq').
  (* the bearer kept its security attributes: the observer is still the same *)
  destruct (step_frame _ _ _ _ E1) as (_ & Hsec & _).
  split; [reflexivity|]. split.
  - repeat split; try assumption. refine (Forall2_attr_sim_sec _ _ _ _ _ Hdb').
    destruct Hsec; split; congruence.
  - rewrite (d11a_free_read_sec _ _ _ Hsec), Hk. exact Hd.
Qed.

(* whole histories: the peer observes the same PDUs *)
Lemma run_sim ops : forall st1 st2,
  st_sim st1 st2 -> d11a_free_read (s_b st1) (s_db st1) = true ->
  option_map snd (run st1 ops) = option_map snd (run st2 ops).
Proof.
  induction ops as [|o ops IH]; intros st1 st2 Hs Hd; cbn [run]; [reflexivity|].
  pose proof (step_sim st1 st2 o Hs Hd) as H.
  destruct (step st1 o) as [[s1 o1]|], (step st2 o) as [[s2 o2]|]; cbn in H; try contradiction;
    [|reflexivity].
  destruct H as (-> & Hs' & Hd'). specialize (IH s1 s2 Hs' Hd').
  assert (Hm : mtu_of st1 = mtu_of st2)
    by (destruct Hs as (_ & Hb & _); unfold mtu_of; rewrite Hb; reflexivity).
  destruct (run s1 ops) as [[t1 outs1]|], (run s2 ops) as [[t2 outs2]|]; cbn in IH |- *;
    try discriminate; [|reflexivity].
  inversion IH; subst. rewrite Hm. reflexivity.
Qed.

Lemma write_refused b a :
  may_write b a = false -> d11a_write_witness b a = false -> write_check b a <> WOk.
Proof.
  unfold may_write, d11a_write_witness, link_ok_write, write_check, wr_ok. intros Hm Hd.
  destruct (Z.testbit (a_perm a) PB_WRITE_ENC && negb (b_enc b)); [discriminate|].
  destruct (Z.testbit (a_perm a) PB_WRITE_AUTHN && negb (b_auth b)); [discriminate|].
  destruct (Z.testbit (a_perm a) PB_WRITE_AUTHZ); [discriminate|].
  destruct (negb (a_cccd a =? 0)).
  - exfalso. destruct (Z.testbit (a_perm a) PB_WRITEABLE); cbn in Hm, Hd; discriminate.
  - destruct (a_werr a =? 0).
    + exfalso. destruct (Z.testbit (a_perm a) PB_WRITEABLE); cbn in Hm, Hd; discriminate.
    + destruct (0 <? a_werr a); discriminate.
Qed.

(* a write the bearer is not entitled to changes nothing (neither the database nor the
   subscription state), by request or by command; the request is answered by an Error Response *)
Lemma write_gated_db b db subs op h v a :
  find_attr h db = Some a -> may_write b a = false -> d11a_write_witness b a = false ->
  (exists hh c, h_write b db subs op h v = (db, subs, err_rsp op hh c)) /\
  h_write_cmd b db subs h v = (db, subs).
Proof.
  intros Hf Hm Hd. pose proof (write_refused b a Hm Hd) as Hc.
  unfold h_write, h_write_cmd, exc_rsp. rewrite Hf.
  destruct (MAX_VALUE_SIZE <? len v); [split; eauto|].
  destruct (write_check b a); [split; eauto|contradiction|split; eauto].
Qed.

(* the requirement that fails first, in the order the stack checks them:
   0x0F insufficient encryption, 0x05 insufficient authentication, 0x08 insufficient authorization *)
Definition read_refusal (b : bearer) (perm : Z) : option Z :=
  if Z.testbit perm 2 && negb (b_enc b) then Some 15
  else if Z.testbit perm 4 && negb (b_auth b) then Some 5
  else if Z.testbit perm 6 then Some 8
  else None.

Definition write_refusal (b : bearer) (perm : Z) : option Z :=
  if Z.testbit perm 3 && negb (b_enc b) then Some 15
  else if Z.testbit perm 5 && negb (b_auth b) then Some 5
  else if Z.testbit perm 7 then Some 8
  else None.

Lemma read_value_refusal b subs a c :
  read_refusal b (a_perm a) = Some c -> read_value b subs a = RErr c.
Proof.
  unfold read_refusal, read_value, PB_READ_ENC, PB_READ_AUTHN, PB_READ_AUTHZ.
  destruct (Z.testbit (a_perm a) 2 && negb (b_enc b)); [intros H; inversion H; reflexivity|].
  destruct (Z.testbit (a_perm a) 4 && negb (b_auth b)); [intros H; inversion H; reflexivity|].
  destruct (Z.testbit (a_perm a) 6); [intros H; inversion H; reflexivity|discriminate].
Qed.

Lemma write_check_refusal b a c : write_refusal b (a_perm a) = Some c -> write_check b a = WErr c.
Proof.
  unfold write_refusal, write_check, PB_WRITE_ENC, PB_WRITE_AUTHN, PB_WRITE_AUTHZ.
  destruct (Z.testbit (a_perm a) 3 && negb (b_enc b)); [intros H; inversion H; reflexivity|].
  destruct (Z.testbit (a_perm a) 5 && negb (b_auth b)); [intros H; inversion H; reflexivity|].
  destruct (Z.testbit (a_perm a) 7); [intros H; inversion H; reflexivity|discriminate].
Qed.

(* a well-formed Read, Read Blob, Write Request or Write Command reaches its handler *)
Lemma rx_read st x y :
  rx st OP_READ_REQ [x; y] = Some (st, [h_read (mtu_of st) (views st) OP_READ_REQ (x + 256 * y)]).
Proof. reflexivity. Qed.

Lemma rx_blob st x y o1 o2 :
  rx st OP_BLOB_REQ [x; y; o1; o2] =
  Some (st, [h_blob (mtu_of st) (views st) OP_BLOB_REQ (x + 256 * y) (o1 + 256 * o2)]).
Proof. reflexivity. Qed.

Lemma rx_write st x y v :
  rx st OP_WRITE_REQ (x :: y :: v) =
  let '(ds, p) := h_write (s_b st) (s_db st) (s_subs st) OP_WRITE_REQ (x + 256 * y) v in Some (set_dbs st ds, [p]).
Proof. reflexivity. Qed.

Lemma rx_write_cmd st x y v :
  rx st OP_WRITE_CMD (x :: y :: v) =
  Some (set_dbs st (h_write_cmd (s_b st) (s_db st) (s_subs st) (x + 256 * y) v), []).
Proof. reflexivity. Qed.

Lemma run_total ops : forall st, exists st' outs, run st ops = Some (st', outs).
Proof.
  induction ops as [|o ops IH]; intros st; cbn [run]; [eauto|].
  assert (Hs : exists st1 out, step st o = Some (st1, out)).
  { destruct o; cbn [step]; [apply rx_total| | |]; eauto.
    - destruct (h_confirm st); eauto.
    - destruct (notify st h v force); eauto.
    - destruct (indicate st h v force); eauto. }
  destruct Hs as (st1 & out & ->). destruct (IH st1) as (st2 & outs & ->). eauto.
Qed.

(* the response to a stimulus on bearer i, the new database and bearer i's new state depend
   only on the database, max_mtu and bearer i's own state *)
Lemma mstep_local m1 m2 i o :
  m_db m1 = m_db m2 -> m_max_mtu m1 = m_max_mtu m2 ->
  nth_error (m_bs m1) i = nth_error (m_bs m2) i ->
  match mstep m1 i o, mstep m2 i o with
  | Some (n1, o1), Some (n2, o2) =>
      o1 = o2 /\ m_db n1 = m_db n2 /\ nth_error (m_bs n1) i = nth_error (m_bs n2) i
  | None, None => True
  | _, _ => False
  end.
Proof.
  intros Hd Hx Hn. unfold mstep.
  destruct (nth_error (m_bs m1) i) as [x|] eqn:E; rewrite <- Hn;
    [|split; [reflexivity|split; [exact Hd|congruence]]].
  assert (Hp : proj m1 x = proj m2 x) by (unfold proj; rewrite Hd, Hx; reflexivity).
  rewrite <- Hp. destruct (step (proj m1 x) o) as [[st' out]|]; [|exact I].
  cbn [m_db m_bs]. split; [reflexivity|split; [reflexivity|]].
  rewrite (nth_set_same _ i _ x E), (nth_set_same _ i _ x (eq_sym Hn)). reflexivity.
Qed.

(* a stimulus on bearer j leaves every other bearer's state untouched *)
Lemma mstep_frame m j o n out i :
  mstep m j o = Some (n, out) -> i <> j -> nth_error (m_bs n) i = nth_error (m_bs m) i.
Proof.
  unfold mstep. intros H Hij. destruct (nth_error (m_bs m) j) as [x|]; [|inversion H; reflexivity].
  destruct (step (proj m x) o) as [[st' out']|]; [|discriminate]. inversion H; subst. cbn [m_bs].
  apply nth_set_other. exact Hij.
Qed.

(* Two servers seen by the observer on bearer i (security b0): similar databases, the same
   bearers with the same ATT_MTU and subscriptions (the other bearers' indication state may
   differ: what they were sent may contain values the observer must not see), bearer i in
   exactly the same state. *)
Definition bst_weak (x y : bst) : Prop := bs_b x = bs_b y /\ bs_subs x = bs_subs y.

Definition msim (i : nat) (b0 : bearer) (m1 m2 : msrv) : Prop :=
  Forall2 (attr_sim b0) (m_db m1) (m_db m2) /\ m_max_mtu m1 = m_max_mtu m2 /\
  Forall2 bst_weak (m_bs m1) (m_bs m2) /\ nth_error (m_bs m1) i = nth_error (m_bs m2) i /\
  (forall x, nth_error (m_bs m1) i = Some x -> sec_eq (bs_b x) b0) /\
  d11a_free_read b0 (m_db m1) = true.

Lemma mstep_sim i b0 m1 m2 j o :
  msim i b0 m1 m2 ->
  match mstep m1 j o, mstep m2 j o with
  | Some (n1, o1), Some (n2, o2) => msim i b0 n1 n2 /\ (j = i -> o1 = o2)
  | None, None => True
  | _, _ => False
  end.
Proof.
  intros Hs. pose proof Hs as (Hdb & Hx & Hbs & Hi & Hsec & Hd). unfold mstep.
  pose proof (Forall2_nth bst_weak _ _ j Hbs) as Hj.
  destruct (nth_error (m_bs m1) j) as [x1|] eqn:E1, (nth_error (m_bs m2) j) as [x2|] eqn:E2;
    try contradiction; [|split; [exact Hs|reflexivity]].
  (* database, ATT_MTU and subscriptions evolve alike whoever's stimulus it is *)
  destruct Hj as (Hb & Hsub).
  assert (Hw : weak_rel b0 (proj m1 x1) (proj m2 x2)) by (repeat split; assumption).
  pose proof (step_weak b0 _ _ o Hw) as Hstep.
  destruct (step (proj m1 x1) o) as [[t1 o1]|] eqn:Es1, (step (proj m2 x2) o) as [[t2 o2]|] eqn:Es2;
    cbn in Hstep; try contradiction; [|exact I].
  destruct Hstep as ((Hdb' & Hb' & _ & Hsub') & Hd'). cbn [proj s_db] in Hd'.
  cbn [m_db m_max_mtu m_bs].
  assert (Hobs : nth_error (set_nth j (bst_of t1) (m_bs m1)) i = nth_error (set_nth j (bst_of t2) (m_bs m2)) i /\
                 (forall y, nth_error (set_nth j (bst_of t1) (m_bs m1)) i = Some y -> sec_eq (bs_b y) b0) /\
                 (j = i -> o1 = o2)).
  { destruct (Nat.eq_dec j i) as [->|Hne].
    - (* the observer's own stimulus: it is in the same state on both sides *)
      assert (x2 = x1) by congruence. subst x2. pose proof (Hsec x1 E1) as (He & Ha).
      assert (Hst : st_sim (proj m1 x1) (proj m2 x1)).
      { repeat split; try assumption. eapply Forall2_attr_sim_sec; [|exact Hdb]. split; symmetry; assumption. }
      pose proof (step_sim _ _ o Hst) as Hsim. rewrite Es1, Es2 in Hsim.
      destruct Hsim as (-> & (_ & _ & _ & _ & Hp' & Hw') & _);
        [cbn [proj s_b s_db]; rewrite (d11a_free_read_sec _ b0 _ (conj He Ha)); exact Hd|].
      rewrite (nth_set_same _ _ _ _ E1), (nth_set_same _ _ _ _ E2).
      split; [unfold bst_of; congruence|]. split; [|reflexivity].
      intros y [= <-]. destruct (step_frame _ _ _ _ Es1) as (_ & (He1 & Ha1) & _).
      cbn [bst_of bs_b proj s_b] in *. split; congruence.
    - rewrite !(nth_set_other _ i j) by congruence. split; [exact Hi|split; [exact Hsec|contradiction]]. }
  destruct Hobs as (Hi' & Hsec' & Ho). split; [|exact Ho].
  refine (conj Hdb' (conj Hx (conj _ (conj Hi' (conj Hsec' (eq_trans Hd' Hd)))))).
  apply Forall2_set_nth; [exact Hbs|split; assumption].
Qed.

(* Over every history of stimuli on any bearers: what the observer on bearer i is sent does
   not depend on values it may not read -- whatever the other bearers do in between. *)
Lemma mrun_sim ops : forall i b0 m1 m2,
  msim i b0 m1 m2 ->
  option_map (fun r => outs_of i (snd r)) (mrun m1 ops) =
  option_map (fun r => outs_of i (snd r)) (mrun m2 ops).
Proof.
  induction ops as [|[j o] ops IH]; intros i b0 m1 m2 Hs; cbn [mrun]; [reflexivity|].
  pose proof (mstep_sim i b0 m1 m2 j o Hs) as H.
  destruct (mstep m1 j o) as [[n1 o1]|], (mstep m2 j o) as [[n2 o2]|]; try contradiction; [|reflexivity].
  destruct H as (Hs' & Ho). specialize (IH i b0 n1 n2 Hs').
  destruct (mrun n1 ops) as [[k1 outs1]|], (mrun n2 ops) as [[k2 outs2]|]; cbn in IH |- *;
    try discriminate; [|reflexivity].
  inversion IH as [IH']. unfold outs_of. cbn [filter fst].
  destruct (Nat.eqb j i) eqn:E.
  - apply Nat.eqb_eq in E. rewrite (Ho E). cbn [map snd]. unfold outs_of in IH'. rewrite IH'. reflexivity.
  - unfold outs_of in IH'. rewrite IH'. reflexivity.
Qed.

Definition bst_ind (x : bst) : Prop := ind_inv (bs_pending x) (bs_waiting x).

Lemma mstep_ind m i o n out :
  Forall bst_ind (m_bs m) -> mstep m i o = Some (n, out) ->
  Forall bst_ind (m_bs n) /\
  exists p', sent_ok (if is_confirm o then false else nth i (map bs_pending (m_bs m)) false) out = Some p' /\
             map bs_pending (m_bs n) = set_nth i p' (map bs_pending (m_bs m)).
Proof.
  intros Hok H. unfold mstep in H. destruct (nth_error (m_bs m) i) as [x|] eqn:E.
  - destruct (step (proj m x) o) as [[st' out']|] eqn:Es; [|discriminate]. injection H as <- <-.
    assert (Hx : bst_ind x) by (rewrite Forall_forall in Hok; apply Hok; eapply nth_error_In; exact E).
    destruct (step_ind (proj m x) o st' out' Hx Es) as (Hi' & Hso). cbn [proj s_pending] in Hso.
    rewrite (nth_error_nth _ _ _ (map_nth_error bs_pending _ _ E)). cbn [m_bs].
    split; [apply Forall_set_nth; [exact Hok|exact Hi']|].
    exists (s_pending st'). split; [exact Hso|exact (map_set_nth bs_pending _ i (bst_of st'))].
  - injection H as <- <-. split; [exact Hok|].
    assert (En : nth_error (map bs_pending (m_bs m)) i = None) by (rewrite nth_error_map, E; reflexivity).
    rewrite (nth_overflow _ _ (proj1 (nth_error_None _ _) En)).
    exists false. split; [destruct (is_confirm o); reflexivity|symmetry; exact (set_nth_none _ _ _ En)].
Qed.

(* Over every history on several bearers: on each bearer an indication is transmitted only
   when no earlier indication on THAT bearer awaits its confirmation. *)
Lemma mrun_ind_ok ops : forall m n outs,
  Forall bst_ind (m_bs m) -> mrun m ops = Some (n, outs) ->
  mind_ok (map bs_pending (m_bs m)) ops outs = true.
Proof.
  induction ops as [|[i o] ops IH]; intros m n outs Hok Hr; cbn [mrun] in Hr.
  - inversion Hr; reflexivity.
  - destruct (mstep m i o) as [[m1 out]|] eqn:Es; [|discriminate].
    destruct (mrun m1 ops) as [[m2 outs2]|] eqn:Er; [|discriminate]. inversion Hr; subst.
    destruct (mstep_ind m i o m1 out Hok Es) as (Hok1 & p' & Hso & Hp).
    cbn [mind_ok]. rewrite Hso, <- Hp. eapply IH; eassumption.
Qed.

Lemma minit_ok db max_mtu bs : Forall bst_ind (m_bs (minit db max_mtu bs)).
Proof. apply Forall_map, Forall_forall. intros b _. exact ind_inv_init. Qed.

(* a stimulus on one bearer: what is sent fits that bearer's ATT_MTU, and every bearer keeps
   the invariant (the others are not touched) *)
Definition bst_inv (m : msrv) (x : bst) : Prop := inv (proj m x).

Lemma mstep_le_mtu m i o n out x :
  Forall (bst_inv m) (m_bs m) -> mstep m i o = Some (n, out) -> nth_error (m_bs m) i = Some x ->
  (forall y, nth_error (m_bs n) i = Some y -> b_mtu (bs_b x) <= b_mtu (bs_b y) \/ bs_waiting y = []) ->
  all_le (b_mtu (bs_b x)) out /\ Forall (bst_inv n) (m_bs n).
Proof.
  intros Hok H E Hk. unfold mstep in H. rewrite E in H.
  destruct (step (proj m x) o) as [[st' out']|] eqn:Es; [|discriminate]. injection H as <- <-.
  assert (Hx : inv (proj m x)) by (rewrite Forall_forall in Hok; apply Hok; eapply nth_error_In; exact E).
  cbn [m_bs] in Hk. specialize (Hk (bst_of st') (nth_set_same _ _ _ _ E)).
  destruct (step_inv (proj m x) o st' out' Hx Es Hk) as (Hi' & Hl).
  split; [exact Hl|]. cbn [m_bs]. apply Forall_set_nth; [exact Hok|].
  (* the step left max_mtu alone *)
  destruct (step_frame _ _ _ _ Es) as (Hmax & _). destruct Hi' as (H1 & H2 & H3).
  rewrite Hmax in H2. repeat split; assumption.
Qed.

Lemma count_requests_cons opc ps l : count_requests ((opc, ps) :: l) = req_count opc + count_requests l.
Proof.
  unfold count_requests, req_count. cbn [filter fst]. destruct (memz opc spec_requests);
    [apply len_cons|reflexivity].
Qed.

Lemma deferred_not_confirm opc ps : deferred opc ps = true -> opc <> OP_CONFIRM.
Proof. intros H ->. discriminate H. Qed.

(* a PDU sent during a burst: not an indication, and no longer than the ATT_MTU in force *)
Definition burst_out_ok (mp : Z * bytes) : Prop := len (snd mp) <= fst mp /\ is_indication (snd mp) = false.

(* one PDU of a burst that is not a confirmation: answered once if it is a request, within the
   ATT_MTU in force; the indication state is not touched *)
Lemma rx_burst st opc ps st1 out1 :
  23 <= mtu_of st -> 23 <= s_max_mtu st -> opc <> OP_CONFIRM -> rx st opc ps = Some (st1, out1) ->
  len (map (fun p => (mtu_of st, p)) out1) = req_count opc /\
  Forall burst_out_ok (map (fun p => (mtu_of st, p)) out1) /\
  (23 <= mtu_of st1 /\ 23 <= s_max_mtu st1) /\
  s_waiting st1 = s_waiting st /\ s_pending st1 = s_pending st.
Proof.
  intros Hm Hx Hn H. destruct (rx_spec _ _ _ _ _ H Hn) as (Hr & Hc).
  destruct (replies_shape _ _ _ Hr) as (Hlen & Hni & Hle). specialize (Hle Hm).
  destruct (step_frame st (Rx opc ps) _ _ H) as (Hx1 & _ & Hm1). rewrite Hx1.
  split; [unfold len in *; rewrite map_length; exact Hlen|]. split; [|split; [auto|]].
  - apply Forall_map. exact (Forall_and Hle Hni).
  - destruct Hc as [->|[(m & _ & _ & ->)|(ds & _ & ->)]]; auto.
Qed.

Lemma burst_later_spec d : forall st st' out,
  23 <= mtu_of st /\ 23 <= s_max_mtu st ->
  Forall (fun x => deferred (fst x) (snd x) = true) d ->
  burst_later st d = Some (st', out) ->
  len out = count_requests d /\ Forall burst_out_ok out /\
  s_waiting st' = s_waiting st /\ s_pending st' = s_pending st.
Proof.
  induction d as [|[opc ps] d IH]; intros st st' out (Hm & Hx) Hd H; cbn [burst_later] in H.
  - injection H as <- <-. repeat split. constructor.
  - inversion Hd as [|? ? Hd1 Hd2]; subst. cbn [fst snd] in Hd1.
    destruct (rx st opc ps) as [[st1 out1]|] eqn:Erx; [|discriminate].
    destruct (burst_later st1 d) as [[st2 out2]|] eqn:El; [|discriminate]. injection H as <- <-.
    destruct (rx_burst _ _ _ _ _ Hm Hx (deferred_not_confirm _ _ Hd1) Erx) as (Hc & Hok & Hb & <- & <-).
    destruct (IH _ _ _ Hb Hd2 El) as (Hc2 & Hok2 & Hw).
    rewrite count_requests_cons, len_app. split; [lia|]. split; [apply Forall_app; auto|exact Hw].
Qed.

Lemma burst_now_spec l : forall st conf st' c out d,
  23 <= mtu_of st /\ 23 <= s_max_mtu st ->
  burst_now st conf l = Some (st', c, out, d) ->
  len out + count_requests d = count_requests l /\ Forall burst_out_ok out /\
  Forall (fun x => deferred (fst x) (snd x) = true) d /\
  (23 <= mtu_of st' /\ 23 <= s_max_mtu st') /\
  s_waiting st' = s_waiting st /\ s_pending st' = s_pending st.
Proof.
  induction l as [|[opc ps] l IH]; intros st conf st' c out d Hb H; cbn [burst_now] in H.
  - injection H as <- <- <- <-. repeat split; try apply Hb; constructor.
  - rewrite !count_requests_cons. destruct (deferred opc ps) eqn:Ed.
    + destruct (burst_now st conf l) as [[[[st1 c1] out1] d1]|] eqn:E; [|discriminate].
      injection H as <- <- <- <-. destruct (IH _ _ _ _ _ _ Hb E) as (Hc & Hok & Hd & Hrest).
      rewrite count_requests_cons. split; [lia|]. split; [exact Hok|]. split; [|exact Hrest].
      constructor; [exact Ed|exact Hd].
    + destruct (Z.eqb_spec opc OP_CONFIRM) as [->|E30]; [exact (IH _ _ _ _ _ _ Hb H)|].
      destruct (rx st opc ps) as [[st1 out1]|] eqn:Erx; [|discriminate].
      destruct (burst_now st1 conf l) as [[[[st2 c2] out2] d2]|] eqn:E; [|discriminate].
      injection H as <- <- <- <-. destruct Hb as (Hm & Hx).
      destruct (rx_burst _ _ _ _ _ Hm Hx E30 Erx) as (Hc1 & Hok1 & Hb1 & <- & <-).
      destruct (IH _ _ _ _ _ _ Hb1 E) as (Hc & Hok & Hrest).
      rewrite len_app. split; [lia|]. split; [apply Forall_app; auto|exact Hrest].
Qed.

(* Every request of a burst is answered exactly once and nothing else is: the PDUs sent are as
   many as the requests in the burst, none is an indication, each fits the ATT_MTU in force
   when it was sent; the only other PDU a burst can cause is the oldest waiting indication,
   released by a confirmation in the burst. *)
Lemma burst_spec st l st' out rel :
  23 <= mtu_of st -> 23 <= s_max_mtu st -> burst st l = Some (st', out, rel) ->
  len out = count_requests l /\ Forall burst_out_ok out /\
  (rel = [] \/ exists p w, rel = [p] /\ s_waiting st = p :: w).
Proof.
  intros Hm Hx H. unfold burst in H.
  destruct (burst_now st false l) as [[[[st1 c] out1] d]|] eqn:En; [|discriminate].
  destruct (burst_later st1 d) as [[st2 out2]|] eqn:El; [|discriminate].
  destruct (burst_now_spec l _ _ _ _ _ _ (conj Hm Hx) En) as (Hc1 & Hok1 & Hd & Hb1 & Hw1 & _).
  destruct (burst_later_spec d _ _ _ Hb1 Hd El) as (Hc2 & Hok2 & Hw2 & _).
  assert (Hout : len (out1 ++ out2) = count_requests l /\ Forall burst_out_ok (out1 ++ out2))
    by (rewrite len_app; split; [lia|apply Forall_app; auto]).
  destruct c; [|injection H as _ <- <-; split; [apply Hout|split; [apply Hout|auto]]].
  destruct (confirm_cases st2) as [E|(_ & [(_ & E)|(p & w & Ew & E)])]; rewrite E in H;
    injection H as _ <- <-; (split; [apply Hout|split; [apply Hout|]]); auto.
  right. exists p, w. split; [reflexivity|]. rewrite <- Hw1, <- Hw2. exact Ew.
Qed.

Lemma burst_total st l : exists r, burst st l = Some r.
Proof.
  assert (Hl : forall d st, exists r, burst_later st d = Some r).
  { induction d as [|[opc ps] d IH]; intros st0; cbn [burst_later]; [eauto|].
    destruct (rx_total st0 opc ps) as (st1 & out1 & ->). destruct (IH st1) as ([st2 out2] & ->). eauto. }
  assert (Hn : forall l st conf, exists r, burst_now st conf l = Some r).
  { induction l0 as [|[opc ps] l0 IH]; intros st0 conf; cbn [burst_now]; [eauto|].
    destruct (deferred opc ps).
    - destruct (IH st0 conf) as ([[[st1 c1] out1] d1] & ->). eauto.
    - destruct (opc =? OP_CONFIRM); [apply IH|].
      destruct (rx_total st0 opc ps) as (st1 & out1 & ->).
      destruct (IH st1 conf) as ([[[st2 c2] out2] d2] & ->). eauto. }
  unfold burst. destruct (Hn l st false) as ([[[st1 c] out1] d] & ->).
  destruct (Hl d st1) as ([st2 out2] & ->). destruct c; [destruct (h_confirm st2)|]; eauto.
Qed.

Lemma reply_le_negotiated st opc ps local peer :
  In opc spec_requests -> 23 <= local -> 23 <= peer -> mtu_of st = negotiated_mtu local peer ->
  exists st' p, rx st opc ps = Some (st', [p]) /\ len p <= local /\ len p <= peer.
Proof.
  intros Hin Hl Hp Hm. destruct (rx_request_one st opc ps Hin) as (st' & p & Hrx & _ & Hle).
  exists st', p. split; [exact Hrx|]. unfold negotiated_mtu in Hm.
  assert (H : len p <= mtu_of st) by (apply Hle; rewrite Hm; lia). rewrite Hm in H. lia.
Qed.

(* on the fixed bearer a well-formed Exchange MTU Request with client_rx_mtu >= 23 is answered
   with server_rx_mtu = max_mtu and the ATT_MTU becomes the minimum of the two values on the wire *)
Lemma fixed_mtu_exchange st x y :
  b_enh (s_b st) = false -> 23 <= x + 256 * y ->
  rx st OP_MTU_REQ [x; y] = Some (set_mtu st (negotiated_mtu (s_max_mtu st) (x + 256 * y)),
                         [[OP_MTU_RSP] ++ le16 (s_max_mtu st)]).
Proof.
  intros He Hc. change (rx st OP_MTU_REQ [x; y]) with (Some (h_mtu st (x + 256 * y))).
  unfold h_mtu. rewrite He.
  destruct (Z.leb_spec DEFAULT_MTU (x + 256 * y)); [reflexivity|unfold DEFAULT_MTU in *; lia].
Qed.

(* frame: closing bearer j touches nothing but bearer j's record *)
Lemma mclose_frame m j i : i <> j -> nth_error (m_bs (mclose m j)) i = nth_error (m_bs m) i.
Proof.
  intros H. unfold mclose. destruct (nth_error (m_bs m) j); [|reflexivity]. cbn [m_bs].
  apply nth_set_other. exact H.
Qed.

Lemma mclose_ok m j : Forall bst_ind (m_bs m) -> Forall bst_ind (m_bs (mclose m j)).
Proof.
  intros Hok. unfold mclose. destruct (nth_error (m_bs m) j); [|exact Hok].
  apply Forall_set_nth; [exact Hok|exact ind_inv_init].
Qed.

Lemma mclose_pending m j :
  map bs_pending (m_bs (mclose m j)) = set_nth j false (map bs_pending (m_bs m)).
Proof.
  unfold mclose. destruct (nth_error (m_bs m) j) as [x|] eqn:E.
  - cbn [m_bs]. rewrite map_set_nth. reflexivity.
  - symmetry. apply set_nth_none. rewrite nth_error_map, E. reflexivity.
Qed.

(* one indication outstanding per bearer, over every history in which enhanced bearers also
   close: the close of a bearer clears that bearer's flag only *)
Lemma mrun2_ind_ok ops : forall m n outs,
  Forall bst_ind (m_bs m) -> mrun2 m ops = Some (n, outs) ->
  mind_ok2 (map bs_pending (m_bs m)) ops outs = true.
Proof.
  induction ops as [|x ops IH]; intros m n outs Hok Hr; cbn [mrun2] in Hr.
  - inversion Hr; reflexivity.
  - destruct (mstep2 m x) as [[[m1 k] out]|] eqn:Es; [|discriminate].
    destruct (mrun2 m1 ops) as [[m2 outs2]|] eqn:Er; [|discriminate]. inversion Hr; subst.
    destruct x as [i o|i]; cbn [mstep2] in Es.
    + destruct (mstep m i o) as [[n' out']|] eqn:E; [|discriminate]. injection Es as <- <- <-.
      destruct (mstep_ind m i o n' out' Hok E) as (Hok1 & p' & Hso & Hp).
      cbn [mind_ok2]. rewrite Hso, <- Hp. eapply IH; eassumption.
    + injection Es as <- <- <-. cbn [mind_ok2]. rewrite <- mclose_pending.
      eapply IH; [apply mclose_ok; exact Hok|exact Er].
Qed.
