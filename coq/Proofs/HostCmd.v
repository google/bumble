(* Proofs about Model/HostCmd.v: under the controller contract (one reply per command, in
   order, at least one credit) the host has at most one command outstanding, every caller is
   resumed with the response to its own opcode, and nobody is left waiting at quiescence. *)
From Coq Require Import ZArith List Bool Lia Arith.
From BV Require Import Model.HostCmd Proofs.Skeleton.
Import ListNotations.
Open Scope Z_scope.

Lemma map_id_set_phase c ph l : map c_id (set_phase c ph l) = map c_id l.
Proof.
  unfold set_phase. rewrite map_map. apply map_ext. intros x. destruct (has_id c x); reflexivity.
Qed.

Lemma known_false c l : known c l = false -> ~ In c (map c_id l).
Proof.
  unfold known. intros H Hin. apply in_map_iff in Hin. destruct Hin as [x [Hx Hin]].
  assert (existsb (has_id c) l = true) as E.
  { apply existsb_exists. exists x. split; [exact Hin|]. unfold has_id. now apply Z.eqb_eq. }
  congruence.
Qed.

Lemma find_waiting_spec c l x :
  find_waiting c l = Some x -> In x l /\ c_id x = c /\ c_phase x = WaitSem.
Proof.
  unfold find_waiting. intros H. apply find_some in H. destruct H as [Hin H].
  apply andb_true_iff in H. destruct H as [H1 H2]. unfold has_id in H1. apply Z.eqb_eq in H1.
  unfold is_wait_sem in H2. destruct (c_phase x); try discriminate. auto.
Qed.

Lemma unique_id l : NoDup (map c_id l) -> forall x y, In x l -> In y l -> c_id x = c_id y -> x = y.
Proof.
  induction l as [|a l IH]; cbn; intros ND x y Hx Hy E; [tauto|].
  inversion ND as [|? ? Hn ND']; subst.
  destruct Hx as [->|Hx], Hy as [->|Hy]; auto.
  - exfalso. apply Hn. rewrite E. now apply in_map.
  - exfalso. apply Hn. rewrite <- E. now apply in_map.
Qed.

Lemma in_set_phase c ph l y' :
  In y' (set_phase c ph l) ->
  exists y, In y l /\ y' = (if has_id c y then mkCaller (c_id y) (c_op y) ph else y).
Proof.
  unfold set_phase. intros H. apply in_map_iff in H. destruct H as [y [E Hin]]. exists y. auto.
Qed.

Lemma set_phase_in c ph l y : In y l -> has_id c y = true -> In (mkCaller (c_id y) (c_op y) ph) (set_phase c ph l).
Proof.
  intros Hin Hc. unfold set_phase. apply in_map_iff. exists y. rewrite Hc. auto.
Qed.

Lemma set_phase_other c ph l y : In y l -> c_id y <> c -> In y (set_phase c ph l).
Proof.
  intros H N. apply in_map_iff. exists y. split; [|exact H].
  unfold has_id. now rewrite (proj2 (Z.eqb_neq _ _) N).
Qed.

Lemma nodup_set_phase c ph l : NoDup (map c_id l) -> NoDup (map c_id (set_phase c ph l)).
Proof. now rewrite map_id_set_phase. Qed.
#[local] Hint Resolve nodup_set_phase : core.

(* what holds of every caller after one of them changes phase *)
Lemma set_phase_ok c ph (P P' : caller -> Prop) l :
  (forall y, In y l -> P y) ->
  (forall y, In y l -> P y -> if has_id c y then P' (mkCaller (c_id y) (c_op y) ph) else P' y) ->
  forall y', In y' (set_phase c ph l) -> P' y'.
Proof.
  intros A W y' H. apply in_set_phase in H. destruct H as [y [Hy ->]].
  specialize (W y Hy (A y Hy)). destruct (has_id c y); exact W.
Qed.

Definition caller_ok (pending : option (Z * Z)) (x : caller) : Prop :=
  0 < c_op x /\
  match c_phase x with
  | WaitSem => True
  | WaitResp => pending = Some (c_id x, c_op x)
  | Done r => r = c_op x
  | Failed => False
  | Cancelled => True
  | LostFail => True
  | SendFail => True
  end.

Definition pipeline_ok (s : hstate) : Prop :=
  match h_pending s with
  | None => h_sem s = 1 /\ h_resp s = None /\ h_to s = [] /\ h_from s = []
  | Some (c, op) =>
      h_sem s = 0 /\
      (exists x, In x (h_callers s) /\ c_id x = c /\ c_op x = op /\ c_phase x = WaitResp) /\
      ((h_resp s = None /\ h_to s = [op] /\ h_from s = [])
       \/ (h_resp s = None /\ h_to s = [] /\ exists cc n, h_from s = [(cc, op, n)] /\ 1 <= n)
       \/ (exists n, h_resp s = Some (op, n) /\ 1 <= n /\ h_to s = [] /\ h_from s = []))
  end.

Record Inv (s : hstate) : Prop := mkInv {
  inv_err : h_err s = false;
  inv_nodup : NoDup (map c_id (h_callers s));
  inv_callers : forall x, In x (h_callers s) -> caller_ok (h_pending s) x;
  inv_pipe : pipeline_ok s
}.

Lemma inv_init : Inv h_init.
Proof.
  constructor; cbn; auto; try constructor; try tauto; unfold pipeline_ok; cbn; auto.
Qed.

Lemma step_none s l : step_opt s l = None -> step s l = s.
Proof. unfold step. intros ->. reflexivity. Qed.

Lemma step_some s l s' o : step_opt s l = Some (s', o) -> step s l = s'.
Proof. unfold step. intros ->. reflexivity. Qed.

(* a caller is set aside (cancelled, failed before anything was sent): nobody else is concerned *)
Definition aside (ph : phase) : Prop :=
  match ph with Cancelled | LostFail | SendFail => True | _ => False end.

Lemma set_phase_aside c ph pend l : aside ph ->
  (forall y, In y l -> caller_ok pend y) -> forall y', In y' (set_phase c ph l) -> caller_ok pend y'.
Proof.
  intros Hph A. apply (set_phase_ok _ _ _ _ _ A). intros y _ Hy.
  destruct (has_id c y); [|exact Hy]. split; [apply Hy|]. destruct ph; try contradiction; exact I.
Qed.

(* ... in particular not the owner of the pending command, who is somebody else *)
Lemma owner_stays c ph l c' op : c' <> c ->
  (exists x, In x l /\ c_id x = c' /\ c_op x = op /\ c_phase x = WaitResp) ->
  exists x, In x (set_phase c ph l) /\ c_id x = c' /\ c_op x = op /\ c_phase x = WaitResp.
Proof.
  intros N [y [Hy [Hi H]]]. exists y. split; [apply set_phase_other; [exact Hy | congruence] | auto].
Qed.

(* the owner of the pending command leaves with its outcome; nobody else was waiting for a response *)
Lemma owner_leaves c op ph l x :
  NoDup (map c_id l) -> In x l -> c_id x = c -> c_op x = op ->
  (forall y, In y l -> caller_ok (Some (c, op)) y) ->
  match ph with Done r => r = op | WaitResp | Failed => False | _ => True end ->
  forall y', In y' (set_phase c ph l) -> caller_ok None y'.
Proof.
  intros ND Hx Hi Ho A Hph. apply (set_phase_ok _ _ _ _ _ A). intros y Hy [Hop Hp].
  destruct (has_id c y) eqn:Hc; unfold has_id in Hc.
  - apply Z.eqb_eq in Hc. assert (y = x) as -> by (apply (unique_id _ ND); auto; congruence).
    split; cbn; [exact Hop|]. rewrite Ho. destruct ph; auto; contradiction.
  - split; [exact Hop|]. destruct (c_phase y); auto. apply Z.eqb_neq in Hc. congruence.
Qed.

(* a release touches the semaphore only *)
Lemma release_if_lost s n : h_lost (release_if s n) = h_lost s.
Proof. unfold release_if. now destruct (_ && _). Qed.

Lemma release_if_to s n : h_to (release_if s n) = h_to s.
Proof. unfold release_if. now destruct (_ && _). Qed.

(* on_command_processed releases the semaphore the owner held *)
Lemma release_held l p r t f e lo n : 1 <= n -> release_if (mkH l 0 p r t f e lo) n = mkH l 1 p r t f e lo.
Proof. intros H. unfold release_if, locked. cbn. destruct (Z.eqb_spec n 0); [lia | reflexivity]. Qed.

Lemma inv_aside s c ph : Inv s -> aside ph -> (forall op, h_pending s <> Some (c, op)) ->
  Inv (with_callers s (set_phase c ph (h_callers s))).
Proof.
  intros [Ierr Ind Icall Ipipe] A N. constructor; cbn; auto.
  - exact (set_phase_aside c ph _ _ A Icall).
  - unfold pipeline_ok in *. cbn. destruct (h_pending s) as [[c' op']|]; [|exact Ipipe].
    destruct Ipipe as [Hs [Hx Hcase]]. split; [exact Hs|]. split; [|exact Hcase].
    apply owner_stays; [|exact Hx]. intros ->. exact (N op' eq_refl).
Qed.

(* a free permit: nothing is pending *)
Lemma inv_free s : Inv s -> Z.leb (h_sem s) 0 = false -> h_pending s = None.
Proof.
  intros [_ _ _ P] Sem. unfold pipeline_ok in P. destruct (h_pending s) as [[c op]|]; [|reflexivity].
  destruct P as [Hs _]. rewrite Hs in Sem. discriminate.
Qed.

Lemma step_inv s l : Inv s -> h_lost s = false -> l <> Lose ->
  label_ok l = true -> cancel_ok s l = true -> Inv (step s l).
Proof.
  intros V Hlost Hnl Hl Hcan. pose proof V as [Ierr Ind Icall Ipipe]. unfold step.
  destruct l as [c op|c|cc n| |cc op n| |c|c| |c]; cbn [label_ok] in Hl; try discriminate; [| | | | | |congruence|];
    cbn [step_opt].
  - (* Call *)
    destruct (known c (h_callers s)) eqn:K; [exact V|].
    apply Z.ltb_lt in Hl.
    constructor; cbn.
    + exact Ierr.
    + rewrite map_app. cbn. apply NoDup_app_one; [exact Ind | apply known_false; exact K].
    + intros x Hx. apply in_app_or in Hx. destruct Hx as [Hx|[<-|[]]]; [apply Icall; exact Hx|].
      split; cbn; auto.
    + unfold pipeline_ok in *. cbn. destruct (h_pending s) as [[c' op']|]; [|exact Ipipe].
      destruct Ipipe as [Hs [[x [Hx Hx']] Hc]]. split; [exact Hs|]. split; [|exact Hc].
      exists x. split; [apply in_or_app; auto | exact Hx'].
  - (* Acquire *)
    destruct (Z.leb (h_sem s) 0) eqn:Sem; [exact V|].
    destruct (find_waiting c (h_callers s)) as [x|] eqn:F; [|exact V].
    destruct (find_waiting_spec _ _ _ F) as [Hx [Hid Hph]]. rewrite Hlost.
    unfold pipeline_ok in Ipipe. destruct (h_pending s) as [[c' op']|] eqn:P.
    { destruct Ipipe as [Hs _]. rewrite Hs in Sem. discriminate. }
    destruct Ipipe as [Hsem [Hr [Ht Hf]]]. rewrite Hr. constructor; cbn; auto.
    + apply (set_phase_ok _ _ _ _ _ Icall). intros y Hy [Hop Hp]. destruct (has_id c y) eqn:Hc.
      * apply Z.eqb_eq in Hc. assert (y = x) as -> by (apply (unique_id _ Ind); auto; congruence).
        split; cbn; [exact Hop | congruence].
      * split; [exact Hop|]. destruct (c_phase y); auto. discriminate.
    + unfold pipeline_ok. cbn. split; [rewrite Hsem; reflexivity|]. split.
      * exists (mkCaller (c_id x) (c_op x) WaitResp). split; [|cbn; auto].
        apply set_phase_in; [exact Hx|]. unfold has_id. now apply Z.eqb_eq.
      * left. rewrite Ht, Hf. auto.
  - (* CtrlReply *)
    destruct (h_to s) as [|op rest] eqn:T; [exact V|].
    apply Z.leb_le in Hl.
    constructor; cbn; auto.
    unfold pipeline_ok in *. cbn. destruct (h_pending s) as [[c' op']|].
    + destruct Ipipe as [Hs [Hex Hc]]. split; [exact Hs|]. split; [exact Hex|].
      destruct Hc as [[Hr [Ht Hf]]|[[Hr [Ht Hf]]|[n' [Hr [Hn [Ht Hf]]]]]]; try congruence.
      rewrite T in Ht. inversion Ht; subst. right. left. rewrite Hf. cbn. eauto 6.
    + destruct Ipipe as [_ [_ [Ht _]]]. congruence.
  - (* Deliver *)
    destruct (h_from s) as [|[[cc op] n] rest] eqn:Fr; [exact V|].
    unfold pipeline_ok in Ipipe. destruct (h_pending s) as [[c' op']|] eqn:P.
    2:{ destruct Ipipe as [_ [_ [_ Hf]]]. congruence. }
    destruct Ipipe as [Hs [[x [Hx [Hxi [Hxo Hxp]]]] Hc]].
    destruct Hc as [[Hr [Ht Hf]]|[[Hr [Ht [cc' [n' [Hf Hn]]]]]|[n' [Hr [Hn [Ht Hf]]]]]]; try congruence.
    pose proof (Icall x Hx) as [Hop _]. rewrite Hxo in Hop.
    rewrite Fr in Hf. injection Hf as <- <- <- ->.
    assert (cc && Z.eqb op 0 = false) as Z0.
    { apply andb_false_iff. right. apply Z.eqb_neq. lia. }
    rewrite Z0. cbn [h_pending h_resp]. rewrite Hr.
    constructor; cbn; auto.
    unfold pipeline_ok. cbn. split; [exact Hs|]. split; [eauto 6|].
    right. right. exists n. auto.
  - (* Resume *)
    unfold pipeline_ok in Ipipe.
    destruct (h_pending s) as [[c' op']|] eqn:P; [|exact V].
    destruct (h_resp s) as [[op n]|] eqn:R; [|exact V].
    destruct (Z.eqb c' c) eqn:Ec; [|exact V]. apply Z.eqb_eq in Ec. subst c'.
    destruct Ipipe as [Hs [[x [Hx [Hxi [Hxo Hxp]]]] Hc]].
    destruct Hc as [[Hr _]|[[Hr _]|[n' [Hr [Hn [Ht Hf]]]]]]; try congruence.
    pose proof (Icall x Hx) as [Hpos _]. rewrite Hxo in Hpos.
    injection Hr as -> ->.
    assert (Z.eqb op' exc_code = false) as Hne by (apply Z.eqb_neq; unfold exc_code; lia).
    rewrite Hne, Hs, (release_held _ _ _ _ _ _ _ _ Hn). constructor; cbn; auto.
    + exact (owner_leaves c op' (Done op') _ x Ind Hx Hxi Hxo Icall eq_refl).
  - (* Cancel *)
    cbn [cancel_ok] in Hcan. unfold pipeline_ok in Ipipe.
    destruct (h_pending s) as [[c' op']|] eqn:P.
    + destruct (Z.eqb c' c) eqn:Ec.
      * (* the owner: only allowed once the response is in *)
        apply Z.eqb_eq in Ec. subst c'.
        destruct (h_resp s) as [[op n]|] eqn:R; [|discriminate Hcan].
        destruct Ipipe as [Hs [[x [Hx [Hxi [Hxo _]]]] Hcase]].
        constructor; cbn; auto.
        -- exact (owner_leaves c op' Cancelled _ x Ind Hx Hxi Hxo Icall I).
        -- destruct Hcase as [[Hr _]|[[Hr _]|[n' [Hr [Hn [Ht Hf]]]]]]; try congruence.
           unfold pipeline_ok. cbn. rewrite Hs. auto.
      * (* a queued caller *)
        destruct (find_waiting c (h_callers s)) as [x|] eqn:F; [|exact V].
        apply Z.eqb_neq in Ec.
        apply (inv_aside s c Cancelled V I). rewrite P. congruence.
    + destruct (find_waiting c (h_callers s)) as [x|] eqn:F; [|exact V].
      apply (inv_aside s c Cancelled V I). rewrite P. discriminate.
  - (* AcquireFail: the send raises inside the try, the finally undoes the acquisition *)
    destruct (Z.leb (h_sem s) 0) eqn:Sem; [exact V|].
    destruct (find_waiting c (h_callers s)) as [x|] eqn:F; [|exact V].
    pose proof (inv_free s V Sem) as P. unfold pipeline_ok in Ipipe. rewrite P in Ipipe. destruct Ipipe as [_ [Hr _]].
    rewrite Hlost, P, Hr. apply (inv_aside s c SendFail V I). rewrite P. discriminate.
Qed.

Lemma step_lost s l : l <> Lose -> h_lost (step s l) = h_lost s.
Proof.
  intros N. unfold step.
  destruct l as [c op|c|cc n| |cc op n| |c|c| |c]; cbn [step_opt]; try congruence.
  - destruct (known c (h_callers s)); reflexivity.
  - destruct (Z.leb (h_sem s) 0); [reflexivity|]. destruct (find_waiting c (h_callers s)); [|reflexivity].
    destruct (h_lost s) eqn:L; [exact L|]. destruct (h_pending s), (h_resp s); cbn; congruence.
  - destruct (h_to s); reflexivity.
  - destruct (h_to s); reflexivity.
  - reflexivity.
  - destruct (h_from s) as [|[[cc op] n] rest]; [reflexivity|].
    destruct (cc && (op =? 0)); [exact (release_if_lost _ n)|].
    cbn [h_pending h_resp]. destruct (h_pending s); [destruct (h_resp s); reflexivity | exact (release_if_lost _ n)].
  - destruct (h_pending s) as [[c' op']|]; [|reflexivity]. destruct (h_resp s) as [[op n]|]; [|reflexivity].
    destruct (c' =? c); [|reflexivity]. destruct (op =? exc_code); [reflexivity | exact (release_if_lost _ n)].
  - destruct (h_pending s) as [[c' op']|]; [destruct (c' =? c); [reflexivity|]|];
      destruct (find_waiting c (h_callers s)); reflexivity.
  - destruct (Z.leb (h_sem s) 0); [reflexivity|]. destruct (find_waiting c (h_callers s)); [|reflexivity].
    destruct (h_lost s) eqn:L; [exact L|]. destruct (h_pending s), (h_resp s); cbn; congruence.
Qed.

(* the invariant of the states after a loss: nothing is sent any more; whoever holds the
   semaphore has its outcome (a response that arrived before the loss, or the exception) *)
Definition lost_pending_ok (s : hstate) : Prop :=
  match h_pending s with
  | None => h_sem s = 1 /\ h_resp s = None
  | Some (c, op) =>
      h_sem s = 0 /\
      (exists x, In x (h_callers s) /\ c_id x = c /\ c_op x = op /\ c_phase x = WaitResp) /\
      exists o n, h_resp s = Some (o, n) /\ (o = exc_code \/ (o = op /\ 1 <= n))
  end.

Record LInv (s : hstate) : Prop := mkLInv {
  l_lost : h_lost s = true;
  l_err : h_err s = false;
  l_nodup : NoDup (map c_id (h_callers s));
  l_callers : forall x, In x (h_callers s) -> caller_ok (h_pending s) x;
  l_pend : lost_pending_ok s;
  l_out : outstanding s <= 1
}.

Lemma inv_outstanding s : Inv s -> outstanding s <= 1.
Proof.
  intros [_ _ _ P]. unfold pipeline_ok in P. unfold outstanding.
  destruct (h_pending s) as [[c op]|].
  - destruct P as [_ [_ [[_ [-> ->]]|[[_ [-> [cc [n [-> _]]]]]|[n [_ [_ [-> ->]]]]]]]]; cbn; lia.
  - destruct P as [_ [_ [-> ->]]]. cbn. lia.
Qed.

Lemma lose_linv s : Inv s -> LInv (step s Lose).
Proof.
  intros I. pose proof (inv_outstanding s I) as O. destruct I as [Ierr Ind Icall Ipipe].
  unfold step. cbn [step_opt]. constructor; cbn [h_lost h_err h_callers h_pending h_sem h_resp h_to h_from]; auto.
  unfold pipeline_ok in Ipipe. unfold lost_pending_ok. cbn [h_pending h_sem h_resp h_callers].
  destruct (h_pending s) as [[c op]|].
  - destruct Ipipe as [Hs [Hex Hc]]. split; [exact Hs|]. split; [exact Hex|].
    destruct Hc as [[Hr _]|[[Hr _]|[n [Hr [Hn _]]]]]; rewrite Hr.
    + exists exc_code, 0. auto.
    + exists exc_code, 0. auto.
    + exists op, n. auto.
  - destruct Ipipe as [Hs [Hr _]]. rewrite Hr. auto.
Qed.

Lemma linv_aside s c ph : LInv s -> aside ph -> (forall op, h_pending s <> Some (c, op)) ->
  LInv (with_callers s (set_phase c ph (h_callers s))).
Proof.
  intros [Ilost Ierr Ind Icall Ipend Iout] A N. constructor; cbn; auto.
  - exact (set_phase_aside c ph _ _ A Icall).
  - unfold lost_pending_ok in *. cbn. destruct (h_pending s) as [[c' op']|]; [|exact Ipend].
    destruct Ipend as [Hs [Hx Hcase]]. split; [exact Hs|]. split; [|exact Hcase].
    apply owner_stays; [|exact Hx]. intros ->. exact (N op' eq_refl).
Qed.

Lemma linv_free s : LInv s -> Z.leb (h_sem s) 0 = false -> h_pending s = None.
Proof.
  intros V Sem. pose proof (l_pend s V) as P. unfold lost_pending_ok in P.
  destruct (h_pending s) as [[c op]|]; [|reflexivity]. destruct P as [Hs _]. rewrite Hs in Sem. discriminate.
Qed.

Lemma step_linv s l : LInv s -> label_ok l = true -> cancel_ok s l = true -> lost_ok s l = true -> LInv (step s l).
Proof.
  intros V Hl Hcan Hlo. pose proof V as [Ilost Ierr Ind Icall Ipend Iout]. unfold step.
  unfold lost_ok in Hlo. rewrite Ilost in Hlo.
  destruct l as [c op|c|cc n| |cc op n| |c|c| |c]; cbn [label_ok] in Hl; try discriminate; cbn [step_opt].
  - (* Call *)
    destruct (known c (h_callers s)) eqn:K; [exact V|]. apply Z.ltb_lt in Hl. constructor; cbn; auto.
    + rewrite map_app. cbn. apply NoDup_app_one; [exact Ind | apply known_false; exact K].
    + intros x Hx. apply in_app_or in Hx. destruct Hx as [Hx|[<-|[]]]; [apply Icall; exact Hx|]. split; cbn; auto.
    + unfold lost_pending_ok in *. cbn. destruct (h_pending s) as [[c' op']|]; [|exact Ipend].
      destruct Ipend as [Hs [[x [Hx Hx']] Hc]]. split; [exact Hs|]. split; [|exact Hc].
      exists x. split; [apply in_or_app; auto | exact Hx'].
  - (* Acquire: fails at once *)
    destruct (Z.leb (h_sem s) 0) eqn:Sem; [exact V|].
    destruct (find_waiting c (h_callers s)) as [x|] eqn:F; [|exact V].
    rewrite Ilost. apply (linv_aside s c LostFail V I). rewrite (linv_free s V Sem). discriminate.
  - (* Resume *)
    unfold lost_pending_ok in Ipend.
    destruct (h_pending s) as [[c' op']|] eqn:P; [|exact V].
    destruct (h_resp s) as [[op n]|] eqn:R; [|exact V].
    destruct (Z.eqb c' c) eqn:Ec; [|exact V]. apply Z.eqb_eq in Ec. subst c'.
    destruct Ipend as [Hs [[x [Hx [Hxi [Hxo Hxp]]]] [o' [n' [Hr Hcase]]]]]. injection Hr as <- <-.
    destruct (Z.eqb op exc_code) eqn:Ex.
    + constructor; cbn; auto.
      * exact (owner_leaves c op' LostFail _ x Ind Hx Hxi Hxo Icall I).
      * unfold lost_pending_ok. cbn. rewrite Hs. auto.
    + destruct Hcase as [Hex|[-> Hn]]; [apply Z.eqb_neq in Ex; contradiction|].
      rewrite Hs, (release_held _ _ _ _ _ _ _ _ Hn). constructor; cbn; auto.
      * exact (owner_leaves c op' (Done op') _ x Ind Hx Hxi Hxo Icall eq_refl).
  - (* Cancel *)
    cbn [cancel_ok] in Hcan. unfold lost_pending_ok in Ipend.
    destruct (h_pending s) as [[c' op']|] eqn:P.
    + destruct (Z.eqb c' c) eqn:Ec.
      * apply Z.eqb_eq in Ec. subst c'. destruct Ipend as [Hs [[x [Hx [Hxi [Hxo Hxp]]]] _]].
        constructor; cbn; auto.
        -- exact (owner_leaves c op' Cancelled _ x Ind Hx Hxi Hxo Icall I).
        -- unfold lost_pending_ok. cbn. rewrite Hs. auto.
      * destruct (find_waiting c (h_callers s)) as [x|] eqn:F; [|exact V].
        apply Z.eqb_neq in Ec.
        apply (linv_aside s c Cancelled V I). rewrite P. congruence.
    + destruct (find_waiting c (h_callers s)) as [x|] eqn:F; [|exact V].
      apply (linv_aside s c Cancelled V I). rewrite P. discriminate.
  - (* Lose again *)
        constructor; cbn [h_lost h_err h_callers h_pending h_sem h_resp h_to h_from]; auto.
    unfold lost_pending_ok in *. cbn [h_pending h_sem h_resp h_callers].
    destruct (h_pending s) as [[c op]|]; [|destruct Ipend as [Hs Hr]; rewrite Hr; auto].
    destruct Ipend as [Hs [Hex [o' [n' [Hr Hc]]]]]. rewrite Hr. split; [exact Hs|]. split; [exact Hex|]. eauto.
  - (* AcquireFail after a loss: as Acquire *)
    destruct (Z.leb (h_sem s) 0) eqn:Sem; [exact V|].
    destruct (find_waiting c (h_callers s)) as [x|] eqn:F; [|exact V].
    rewrite Ilost. apply (linv_aside s c LostFail V I). rewrite (linv_free s V Sem). discriminate.
Qed.

(* before or after a loss *)
Definition Inv2 (s : hstate) : Prop := (h_lost s = false /\ Inv s) \/ LInv s.

Lemma label_eq_lose_dec (l : label) : {l = Lose} + {l <> Lose}.
Proof. destruct l; (left; reflexivity) || (right; discriminate). Qed.

Lemma step_inv2 s l : Inv2 s -> label_ok l = true -> cancel_ok s l = true -> lost_ok s l = true -> Inv2 (step s l).
Proof.
  intros [[L I]|I] Hl Hc Hlo.
  - destruct (label_eq_lose_dec l) as [->|N].
    + right. apply lose_linv. exact I.
    + left. split; [rewrite (step_lost s l N); exact L | apply step_inv; assumption].
  - right. apply step_linv; assumption.
Qed.

Lemma run_inv ls : forall s, wf_run s ls = true -> Inv2 s -> Inv2 (run s ls).
Proof.
  induction ls as [|l ls IH]; intros s C I; cbn [run]; [exact I|].
  cbn [wf_run] in C. apply andb_true_iff in C. destruct C as [C123 C4].
  apply andb_true_iff in C123. destruct C123 as [C12 C3].
  apply andb_true_iff in C12. destruct C12 as [C1 C2].
  apply IH; [exact C4 | apply step_inv2; assumption].
Qed.

Lemma inv2_init : Inv2 h_init.
Proof. left. split; [reflexivity | exact inv_init]. Qed.

(* a command is in flight only while its caller holds the semaphore and waits for it *)
Lemma inv_outstanding_pending s : Inv s -> outstanding s = 1 -> exists c op, h_pending s = Some (c, op) /\ h_sem s = 0.
Proof.
  intros [_ _ _ P] O. unfold pipeline_ok in P. unfold outstanding in O.
  destruct (h_pending s) as [[c op]|].
  - destruct P as [Hs _]. eauto.
  - destruct P as [_ [_ [Ht Hf]]]. rewrite Ht, Hf in O. cbn in O. lia.
Qed.

(* nothing is pending and nobody is queued: every caller has its outcome *)
Lemma callers_answered l :
  (forall x, In x l -> caller_ok None x) -> existsb is_wait_sem l = false -> forallb is_done_own l = true.
Proof.
  intros C W. apply forallb_forall. intros x Hx. destruct (C x Hx) as [_ H]. unfold is_done_own.
  destruct (c_phase x) eqn:Ph; try reflexivity; try contradiction; try discriminate.
  - exfalso. assert (existsb is_wait_sem l = true) as E; [|congruence].
    apply existsb_exists. exists x. split; [exact Hx|]. unfold is_wait_sem. now rewrite Ph.
  - subst. apply Z.eqb_refl.
Qed.

Lemma inv_quiescent_answered s : Inv s -> quiescent s = true -> all_answered s = true.
Proof.
  intros [_ _ C P] Q. unfold pipeline_ok in P. unfold quiescent in Q.
  destruct (h_pending s) as [[c op]|] eqn:Pe.
  - exfalso. destruct P as [_ [_ [[Hr [Ht Hf]]|[[Hr [Ht [cc [n [Hf _]]]]]|[n [Hr [_ [Ht Hf]]]]]]]];
      rewrite Ht in Q; try discriminate; rewrite Hf in Q; try discriminate.
    rewrite Hr in Q. discriminate.
  - destruct P as [Hs [Hr [Ht Hf]]]. rewrite Ht, Hf, Hs in Q. cbn in Q.
    apply negb_true_iff in Q. exact (callers_answered _ C Q).
Qed.

Definition internal (l : label) : bool :=
  match l with Acquire _ | CtrlReply _ _ | Deliver | Resume _ => true | _ => false end.

Lemma existsb_find_waiting l : existsb is_wait_sem l = true -> exists x, find_waiting (c_id x) l = Some x.
Proof.
  induction l as [|a l IH]; cbn [existsb]; [discriminate|].
  destruct (is_wait_sem a) eqn:W.
  - intros _. exists a. unfold find_waiting. cbn [find]. unfold has_id. rewrite Z.eqb_refl, W. reflexivity.
  - cbn [orb]. intros H. destruct (IH H) as [x Hx]. exists x. unfold find_waiting in *. cbn [find].
    rewrite W, andb_false_r. exact Hx.
Qed.

Lemma progress s : Inv s -> quiescent s = false ->
  exists l, internal l = true /\ label_ok l = true /\ step_opt s l <> None.
Proof.
  intros [_ _ C P] Q. unfold pipeline_ok in P. unfold quiescent in Q.
  destruct (h_pending s) as [[c op]|] eqn:Pe.
  - destruct P as [Hs [_ [[Hr [Ht Hf]]|[[Hr [Ht [cc [n [Hf Hn]]]]]|[n [Hr [_ [Ht Hf]]]]]]]].
    + exists (CtrlReply true 1). cbn. rewrite Ht. repeat split; discriminate.
    + exists Deliver. cbn. rewrite Hf. repeat split.
      destruct (cc && (op =? 0)); [discriminate|]. rewrite Pe, Hr. discriminate.
    + exists (Resume c). cbn. rewrite Pe, Hr, Z.eqb_refl. destruct (op =? exc_code); repeat split; discriminate.
  - destruct P as [Hs [Hr [Ht Hf]]]. rewrite Ht, Hf, Hs in Q. cbn in Q.
    apply negb_false_iff in Q. destruct (existsb_find_waiting _ Q) as [x Hx].
    exists (Acquire (c_id x)). cbn. rewrite Hs, Hx. cbn.
    destruct (h_lost s); [repeat split; discriminate|]. rewrite Pe, Hr. repeat split; discriminate.
Qed.

Definition weight_sum (l : list caller) : nat := fold_right (fun x a => caller_weight x + a)%nat 0%nat l.

Lemma weight_sum_cons a l : weight_sum (a :: l) = (caller_weight a + weight_sum l)%nat.
Proof. reflexivity. Qed.

Lemma set_phase_cons c ph a l :
  set_phase c ph (a :: l) = (if has_id c a then mkCaller (c_id a) (c_op a) ph else a) :: set_phase c ph l.
Proof. reflexivity. Qed.

Definition phase_weight (ph : phase) : nat := caller_weight (mkCaller 0 0 ph).

Lemma caller_weight_mk i o ph : caller_weight (mkCaller i o ph) = phase_weight ph.
Proof. reflexivity. Qed.

Lemma weight_set_phase_le c ph l : phase_weight ph = 0%nat ->
  (weight_sum (set_phase c ph l) <= weight_sum l)%nat.
Proof.
  intros W. induction l as [|a l IH]; [cbn; lia|].
  rewrite set_phase_cons, !weight_sum_cons.
  destruct (has_id c a); [rewrite caller_weight_mk, W|]; lia.
Qed.

(* a caller that leaves the queue takes its weight of 4 with it, which pays for what its
   acquisition may add: a command on the wire, 3 *)
Lemma weight_set_phase_lt c ph l x a b : phase_weight ph = 0%nat -> find_waiting c l = Some x ->
  (a <= b + 3)%nat -> (weight_sum (set_phase c ph l) + a < weight_sum l + b)%nat.
Proof.
  intros W F Hab. enough (weight_sum (set_phase c ph l) + 4 <= weight_sum l)%nat by lia. clear Hab.
  induction l as [|y l IH]; [discriminate|].
  rewrite set_phase_cons, !weight_sum_cons. unfold find_waiting in F. cbn [find] in F.
  fold (find_waiting c l) in F. pose proof (weight_set_phase_le c ph l W) as Hle.
  destruct (has_id c y); cbn [andb] in F; [|specialize (IH F); lia].
  rewrite caller_weight_mk, W. destruct (is_wait_sem y) eqn:Ws; [|specialize (IH F); lia].
  unfold is_wait_sem in Ws. unfold caller_weight. destruct (c_phase y); try discriminate. lia.
Qed.

Local Arguments weight_sum : simpl never.

Lemma measure_eq s :
  measure s = (weight_sum (h_callers s)
               + (3 * length (h_to s) + 2 * length (h_from s) + match h_resp s with Some _ => 1 | None => 0 end))%nat.
Proof. unfold measure, weight_sum. lia. Qed.

Lemma release_if_measure s n : measure (release_if s n) = measure s.
Proof. unfold release_if. now destruct (_ && _). Qed.

Lemma measure_decreases s l s' o :
  internal l = true -> step_opt s l = Some (s', o) -> (measure s' < measure s)%nat.
Proof.
  intros Hi E. rewrite (measure_eq s).
  destruct l as [c op|c|cc n| |cc op n| |c|c| |c]; try discriminate; cbn [step_opt] in E.
  - (* Acquire: the caller leaves the queue, whatever becomes of it *)
    destruct (Z.leb (h_sem s) 0); [discriminate|].
    destruct (find_waiting c (h_callers s)) as [x|] eqn:F; [|discriminate].
    destruct (h_lost s); [|destruct (h_pending s), (h_resp s)]; inversion E; subst; clear E;
      rewrite measure_eq; cbn [h_callers h_to h_from h_resp with_callers];
      (apply (weight_set_phase_lt c _ _ x); [reflexivity | exact F | rewrite ?app_length; cbn; lia]).
  - (* CtrlReply: a command (3) becomes an event (2) *)
    destruct (h_to s) as [|op rest]; [discriminate|]. inversion E; subst; clear E.
    rewrite measure_eq. cbn. rewrite app_length. cbn. lia.
  - (* Deliver: an event (2) becomes at most a response (1) *)
    destruct (h_from s) as [|[[cc op] n] rest]; [discriminate|].
    destruct (cc && (op =? 0)); [|cbn in E; destruct (h_pending s); [destruct (h_resp s)|]];
      inversion E; subst; clear E; rewrite ?release_if_measure, measure_eq; cbn; lia.
  - (* Resume: the response (1) is consumed *)
    destruct (h_pending s) as [[c' op']|]; [|discriminate].
    destruct (h_resp s) as [[op n]|]; [|discriminate].
    destruct (c' =? c); [|discriminate].
    destruct (op =? exc_code); inversion E; subst; clear E; rewrite ?release_if_measure, measure_eq;
      cbn [h_callers h_to h_from h_resp].
    + pose proof (weight_set_phase_le c LostFail (h_callers s) eq_refl). lia.
    + pose proof (weight_set_phase_le c (Done op) (h_callers s) eq_refl). lia.
Qed.

Lemma internal_cancel_ok s l : internal l = true -> cancel_ok s l = true.
Proof. destruct l; cbn; intros H; try reflexivity; discriminate. Qed.

Lemma not_lost_ok s l : h_lost s = false -> lost_ok s l = true.
Proof. intros H. unfold lost_ok. now rewrite H. Qed.

(* without cancellations and without a loss the run hypotheses are just the contract *)
Lemma wf_run_no_cancel ls : forall s, h_lost s = false ->
  forallb (fun l => match l with Cancel _ | Lose => false | _ => true end) ls = true ->
  contract_ok ls = true -> wf_run s ls = true.
Proof.
  induction ls as [|l ls IH]; intros s L Hn Hc; cbn [wf_run]; [reflexivity|].
  cbn in Hn, Hc. apply andb_true_iff in Hn. apply andb_true_iff in Hc.
  destruct Hn as [Hn1 Hn2], Hc as [Hc1 Hc2].
  rewrite Hc1, (not_lost_ok s l L).
  assert (l <> Lose) as NL by (destruct l; discriminate).
  rewrite (IH (step s l)); [|rewrite (step_lost s l NL); exact L | exact Hn2 | exact Hc2].
  destruct l; try reflexivity; discriminate.
Qed.

Lemma run_app a : forall b s, run s (a ++ b) = run (run s a) b.
Proof. induction a as [|x a IH]; intros b s; cbn; [reflexivity | apply IH]. Qed.

Lemma wf_run_app a : forall b s, wf_run s a = true -> wf_run (run s a) b = true -> wf_run s (a ++ b) = true.
Proof.
  induction a as [|x a IH]; intros b s Ha Hb; cbn [app wf_run run] in *; [exact Hb|].
  apply andb_true_iff in Ha. destruct Ha as [Ha1 Ha2]. rewrite Ha1. cbn. apply IH; assumption.
Qed.

Lemma inv2_outstanding s : Inv2 s -> outstanding s <= 1.
Proof. intros [[_ I]|I]; [apply inv_outstanding; exact I | apply I]. Qed.

Lemma inv2_callers s : Inv2 s -> forall x, In x (h_callers s) -> caller_ok (h_pending s) x.
Proof. intros [[_ V]|V]; apply V. Qed.

Lemma inv2_reply_matches s : Inv2 s -> forall x r, In x (h_callers s) -> c_phase x = Done r -> r = c_op x.
Proof. intros V x r Hx Hp. destruct (inv2_callers s V x Hx) as [_ H]. rewrite Hp in H. exact H. Qed.

Lemma inv2_no_failure s : Inv2 s -> h_err s = false /\ forall x, In x (h_callers s) -> c_phase x <> Failed.
Proof.
  intros V. split; [destruct V as [[_ V]|V]; apply V|].
  intros x Hx Hp. destruct (inv2_callers s V x Hx) as [_ H]. rewrite Hp in H. exact H.
Qed.

(* after a loss: when none of the host's own steps is enabled, every caller has its outcome *)
Lemma linv_quiescent_answered s : LInv s -> quiescent_lost s = true -> all_answered s = true.
Proof.
  intros I Q. pose proof (l_pend s I) as P. pose proof (l_callers s I) as C.
  unfold lost_pending_ok in P. unfold quiescent_lost in Q. destruct (h_pending s) as [[c op]|].
  - destruct P as [_ [_ [o [n [Hr _]]]]]. rewrite Hr in Q. discriminate.
  - destruct P as [Hs Hr]. rewrite Hs in Q. cbn in Q. apply negb_true_iff in Q.
    exact (callers_answered _ C Q).
Qed.

Lemma quiescent_is_quiescent_lost s : quiescent s = true -> quiescent_lost s = true.
Proof.
  unfold quiescent, quiescent_lost. destruct (h_to s); [|discriminate]. destruct (h_from s); [|discriminate]. auto.
Qed.

Lemma inv2_quiescent_answered s : Inv2 s -> quiescent s = true -> all_answered s = true.
Proof.
  intros [[_ I]|I] Q; [apply inv_quiescent_answered; assumption|].
  apply linv_quiescent_answered; [exact I | apply quiescent_is_quiescent_lost; exact Q].
Qed.

(* after a loss no step puts a command on the wire *)
Lemma lost_step_to s l : h_lost s = true -> lost_ok s l = true -> h_to (step s l) = h_to s.
Proof.
  intros L Hlo. unfold lost_ok in Hlo. rewrite L in Hlo. unfold step.
  destruct l as [c op|c|cc n| |cc op n| |c|c| |c]; try discriminate; cbn [step_opt].
  - destruct (known c (h_callers s)); reflexivity.
  - destruct (Z.leb (h_sem s) 0); [reflexivity|]. destruct (find_waiting c (h_callers s)); [|reflexivity].
    rewrite L. reflexivity.
  - destruct (h_pending s) as [[c' op']|]; [|reflexivity]. destruct (h_resp s) as [[op n]|]; [|reflexivity].
    destruct (c' =? c); [|reflexivity]. destruct (op =? exc_code); [reflexivity | exact (release_if_to _ n)].
  - destruct (h_pending s) as [[c' op']|]; [destruct (c' =? c); [reflexivity|]|];
      destruct (find_waiting c (h_callers s)); reflexivity.
  - reflexivity.
  - destruct (Z.leb (h_sem s) 0); [reflexivity|]. destruct (find_waiting c (h_callers s)); [|reflexivity].
    rewrite L. reflexivity.
Qed.

Lemma lost_run_to ls : forall s, h_lost s = true -> wf_run s ls = true -> h_to (run s ls) = h_to s.
Proof.
  induction ls as [|l ls IH]; intros s L W; cbn [run]; [reflexivity|].
  cbn [wf_run] in W. apply andb_true_iff in W. destruct W as [W123 W4].
  apply andb_true_iff in W123. destruct W123 as [_ W3].
  rewrite <- (lost_step_to s l L W3). apply IH; [|exact W4].
  destruct (label_eq_lose_dec l) as [->|N]; [reflexivity | rewrite (step_lost s l N); exact L].
Qed.

(* after a loss the host's own steps (Acquire, Resume) are enabled until every caller has its
   outcome, and each of them decreases the measure: nobody waits forever *)
Lemma progress_lost s : LInv s -> quiescent_lost s = false ->
  exists l, (exists c, l = Acquire c \/ l = Resume c) /\ step_opt s l <> None.
Proof.
  intros I Q. pose proof (l_pend s I) as P. unfold lost_pending_ok in P. unfold quiescent_lost in Q.
  destruct (h_pending s) as [[c op]|] eqn:Pe.
  - destruct P as [_ [_ [o [n [Hr _]]]]]. exists (Resume c). split; [eauto|].
    cbn. rewrite Pe, Hr, Z.eqb_refl. destruct (o =? exc_code); discriminate.
  - destruct P as [Hs Hr]. rewrite Hs in Q. cbn in Q. apply negb_false_iff in Q.
    destruct (existsb_find_waiting _ Q) as [x Hx]. exists (Acquire (c_id x)). split; [eauto|].
    cbn. rewrite Hs, Hx, (l_lost s I). cbn. discriminate.
Qed.

(* while a caller lacks its outcome, one of the internal steps is enabled and allowed ... *)
Lemma inv2_next s : Inv2 s -> all_answered s = false ->
  exists l, internal l = true /\ label_ok l = true /\ lost_ok s l = true /\ step_opt s l <> None.
Proof.
  intros [[L V]|V] Q.
  - destruct (quiescent s) eqn:Qs; [rewrite (inv_quiescent_answered s V Qs) in Q; discriminate|].
    destruct (progress s V Qs) as (l & Hi & Hl & En). exists l. auto using not_lost_ok.
  - destruct (quiescent_lost s) eqn:Qs; [rewrite (linv_quiescent_answered s V Qs) in Q; discriminate|].
    destruct (progress_lost s V Qs) as (l & [c Hl] & En). exists l. unfold lost_ok. rewrite (l_lost s V).
    destruct Hl as [-> | ->]; auto.
Qed.

(* ... and each of them decreases the measure: from every reachable state a bounded number of
   internal steps gives every caller its outcome; later commands are not blocked *)
Lemma answered_within n : forall s, Inv2 s -> (measure s < n)%nat ->
  exists ls, forallb internal ls = true /\ wf_run s ls = true /\
             all_answered (run s ls) = true /\ (length ls <= measure s)%nat.
Proof.
  induction n as [|n IH]; intros s V M; [lia|].
  destruct (all_answered s) eqn:Q; [exists []; cbn; repeat split; auto; lia|].
  destruct (inv2_next s V Q) as (l & Hi & Hl & Hlo & En).
  destruct (step_opt s l) as [[s' o]|] eqn:E; [|congruence].
  pose proof (measure_decreases _ _ _ _ Hi E) as D.
  pose proof (step_inv2 s l V Hl (internal_cancel_ok s l Hi) Hlo) as V'.
  rewrite (step_some _ _ _ _ E) in V'.
  destruct (IH s' V' ltac:(lia)) as (ls & H1 & H2 & H3 & H4).
  exists (l :: ls). cbn [forallb wf_run run length].
  rewrite Hi, Hl, (internal_cancel_ok s l Hi), Hlo, H1, (step_some _ _ _ _ E). repeat split; auto. lia.
Qed.

(* The hypotheses [wf_run h_init ls]: the controller contract on every label, no cancellation of the
   caller that owns a still unanswered command (cancelling queued callers, the owner after its
   response arrived, at any point of any schedule, is allowed), nothing crosses the transport
   after it was lost. Histories with and without a transport loss. *)
Theorem at_most_one_outstanding ls : wf_run h_init ls = true -> outstanding (run h_init ls) <= 1.
Proof. intros C. apply inv2_outstanding. apply run_inv; [exact C | exact inv2_init]. Qed.

Theorem reply_matches_caller ls : wf_run h_init ls = true ->
  forall x r, In x (h_callers (run h_init ls)) -> c_phase x = Done r -> r = c_op x.
Proof. intros C. apply inv2_reply_matches. apply run_inv; [exact C | exact inv2_init]. Qed.

(* every caller is answered with its own response, was cancelled by its own task, or failed with
   TransportLostError *)
Theorem every_caller_answered ls : wf_run h_init ls = true ->
  quiescent (run h_init ls) = true -> all_answered (run h_init ls) = true.
Proof. intros C. apply inv2_quiescent_answered. apply run_inv; [exact C | exact inv2_init]. Qed.

(* The contract on the labels is needed.
   A flow-control event while a command is outstanding adds a permit: the next caller trips
   `assert self.pending_command is None` (and keeps its permit for ever) *)
Lemma early_flow_control_refuted :
  let s := run h_init [Call 1 3075; Call 2 4099; Acquire 1; CtrlEvent true 0 1; Deliver; Acquire 2;
                       CtrlReply true 1; Deliver; Resume 1] in
  map phase_code (h_callers s) = [(1, 2, 3075); (2, 3, 0)] /\ h_sem s = 1.
Proof. vm_compute. auto. Qed.

(* a second event for the same command hits a completed future *)
Lemma duplicate_reply_refuted :
  h_err (run h_init [Call 1 1030; Acquire 1; CtrlReply false 1; CtrlEvent false 1030 1; Deliver; Deliver]) = true.
Proof. vm_compute. reflexivity. Qed.

(* an event with another opcode is handed to the waiting caller (the code only logs a warning) *)
Lemma wrong_opcode_refuted :
  let s := run h_init [Call 1 1030; Acquire 1; CtrlDrop; CtrlEvent false 1029 1; Deliver; Resume 1] in
  map phase_code (h_callers s) = [(1, 2, 1029)] /\ all_answered s = false.
Proof. vm_compute. auto. Qed.

(* a command with opcode 0 answered by Command Complete is taken for a flow-control event *)
Lemma opcode_zero_refuted :
  let s := run h_init [Call 1 0; Acquire 1; CtrlReply true 1; Deliver] in
  quiescent s = true /\ all_answered s = false /\ map phase_code (h_callers s) = [(1, 1, 0)] /\ h_sem s = 1.
Proof. vm_compute. auto. Qed.


