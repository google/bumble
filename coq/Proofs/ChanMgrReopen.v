(* C09 reopen_succeeds, end to end: a connected LE channel is closed (disconnect(), the peer
   answers); the awaited call returns, the channel's CIDs are gone from both tables, and the
   next open on the same connection is handed a CID that is not larger than the one just
   freed (the allocator returns the smallest free CID). *)
From Coq Require Import ZArith List Bool Lia.
From BV Require Import Gen.C09Tables Model.ChanMgr Proofs.ChanMgrLib Proofs.ChanMgr.
Import ListNotations.
Open Scope Z_scope.

Lemma In_remove_other x y l : x <> y -> (In x (remove Z.eq_dec y l) <-> In x l).
Proof.
  intros Hn. induction l as [|z l IH]; cbn; [tauto|].
  destruct (Z.eq_dec y z); cbn; [subst; split; [tauto|intros [H|H]; [congruence|tauto]]|]. tauto.
Qed.

(* the scan returns the smallest free CID: with a free CID k in range it finds one <= k *)
Lemma scan_first fuel : forall cid hi used k,
  (count_ge cid used + 1 <= fuel)%nat -> cid <= k <= hi -> ~ In k used ->
  exists x, scan fuel cid hi used 1 = [x] /\ cid <= x <= k /\ ~ In x used.
Proof.
  induction fuel as [|fuel IH]; intros cid hi used k Hf Hk Hn; [lia|]. cbn.
  destruct (Z.ltb_spec hi cid); [lia|].
  destruct (memz cid used) eqn:E.
  - apply memz_In in E. assert (cid <> k) by (intros ->; contradiction).
    pose proof (count_ge_remove cid used E).
    rewrite <- (scan_remove fuel (cid + 1) hi used 1 cid) by lia.
    destruct (IH (cid + 1) hi (remove Z.eq_dec cid used) k) as (x & Hs & Hx & Hnx); [lia|lia| |].
    + rewrite In_remove_other by auto. auto.
    + exists x. split; [auto|]. split; [lia|]. rewrite In_remove_other in Hnx by lia. auto.
  - exists cid. destruct fuel; cbn; (split; [reflexivity|]); (split; [lia|now apply memz_false]).
Qed.

Lemma find_free_le_first used k : le_cid_lo <= k <= le_cid_hi -> ~ In k used ->
  exists x, find_free_le used = Some x /\ le_cid_lo <= x <= k /\ ~ In x used.
Proof.
  intros Hk Hn. unfold find_free_le, find_free_le_n, find_free_n.
  destruct (scan_first (length used + 1) le_cid_lo le_cid_hi used k) as (x & Hs & Hx & Hnx); auto.
  { pose proof (count_ge_length le_cid_lo used). lia. }
  rewrite Hs. cbn. eauto.
Qed.

(* an LE open with a free CID k of the range at hand: the request goes out with a CID <= k *)
Theorem reopen_le_free m h psm credits k : reachable m ->
  le_cid_lo <= k <= le_cid_hi -> tget h k (m_chs m) = None ->
  tget h (nid m h) (m_reqs m) = None ->
  exists scid,
    snd (step m (EOpen h K_LE psm 1 0 credits)) = [FLeReq (nid m h) psm scid credits true] /\
    le_cid_lo <= scid <= k /\ tget h scid (m_chs m) = None.
Proof.
  intros R Hk Hfree Hid.
  assert (Hn : ~ In k (tkeys h (m_chs m))) by (rewrite tkeys_tget; intros H; apply H; exact Hfree).
  destruct (find_free_le_first _ k Hk Hn) as (scid & Hs & Hr & Hns).
  exists scid. cbn [step]. rewrite Z.eqb_refl. unfold open_le. rewrite Hs.
  change (nid (with_chs (hnew m ?c) ?t) h) with (nid m h).
  cbn [m_reqs next_id with_ids with_chs hnew with_heap]. rewrite Hid. cbn [fst snd].
  repeat split; auto; try lia.
  destruct (tget h scid (m_chs m)) eqn:T; [|reflexivity]. exfalso. apply Hns. rewrite tkeys_tget. congruence.
Qed.

(* disconnect() of a connected LE channel, answered by the peer *)
Theorem close_reopen_le m u c id psm credits : reachable m ->
  hget m u = Some c -> c_kind c = KLe -> c_st c = SConnected -> c_live c = true ->
  le_cid_lo <= c_scid c <= le_cid_hi ->
  let h := c_conn c in
  let m1 := fst (step m (EClose u)) in
  let m2 := fst (step m1 (ERecv h (FDiscRsp id (c_dcid c) (c_scid c)))) in
  reachable m2 /\
  snd (step m (EClose u)) = [FDiscReq (nid m h) (c_dcid c) (c_scid c)] /\
  wout m1 (wuid m) = O_PENDING /\ wout m2 (wuid m) = O_RESULT /\
  tget h (c_scid c) (m_chs m2) = None /\ tget h (c_dcid c) (m_le m2) = None /\
  (exists c2, hget m2 u = Some c2 /\ c_st c2 = SDisconnected /\ c_dw c2 = None /\ c_drained c2 = true) /\
  (tget h (nid m2 h) (m_reqs m2) = None ->
   exists scid,
     snd (step m2 (EOpen h K_LE psm 1 0 credits)) = [FLeReq (nid m2 h) psm scid credits true] /\
     le_cid_lo <= scid <= c_scid c).
Proof.
  intros R Hu K St Lv Hr h m1 m2.
  pose proof (reachable_Inv m R) as I.
  assert (R1 : reachable m1) by (apply reachable_step; auto).
  assert (R2 : reachable m2) by (apply reachable_step; auto).
  assert (Tc : tget h (c_scid c) (m_chs m) = Some u).
  { apply (ch_reg _ I _ _ Hu). unfold in_use. rewrite Lv, St. reflexivity. }
  assert (Tl : tget h (c_dcid c) (m_le m) = Some u).
  { apply (ch_le _ I _ _ Hu K Lv). rewrite St. reflexivity. }
  assert (E1 : step m (EClose u) =
               (hupd (next_id (wnew m O_PENDING WClose h u) h) u
                  (fun c => match c_kind c with
                            | KLe => flush_output (set_st (set_dw c (Some (wuid m))) SDisconnecting)
                            | KCl => set_st (set_dw c (Some (wuid m))) SWaitDisconnect end),
                [FDiscReq (nid m h) (c_dcid c) (c_scid c)])).
  { cbn [step]. unfold do_close. rewrite Hu, K, St. reflexivity. }
  assert (Hu1 : hget m1 u = Some (flush_output (set_st (set_dw c (Some (wuid m))) SDisconnecting))).
  { unfold m1. rewrite E1. cbn [fst]. acc. rewrite Z.eqb_refl, Hu. cbn [option_map]. now rewrite K. }
  assert (Tc1 : tget h (c_scid c) (m_chs m1) = Some u) by (unfold m1; rewrite E1; cbn [fst]; now acc).
  assert (Tl1 : tget h (c_dcid c) (m_le m1) = Some u) by (unfold m1; rewrite E1; cbn [fst]; now acc).
  set (c1 := flush_output (set_st (set_dw c (Some (wuid m))) SDisconnecting)) in *.
  assert (E2 : m2 = hupd (wres (on_channel_closed (hupd m1 u (fun c => set_st c SDisconnected)) u c1) (wuid m) O_RESULT)
                      u (fun c => set_dw c None)).
  { unfold m2. cbn [step recv fst]. unfold recv_disc_rsp. fold h. rewrite Tc1, Hu1.
    unfold c1 at 1 2 3 4. cbn [c_kind c_st c_dcid c_scid c_dw flush_output set_st set_dw set_out].
    rewrite K, !Z.eqb_refl. cbn [andb negb fst wres_opt]. reflexivity. }
  split; [exact R2|]. split; [now rewrite E1|].
  split.
  { unfold m1. rewrite E1. cbn [fst]. rewrite wout_wget. acc. now rewrite Z.eqb_refl. }
  split.
  { rewrite E2, wout_wget. acc. rewrite Z.eqb_refl. unfold m1. rewrite E1. cbn [fst].
    acc. rewrite Z.eqb_refl. reflexivity. }
  assert (Cc : c_conn c1 = h /\ c_scid c1 = c_scid c /\ c_dcid c1 = c_dcid c) by (unfold c1; cbn; auto).
  destruct Cc as (Cc & Cs & Cd).
  assert (Free : tget h (c_scid c) (m_chs m2) = None).
  { rewrite E2. acc. rewrite Cc, Cs, Tc1. cbn [is_uid]. rewrite Z.eqb_refl.
    acc. now rewrite !Z.eqb_refl. }
  split; [exact Free|].
  split.
  { rewrite E2. acc. rewrite Cc, Cd, Tl1. cbn [is_uid]. rewrite Z.eqb_refl.
    acc. now rewrite !Z.eqb_refl. }
  split.
  { rewrite E2. acc. rewrite !Z.eqb_refl, Hu1. cbn [option_map]. eexists. split; [reflexivity|].
    unfold c1. cbn. auto. }
  intros Hid.
  destruct (reopen_le_free m2 h psm credits (c_scid c) R2 Hr Free Hid) as (scid & Ho & Hs & _).
  eauto.
Qed.
