(* Proofs about Model/Skeleton.v: the abstract outcome sets cover every path, hence a
   well-formed dispatch table answers every command exactly once along every path. *)
From Coq Require Import ZArith List Bool Lia Arith.
From BV Require Import Model.Skeleton.
Import ListNotations.

Lemma term_eqb_eq a b : term_eqb a b = true <-> a = b.
Proof. destruct a, b; cbn; split; intros H; try reflexivity; discriminate. Qed.

Lemma st_eqb_eq a b : st_eqb a b = true <-> a = b.
Proof.
  destruct a as [a1 a2 a3], b as [b1 b2 b3]; unfold st_eqb; cbn.
  rewrite !andb_true_iff, !Nat.eqb_eq, Bool.eqb_true_iff. split.
  - intros [[-> ->] ->]. reflexivity.
  - intros H. inversion H. auto.
Qed.

Lemma aout_eqb_eq a b : aout_eqb a b = true <-> a = b.
Proof.
  destruct a as [a1 a2], b as [b1 b2]; unfold aout_eqb; cbn.
  rewrite andb_true_iff, st_eqb_eq, term_eqb_eq. split.
  - intros [-> ->]. reflexivity.
  - intros H. inversion H. auto.
Qed.

Lemma NoDup_app_one {A} (l : list A) a : NoDup l -> ~ In a l -> NoDup (l ++ [a]).
Proof. intros N H. apply (NoDup_Add (Add_app a l [])). now rewrite app_nil_r. Qed.

Section Dedup.
  Context {A : Type} (eqb : A -> A -> bool).
  Hypothesis eqb_eq : forall a b, eqb a b = true <-> a = b.

  Lemma mem_In a l : mem eqb a l = true <-> In a l.
  Proof.
    induction l as [|b l IH]; cbn.
    - split; [discriminate | tauto].
    - rewrite orb_true_iff, IH, eqb_eq. split; intros [H|H]; auto.
  Qed.

  Lemma dedup_In a l : In a (dedup eqb l) <-> In a l.
  Proof.
    induction l as [|b l IH]; cbn; [tauto|].
    destruct (mem eqb b l) eqn:M.
    - rewrite IH. split; [auto|]. intros [->|H]; [apply mem_In; exact M | exact H].
    - cbn. rewrite IH. tauto.
  Qed.
End Dedup.

Definition dedup_st := dedup_In st_eqb st_eqb_eq.
Definition dedup_aout := dedup_In aout_eqb aout_eqb_eq.
Definition mem_st := mem_In st_eqb st_eqb_eq.

Lemma cap_S n : cap (S (cap n)) = cap (S n).
Proof. destruct n as [|[|[|n]]]; reflexivity. Qed.

Lemma cap_cases n : cap n = 0%nat \/ cap n = 1%nat \/ cap n = 2%nat.
Proof. destruct n as [|[|n]]; cbn; auto. Qed.

Lemma cap_sum_one a b : (cap a + cap b = 1)%nat -> (a + b = 1)%nat.
Proof. destruct a as [|[|a]], b as [|[|b]]; cbn; lia. Qed.

Lemma abs_add_status x : abs (add_status (abs x)) = abs (add_status x).
Proof.
  destruct x as [a b r]; unfold abs, add_status; cbn [n_status n_complete res_none].
  f_equal; [apply cap_S|]. destruct b as [|[|b]]; reflexivity.
Qed.

Lemma abs_add_complete x : abs (add_complete (abs x)) = abs (add_complete x).
Proof.
  destruct x as [a b r]; unfold abs, add_complete; cbn [n_status n_complete res_none].
  f_equal; [|apply cap_S]. destruct a as [|[|a]]; reflexivity.
Qed.

Lemma abs_set_res x b : abs (set_res x b) = set_res (abs x) b.
Proof. reflexivity. Qed.

Lemma abs_in_all x : In (abs x) all_sts.
Proof.
  destruct x as [a b r]. unfold abs; cbn [n_status n_complete res_none].
  destruct (cap_cases a) as [Ha | [Ha | Ha] ], (cap_cases b) as [Hb | [Hb | Hb] ], r; rewrite Ha, Hb; cbn; tauto.
Qed.

Lemma abs_in_top x t : In (abs x, t) top.
Proof.
  unfold top. apply in_flat_map. exists (abs x). split; [apply abs_in_all|].
  destruct t; cbn; tauto.
Qed.

Lemma step_heads_incl f hs h : In h hs -> In h (step_heads f hs).
Proof. intros H. unfold step_heads. apply dedup_st. apply in_or_app. auto. Qed.

Lemma iter_heads_incl n f : forall hs h, In h hs -> In h (iter_heads n f hs).
Proof.
  induction n as [|n IH]; intros hs h H; cbn; [exact H|].
  apply IH. apply step_heads_incl. exact H.
Qed.

Lemma closed_spec f hs :
  closed f hs = true -> forall h o, In h hs -> In o (f h) -> snd o = Fall -> In (fst o) hs.
Proof.
  unfold closed. intros C h o Hh Ho Hf.
  rewrite forallb_forall in C. specialize (C h Hh). rewrite forallb_forall in C.
  specialize (C o Ho). unfold is_fall in C. rewrite Hf in C. cbn in C.
  apply mem_st. exact C.
Qed.

Section Sound.
  Variable call : st -> list nat -> (st * term) * list nat.
  Variable acall : st -> list aout.
  Variable k : kind.
  Hypothesis call_sound : forall x p, In (abs (fst (fst (call x p))), snd (fst (call x p))) (acall (abs x)).

  Definition sound_at (s : sk) : Prop :=
    forall x p, In (abs (fst (fst (run call k s x p))), snd (fst (run call k s x p))) (aouts acall k s (abs x)).

  Lemma loop_sound b : sound_at b ->
    forall f hs, f = aouts acall k b -> closed f hs = true ->
    forall n x p, In (abs x) hs ->
    let r := loop_iter (run call k b) n x p in
    In (abs (fst (fst r)), snd (fst r))
       (map (fun h => (h, Fall)) hs ++ flat_map (fun h => filter (fun o => negb (is_fall o)) (f h)) hs).
  Proof.
    intros Hb f hs -> C n. induction n as [|n IH]; intros x p Hx; cbn [loop_iter].
    - cbn. apply in_or_app. left. apply in_map_iff. exists (abs x). auto.
    - pose proof (Hb x p) as H1. destruct (run call k b x p) as [[x1 t] p1] eqn:R.
      cbn [fst snd] in H1. destruct t; [apply IH; exact (closed_spec _ _ C _ _ Hx H1 eq_refl) | ..].
      (* the body leaves the loop: one of the outcomes of this head that do not fall through *)
      all: cbn [fst snd]; apply in_or_app; right; apply in_flat_map; exists (abs x); (split; [exact Hx|]);
        apply filter_In; (split; [exact H1 | reflexivity]).
  Qed.

  Lemma run_sound : forall s, sound_at s.
  Proof.
    induction s as [| | | | | | | | |a IHa b IHb|a IHa b IHb|a IHa b IHb|a IHa b IHb|b IHb];
      intros x p; cbn [run aouts].
    - cbn. auto.
    - cbn. auto.
    - cbn. left. now rewrite abs_add_status.
    - cbn. left. now rewrite abs_add_complete.
    - cbn. auto.
    - cbn. auto.
    - cbn. auto.
    - cbn. auto.
    - apply call_sound.
    - (* Seq *)
      pose proof (IHa x p) as H1. destruct (run call k a x p) as [[x1 t] p1] eqn:R.
      cbn [fst snd] in H1. apply dedup_aout. apply in_flat_map.
      exists (abs x1, t). split; [exact H1|]. cbn [fst snd].
      destruct t; [apply IHb| cbn; auto ..].
    - (* If *)
      apply dedup_aout. apply in_or_app.
      destruct p as [|c p']; [right; apply IHb|].
      destruct c; [right; apply IHb | left; apply IHa].
    - destruct (is_sync k); [apply IHa | apply IHb].
    - change (res_none (abs x)) with (res_none x). destruct (res_none x); [apply IHa | apply IHb].
    - (* Loop *)
      unfold loop_outs. destruct (closed _ _) eqn:C; [|apply abs_in_top].
      apply dedup_aout.
      apply (loop_sound b IHb _ _ eq_refl C). apply iter_heads_incl. cbn. auto.
  Qed.
End Sound.

Lemma handler_sound k h x p :
  let r := run_handler k h x p in
  In (abs (fst (fst r)), snd (fst r)) (aouts a_no_call k h (abs x)).
Proof.
  apply (run_sound no_call a_no_call k). intros x' p'. cbn. auto.
Qed.

Lemma call_handler_sound k h x p :
  let r := call_handler k h x p in
  In (abs (fst (fst r)), snd (fst r)) (a_call_handler k h (abs x)).
Proof.
  cbn zeta. unfold call_handler, a_call_handler.
  pose proof (handler_sound k h x p) as H. cbn zeta in H.
  destruct (run_handler k h x p) as [[x1 t] p1]. cbn [fst snd] in H.
  apply dedup_aout. apply in_map_iff. exists (abs x1, t). split; [|exact H].
  destruct t; reflexivity.
Qed.

Lemma entry_sound c e p :
  let r := run_entry c e p in In (abs (fst r), snd r) (aouts_entry c e).
Proof.
  cbn zeta. unfold run_entry, aouts_entry.
  pose proof (run_sound (call_handler (e_kind e) (handler_of c e))
                        (a_call_handler (e_kind e) (handler_of c e)) (e_kind e)
                        (fun x p => call_handler_sound _ _ x p) (c_dispatch c) st0 p) as H.
  destruct (run _ _ _ _ _) as [[x1 t] p1]. exact H.
Qed.

Lemma ok_out_spec x t : ok_out (abs x, t) = true -> replies x = 1%nat /\ t <> Exc.
Proof.
  unfold ok_out, replies. cbn [fst snd abs n_status n_complete].
  rewrite andb_true_iff, Nat.eqb_eq, negb_true_iff. intros [H1 H2]. split.
  - apply cap_sum_one. exact H1.
  - intros ->. discriminate.
Qed.

Lemma wf_entry_once c e : wf_entry c e = true ->
  forall p, replies (fst (run_entry c e p)) = 1%nat /\ snd (run_entry c e p) <> Exc.
Proof.
  unfold wf_entry. intros W p. rewrite forallb_forall in W.
  apply ok_out_spec. apply W. apply entry_sound.
Qed.

Lemma lookup_In t op e : lookup t op = Some e -> In e t.
Proof.
  induction t as [|e' t IH]; cbn; [discriminate|].
  destruct (Z.eqb (e_opcode e') op); [intros H; inversion H; auto | auto].
Qed.

(* the theorem of DESIGN 4.5 *)
Theorem wf_table_replies_once c : wf_ctrl c = true ->
  forall op p, replies (fst (run_dispatch c op p)) = 1%nat /\ snd (run_dispatch c op p) <> Exc.
Proof.
  unfold wf_ctrl. rewrite andb_true_iff, forallb_forall. intros [Wt Wd] op p.
  unfold run_dispatch, entry_of. destruct (lookup (c_table c) op) as [e|] eqn:L.
  - apply wf_entry_once. apply Wt. apply (lookup_In _ _ _ L).
  - exact (wf_entry_once c (mkEntry 0 KNone None) Wd p).
Qed.

(* in particular no exception raised by a `raise` statement escapes the dispatch *)
Corollary wf_table_no_exception c : wf_ctrl c = true ->
  forall op p, snd (run_dispatch c op p) <> Exc.
Proof. intros W op p. apply (wf_table_replies_once c W op p). Qed.

(* the dispatch of the unrepaired tree, which loses the reply of a non-synchronous command without
   handler (D03a / D03b): rejected by [wf_ctrl], see C03_old_dispatch_refuted in Props/C03.v *)
Definition old_dispatch : sk :=
  Seq CallH (IfSync (Seq (IfResNone ReturnN Nop) Complete) (IfResNone Nop Nop)).
Definition old_ctrl : ctrl_desc := mkCtrl old_dispatch ReturnV [mkEntry 1025 KAsync None].

(* a handler path that returns before any status is a lost reply (D03c) *)
Definition early_return_handler : sk := Seq (If ReturnN Nop) (Seq Status ReturnN).
Lemma early_return_refuted :
  let c := mkCtrl old_dispatch ReturnV [mkEntry 8205 KAsync (Some early_return_handler)] in
  wf_ctrl c = false /\ replies (fst (run_dispatch c 8205 [1%nat])) = 0%nat
  /\ replies (fst (run_dispatch c 8205 [0%nat])) = 1%nat.
Proof. vm_compute. auto. Qed.
