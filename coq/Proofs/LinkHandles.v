(* The model's side of the comparison with the regenerated table lists of coq/Gen/C06Handles.v
   (property C06); the comparison, re-checked on every run against the current
   bumble/controller.py, is made in Props/C06.v. *)
From Coq Require Import String List Bool.
From BV Require Import Gen.C06Handles.
Import ListNotations.
Open Scope string_scope.

Definition smem (x : string) (l : list string) : bool := existsb (String.eqb x) l.

(* the tables the model's [handles] ranges over, and the one it leaves out because no
   modelled label ever puts a link into it *)
Definition model_handle_tables : list string :=
  ["le_connections"; "classic_connections"; "sco_links"; "central_cis_links"].
Definition model_always_empty : list string := ["peripheral_cis_links"].
