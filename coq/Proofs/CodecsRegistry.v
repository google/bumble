(* Proofs/CodecsRegistry.v — the generic field-codec theorems of Proofs/SpecCodec.v
   instantiated on a registry of PDU classes, and the PDU framing of Model/CodecsRegistry.v. *)
From Coq Require Import ZArith List Bool String Lia.
From BV Require Import Base.Bytes Proofs.Bytes Model.SpecCodec Proofs.SpecCodec
  Model.CodecsBase Proofs.CodecsBase Model.CodecsRegistry Gen.C18Registry.
Import ListNotations.
Open Scope Z_scope.

Lemma wf_pregistry_In : forall cs c, wf_pregistry cs = true -> In c cs -> wf_fields (p_fields c) = true.
Proof.
  intros cs c H Hin. unfold wf_pregistry in H. rewrite forallb_forall in H. specialize (H c Hin).
  unfold wf_pcls in H. rewrite !andb_true_iff in H. tauto.
Qed.

(* every class of a well-formed registry, every in-range value list *)
Theorem registry_fields_roundtrip : forall cs, wf_pregistry cs = true ->
  forall c, In c cs -> forall prev0 vs, in_range (p_fields c) prev0 vs = true ->
  exists b n, serialize_fields (p_fields c) vs = Some b /\
              parse_fields (p_fields c) prev0 b = Some (vs, n) /\ (n <= Datatypes.length b)%nat.
Proof.
  intros cs Hwf c Hin prev0 vs. exact (parse_serialize (p_fields c) prev0 vs (wf_pregistry_In cs c Hwf Hin)).
Qed.

Theorem registry_bytes_roundtrip : forall cs, wf_pregistry cs = true ->
  forall c, In c cs -> forall prev0 bs vs n, bytes_ok bs = true ->
  parse_fields (p_fields c) prev0 bs = Some (vs, n) -> (n <= Datatypes.length bs)%nat ->
  exists pad, serialize_fields (p_fields c) vs = Some (firstn n bs ++ pad) /\
              (tight_fields (p_fields c) = true -> pad = []).
Proof.
  intros cs Hwf c Hin prev0 bs vs n. exact (serialize_parse (p_fields c) prev0 bs vs n (wf_pregistry_In cs c Hwf Hin)).
Qed.

Lemma find_pcls_complete : forall cs c, pkeys_unique cs = true -> In c cs ->
  find_pcls cs (p_proto c) (p_code c) = Some c.
Proof.
  induction cs as [|x r IH]; intros c Hu Hin; [destruct Hin|].
  cbn [pkeys_unique] in Hu. apply andb_true_iff in Hu as [Hx Hr]. apply negb_true_iff in Hx.
  unfold find_pcls. cbn [find]. destruct Hin as [-> | Hin].
  - unfold same_key. rewrite !Z.eqb_refl. reflexivity.
  - destruct (same_key (p_proto c) (p_code c) x) eqn:E.
    + exfalso. unfold same_key in E. apply andb_true_iff in E as [E1 E2].
      apply Z.eqb_eq in E1. apply Z.eqb_eq in E2.
      assert (existsb (same_key (p_proto x) (p_code x)) r = true).
      { apply existsb_exists. exists c. split; [exact Hin|]. unfold same_key.
        rewrite <- E1, <- E2, !Z.eqb_refl. reflexivity. }
      congruence.
    + apply IH; assumption.
Qed.

(* a header starts with the code, has the protocol's length, and gives the identifier back *)
Lemma header_shape : forall proto code ident plen h,
  pdu_header proto code ident plen = Some h ->
  exists hr, h = code :: hr /\ Datatypes.length h = header_len proto /\
  forall tail, pdu_ident proto (h ++ tail) = if (proto =? 0) || (proto =? 3) then ident else 0.
Proof.
  intros proto code ident plen h H. unfold pdu_header, header_len, pdu_ident in *.
  destruct (proto =? 0); [|destruct (proto =? 3)]; cbn [orb].
  - destruct (u_range 1 code && u_range 1 ident && u_range 2 plen); [|discriminate].
    apply some_inv in H. subst h. eexists. repeat split.     (* all three by computation *)
  - destruct (u_range 1 code && u_range 2 ident && u_range 2 plen) eqn:E; [|discriminate].
    apply some_inv in H. subst h. rewrite !andb_true_iff, !u_range_iff in E. eexists. repeat split.
    intro tail. cbn [app skipn]. rewrite <- app_assoc, (firstn_len_app _ 2) by apply be_encode_length.
    apply be_decode_encode. tauto.
  - destruct (u_range 1 code); [|discriminate]. apply some_inv in H. subst h. eexists. repeat split.
Qed.

(* fields -> PDU bytes -> the same class, identifier and fields *)
Theorem registry_pdu_roundtrip : forall cs, wf_pregistry cs = true -> pkeys_unique cs = true ->
  forall c, In c cs -> forall ident vs b,
  (forall prev0, in_range (p_fields c) prev0 vs = true) ->
  pdu_encode c ident vs = Some b ->
  pdu_decode cs (p_proto c) b =
  Some (c, (if (p_proto c =? 0) || (p_proto c =? 3) then ident else 0), vs).
Proof.
  intros cs Hwf Hu c Hin ident vs b Hr He. unfold pdu_encode in He.
  destruct (serialize_fields (p_fields c) vs) as [payload|] eqn:Es; [|discriminate].
  destruct (pdu_header (p_proto c) (p_code c) ident (lenZ payload)) as [h|] eqn:Eh; [|discriminate].
  apply some_inv in He. subst b.
  destruct (header_shape _ _ _ _ h Eh) as (hr & Eh' & Hl & Hid).
  unfold pdu_decode. rewrite Hid, <- Hl, firstn_app_exact, skipn_app_exact.
  replace (Datatypes.length (h ++ payload) <? Datatypes.length h)%nat with false
    by (symmetry; apply Nat.ltb_ge; rewrite app_length; lia).
  subst h. cbn [app]. rewrite (find_pcls_complete cs c Hu Hin).
  destruct (parse_serialize (p_fields c) (last (p_code c :: hr) 0) vs (wf_pregistry_In cs c Hwf Hin) (Hr _))
    as (b' & n & Hs' & Hp' & _).
  rewrite Es in Hs'. apply some_inv in Hs'. subst b'. rewrite Hp'. reflexivity.
Qed.
