(* C14 - the built-in ECDH (after fixes/D14.patch): a pair of coordinates that fails the
   validation is rejected, in any sequence of calls on one key; the validation reads coordinates
   modulo p; what the unvalidated code returned; the curve parameters in the source are those of
   NIST P-256; small multiples of G. *)
From Coq Require Import ZArith List Bool Lia ZifyBool.
From BV Require Import Gen.C14Tables Model.CryptoBytes Model.P256 Proofs.CryptoBytes Proofs.P256Eval.
Import ListNotations.
Open Scope Z_scope.

Lemma cong_iff_0 : forall a b p, 0 < p -> ((a - b) mod p = 0 <-> a mod p = b mod p).
Proof.
  intros a b p Hp. rewrite Zminus_mod.
  pose proof (Z.mod_pos_bound a p Hp). pose proof (Z.mod_pos_bound b p Hp).
  split; intros H1.
  - apply Z.mod_divide in H1; [|lia]. destruct H1 as [k Hk]. assert (k = 0) by nia. lia.
  - rewrite H1, Z.sub_diag. apply Z.mod_0_l. lia.
Qed.

(* the validation does not depend on the representative of a coordinate modulo p *)
Lemma on_curve_mod : forall c x y, 0 < cp c ->
  on_curve c x y = on_curve c (x mod cp c) (y mod cp c).
Proof. intros c x y _. unfold on_curve. f_equal. symmetry. mod_ring. Qed.

(* every pair of coordinates that fails the validation is rejected, whatever the private key *)
Theorem ecdh_rejects_invalid : forall c d x y,
  on_curve c x y = false -> ecdh c d x y = InvalidKey.
Proof. intros c d x y H. unfold ecdh. rewrite H. reflexivity. Qed.

(* EccKey is stateless: in any sequence of dh() calls on one key object every result is the
   result of that call alone, so an invalid peer key is rejected whatever was computed before *)
Theorem dh_history_pure : forall c d calls i xb yb,
  nth_error calls i = Some (xb, yb) ->
  nth_error (ecc_dh_history c d calls) i = Some (ecc_dh c d xb yb).
Proof.
  intros c d calls i xb yb H. unfold ecc_dh_history.
  rewrite nth_error_map, H. reflexivity.
Qed.

(* In the evaluations below the inverse of the final z coordinate is supplied
   ([to_affine_given]) and the doublings are made in reduced form ([jac_double_red]). *)

(* what the defect was: without the validation the same arithmetic returns a "secret" for
   the off-curve pair (1,1) and for (0,0) (computed on small private keys to keep this cheap) *)
Lemma ecdh_unchecked_refuted :
  on_curve secp256r1 1 1 = false /\ (exists s, ecdh_unchecked secp256r1 5 1 1 = Secret s) /\
  on_curve secp256r1 0 0 = false /\ ecdh_unchecked secp256r1 5 0 0 = Secret (to_be 32 0).
Proof.
  unfold ecdh_unchecked.
  rewrite <- (to_affine_given_eq secp256r1 0x1344bb2eb86e318c765d8160581605816058160594a51344d1344d1344d1344d
                (jac_mul secp256r1 (from_affine 1 1) 5) eq_refl).
  cbn [jac_mul jac_mul_pos]. rewrite <- !jac_double_red_eq.
  vm_compute. repeat split. eexists. reflexivity.
Qed.

(* FIPS 186-4 D.1.2.3 / SEC 2 secp256r1, transcribed by hand in hexadecimal *)
Definition nist_p : Z := 0xffffffff00000001000000000000000000000000ffffffffffffffffffffffff.
Definition nist_b : Z := 0x5ac635d8aa3a93e7b3ebbd55769886bc651d06b0cc53b0f63bce3c3e27d2604b.
Definition nist_n : Z := 0xffffffff00000000ffffffffffffffffbce6faada7179e84f3b9cac2fc632551.
Definition nist_gx : Z := 0x6b17d1f2e12c4247f8bce6e563a440f277037d812deb33a0f4a13945d898c296.
Definition nist_gy : Z := 0x4fe342e2fe1a7f9b8ee7eb4a7c0f9e162bce33576b315ececbb6406837bf51f5.

Lemma p256_shape : nist_p = 2 ^ 256 - 2 ^ 224 + 2 ^ 192 + 2 ^ 96 - 1.
Proof. vm_compute. reflexivity. Qed.

Lemma generator_on_curve : on_curve secp256r1 (cgx secp256r1) (cgy secp256r1) = true.
Proof. vm_compute. reflexivity. Qed.

(* ... and for a valid point the validated function does produce a secret *)
Lemma ecdh_of_generator : exists s, ecdh secp256r1 5 (cgx secp256r1) (cgy secp256r1) = Secret s.
Proof.
  unfold ecdh. rewrite generator_on_curve.
  rewrite <- (to_affine_given_eq secp256r1 0x7644bca6c9143d3517c47db0b20afc20213e88018fc1549f7912c79395ca5f54
                (jac_mul secp256r1 (from_affine (cgx secp256r1) (cgy secp256r1)) 5) eq_refl).
  cbn [jac_mul jac_mul_pos]. rewrite <- !jac_double_red_eq.
  vm_compute. eexists. reflexivity.
Qed.

(* off-curve, out-of-range and twist points are rejected; small multiples of G *)
Example validation_examples :
  on_curve secp256r1 0 0 = false /\ on_curve secp256r1 1 1 = false /\
  on_curve secp256r1 (cgx secp256r1 + cp secp256r1) (cgy secp256r1) = true /\
  on_curve secp256r1 (cgx secp256r1 + cp secp256r1 + 1) (cgy secp256r1) = false /\
  on_curve secp256r1 (cgx secp256r1) (cgy secp256r1 + 1) = false /\
  on_curve secp256r1 (cgx secp256r1) (cp secp256r1 - cgy secp256r1) = true /\
  on_curve secp256r1 (cgx secp256r1) (- cgy secp256r1) = true /\
  on_curve secp256r1 (cgx secp256r1) 0 = false /\ on_curve secp256r1 (cp secp256r1) (cp secp256r1) = false.
Proof. vm_compute. repeat split. Qed.

Example small_multiples :
  public_key secp256r1 1 = Affine nist_gx nist_gy /\
  public_key secp256r1 2 =
    Affine 0x7cf27b188d034f7e8a52380304b51ac3c08969e277f21b35a60b48fc47669978
           0x07775510db8ed040293d9ac69f7430dbba7dade63ce982299e04b79d227873d1 /\
  public_key secp256r1 3 =
    Affine 0x5ecbe4d1a6330a44c8f7ef951d4bf165e6c6b721efada985fb41661bc6e7fd6c
           0x8734640c4998ff7e374b06ce1a64a2ecd82ab036384fb83d9a79b127a27d5032 /\
  public_key secp256r1 0 = Infinite.
Proof.
  unfold public_key. set (G := (cgx secp256r1, cgy secp256r1, 1)).
  rewrite <- (to_affine_given_eq secp256r1 0x7d13d1ed160030c54147c66b2e0d48cf7fe33dfb45a6dd82dded53bae22ea01a
                (jac_mul secp256r1 G 2) eq_refl),
          <- (to_affine_given_eq secp256r1 0xf2be5a324b049497d7ceca5a76df164155fb6c84a1e806370e6fed7c4fcc494e
                (jac_mul secp256r1 G 3) eq_refl).
  (* 2G is needed for 2G and for 3G = G + 2G: named, it is evaluated once *)
  cbn [jac_mul jac_mul_pos]. rewrite <- !jac_double_red_eq. set (G2 := jac_double_red secp256r1 G).
  vm_compute. repeat split.
Qed.

(* The Core specification P-256 data sets (full-size private keys) are not evaluated in this
   file: one 256-bit scalar multiplication costs tens of seconds under vm_compute and far more
   under coqchk.  The harness evaluates them (thorough tier) against the implementation, whose
   result the oracle compares with the specification's DHKey. *)
