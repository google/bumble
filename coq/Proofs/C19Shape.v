(* The regenerated source shape (Gen/C19Shape.v, rewritten from the current bumble sources on every run)
   against the models of property C19.  This file holds what the comparisons of Props/C19.v are stated with
   ([a_frag_src]: the fragmenter written with the source's arithmetic; [initiator_check], [acceptor_check]: the
   stream procedures against the transition table read from the source) and the comparisons that need an
   argument: header bytes, id ranges, count tests.  Those that hold by evaluation are proved in Props/C19.v. *)
From Coq Require Import ZArith List Bool Lia.
From BV Require Import Model.C19Chunks Model.Sdp Model.AvdtpAsm Model.AvctpAsm Model.AvdtpStream Model.C19Shape.
From BV Require Import Gen.C19Shape Proofs.C19Chunks Proofs.AvdtpAsm Proofs.AvctpAsm Proofs.BitFields.
Import ListNotations.
Open Scope Z_scope.

Lemma sdp_search_first_src : forall recs mtu cur pat mc,
  handle recs mtu cur (QSearch pat mc CFresh) =
  handle recs mtu (RHandles (zlen (map fst (match_services recs pat)))
                            (firstn (Z.to_nat mc) (map fst (match_services recs pat))))
         (QSearch pat mc CValid).
Proof. reflexivity. Qed.

Lemma sdp_ids_src : forall v,
  g_sdp_is_range 4 = true /\ g_sdp_is_range 2 = false /\
  id_lo (true, v) = g_sdp_id_lo v /\ id_hi (true, v) = g_sdp_id_hi v /\
  id_lo (false, v) = v /\ id_hi (false, v) = v.
Proof.
  intro v. unfold id_lo, id_hi, g_sdp_id_lo, g_sdp_id_hi. cbn [fst snd].
  rewrite Z.shiftr_div_pow2 by lia. change 65535 with (Z.ones 16). rewrite Z.land_ones by lia.
  repeat split.
Qed.

Definition a_frag_src (mtu label sig mt : Z) (payload : list Z) : fragres :=
  let F := g_avdtp_fragment_size mtu in
  if g_avdtp_single (zlen payload) mtu then
    FPackets [a_hdr label PT_SINGLE mt :: sig :: payload]
  else
    let n := g_avdtp_packet_count F (zlen payload) in
    if 255 <? n then FRaise
    else
      match chunks (length payload) (Z.to_nat F) (skipn (Z.to_nat F) payload) with
      | None => FOutOfFuel
      | Some cs =>
          FPackets ((a_hdr label PT_START mt :: sig :: n :: firstn (Z.to_nat F) payload)
                    :: a_tail_packets label mt cs)
      end.

Lemma avdtp_header_src : forall label pt mt,
  0 <= label < 16 -> 0 <= pt < 4 -> 0 <= mt < 4 -> g_avdtp_header label pt mt = a_hdr label pt mt.
Proof.
  intros label pt mt Hl Hp Hm. unfold g_avdtp_header, a_hdr. rewrite (pack3_sum 2 2) by lia. lia.
Qed.

(* the model decodes a header byte exactly as MessageAssembler.on_pdu does: a shift is a division by a
   power of two, a mask of n ones the remainder modulo 2^n *)
Lemma avdtp_decode_src : forall b,
  g_avdtp_label b = b / 16 /\ g_avdtp_packet_type b = (b / 4) mod 4 /\
  g_avdtp_message_type b = b mod 4 /\ g_avdtp_signal b = b mod 64.
Proof.
  intros b. unfold g_avdtp_label, g_avdtp_packet_type, g_avdtp_message_type, g_avdtp_signal.
  change 3 with (Z.ones 2). change 63 with (Z.ones 6).
  rewrite !Z.land_ones, !Z.shiftr_div_pow2 by lia. repeat split.
Qed.

Lemma avctp_decode_src : forall b,
  g_avctp_label b = b / 16 /\ g_avctp_packet_type b = (b / 4) mod 4 /\
  g_avctp_cr b = (b / 2) mod 2 /\ g_avctp_ipid b = b mod 2.
Proof.
  intros b. unfold g_avctp_label, g_avctp_packet_type, g_avctp_cr, g_avctp_ipid.
  change 3 with (Z.ones 2). change 1 with (Z.ones 1) at 2 3.
  rewrite !Z.land_ones, !Z.shiftr_div_pow2 by lia. repeat split.
Qed.

Definition zcode (s : sst) : Z := Z.of_nat (sst_code s).
Definition zmem (x : Z) (l : list Z) : bool := existsb (Z.eqb x) l.
Definition row (t : list (list Z * list Z)) (i : nat) : list Z * list Z := nth i t ([], []).

(* states in which the initiator's procedure goes ahead: the guard of the table; Stream.start opens first
   when CONFIGURED (the translator checks that `if self.state == State.CONFIGURED: await self.open()` is there) *)
Definition initiator_allowed (o : sop) : option (list Z) :=
  match o with
  | OpConfigure => Some (fst (row e_stream_initiator 0))
  | OpOpen => Some (fst (row e_stream_initiator 1))
  | OpStart => Some (fst (row e_stream_initiator 1) ++ fst (row e_stream_initiator 2))
  | OpSuspend => Some (fst (row e_stream_initiator 3))
  | OpClose => Some (fst (row e_stream_initiator 4))
  | OpAbort => Some (fst (row e_stream_initiator 5))
  | _ => None
  end.
Definition initiator_final (o : sop) : option Z :=
  match o with
  | OpConfigure => Some (last (snd (row e_stream_initiator 0)) 9)
  | OpOpen => Some (last (snd (row e_stream_initiator 1)) 9)
  | OpStart => Some (last (snd (row e_stream_initiator 2)) 9)
  | OpSuspend => Some (last (snd (row e_stream_initiator 3)) 9)
  | OpClose => Some (last (snd (row e_stream_initiator 4)) 9)
  | OpAbort => Some (last (snd (row e_stream_initiator 5)) 9)
  | _ => None
  end.

Definition is_refused (r : sres) : bool := match r with Refused => true | _ => false end.
Definition is_ok (r : sres) : bool := match r with Ok => true | _ => false end.

(* in every agreeing state the model's initiator refuses exactly outside the source's guard, and an accepted
   procedure ends in the last change_state target of the source *)
Definition initiator_check (p : pair) (o : sop) : bool :=
  match initiator_allowed o, initiator_final o with
  | Some allowed, Some final =>
      implb (agree p)
        (let '(p', r) := step p o in
         Bool.eqb (is_refused r) (negb (zmem (zcode (src_st p)) allowed))
         && implb (is_ok r) (zcode (src_st p') =? final))
  | _, _ => true
  end.

(* the acceptor: Protocol.on_X_command + Stream.on_X_command accept exactly in the guard's states (given a
   stream exists; on_set_configuration makes a fresh IDLE stream unless the endpoint is in use; on_start also
   needs the RTP channel), and move to one of the source's targets *)
Definition acceptor_check (p : pair) : bool :=
  let st := zcode (snk_st p) in
  let g i := fst (row e_stream_acceptor i) in
  let t i := snd (row e_stream_acceptor i) in
  let after (r : bool * pair) := zcode (snk_st (snd r)) in
  Bool.eqb (fst (snk_set_configuration p)) (negb (snk_has p) || zmem st (g 0%nat))
  && implb (fst (snk_set_configuration p)) (zmem (after (snk_set_configuration p)) (t 0%nat))
  && Bool.eqb (fst (snk_open p)) (snk_has p && zmem st (g 1%nat))
  && implb (fst (snk_open p)) (zmem (after (snk_open p)) (t 1%nat))
  && Bool.eqb (fst (snk_start p)) (snk_has p && zmem st (g 2%nat) && snk_rtp p)
  && implb (fst (snk_start p)) (zmem (after (snk_start p)) (t 2%nat))
  && Bool.eqb (fst (snk_suspend p)) (snk_has p && zmem st (g 3%nat))
  && implb (fst (snk_suspend p)) (zmem (after (snk_suspend p)) (t 3%nat))
  && Bool.eqb (fst (snk_close p)) (snk_has p && zmem st (g 4%nat))
  && implb (fst (snk_close p)) (zmem (after (snk_close p)) (t 4%nat))
  && implb (snk_has p) (zmem (zcode (snk_st (snk_abort p))) (t 5%nat))
  && Bool.eqb (is_ok (snd (step p OpGetConfiguration))) (snk_has p && zmem st (g 6%nat))
  && Bool.eqb (is_ok (snd (step p OpReconfigure))) (snk_has p && zmem st (g 7%nat)).
