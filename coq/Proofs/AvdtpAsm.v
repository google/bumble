(* AVDTP: what Protocol.send_message emits is reassembled byte-identically by
   MessageAssembler, from ANY assembler state (resynchronisation). *)
From Coq Require Import ZArith List Bool Lia.
From BV Require Import Model.C19Chunks Model.AvdtpAsm Proofs.C19Chunks.
Import ListNotations.
Open Scope Z_scope.

(* a PDU whose header byte was built by [a_hdr] is handled with the fields it was built from *)
Lemma pdu_hdr : forall s label pt mt rest,
  0 <= label -> 0 <= pt < 4 -> 0 <= mt < 4 ->
  a_on_pdu s (a_hdr label pt mt :: rest) = a_on_frame (a_set_count s (a_count s + 1)) label pt mt rest.
Proof.
  intros s label pt mt rest Hl Hp Hm. unfold a_on_pdu, a_hdr. f_equal; Z.div_mod_to_equations; lia.
Qed.

Lemma frame_single : forall s label mt sg body,
  a_on_frame s label PT_SINGLE mt (sg :: body) = (a_reset, [AMsg label (sg mod 64) mt body]).
Proof. reflexivity. Qed.

Lemma frame_start : forall s label mt sg n body,
  a_on_frame s label PT_START mt (sg :: n :: body) = (mkA label (Some body) mt (sg mod 64) n 1, []).
Proof. reflexivity. Qed.

(* a CONTINUE / END packet of the message being assembled: only the count tests are left *)
Lemma frame_tail : forall label acc mt sg n k c,
  (k =? 0) = false ->
  a_on_frame (mkA label (Some acc) mt sg n k) label PT_END mt c =
    (if negb (k =? n) then (a_reset, []) else (a_reset, [AMsg label sg mt (acc ++ c)])) /\
  a_on_frame (mkA label (Some acc) mt sg n k) label PT_CONTINUE mt c =
    (if n <? k then (a_reset, []) else (mkA label (Some (acc ++ c)) mt sg n k, [])).
Proof.
  intros label acc mt sg n k c Hk. unfold a_on_frame.
  change ((PT_END =? PT_SINGLE) || (PT_END =? PT_START)) with false.
  change ((PT_CONTINUE =? PT_SINGLE) || (PT_CONTINUE =? PT_START)) with false.
  cbn [a_count a_label a_mtype a_msg a_nsp a_sig]. rewrite Hk, !Z.eqb_refl. cbn [negb].
  change (PT_END =? PT_END) with true. change (PT_CONTINUE =? PT_END) with false. split; reflexivity.
Qed.

Lemma pdu_single : forall s label mt sg body,
  0 <= label -> 0 <= mt < 4 -> 0 <= sg < 64 ->
  a_on_pdu s (a_hdr label PT_SINGLE mt :: sg :: body) = (a_reset, [AMsg label sg mt body]).
Proof.
  intros s label mt sg body Hl Hm Hs.
  rewrite pdu_hdr, frame_single by (unfold PT_SINGLE; lia). rewrite (Z.mod_small sg 64) by lia. reflexivity.
Qed.

Lemma pdu_start : forall s label mt sg n body,
  0 <= label -> 0 <= mt < 4 -> 0 <= sg < 64 ->
  a_on_pdu s (a_hdr label PT_START mt :: sg :: n :: body) = (mkA label (Some body) mt sg n 1, []).
Proof.
  intros s label mt sg n body Hl Hm Hs.
  rewrite pdu_hdr, frame_start by (unfold PT_START; lia). rewrite (Z.mod_small sg 64) by lia. reflexivity.
Qed.

Lemma pdu_continue : forall label acc mt sg n k c,
  0 <= label -> 0 <= mt < 4 -> 0 <= k -> k + 1 <= n ->
  a_on_pdu (mkA label (Some acc) mt sg n k) (a_hdr label PT_CONTINUE mt :: c) =
  (mkA label (Some (acc ++ c)) mt sg n (k + 1), []).
Proof.
  intros label acc mt sg n k c Hl Hm Hk Hn.
  rewrite pdu_hdr by (unfold PT_CONTINUE; lia). unfold a_set_count. cbn [a_count a_label a_mtype a_msg a_nsp a_sig].
  rewrite (proj2 (frame_tail label acc mt sg n (k + 1) c ltac:(apply Z.eqb_neq; lia))).
  now rewrite (proj2 (Z.ltb_ge n (k + 1))) by lia.
Qed.

Lemma pdu_end : forall label acc mt sg n k c,
  0 <= label -> 0 <= mt < 4 -> 0 <= k -> k + 1 = n ->
  a_on_pdu (mkA label (Some acc) mt sg n k) (a_hdr label PT_END mt :: c) =
  (a_reset, [AMsg label sg mt (acc ++ c)]).
Proof.
  intros label acc mt sg n k c Hl Hm Hk Hn.
  rewrite pdu_hdr by (unfold PT_END; lia). unfold a_set_count. cbn [a_count a_label a_mtype a_msg a_nsp a_sig].
  rewrite Hn, (proj1 (frame_tail label acc mt sg n n c ltac:(apply Z.eqb_neq; lia))).
  now rewrite Z.eqb_refl.
Qed.

Lemma a_run_app : forall p1 p2 s,
  a_run s (p1 ++ p2) =
  (fst (a_run (fst (a_run s p1)) p2), snd (a_run s p1) ++ snd (a_run (fst (a_run s p1)) p2)).
Proof.
  induction p1 as [|p p1 IH]; intros p2 s; simpl.
  - destruct (a_run s p2); reflexivity.
  - destruct (a_on_pdu s p) as [s1 o1]. rewrite IH.
    destruct (a_run s1 p1) as [s2 o2]. simpl.
    destruct (a_run s2 p2) as [s3 o3]. simpl. rewrite app_assoc. reflexivity.
Qed.

(* the CONTINUE / END packets after a START packet *)
Lemma tail_run : forall cs label sg mt n acc k,
  cs <> [] -> 0 <= label -> 0 <= mt < 4 -> 0 <= k -> k + zlen cs = n ->
  a_run (mkA label (Some acc) mt sg n k) (a_tail_packets label mt cs) =
  (a_reset, [AMsg label sg mt (acc ++ concat cs)]).
Proof.
  induction cs as [|c cs IH]; intros label sg mt n acc k Hne Hl Hm Hk Hn; [congruence|].
  destruct cs as [|c2 cs'].
  - (* last piece: END *)
    cbn [a_tail_packets a_run]. rewrite zlen_cons, zlen_nil in Hn.
    rewrite (pdu_end label acc mt sg n k c Hl Hm Hk ltac:(lia)). cbn [concat app]. rewrite !app_nil_r. reflexivity.
  - change (a_tail_packets label mt (c :: c2 :: cs'))
      with ((a_hdr label PT_CONTINUE mt :: c) :: a_tail_packets label mt (c2 :: cs')).
    rewrite zlen_cons in Hn. pose proof (zlen_nonneg _ (c2 :: cs')) as Hnn.
    assert (1 <= zlen (c2 :: cs')) by (rewrite zlen_cons; pose proof (zlen_nonneg _ cs'); lia).
    cbn [a_run]. rewrite (pdu_continue label acc mt sg n k c Hl Hm Hk ltac:(lia)).
    rewrite (IH label sg mt n (acc ++ c) (k + 1) ltac:(discriminate) Hl Hm ltac:(lia) ltac:(lia)).
    cbn [concat app]. rewrite <- !app_assoc. reflexivity.
Qed.

Definition hdr_ok (label sg mt : Z) : bool :=
  (0 <=? label) && (label <? 16) && (0 <=? sg) && (sg <? 64) && (0 <=? mt) && (mt <? 4).

(* the byte-count guard of send_message: single packet, or at most 255 packets *)
Definition size_ok (mtu : Z) (payload : list Z) : bool :=
  (zlen payload + 2 <=? mtu) || (zlen payload <=? 255 * (mtu - 3)).

Lemma hdr_ok_inv : forall label sg mt, hdr_ok label sg mt = true ->
  0 <= label < 16 /\ 0 <= sg < 64 /\ 0 <= mt < 4.
Proof.
  intros label sg mt H. unfold hdr_ok in H. repeat rewrite andb_true_iff in H.
  destruct H as (((((H1 & H2) & H3) & H4) & H5) & H6).
  apply Z.leb_le in H1, H3, H5. apply Z.ltb_lt in H2, H4, H6. lia.
Qed.

(* a CONTINUE / END packet is its piece and one header byte *)
Lemma tail_packets_fit : forall label mt n cs,
  Forall (fun c => (length c <= n)%nat) cs ->
  Forall (fun p => zlen p <= 1 + Z.of_nat n) (a_tail_packets label mt cs).
Proof.
  intros label mt n cs H. induction H as [|c cs Hc _ IH]; [constructor|].
  destruct cs as [|c2 cs']; [constructor; [|constructor]|constructor; [|exact IH]];
    rewrite zlen_cons; unfold zlen; lia.
Qed.

Lemma ceil_le_255 : forall F L, 1 <= F -> 0 <= L -> L <= 255 * F -> (F - 1 + L) / F <= 255.
Proof.
  intros F L HF HL H. apply Z.lt_succ_r. apply Z.div_lt_upper_bound; lia.
Qed.

Lemma ceil_gt_255 : forall F L, 1 <= F -> 255 * F < L -> 255 < (F - 1 + L) / F.
Proof.
  intros F L HF H. apply Z.lt_le_trans with (m := (256 * F) / F).
  - rewrite Z.div_mul by lia. lia.
  - apply Z.div_le_mono; lia.
Qed.

(* Main theorem: for every MTU >= 4, every header, every payload within the guard, from every
   assembler state: send_message's packets are delivered as exactly that message, and the
   assembler is left in its reset state.  Every packet fits the MTU. *)
Theorem frag_asm : forall mtu label sg mt payload s,
  4 <= mtu -> hdr_ok label sg mt = true -> size_ok mtu payload = true ->
  exists ps, a_frag mtu label sg mt payload = FPackets ps /\
             a_run s ps = (a_reset, [AMsg label sg mt payload]) /\
             Forall (fun p => zlen p <= mtu) ps.
Proof.
  intros mtu label sg mt payload s Hmtu Hh Hsz. apply hdr_ok_inv in Hh.
  unfold a_frag. destruct (zlen payload + 2 <=? mtu) eqn:Es.
  - (* single packet *)
    apply Z.leb_le in Es. eexists. split; [reflexivity|]. split.
    + cbn [a_run]. rewrite pdu_single by lia. reflexivity.
    + constructor; [|constructor]. rewrite !zlen_cons. lia.
  - apply Z.leb_gt in Es. unfold size_ok in Hsz.
    apply orb_true_iff in Hsz. destruct Hsz as [Hsz|Hsz]; [apply Z.leb_le in Hsz; lia|].
    apply Z.leb_le in Hsz.
    set (F := mtu - 3) in *. assert (HF : 1 <= F) by (unfold F; lia).
    pose proof (zlen_nonneg _ payload) as HL.
    pose proof (ceil_le_255 F (zlen payload) HF HL Hsz) as Hn.
    destruct (255 <? (F - 1 + zlen payload) / F) eqn:En; [apply Z.ltb_lt in En; lia|].
    assert (HFn : (1 <= Z.to_nat F)%nat) by lia.
    assert (Hlen : (Z.to_nat F <= length payload)%nat) by (unfold zlen in *; lia).
    destruct (chunks_some (length payload) (Z.to_nat F) (skipn (Z.to_nat F) payload) HFn) as [cs Ecs].
    { rewrite skipn_length. lia. }
    rewrite Ecs. eexists. split; [reflexivity|].
    pose proof (chunks_concat _ _ _ _ Ecs) as Hcat.
    pose proof (chunks_count _ _ _ _ HFn Ecs) as Hcnt.
    pose proof (chunks_pieces _ _ _ _ HFn Ecs) as Hpieces.
    rewrite zlen_skipn in Hcnt by exact Hlen. rewrite Z2Nat.id in Hcnt by lia.
    assert (Hn' : (F - 1 + zlen payload) / F = 1 + zlen cs).
    { rewrite Hcnt.
      replace (F - 1 + zlen payload) with ((zlen payload - F + F - 1) + 1 * F) by lia.
      rewrite Z.div_add by lia. lia. }
    assert (Hcs : cs <> []).
    { intro Hc. subst cs. simpl in Hcat.
      assert (length (skipn (Z.to_nat F) payload) = 0%nat) by (rewrite <- Hcat; reflexivity).
      rewrite skipn_length in H. unfold zlen in *. lia. }
    split.
    + cbn [a_run]. rewrite pdu_start by lia.
      rewrite (tail_run cs label sg mt ((F - 1 + zlen payload) / F) (firstn (Z.to_nat F) payload) 1 Hcs
                ltac:(lia) ltac:(lia) ltac:(lia) (eq_sym Hn')).
      rewrite Hcat, firstn_skipn. reflexivity.
    + constructor.
      * rewrite !zlen_cons. rewrite zlen_firstn by exact Hlen. unfold F. lia.
      * eapply Forall_impl; [|apply (tail_packets_fit label mt (Z.to_nat F))].
        -- intros p Hp. cbv beta in Hp. unfold F in *. lia.
        -- eapply Forall_impl; [|exact Hpieces]. intros c Hc. exact (proj2 Hc).
Qed.

(* beyond the guard the packet count does not fit a byte: send_message raises, nothing is sent *)
Theorem frag_over_guard : forall mtu label sg mt payload,
  4 <= mtu -> size_ok mtu payload = false -> a_frag mtu label sg mt payload = FRaise.
Proof.
  intros mtu label sg mt payload Hmtu Hsz. unfold size_ok in Hsz.
  apply orb_false_iff in Hsz. destruct Hsz as [H1 H2].
  unfold a_frag. rewrite H1. apply Z.leb_gt in H2.
  pose proof (ceil_gt_255 (mtu - 3) (zlen payload) ltac:(lia) H2) as H.
  apply Z.ltb_lt in H. rewrite H. reflexivity.
Qed.

(* Resynchronisation: whatever was received before (any PDUs at all, from any state), the next
   message sent by send_message is delivered intact, after whatever the junk produced. *)
Theorem resync : forall junk mtu label sg mt payload s,
  4 <= mtu -> hdr_ok label sg mt = true -> size_ok mtu payload = true ->
  exists ps, a_frag mtu label sg mt payload = FPackets ps /\
             a_run s (junk ++ ps) = (a_reset, snd (a_run s junk) ++ [AMsg label sg mt payload]).
Proof.
  intros junk mtu label sg mt payload s Hmtu Hh Hsz.
  destruct (frag_asm mtu label sg mt payload (fst (a_run s junk)) Hmtu Hh Hsz) as (ps & Hf & Hr & _).
  exists ps. split; [exact Hf|]. rewrite a_run_app, Hr. reflexivity.
Qed.

(* Fragments laid out by a peer with ANY cut of the payload (first piece c0, further pieces cs)
   are reassembled too: the assembler does not depend on the sender's fragment size. *)
Theorem any_cut_asm : forall label sg mt c0 cs s,
  hdr_ok label sg mt = true -> cs <> [] ->
  a_run s ((a_hdr label PT_START mt :: sg :: (1 + zlen cs) :: c0) :: a_tail_packets label mt cs) =
  (a_reset, [AMsg label sg mt (c0 ++ concat cs)]).
Proof.
  intros label sg mt c0 cs s Hh Hcs. apply hdr_ok_inv in Hh.
  cbn [a_run]. rewrite pdu_start by lia.
  rewrite (tail_run cs label sg mt (1 + zlen cs) c0 1 Hcs ltac:(lia) ltac:(lia) ltac:(lia) eq_refl). reflexivity.
Qed.
