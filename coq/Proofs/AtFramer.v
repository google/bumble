(* Proofs about Model/AtFramer.v: what the AT readers hand to their parsers, and what
   they keep buffered, does not depend on how the byte stream is cut into chunks. *)
From Coq Require Import ZArith List Bool Lia Arith.
From BV Require Import Model.AtFramer.
Import ListNotations.

Lemma prefixb_len d l : prefixb d l = true -> (length d <= length l)%nat.
Proof.
  revert l. induction d as [|a d IH]; intros l H; cbn; [lia|].
  destruct l as [|b l]; [discriminate|]. cbn in H. apply andb_prop in H as [_ H].
  specialize (IH l H). cbn. lia.
Qed.

Lemma prefixb_app_long d l c : (length d <= length l)%nat -> prefixb d (l ++ c) = prefixb d l.
Proof.
  revert l. induction d as [|a d IH]; intros l H; [reflexivity|].
  destruct l as [|b l]; [cbn in H; lia|]. cbn. rewrite IH by (cbn in H; lia). reflexivity.
Qed.

Lemma find_sub_len d l i : find_sub d l = Some i -> (i + length d <= length l)%nat.
Proof.
  revert i. induction l as [|x r IH]; intros i H; [discriminate|]. cbn [find_sub] in H.
  destruct (prefixb d (x :: r)) eqn:E.
  - inversion H; subst. apply prefixb_len in E. lia.
  - destruct (find_sub d r) as [j|]; [|discriminate]. inversion H; subst.
    specialize (IH j eq_refl). cbn. lia.
Qed.

(* a delimiter found in the buffer is found at the same place when more bytes follow *)
Lemma find_sub_app d l c i : find_sub d l = Some i -> find_sub d (l ++ c) = Some i.
Proof.
  revert i. induction l as [|x r IH]; intros i H; [discriminate|].
  cbn [find_sub app] in *. destruct (prefixb d (x :: r)) eqn:E.
  - change (x :: r ++ c) with ((x :: r) ++ c).
    rewrite prefixb_app_long by (apply prefixb_len; exact E). rewrite E. exact H.
  - destruct (find_sub d r) as [j|] eqn:F; [|discriminate]. inversion H; subst.
    change (x :: r ++ c) with ((x :: r) ++ c).
    rewrite prefixb_app_long by (apply find_sub_len in F; cbn; lia).
    rewrite E. rewrite (IH j eq_refl). reflexivity.
Qed.

Section Reader.
  Variable R : reader.
  Hypothesis Hd : r_delim R <> [].

  Lemma delim_pos : (1 <= length (r_delim R))%nat.
  Proof. destruct (r_delim R); [congruence|cbn; lia]. Qed.

  (* a delimiter that is found lies inside the buffer, and what follows it is shorter *)
  Lemma rest_shorter buf i :
    find_sub (r_delim R) buf = Some i ->
    (i + length (r_delim R) <= length buf /\
     length (skipn (i + length (r_delim R)) buf) < length buf)%nat.
  Proof.
    intros F. apply find_sub_len in F. pose proof delim_pos. rewrite skipn_length. lia.
  Qed.

  (* the loop does not depend on the fuel once there is enough *)
  Lemma rd_loop_fuel : forall f1 f2 buf,
    (length buf < f1)%nat -> (length buf < f2)%nat -> rd_loop R f1 buf = rd_loop R f2 buf.
  Proof.
    induction f1 as [|f1 IH]; intros f2 buf H1 H2; [lia|].
    destruct f2 as [|f2]; [lia|]. cbn [rd_loop].
    destruct (find_sub (r_delim R) buf) as [i|] eqn:F; [|reflexivity].
    destruct (rest_shorter _ _ F) as [_ Hs].
    rewrite (IH f2 (skipn (i + length (r_delim R)) buf)) by lia. reflexivity.
  Qed.

  (* what is left in the buffer contains no delimiter *)
  Lemma rd_loop_settled : forall f buf ls r,
    (length buf < f)%nat -> rd_loop R f buf = (ls, r) -> find_sub (r_delim R) r = None.
  Proof.
    induction f as [|f IH]; intros buf ls r Hf H; [lia|]. cbn [rd_loop] in H.
    destruct (find_sub (r_delim R) buf) as [i|] eqn:F.
    - destruct (rest_shorter _ _ F) as [_ Hs].
      destruct (r_skip_empty R && Nat.eqb i 0).
      + eapply IH; [|exact H]. lia.
      + destruct (rd_loop R f (skipn (i + length (r_delim R)) buf)) as [ls' r'] eqn:E.
        inversion H; subst. eapply IH; [|exact E]. lia.
    - inversion H; subst. exact F.
  Qed.

  (* fusion: running the loop on buf ++ c is running it on buf, then on what is left ++ c *)
  Lemma rd_loop_app : forall f buf c f' f'',
    (length buf < f)%nat -> (length (buf ++ c) < f')%nat ->
    (forall r, (length r <= length buf)%nat -> (length (r ++ c) < f'')%nat) ->
    rd_loop R f' (buf ++ c) =
    let '(l1, r1) := rd_loop R f buf in
    let '(l2, r2) := rd_loop R f'' (r1 ++ c) in (l1 ++ l2, r2).
  Proof.
    induction f as [|f IH]; intros buf c f' f'' Hf Hf' Hf''; [lia|].
    cbn [rd_loop]. destruct (find_sub (r_delim R) buf) as [i|] eqn:F.
    - destruct (rest_shorter _ _ F) as [Hl Hr].
      destruct f' as [|f']; [lia|]. cbn [rd_loop]. rewrite (find_sub_app _ _ c _ F).
      assert (Hsk : skipn (i + length (r_delim R)) (buf ++ c) = skipn (i + length (r_delim R)) buf ++ c).
      { rewrite skipn_app. replace (i + length (r_delim R) - length buf)%nat with 0%nat by lia. reflexivity. }
      assert (Hfi : firstn i (buf ++ c) = firstn i buf).
      { rewrite firstn_app. replace (i - length buf)%nat with 0%nat by lia. cbn. now rewrite app_nil_r. }
      rewrite Hsk, Hfi.
      set (rest := skipn (i + length (r_delim R)) buf) in *.
      assert (IHr := IH rest c f' f'' ltac:(lia)
                       ltac:(rewrite app_length in *; lia)
                       ltac:(intros r Hle; apply Hf''; lia)).
      destruct (r_skip_empty R && Nat.eqb i 0).
      + exact IHr.
      + rewrite IHr. destruct (rd_loop R f rest) as [l1 r1].
        destruct (rd_loop R f'' (r1 ++ c)) as [l2 r2]. reflexivity.
    - cbn [app]. rewrite (rd_loop_fuel f' f'' (buf ++ c) Hf' ltac:(apply Hf''; lia)).
      destruct (rd_loop R f'' (buf ++ c)) as [l2 r2]. reflexivity.
  Qed.

  Lemma feed_settled buf c ls r : feed R buf c = (ls, r) -> find_sub (r_delim R) r = None.
  Proof. unfold feed. apply rd_loop_settled. lia. Qed.

  Lemma rd_loop_rest_len : forall f buf ls r,
    rd_loop R f buf = (ls, r) -> (length r <= length buf)%nat.
  Proof.
    induction f as [|f IH]; intros buf ls r H; cbn [rd_loop] in H; [inversion H; subst; lia|].
    destruct (find_sub (r_delim R) buf) as [i|] eqn:F; [|inversion H; subst; lia].
    assert (Hs : (length (skipn (i + length (r_delim R)) buf) <= length buf)%nat)
      by (rewrite skipn_length; lia).
    destruct (r_skip_empty R && Nat.eqb i 0).
    - specialize (IH _ _ _ H). lia.
    - destruct (rd_loop R f (skipn (i + length (r_delim R)) buf)) as [ls' r'] eqn:E.
      inversion H; subst. specialize (IH _ _ _ E). lia.
  Qed.

  (* feed fusion: one call with b ++ c = a call with b followed by a call with c *)
  Lemma feed_fusion buf b c :
    feed R buf (b ++ c) =
    let '(l1, r1) := feed R buf b in
    let '(l2, r2) := feed R r1 c in (l1 ++ l2, r2).
  Proof.
    unfold feed. rewrite app_assoc.
    pose proof (rd_loop_app (S (length (buf ++ b))) (buf ++ b) c
                  (S (length ((buf ++ b) ++ c))) (S (length (buf ++ b) + length c))
                  ltac:(lia) ltac:(lia)
                  ltac:(intros r Hr; rewrite app_length; lia)) as H.
    rewrite H. destruct (rd_loop R (S (length (buf ++ b))) (buf ++ b)) as [l1 r1] eqn:E.
    pose proof (rd_loop_rest_len _ _ _ _ E) as Hl.
    rewrite (rd_loop_fuel (S (length (buf ++ b) + length c)) (S (length (r1 ++ c))) (r1 ++ c))
      by (rewrite ?app_length in *; lia).
    reflexivity.
  Qed.

  (* a call with no data on a settled buffer does nothing *)
  Lemma feed_nil_settled buf : find_sub (r_delim R) buf = None -> feed R buf [] = ([], buf).
  Proof. intros H. unfold feed. rewrite app_nil_r. cbn [rd_loop]. rewrite H. reflexivity. Qed.

  (* chunking irrelevance: for every buffer the reader can be in (no delimiter pending) and
     every way of cutting the bytes into chunks, the lines handed to the parser and the final
     buffer are those of a single call with all the bytes *)
  Lemma chunking_irrelevant : forall chunks buf,
    find_sub (r_delim R) buf = None ->
    feed_chunks R buf chunks = feed R buf (concat chunks).
  Proof.
    induction chunks as [|c cs IH]; intros buf Hs; cbn [feed_chunks concat].
    - symmetry. apply feed_nil_settled. exact Hs.
    - rewrite feed_fusion. destruct (feed R buf c) as [l1 b1] eqn:E.
      rewrite (IH b1 (feed_settled _ _ _ _ E)). reflexivity.
  Qed.

  Lemma chunkings_agree chunks1 chunks2 :
    concat chunks1 = concat chunks2 -> feed_chunks R [] chunks1 = feed_chunks R [] chunks2.
  Proof. intros H. rewrite !chunking_irrelevant by reflexivity. now rewrite H. Qed.
End Reader.

Lemma hf_delim_nonempty : r_delim hf_reader <> [].
Proof. discriminate. Qed.
Lemma ag_delim_nonempty : r_delim ag_reader <> [].
Proof. discriminate. Qed.
