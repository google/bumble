(* Proofs about Model/KeyStore.v (bumble/keys.py JsonKeyStore, PairingKeys), in this order:
   dictionaries as sorted association lists and the PairingKeys read-back built on them; the
   round trip of the file text through printer, lexer and parser; the store operations on the
   database with the invariants they keep, namespace isolation and the map laws; the
   file-system steps of save, crash atomicity and the refinement of the database by the files. *)
From Coq Require Import String Ascii.
From Coq Require Import ZArith List Bool Lia Decimal DecimalZ DecimalPos ZifyBool.
From BV Require Import Model.KeyStore.
Import ListNotations.
Open Scope Z_scope.

Lemma str_eqb_refl : forall a, str_eqb a a = true.
Proof. induction a; simpl; auto. rewrite Z.eqb_refl; auto. Qed.

Lemma str_eqb_eq : forall a b, str_eqb a b = true <-> a = b.
Proof.
  induction a; destruct b; simpl; split; intro H; try discriminate; auto.
  - apply andb_true_iff in H. destruct H as [H1 H2]. apply Z.eqb_eq in H1.
    apply IHa in H2. subst; auto.
  - inversion H; subst. rewrite Z.eqb_refl. apply str_eqb_refl.
Qed.

Lemma str_eqb_neq : forall a b, str_eqb a b = false <-> a <> b.
Proof.
  intros a b. split; intro H.
  - intro E. apply str_eqb_eq in E. congruence.
  - destruct (str_eqb a b) eqn:E; auto. apply str_eqb_eq in E. contradiction.
Qed.

Lemma str_eqb_sym : forall a b, str_eqb a b = str_eqb b a.
Proof.
  intros a b. destruct (str_eqb a b) eqn:E.
  - apply str_eqb_eq in E. subst. symmetry. apply str_eqb_refl.
  - symmetry. apply str_eqb_neq. apply str_eqb_neq in E. auto.
Qed.

Lemma str_ltb_irrefl : forall a, str_ltb a a = false.
Proof. induction a; simpl; auto. rewrite Z.ltb_irrefl, Z.eqb_refl. auto. Qed.

Lemma str_ltb_cons : forall x y a b,
  str_ltb (x :: a) (y :: b) = true <-> x < y \/ x = y /\ str_ltb a b = true.
Proof.
  intros. simpl. destruct (Z.ltb_spec x y); [tauto|].
  destruct (Z.eqb_spec x y); intuition (try lia; discriminate).
Qed.

Lemma str_ltb_trans : forall a b c, str_ltb a b = true -> str_ltb b c = true -> str_ltb a c = true.
Proof.
  induction a as [|x a IH]; intros [|y b] [|z c] H1 H2; try discriminate; auto.
  apply str_ltb_cons in H1. apply str_ltb_cons in H2. apply str_ltb_cons.
  destruct H1 as [L1|[E1 T1]], H2 as [L2|[E2 T2]]; subst; eauto; left; lia.
Qed.

Lemma str_ltb_neq : forall a b, str_ltb a b = true -> str_eqb a b = false.
Proof.
  intros a b H. apply str_eqb_neq. intro E. subst. rewrite str_ltb_irrefl in H. discriminate.
Qed.

Lemma str_ltb_total : forall a b, str_eqb a b = false -> str_ltb a b = false -> str_ltb b a = true.
Proof.
  induction a; destruct b; simpl; intros H1 H2; try discriminate; auto.
  destruct (Z.ltb a z) eqn:L1; try discriminate.
  destruct (Z.eqb a z) eqn:E1.
  - simpl in H1. assert (Z.ltb z a = false) by lia. assert (Z.eqb z a = true) by lia.
    rewrite H, H0. apply IHa; auto.
  - assert (Z.ltb z a = true) by lia. rewrite H. auto.
Qed.

Definition over {A : Type} (new old : option A) : option A :=
  match new with Some x => Some x | None => old end.

Lemma over_None_r : forall (A : Type) (o : option A), over o None = o.
Proof. destruct o; reflexivity. Qed.

Section Dict.
  Variable A : Type.
  Implicit Types (l : list (str * A)).

  Lemma lookup_ins : forall k k' v l,
    lookup k' (ins k v l) = if str_eqb k' k then Some v else lookup k' l.
  Proof.
    induction l as [|[k2 v2] r IH]; simpl; auto.
    destruct (str_eqb k k2) eqn:E; [|destruct (str_ltb k k2)]; simpl; auto.
    - apply str_eqb_eq in E. subst. destruct (str_eqb k' k2); auto.
    - rewrite IH. destruct (str_eqb k' k2) eqn:E2, (str_eqb k' k) eqn:E3; auto.
      apply str_eqb_eq in E2. apply str_eqb_eq in E3. subst. rewrite str_eqb_refl in E. discriminate.
  Qed.

  Lemma lookup_ins_same : forall k v l, lookup k (ins k v l) = Some v.
  Proof. intros. rewrite lookup_ins, str_eqb_refl. reflexivity. Qed.

  Lemma lookup_ins_other : forall k k' v l, str_eqb k' k = false -> lookup k' (ins k v l) = lookup k' l.
  Proof. intros k k' v l H. rewrite lookup_ins, H. reflexivity. Qed.

  Lemma lookup_del_same : forall k l, lookup k (del k l) = None.
  Proof.
    induction l as [|[k' v'] r IH]; simpl; auto.
    destruct (str_eqb k k') eqn:E; simpl; auto. rewrite E. auto.
  Qed.

  Lemma lookup_del_other : forall k k' l, str_eqb k' k = false -> lookup k' (del k l) = lookup k' l.
  Proof.
    induction l as [|[k2 v2] r IH]; simpl; intro H; auto.
    destruct (str_eqb k k2) eqn:E; simpl.
    - apply str_eqb_eq in E. subst. rewrite H. auto.
    - destruct (str_eqb k' k2); auto.
  Qed.

  Lemma has_ins_same : forall k v l, has k (ins k v l) = true.
  Proof. intros. unfold has. rewrite lookup_ins_same. auto. Qed.

  Lemma has_ins_other : forall k k' v l, str_eqb k' k = false -> has k' (ins k v l) = has k' l.
  Proof. intros. unfold has. rewrite lookup_ins_other; auto. Qed.

  (* sortedness is kept: the lists stay what a reload of the sort_keys file yields *)
  Lemma sorted_from_ins : forall k v l k0,
    str_ltb k0 k = true -> sorted_from k0 l = true -> sorted_from k0 (ins k v l) = true.
  Proof.
    induction l as [|[k' v'] r IH]; simpl; intros k0 H0 H.
    - rewrite H0. auto.
    - apply andb_true_iff in H. destruct H as [Ha Hb].
      destruct (str_eqb k k') eqn:E; simpl.
      + apply str_eqb_eq in E. subst. rewrite H0. auto.
      + destruct (str_ltb k k') eqn:L; simpl.
        * rewrite H0, L. auto.
        * rewrite Ha. simpl. apply IH; auto. apply str_ltb_total; auto.
  Qed.

  Lemma sorted_ins : forall k v l, sorted l = true -> sorted (ins k v l) = true.
  Proof.
    destruct l as [|[k' v'] r]; simpl; auto. intro H.
    destruct (str_eqb k k') eqn:E; simpl.
    - apply str_eqb_eq in E. subst. auto.
    - destruct (str_ltb k k') eqn:L; simpl.
      + rewrite L. auto.
      + apply sorted_from_ins; auto. apply str_ltb_total; auto.
  Qed.

  Lemma sorted_from_lt : forall l k0 k, str_ltb k0 k = true -> sorted_from k l = true -> sorted_from k0 l = true.
  Proof.
    intros [|[k' v'] r] k0 k H; simpl; auto. intro S.
    apply andb_true_iff in S. destruct S as [Ha Hb]. rewrite (str_ltb_trans _ _ _ H Ha). auto.
  Qed.

  Lemma sorted_from_del : forall k l k0, sorted_from k0 l = true -> sorted_from k0 (del k l) = true.
  Proof.
    induction l as [|[k' v'] r IH]; simpl; intros k0 H; auto.
    apply andb_true_iff in H. destruct H as [Ha Hb].
    destruct (str_eqb k k'); simpl.
    - apply IH. eapply sorted_from_lt; eauto.
    - rewrite Ha. simpl. apply IH. auto.
  Qed.

  Lemma sorted_from_weaken : forall (l : list (str * A)) k0, sorted_from k0 l = true -> sorted l = true.
  Proof.
    destruct l as [|[k' v'] r]; simpl; auto. intros k0 H.
    apply andb_true_iff in H. tauto.
  Qed.

  Lemma sorted_del : forall k l, sorted l = true -> sorted (del k l) = true.
  Proof.
    destruct l as [|[k' v'] r]; simpl; auto. intro H.
    destruct (str_eqb k k').
    - eapply sorted_from_weaken. apply sorted_from_del. eauto.
    - simpl. apply sorted_from_del. auto.
  Qed.

  Lemma sorted_merge : forall (new d : list (str * A)), sorted d = true -> sorted (merge d new) = true.
  Proof.
    induction new as [|[k v] r IH]; simpl; intros d H; auto.
    apply IH. apply sorted_ins. auto.
  Qed.

  Lemma merge_app : forall (a b d : list (str * A)), merge d (a ++ b) = merge (merge d a) b.
  Proof. induction a as [|[k v] r IH]; simpl; intros; auto. Qed.

  (* a key below every key of a sorted list is not in it *)
  Lemma lookup_sorted_from : forall l k, sorted_from k l = true -> lookup k l = None.
  Proof.
    induction l as [|[k' v'] r IH]; simpl; intros k H; auto.
    apply andb_true_iff in H. destruct H as [Ha Hb].
    rewrite (str_ltb_neq _ _ Ha). apply IH. eapply sorted_from_lt; eauto.
  Qed.

  (* d.update(new) read pointwise; [new] has no repeated key because it is sorted *)
  Lemma lookup_merge : forall (new d : list (str * A)) k, sorted new = true ->
    lookup k (merge d new) = over (lookup k new) (lookup k d).
  Proof.
    induction new as [|[k' v'] r IH]; simpl; intros d k S; auto.
    rewrite IH by (eapply sorted_from_weaken; eauto). rewrite lookup_ins.
    destruct (str_eqb k k') eqn:E; auto.
    apply str_eqb_eq in E. subst. rewrite (lookup_sorted_from _ _ S). reflexivity.
  Qed.

End Dict.
Arguments lookup_ins_same {A}. Arguments lookup_ins_other {A}. Arguments lookup_ins {A}.
Arguments lookup_del_same {A}. Arguments lookup_del_other {A}.
Arguments has_ins_same {A}. Arguments has_ins_other {A}.
Arguments sorted_ins {A}. Arguments sorted_del {A}. Arguments sorted_merge {A}. Arguments merge_app {A}.
Arguments sorted_from_lt {A}. Arguments sorted_from_weaken {A}. Arguments lookup_sorted_from {A}. Arguments lookup_merge {A}.

(* Well-formedness and key order of a dictionary are each [forallb] of a property of its
   members; what the dictionary operations keep is stated once, for any such property. *)
Section Members.
  Variables (A : Type) (P : str * A -> bool).

  Lemma forallb_ins : forall k v l, forallb P l = true -> P (k, v) = true -> forallb P (ins k v l) = true.
  Proof.
    induction l as [|[k' v'] r IH]; simpl; intros H Hv.
    - rewrite Hv. reflexivity.
    - apply andb_true_iff in H. destruct H as [H1 H2].
      destruct (str_eqb k k'); [|destruct (str_ltb k k')]; simpl; rewrite ?Hv, ?H1, ?H2; auto.
  Qed.

  Lemma forallb_del : forall k l, forallb P l = true -> forallb P (del k l) = true.
  Proof.
    induction l as [|[k' v'] r IH]; simpl; intro H; auto.
    apply andb_true_iff in H. destruct H as [H1 H2].
    destruct (str_eqb k k'); simpl; auto. rewrite H1. auto.
  Qed.

  Lemma forallb_merge : forall new d, forallb P d = true -> forallb P new = true -> forallb P (merge d new) = true.
  Proof.
    induction new as [|[k v] r IH]; simpl; intros d Hd Hn; auto.
    apply andb_true_iff in Hn. destruct Hn as [H1 H2]. apply IH; auto. apply forallb_ins; auto.
  Qed.

  Lemma forallb_lookup : forall k l v, forallb P l = true -> lookup k l = Some v -> P (k, v) = true.
  Proof.
    induction l as [|[k' v'] r IH]; simpl; intros v H L; try discriminate.
    apply andb_true_iff in H. destruct H as [H1 H2].
    destruct (str_eqb k k') eqn:E; auto.
    apply str_eqb_eq in E. inversion L; subst. auto.
  Qed.
End Members.

(* optional members: the pieces to_dict is made of *)
Lemma lookup_optm_skip : forall (A B : Type) k k' (f : A -> B) o rest,
  str_eqb k' k = false -> lookup k' (optm k f o ++ rest) = lookup k' rest.
Proof. intros A B k k' f o rest H. destruct o; simpl; auto. rewrite H. auto. Qed.

Lemma lookup_optm_hit : forall (A B : Type) k (f : A -> B) o rest,
  lookup k (optm k f o ++ rest) = over (option_map f o) (lookup k rest).
Proof. intros. destruct o; simpl; auto. rewrite str_eqb_refl. auto. Qed.

Lemma sorted_from_optm : forall (A B : Type) k0 k (f : A -> B) o rest,
  str_ltb k0 k = true -> sorted_from k rest = true -> sorted_from k0 (optm k f o ++ rest) = true.
Proof.
  intros A B k0 k f o rest H S. destruct o; simpl.
  - rewrite H, S. auto.
  - eapply sorted_from_lt; eauto.
Qed.

Lemma sorted_optm : forall (A B : Type) k (f : A -> B) o rest,
  sorted_from k rest = true -> sorted (optm k f o ++ rest) = true.
Proof. intros A B k f o rest S. destruct o; simpl; auto. eapply sorted_from_weaken; eauto. Qed.

Lemma forallb_optm : forall (A B : Type) (P : str * B -> bool) k (f : A -> B) o,
  (forall a, o = Some a -> P (k, f a) = true) -> forallb P (optm k f o) = true.
Proof. intros A B P k f o H. destruct o; simpl; auto. rewrite H; auto. Qed.

Lemma hex_digit_val : forall n, 0 <= n < 16 -> hex_val (hex_digit n) = Some n.
Proof.
  intros n H.
  replace n with (Z.of_nat (Z.to_nat n)) by lia.
  assert (Z.to_nat n < 16)%nat as C by lia. revert C. generalize (Z.to_nat n). intros m C.
  do 16 (destruct m as [|m]; [reflexivity|]). lia.
Qed.

Lemma byte_nibbles : forall b, byte_ok b = true -> 0 <= b / 16 < 16 /\ 0 <= b mod 16 < 16.
Proof.
  intros b H. unfold byte_ok in H. assert (0 <= b < 256) by lia.
  split; [split; [apply Z.div_pos | apply Z.div_lt_upper_bound] | apply Z.mod_pos_bound]; lia.
Qed.

Lemma hex_rt : forall bs, bytes_ok bs = true -> hex_dec (hex_enc bs) = Some bs.
Proof.
  induction bs as [|b r IH]; intro H; [reflexivity|].
  cbn [bytes_ok forallb] in H. apply andb_true_iff in H. destruct H as [Hb Hr].
  destruct (byte_nibbles b Hb) as [Hq Hm].
  cbn [hex_enc hex_dec]. rewrite !hex_digit_val, IH by assumption.
  rewrite <- (Z.div_mod b 16) by discriminate. reflexivity.
Qed.

Lemma hex_digit_range : forall n, 0 <= n < 16 -> 48 <= hex_digit n <= 102.
Proof. intros n H. unfold hex_digit. destruct (n <? 10) eqn:E; lia. Qed.

Lemma hex_digit_ok : forall n, 0 <= n < 16 -> cp_ok (hex_digit n) = true.
Proof. intros n H. pose proof (hex_digit_range n H). unfold cp_ok. lia. Qed.

Lemma hex_enc_ok : forall bs, bytes_ok bs = true -> str_ok (hex_enc bs) = true.
Proof.
  induction bs as [|b r IH]; simpl; intro H; auto.
  apply andb_true_iff in H. destruct H as [Hb Hr]. destruct (byte_nibbles b Hb).
  rewrite !hex_digit_ok, IH; auto.
Qed.

Definition obytes_ok (o : option (list Z)) : bool :=
  match o with Some b => bytes_ok b | None => true end.
Definition key_ok (k : pkey) : bool := bytes_ok (k_value k) && obytes_ok (k_rand k).
Definition okey_ok (o : option pkey) : bool := match o with Some k => key_ok k | None => true end.
Definition keys_ok (k : pkeys) : bool :=
  okey_ok (ltk k) && okey_ok (ltk_central k) && okey_ok (ltk_peripheral k)
  && okey_ok (irk k) && okey_ok (csrk k) && okey_ok (link_key k).

Lemma key_rt : forall k, key_ok k = true -> key_from_dict (key_to_dict k) = Some k.
Proof.
  intros [v a e r] H. unfold key_ok in H. simpl in H.
  apply andb_true_iff in H. destruct H as [Hv Hr].
  unfold key_from_dict, key_to_dict, get_khex, get_kint.
  destruct e as [e|], r as [r|]; lazy -[hex_enc hex_dec]; simpl in Hr;
    rewrite ?hex_rt; auto.
Qed.

Definition fkey (x : pkey) : fval := FvKey (key_to_dict x).

(* key order (json.dump sort_keys=True) *)
Definition fval_sorted (v : fval) : bool := match v with FvKey d => sorted d | FvInt _ => true end.
Definition all_snd {A : Type} (f : A -> bool) (l : list (str * A)) : bool := forallb (fun m => f (snd m)) l.
Definition pdict_sorted (d : pdict) : bool := sorted d && all_snd fval_sorted d.
Definition kmap_sorted (m : kmap) : bool := sorted m && all_snd pdict_sorted m.
Definition db_sorted (d : db) : bool := sorted d && all_snd kmap_sorted d.

Lemma key_to_dict_sorted : forall k, sorted (key_to_dict k) = true.
Proof. intros [v a [e|] [r|]]; reflexivity. Qed.

Lemma to_dict_sorted : forall k, pdict_sorted (to_dict k) = true.
Proof.
  intro k. unfold pdict_sorted, all_snd, to_dict. apply andb_true_iff. split.
  - apply sorted_optm. repeat (apply sorted_from_optm; [reflexivity|]).
    destruct (ltk_peripheral k); reflexivity.
  - rewrite !forallb_app, !forallb_optm; auto; intros; apply key_to_dict_sorted.
Qed.

Lemma to_dict_lookup : forall k,
  lookup F_address_type (to_dict k) = option_map FvInt (address_type k) /\
  lookup F_csrk (to_dict k) = option_map fkey (csrk k) /\
  lookup F_irk (to_dict k) = option_map fkey (irk k) /\
  lookup F_link_key (to_dict k) = option_map fkey (link_key k) /\
  lookup F_link_key_type (to_dict k) = option_map FvInt (link_key_type k) /\
  lookup F_ltk (to_dict k) = option_map fkey (ltk k) /\
  lookup F_ltk_central (to_dict k) = option_map fkey (ltk_central k) /\
  lookup F_ltk_peripheral (to_dict k) = option_map fkey (ltk_peripheral k).
Proof.
  intro k. rewrite <- (app_nil_r (to_dict k)). unfold to_dict. rewrite <- !app_assoc.
  repeat split; repeat (rewrite lookup_optm_skip by reflexivity); rewrite lookup_optm_hit;
    repeat (rewrite lookup_optm_skip by reflexivity); apply over_None_r.
Qed.

(* the PairingKeys an update leaves: the fields present in the new value replace the stored
   ones, the others are kept *)
Definition overlay (old new : pkeys) : pkeys :=
  mkKeys (over (address_type new) (address_type old))
         (over (ltk new) (ltk old)) (over (ltk_central new) (ltk_central old))
         (over (ltk_peripheral new) (ltk_peripheral old)) (over (irk new) (irk old))
         (over (csrk new) (csrk old)) (over (link_key new) (link_key old))
         (over (link_key_type new) (link_key_type old)).

Definition no_keys : pkeys := mkKeys None None None None None None None None.

Lemma overlay_no_keys : forall k, overlay no_keys k = k.
Proof. intros []. unfold overlay. simpl. rewrite !over_None_r. reflexivity. Qed.

Lemma get_fint_over : forall F M new pd o old,
  lookup F M = over (lookup F new) (lookup F pd) -> lookup F new = option_map FvInt o ->
  get_fint F pd = Some old -> get_fint F M = Some (over o old).
Proof.
  intros F M new pd o old L N G. unfold get_fint in *. rewrite L, N. destruct o; simpl; auto.
Qed.

Lemma get_fkey_over : forall F M new pd o old, okey_ok o = true ->
  lookup F M = over (lookup F new) (lookup F pd) -> lookup F new = option_map fkey o ->
  get_fkey F pd = Some old -> get_fkey F M = Some (over o old).
Proof.
  intros F M new pd o old Hok L N G. unfold get_fkey in *. rewrite L, N. destruct o as [x|]; simpl; auto.
  simpl in Hok. rewrite key_rt; auto.
Qed.

Lemma from_dict_inv : forall pd old, from_dict pd = Some old ->
  get_fint F_address_type pd = Some (address_type old) /\ get_fkey F_ltk pd = Some (ltk old) /\
  get_fkey F_ltk_central pd = Some (ltk_central old) /\ get_fkey F_ltk_peripheral pd = Some (ltk_peripheral old) /\
  get_fkey F_irk pd = Some (irk old) /\ get_fkey F_csrk pd = Some (csrk old) /\
  get_fkey F_link_key pd = Some (link_key old) /\ get_fint F_link_key_type pd = Some (link_key_type old).
Proof.
  intros pd old H. unfold from_dict in H.
  repeat match type of H with match ?x with Some _ => _ | None => None end = _ =>
    destruct x; [|discriminate H] end.
  inversion H; subst. simpl. repeat split; reflexivity.
Qed.

(* Reading back a dictionary M that holds the members of to_dict k over those of a readable pd:
   each field present in k is read from k, the others as they were in pd. *)
Lemma from_dict_over : forall M pd old k,
  keys_ok k = true -> from_dict pd = Some old ->
  (forall F, lookup F M = over (lookup F (to_dict k)) (lookup F pd)) ->
  from_dict M = Some (overlay old k).
Proof.
  intros M pd old k Hk Hold L. unfold keys_ok in Hk. repeat (apply andb_true_iff in Hk; destruct Hk as [Hk ?]).
  destruct (from_dict_inv pd old Hold) as (G1 & G2 & G3 & G4 & G5 & G6 & G7 & G8).
  destruct (to_dict_lookup k) as (T1 & T2 & T3 & T4 & T5 & T6 & T7 & T8).
  unfold from_dict.
  rewrite (get_fint_over _ _ _ _ _ _ (L _) T1 G1), (get_fint_over _ _ _ _ _ _ (L _) T5 G8).
  rewrite (get_fkey_over _ _ _ _ (ltk k) _ Hk (L _) T6 G2), (get_fkey_over _ _ _ _ (ltk_central k) _ H3 (L _) T7 G3),
          (get_fkey_over _ _ _ _ (ltk_peripheral k) _ H2 (L _) T8 G4), (get_fkey_over _ _ _ _ (irk k) _ H1 (L _) T3 G5),
          (get_fkey_over _ _ _ _ (csrk k) _ H0 (L _) T2 G6), (get_fkey_over _ _ _ _ (link_key k) _ H (L _) T4 G7).
  reflexivity.
Qed.

Theorem keys_roundtrip : forall k, keys_ok k = true -> from_dict (to_dict k) = Some k.
Proof.
  intros k H. rewrite <- (overlay_no_keys k) at 2.
  apply (from_dict_over _ [] no_keys k H eq_refl). intro F. symmetry. apply over_None_r.
Qed.

Theorem update_overlay : forall pd old k,
  from_dict pd = Some old -> keys_ok k = true ->
  from_dict (merge pd (to_dict k)) = Some (overlay old k).
Proof.
  intros pd old k Hold Hk. apply (from_dict_over _ pd old k Hk Hold). intro F.
  apply lookup_merge. pose proof (to_dict_sorted k) as S. apply andb_true_iff in S. tauto.
Qed.

Definition obj_ok {A : Type} (f : A -> bool) (ms : list (str * A)) : bool :=
  forallb (fun m => str_ok (fst m) && f (snd m)) ms.
Definition kval_ok (v : kval) : bool := match v with KStr s => str_ok s | _ => true end.
Definition fval_ok (v : fval) : bool := match v with FvInt _ => true | FvKey d => obj_ok kval_ok d end.
Definition pdict_ok (d : pdict) : bool := obj_ok fval_ok d.
Definition kmap_ok (m : kmap) : bool := obj_ok pdict_ok m.
Definition db_ok (d : db) : bool := obj_ok kmap_ok d.

Definition tok_member {A : Type} (tv : A -> list token) (m : str * A) : list token :=
  TStr (fst m) :: TColon :: tv (snd m).
Definition tok_obj {A : Type} (tv : A -> list token) (ms : list (str * A)) : list token :=
  match ms with
  | [] => [TLB; TRB]
  | m :: r => TLB :: tok_member tv m ++ flat_map (fun m' => TComma :: tok_member tv m') r ++ [TRB]
  end.
Definition tok_kval (v : kval) : list token :=
  match v with KStr s => [TStr s] | KBool true => [TTrue] | KBool false => [TFalse] | KInt z => [TInt z] end.
Definition tok_fval (v : fval) : list token :=
  match v with FvInt z => [TInt z] | FvKey d => tok_obj tok_kval d end.
Definition tok_db (d : db) : list token := tok_obj (tok_obj (tok_obj tok_fval)) d.

Lemma pre_pre : forall a b x, pre a (pre b x) = pre (a ++ b) x.
Proof. intros. destruct x; simpl; auto. rewrite app_assoc. auto. Qed.

Lemma pre_nil : forall x, pre [] x = x.
Proof. destruct x; auto. Qed.

Lemma lex_ws : forall c r, is_ws c = true -> lex LIdle (c :: r) = lex LIdle r.
Proof. intros c r H. cbn [lex]. rewrite H. reflexivity. Qed.

Lemma lex_nl : forall i r, lex LIdle (nl i ++ r) = lex LIdle r.
Proof.
  intros. unfold nl. cbn [List.app]. rewrite lex_ws by reflexivity.
  induction (INDENT * i)%nat; cbn [repeat List.app]; [|rewrite lex_ws]; auto.
Qed.

Lemma hex4_rt : forall n, 0 <= n < 65536 ->
  hex4_val (hex_digit (n / 4096)) (hex_digit ((n / 256) mod 16)) (hex_digit ((n / 16) mod 16)) (hex_digit (n mod 16))
  = Some n.
Proof.
  intros n H. unfold hex4_val.
  rewrite !hex_digit_val.
  - f_equal. Z.div_mod_to_equations. lia.
  - apply Z.mod_pos_bound. lia.
  - apply Z.mod_pos_bound. lia.
  - apply Z.mod_pos_bound. lia.
  - split. apply Z.div_pos; lia. apply Z.div_lt_upper_bound; lia.
Qed.

(* one unfolding of the lexer at a \u escape, stated once so that no tactic has to
   normalise [lex] on a long literal list *)
Lemma lex_str_u : forall acc h1 h2 h3 h4 r2,
  lex (LStr acc) (92 :: 117 :: h1 :: h2 :: h3 :: h4 :: r2) =
  match hex4_val h1 h2 h3 h4 with
  | Some n =>
      if is_high n then
        match r2 with
        | b1 :: b2 :: l1 :: l2 :: l3 :: l4 :: r3 =>
            if (b1 =? 92) && (b2 =? 117) then
              match hex4_val l1 l2 l3 l4 with
              | Some m =>
                  if is_low m
                  then lex (LStr (65536 + (n - 55296) * 1024 + (m - 56320) :: acc)) r3
                  else lex (LStr (n :: acc)) r2
              | None => lex (LStr (n :: acc)) r2
              end
            else lex (LStr (n :: acc)) r2
        | _ => lex (LStr (n :: acc)) r2
        end
      else lex (LStr (n :: acc)) r2
  | None => None
  end.
Proof. intros. reflexivity. Qed.

Lemma lex_uesc_plain : forall n acc rest, 0 <= n < 65536 -> is_high n = false ->
  lex (LStr acc) (uesc n ++ rest) = lex (LStr (n :: acc)) rest.
Proof.
  intros n acc rest Hn Hh. unfold uesc, hex4. cbn [List.app].
  rewrite lex_str_u. rewrite hex4_rt by auto. rewrite Hh. reflexivity.
Qed.

Lemma lex_uesc_pair : forall hi lo acc rest, is_high hi = true -> is_low lo = true ->
  lex (LStr acc) (uesc hi ++ uesc lo ++ rest) =
  lex (LStr (65536 + (hi - 55296) * 1024 + (lo - 56320) :: acc)) rest.
Proof.
  intros hi lo acc rest Hh Hl. unfold uesc, hex4. cbn [List.app].
  rewrite lex_str_u.
  assert (0 <= hi < 65536) as Bh by (unfold is_high in Hh; lia).
  assert (0 <= lo < 65536) as Bl by (unfold is_low in Hl; lia).
  rewrite (hex4_rt hi Bh). rewrite Hh.
  change ((92 =? 92) && (117 =? 117)) with true. cbv iota.
  rewrite (hex4_rt lo Bl). rewrite Hl. reflexivity.
Qed.

Lemma lex_str_raw : forall c acc r, (c =? 34) = false -> (c =? 92) = false -> (32 <=? c) = true ->
  lex (LStr acc) (c :: r) = lex (LStr (c :: acc)) r.
Proof. intros c acc r H1 H2 H3. cbn [lex]. rewrite H1, H2, H3. reflexivity. Qed.

Lemma lex_str_esc : forall e x acc rest, (e =? 117) = false -> simple_escape e = Some x ->
  lex (LStr acc) ([92; e] ++ rest) = lex (LStr (x :: acc)) rest.
Proof.
  intros e x acc rest H1 H2. cbn [List.app lex Z.eqb Pos.eqb]. rewrite H1, H2. reflexivity.
Qed.

Lemma lex_esc_char : forall c acc rest, cp_ok c = true ->
  lex (LStr acc) (esc_char c ++ rest) = lex (LStr (c :: acc)) rest.
Proof.
  intros c acc rest H.
  assert (0 <= c < 1114112 /\ (c < 55296 \/ 57344 <= c)) as B by (unfold cp_ok in H; lia). clear H.
  unfold esc_char.
  destruct (Z.eqb_spec c 34) as [->|N1]; [apply lex_str_esc; reflexivity|].
  destruct (Z.eqb_spec c 92) as [->|N2]; [apply lex_str_esc; reflexivity|].
  destruct (Z.eqb_spec c 10) as [->|_]; [apply lex_str_esc; reflexivity|].
  destruct (Z.eqb_spec c 13) as [->|_]; [apply lex_str_esc; reflexivity|].
  destruct (Z.eqb_spec c 9) as [->|_]; [apply lex_str_esc; reflexivity|].
  destruct (Z.eqb_spec c 8) as [->|_]; [apply lex_str_esc; reflexivity|].
  destruct (Z.eqb_spec c 12) as [->|_]; [apply lex_str_esc; reflexivity|].
  destruct ((32 <=? c) && (c <=? 126)) eqn:E8.
  { cbn [List.app]. apply lex_str_raw; try apply Z.eqb_neq; auto. lia. }
  destruct (Z.ltb_spec c 65536) as [E9|E9].
  { apply lex_uesc_plain; [|unfold is_high]; lia. }
  (* c = 65536 + 1024 * q + r with q, r < 1024: the surrogates are 0xD800 + q and 0xDC00 + r *)
  pose proof (Z.div_mod (c - 65536) 1024 ltac:(lia)) as D.
  pose proof (Z.mod_pos_bound (c - 65536) 1024 ltac:(lia)) as R.
  rewrite <- app_assoc, lex_uesc_pair.
  - do 3 f_equal. lia.
  - unfold is_high. lia.
  - unfold is_low. lia.
Qed.

Lemma lex_str_body : forall s acc r, str_ok s = true ->
  lex (LStr acc) (esc_str s ++ 34 :: r) = pre [TStr (List.rev acc ++ s)] (lex LIdle r).
Proof.
  induction s as [|c s IH]; intros acc r H.
  - cbn [esc_str flat_map List.app]. cbn [lex]. rewrite Z.eqb_refl. rewrite app_nil_r. reflexivity.
  - simpl in H. apply andb_true_iff in H. destruct H as [Hc Hs].
    unfold esc_str. cbn [flat_map]. rewrite <- app_assoc. rewrite lex_esc_char by auto.
    fold (esc_str s). rewrite IH; auto.
    simpl List.rev. rewrite <- app_assoc. reflexivity.
Qed.

Lemma lex_quote : forall s r, str_ok s = true -> lex LIdle (quote s ++ r) = pre [TStr s] (lex LIdle r).
Proof.
  intros s r H. unfold quote. cbn [List.app]. rewrite <- app_assoc. cbn [List.app].
  change (lex LIdle (34 :: esc_str s ++ 34 :: r)) with (lex (LStr []) (esc_str s ++ 34 :: r)).
  rewrite lex_str_body; auto.
Qed.

Lemma uint_chars_digits : forall u, forallb is_digit (uint_chars u) = true.
Proof. induction u; simpl; auto. Qed.

Lemma chars_uint_rt : forall u, chars_uint (uint_chars u) = Some u.
Proof. induction u; simpl; auto; rewrite IHu; reflexivity. Qed.

Lemma uint_chars_nonnil : forall u, u <> Nil -> uint_chars u <> [].
Proof. destruct u; simpl; intros; congruence. Qed.

Lemma lex_num_step : forall neg acc c r,
  lex (LNum neg acc) (c :: r) =
  if is_digit c then lex (LNum neg (c :: acc)) r
  else match num_tok neg acc with Some t => pre [t] (lex LIdle (c :: r)) | None => None end.
Proof. reflexivity. Qed.

Lemma lex_digits : forall ds neg acc c r, forallb is_digit ds = true -> is_digit c = false ->
  lex (LNum neg acc) (ds ++ c :: r) =
  match num_tok neg (List.rev ds ++ acc) with Some t => pre [t] (lex LIdle (c :: r)) | None => None end.
Proof.
  induction ds as [|d ds IH]; intros neg acc c r H Hc; cbn [List.app]; rewrite lex_num_step.
  - rewrite Hc. reflexivity.
  - simpl in H. apply andb_true_iff in H. destruct H as [Hd Hs].
    rewrite Hd, IH; auto. simpl List.rev. rewrite <- app_assoc. reflexivity.
Qed.

Lemma lex_idle_digit : forall d r, is_digit d = true -> lex LIdle (d :: r) = lex (LNum false [d]) r.
Proof.
  intros d r H. cbn [lex]. unfold is_ws. unfold is_digit in *.
  assert (forall n, n < 48 \/ 57 < n -> (d =? n) = false) as E by (intros; lia).
  rewrite !E, H by lia. reflexivity.
Qed.

(* what follows a value in the file is never a digit, so a number ends where its text ends *)
Definition stops (t : str) : bool := match t with c :: _ => negb (is_digit c) | [] => false end.

Lemma num_tok_uint : forall neg u, u <> Nil ->
  num_tok neg (List.rev (uint_chars u)) = Some (TInt (Z.of_int (if neg then Neg u else Pos u))).
Proof.
  intros neg u H. unfold num_tok. rewrite rev_involutive.
  destruct (uint_chars u) eqn:E.
  - exfalso. eapply uint_chars_nonnil; eauto.
  - rewrite <- E. rewrite chars_uint_rt. reflexivity.
Qed.

Lemma lex_uint : forall u neg t, u <> Nil -> stops t = true ->
  lex (LNum neg []) (uint_chars u ++ t) =
  pre [TInt (Z.of_int (if neg then Neg u else Pos u))] (lex LIdle t).
Proof.
  intros u neg [|c r] Hu Hc; [discriminate|]. rewrite lex_digits.
  - rewrite app_nil_r. rewrite num_tok_uint; auto.
  - apply uint_chars_digits.
  - apply negb_true_iff, Hc.
Qed.

Lemma lex_num_start : forall u t, u <> Nil ->
  lex LIdle (uint_chars u ++ t) = lex (LNum false []) (uint_chars u ++ t).
Proof.
  intros u t Hu. pose proof (uint_chars_digits u) as Hd.
  destruct (uint_chars u) as [|d ds] eqn:E.
  - exfalso. eapply uint_chars_nonnil; eauto.
  - simpl in Hd. apply andb_true_iff in Hd. destruct Hd as [Hd _].
    cbn [List.app]. rewrite lex_idle_digit, lex_num_step, Hd; auto.
Qed.

Lemma to_int_nonnil : forall z, match Z.to_int z with Pos u => u <> Nil | Neg u => u <> Nil end.
Proof.
  destruct z; simpl; [discriminate | apply Unsigned.to_uint_nonnil ..].
Qed.

Lemma lex_int : forall z t, stops t = true -> lex LIdle (ser_int z ++ t) = pre [TInt z] (lex LIdle t).
Proof.
  intros z t Ht. unfold ser_int. pose proof (to_int_nonnil z) as Hn. pose proof (DecimalZ.of_to z) as Hz.
  destruct (Z.to_int z) as [u|u].
  - rewrite lex_num_start; auto. rewrite lex_uint; auto. rewrite Hz. reflexivity.
  - cbn [List.app]. change (lex LIdle (45 :: uint_chars u ++ t)) with (lex (LNum true []) (uint_chars u ++ t)).
    rewrite lex_uint; auto. rewrite Hz. reflexivity.
Qed.

Definition LexOK {A : Type} (pv : nat -> A -> str) (tv : A -> list token) (v : A) : Prop :=
  forall i t, stops t = true -> lex LIdle (pv i v ++ t) = pre (tv v) (lex LIdle t).

Lemma lex_kval : forall v, kval_ok v = true -> LexOK ser_kval tok_kval v.
Proof.
  intros v H i t Ht. destruct v as [s|[|]|z]; simpl in *.
  - apply lex_quote; auto.
  - reflexivity.
  - reflexivity.
  - apply lex_int; auto.
Qed.

Lemma lex_member : forall (A : Type) (pv : nat -> A -> str) tv (m : str * A) j t,
  str_ok (fst m) = true -> LexOK pv tv (snd m) -> stops t = true ->
  lex LIdle (ser_member pv j m ++ t) = pre (tok_member tv m) (lex LIdle t).
Proof.
  intros A pv tv [k v] j t Hk Hv Ht. unfold ser_member, tok_member. simpl fst in *. simpl snd in *.
  rewrite <- !app_assoc. rewrite lex_quote; auto. cbn [List.app].
  change (lex LIdle (58 :: 32 :: pv j v ++ t)) with (pre [TColon] (lex LIdle (32 :: pv j v ++ t))).
  rewrite lex_ws by reflexivity. rewrite Hv; auto. rewrite !pre_pre. reflexivity.
Qed.

(* the members of an object from the first one to the closing brace; each is followed by a
   comma or by a line break *)
Lemma lex_members : forall (A : Type) (pv : nat -> A -> str) tv (f : A -> bool),
  (forall v, f v = true -> LexOK pv tv v) ->
  forall (ms : list (str * A)) m j i r, obj_ok f (m :: ms) = true ->
  lex LIdle (ser_member pv j m ++ flat_map (fun m' => [44] ++ nl j ++ ser_member pv j m') ms ++ nl i ++ 125 :: r) =
  pre (tok_member tv m ++ flat_map (fun m' => TComma :: tok_member tv m') ms ++ [TRB]) (lex LIdle r).
Proof.
  intros A pv tv f Hf. induction ms as [|m2 ms IH]; intros m j i r H;
    apply andb_true_iff in H; destruct H as [Hm H]; apply andb_true_iff in Hm; destruct Hm as [Hk Hv];
    cbn [flat_map]; rewrite <- ?app_assoc; cbn [List.app]; rewrite (lex_member A pv tv) by (auto; reflexivity).
  - rewrite lex_nl. change (lex LIdle (125 :: r)) with (pre [TRB] (lex LIdle r)).
    rewrite pre_pre. reflexivity.
  - change (lex LIdle (44 :: ?x)) with (pre [TComma] (lex LIdle x)).
    rewrite lex_nl, IH by exact H. rewrite !pre_pre, <- app_assoc. reflexivity.
Qed.

Lemma lex_obj : forall (A : Type) (pv : nat -> A -> str) tv (f : A -> bool) (ms : list (str * A)),
  (forall v, f v = true -> LexOK pv tv v) -> obj_ok f ms = true ->
  forall i r, lex LIdle (ser_obj pv i ms ++ r) = pre (tok_obj tv ms) (lex LIdle r).
Proof.
  intros A pv tv f ms Hf H i r. destruct ms as [|m ms].
  - cbn [ser_obj tok_obj List.app].
    change (lex LIdle (123 :: 125 :: r)) with (pre [TLB] (pre [TRB] (lex LIdle r))).
    rewrite pre_pre. reflexivity.
  - unfold ser_obj, tok_obj. rewrite <- !app_assoc.
    change (lex LIdle ([123] ++ ?x)) with (pre [TLB] (lex LIdle x)).
    rewrite lex_nl. change ([125] ++ r) with (125 :: r). rewrite (lex_members A pv tv f Hf) by exact H.
    rewrite pre_pre. reflexivity.
Qed.

Lemma lex_fval : forall v, fval_ok v = true -> LexOK ser_fval tok_fval v.
Proof.
  intros v H i t Ht. destruct v as [z|d]; simpl in *.
  - apply lex_int; auto.
  - apply (lex_obj _ ser_kval tok_kval kval_ok); auto. apply lex_kval.
Qed.

Lemma lex_pdict : forall d, pdict_ok d = true -> LexOK ser_pdict (tok_obj tok_fval) d.
Proof. intros d H i t Ht. apply (lex_obj _ ser_fval tok_fval fval_ok); auto. apply lex_fval. Qed.

Lemma lex_kmap : forall m, kmap_ok m = true -> LexOK ser_kmap (tok_obj (tok_obj tok_fval)) m.
Proof. intros d H i t Ht. apply (lex_obj _ ser_pdict (tok_obj tok_fval) pdict_ok); auto. apply lex_pdict. Qed.

Lemma lex_db : forall d, db_ok d = true -> lex LIdle (ser_db d) = Some (tok_db d).
Proof.
  intros d H. unfold ser_db. rewrite <- (app_nil_r (ser_obj ser_kmap 0 d)).
  rewrite (lex_obj _ ser_kmap (tok_obj (tok_obj tok_fval)) kmap_ok); auto.
  - simpl. rewrite app_nil_r. reflexivity.
  - apply lex_kmap.
Qed.

Definition PvOK {A : Type} (pv : list token -> option (A * list token)) (tv : A -> list token) (v : A) : Prop :=
  forall r, pv (tv v ++ r) = Some (v, r).

Lemma p_members_step : forall (A : Type) pv (tv : A -> list token) fuel (m : str * A) rest,
  PvOK pv tv (snd m) ->
  p_members pv (S fuel) (tok_member tv m ++ rest) =
  match rest with
  | TComma :: r' => match p_members pv fuel r' with Some (ms, r'') => Some (m :: ms, r'') | None => None end
  | TRB :: r' => Some ([m], r')
  | _ => None
  end.
Proof. intros A pv tv fuel [k v] rest H. unfold tok_member. cbn [fst snd List.app p_members]. rewrite H. reflexivity. Qed.

Lemma p_members_ok : forall (A : Type) pv (tv : A -> list token) (ms : list (str * A)) m fuel r,
  (forall v, PvOK pv tv v) -> (List.length ms < fuel)%nat ->
  p_members pv fuel (tok_member tv m ++ flat_map (fun m' => TComma :: tok_member tv m') ms ++ TRB :: r)
  = Some (m :: ms, r).
Proof.
  induction ms as [|m2 ms IH]; intros m fuel r H Hf; (destruct fuel as [|f]; [inversion Hf|]);
    rewrite p_members_step by apply H; cbn [flat_map List.app].
  - reflexivity.
  - rewrite <- app_assoc, IH; auto. simpl in Hf. lia.
Qed.

Lemma flat_map_len : forall (A : Type) (tv : A -> list token) (ms : list (str * A)),
  (List.length ms <= List.length (flat_map (fun m' => TComma :: tok_member tv m') ms))%nat.
Proof.
  induction ms as [|m ms IH]; [simpl; auto|]. cbn [flat_map List.length List.app]. rewrite app_length. lia.
Qed.

Lemma p_obj_ok : forall (A : Type) pv (tv : A -> list token) (ms : list (str * A)),
  (forall v, PvOK pv tv v) -> PvOK (p_obj pv) (tok_obj tv) ms.
Proof.
  intros A pv tv ms H r. destruct ms as [|m ms]; [reflexivity|].
  unfold tok_obj. cbn [List.app]. rewrite <- !app_assoc. cbn [List.app].
  change (p_obj pv (TLB :: ?x)) with (p_members pv (List.length x) x).
  apply p_members_ok; auto.
  pose proof (flat_map_len A tv ms). rewrite !app_length. cbn [List.length]. lia.
Qed.

Lemma p_kval_ok : forall v, PvOK p_kval tok_kval v.
Proof. intros v r. destruct v as [s|[|]|z]; reflexivity. Qed.

Lemma p_fval_ok : forall v, PvOK p_fval tok_fval v.
Proof.
  intros v r. destruct v as [z|d]; [reflexivity|].
  pose proof (p_obj_ok _ p_kval tok_kval d p_kval_ok r) as E.
  unfold tok_fval. unfold p_fval. destruct d as [|m d]; cbn [tok_obj List.app] in *; rewrite E; reflexivity.
Qed.

Lemma p_db_ok : forall d r, p_db (tok_db d ++ r) = Some (d, r).
Proof.
  intros d r. unfold p_db, tok_db. repeat (apply p_obj_ok; intro). apply p_fval_ok.
Qed.

Theorem parse_ser : forall d, db_ok d = true -> parse (ser_db d) = Some d.
Proof.
  intros d H. unfold parse. rewrite lex_db; auto.
  rewrite <- (app_nil_r (tok_db d)). rewrite p_db_ok. reflexivity.
Qed.

(* JsonKeyStore.load works on the namespace of the handle, except that a default-namespace
   handle adopts the only namespace of a one-namespace file *)
Lemma resolve_cases : forall d h,
  resolve d h = h \/
  exists m, d = [(resolve d h, m)] /\ has h d = false /\ str_eqb h DEFAULT_NAMESPACE = true.
Proof.
  intros d h. unfold resolve. destruct (has h d); auto.
  destruct (str_eqb h DEFAULT_NAMESPACE); auto.
  destruct d as [|[ns m] [|]]; auto. right. exists m. auto.
Qed.

Lemma a_load_lookup : forall d h ns, str_eqb ns (resolve d h) = false ->
  lookup ns (fst (a_load d h)) = lookup ns d.
Proof.
  intros d h ns H. unfold a_load. destruct (has (resolve d h) d); simpl; auto.
  apply lookup_ins_other; auto.
Qed.

Lemma a_load_snd : forall d h, snd (a_load d h) = resolve d h.
Proof. intros. unfold a_load. destruct (has (resolve d h) d); reflexivity. Qed.

Lemma entries_ins_same : forall (A : Type) k (v : list A) l, entries k (ins k v l) = v.
Proof. intros. unfold entries. rewrite lookup_ins_same. reflexivity. Qed.

Lemma has_false_entries : forall (A : Type) k (l : list (str * list A)), has k l = false -> entries k l = [].
Proof. intros A k l. unfold has, entries. destruct (lookup k l); [discriminate|reflexivity]. Qed.

Lemma has_lookup_eq : forall (A : Type) k (l l' : list (str * A)), lookup k l = lookup k l' -> has k l = has k l'.
Proof. intros A k l l' E. unfold has. rewrite E. reflexivity. Qed.

Lemma entries_lookup_eq : forall (A : Type) k (l l' : list (str * list A)),
  lookup k l = lookup k l' -> entries k l = entries k l'.
Proof. intros A k l l' E. unfold entries. rewrite E. reflexivity. Qed.

Lemma a_load_entries : forall d h, entries (resolve d h) (fst (a_load d h)) = entries (resolve d h) d.
Proof.
  intros. unfold a_load. destruct (has (resolve d h) d) eqn:E; simpl.
  - reflexivity.
  - rewrite entries_ins_same. symmetry. apply has_false_entries. exact E.
Qed.

(* the new key map of the namespace a handle works on, for the operations that save *)
Definition new_kmap (m : kmap) (o : op) : kmap :=
  match o with
  | Update name k => ins name (merge (entries name m) (to_dict k)) m
  | Delete name => del name m
  | DeleteAll => []
  | _ => m
  end.

(* a_apply in terms of what the handle sees *)
Lemma a_apply_eq : forall d h o,
  a_apply d h o =
  let R := resolve d h in let V := view d h in let D1 := fst (a_load d h) in
  match o with
  | Update name k => (Some (ins R (new_kmap V o) D1), ODone)
  | Delete name => if has name V then (Some (ins R (del name V) D1), ODone) else (None, OKeyError)
  | DeleteAll => (Some (ins R [] D1), ODone)
  | Get name => (None, match lookup name V with
                       | None => OGet None
                       | Some pd => match from_dict pd with Some k => OGet (Some k) | None => OBadKeys end
                       end)
  | GetAll => (None, match all_from_dict V with Some l => OAll l | None => OBadKeys end)
  end.
Proof.
  intros d h o. unfold a_apply, view. rewrite <- (a_load_entries d h). pose proof (a_load_snd d h) as Hs.
  destruct (a_load d h) as [d1 ns]. simpl in *. subst ns. destruct o; reflexivity.
Qed.

Lemma a_apply_shape : forall d h o d' r, a_apply d h o = (Some d', r) ->
  d' = ins (resolve d h) (new_kmap (view d h) o) (fst (a_load d h)) /\ r = ODone.
Proof.
  intros d h o d' r E. rewrite a_apply_eq in E.
  destruct o; simpl in E; [|destruct (has name (view d h))| | |]; inversion E; auto.
Qed.

Lemma obj_ok_ins : forall (A : Type) (f : A -> bool) k v l,
  obj_ok f l = true -> str_ok k = true -> f v = true -> obj_ok f (ins k v l) = true.
Proof. intros A f k v l H Hk Hv. apply forallb_ins; auto. simpl. rewrite Hk, Hv. reflexivity. Qed.

Lemma obj_ok_entries : forall (A : Type) (f : A -> bool) k (l : list (str * list (str * A))),
  obj_ok (obj_ok f) l = true -> obj_ok f (entries k l) = true.
Proof.
  intros A f k l H. unfold entries. destruct (lookup k l) eqn:E; auto.
  apply (forallb_lookup _ _ _ _ _ H) in E. apply andb_true_iff in E. tauto.
Qed.

Lemma obj_ok_app : forall (A : Type) (f : A -> bool) a b, obj_ok f (a ++ b) = obj_ok f a && obj_ok f b.
Proof. intros. unfold obj_ok. apply forallb_app. Qed.

Lemma key_to_dict_ok : forall k, key_ok k = true -> obj_ok kval_ok (key_to_dict k) = true.
Proof.
  intros [v a e r] H. apply andb_true_iff in H. cbn [k_value k_rand] in H. destruct H as [Hv Hr].
  unfold key_to_dict. cbn [k_value k_auth k_ediv k_rand]. rewrite !obj_ok_app. unfold obj_ok at 2 3.
  rewrite !forallb_optm; cbn [obj_ok forallb fst snd kval_ok].
  - rewrite (hex_enc_ok v Hv). reflexivity.
  - intros x E. subst r. rewrite (hex_enc_ok x Hr). reflexivity.
  - reflexivity.
Qed.

Lemma optm_key_ok : forall F o, str_ok F = true -> okey_ok o = true ->
  obj_ok fval_ok (optm F (fun x => FvKey (key_to_dict x)) o) = true.
Proof.
  intros F o HF H. apply forallb_optm. intros x E. subst o. cbn [fst snd fval_ok].
  rewrite HF. apply key_to_dict_ok, H.
Qed.

Lemma optm_int_ok : forall F o, str_ok F = true -> obj_ok fval_ok (optm F FvInt o) = true.
Proof. intros F o HF. destruct o; simpl; auto. rewrite HF. auto. Qed.

Lemma to_dict_ok : forall k, keys_ok k = true -> pdict_ok (to_dict k) = true.
Proof.
  intros k H. unfold keys_ok in H. repeat (apply andb_true_iff in H; destruct H as [H ?]).
  unfold pdict_ok, to_dict. rewrite !obj_ok_app.
  rewrite !optm_int_ok by reflexivity. rewrite !optm_key_ok by (auto; reflexivity). reflexivity.
Qed.

Definition op_ok (o : op) : bool :=
  match o with
  | Update name k => str_ok name && keys_ok k
  | Delete name => str_ok name
  | Get name => str_ok name
  | _ => true
  end.

Lemma resolve_ok : forall d h, db_ok d = true -> str_ok h = true -> str_ok (resolve d h) = true.
Proof.
  intros d h Hd Hh. destruct (resolve_cases d h) as [E|(m & E & _)]; [rewrite E; exact Hh|].
  rewrite E in Hd. simpl in Hd. apply andb_true_iff in Hd. destruct Hd as [Hd _].
  apply andb_true_iff in Hd. tauto.
Qed.

Lemma a_load_ok : forall d h, db_ok d = true -> str_ok h = true ->
  db_ok (fst (a_load d h)) = true /\ str_ok (snd (a_load d h)) = true.
Proof.
  intros d h Hd Hh. unfold a_load. pose proof (resolve_ok d h Hd Hh) as Hr.
  destruct (has (resolve d h) d); simpl; split; auto.
  apply obj_ok_ins; auto.
Qed.

Lemma new_kmap_ok : forall m o, kmap_ok m = true -> op_ok o = true -> kmap_ok (new_kmap m o) = true.
Proof.
  intros m o Hm Ho. destruct o; simpl in *; auto.
  - apply andb_true_iff in Ho. destruct Ho as [Hn Hk].
    apply obj_ok_ins; auto. apply forallb_merge. apply obj_ok_entries; auto. apply to_dict_ok; auto.
  - apply forallb_del; auto.
Qed.

Lemma a_apply_ok : forall d h o d' r, db_ok d = true -> str_ok h = true -> op_ok o = true ->
  a_apply d h o = (Some d', r) -> db_ok d' = true.
Proof.
  intros d h o d' r Hd Hh Ho E. apply a_apply_shape in E. destruct E as [E _]. subst d'.
  destruct (a_load_ok d h Hd Hh) as [H1 H2]. rewrite a_load_snd in H2.
  apply obj_ok_ins; auto. apply new_kmap_ok; auto. apply obj_ok_entries; auto.
Qed.

Section Levels.
  Variables (A : Type) (f : A -> bool).

  Lemma sorted_all_ins : forall k v l, sorted l && all_snd f l = true -> f v = true ->
    sorted (ins k v l) && all_snd f (ins k v l) = true.
  Proof.
    intros k v l H Hv. apply andb_true_iff in H. destruct H.
    apply andb_true_iff. split; [apply sorted_ins | apply forallb_ins]; auto.
  Qed.

  Lemma sorted_all_del : forall k l, sorted l && all_snd f l = true -> sorted (del k l) && all_snd f (del k l) = true.
  Proof.
    intros k l H. apply andb_true_iff in H. destruct H.
    apply andb_true_iff. split; [apply sorted_del | apply forallb_del]; auto.
  Qed.

  Lemma sorted_all_merge : forall d new, sorted d && all_snd f d = true -> sorted new && all_snd f new = true ->
    sorted (merge d new) && all_snd f (merge d new) = true.
  Proof.
    intros d new H Hn. apply andb_true_iff in H. destruct H. apply andb_true_iff in Hn. destruct Hn.
    apply andb_true_iff. split; [apply sorted_merge | apply forallb_merge]; auto.
  Qed.
End Levels.

Lemma sorted_all_entries : forall (A : Type) (g : list A -> bool) k l,
  g [] = true -> sorted l && all_snd g l = true -> g (entries k l) = true.
Proof.
  intros A g k l H0 H. apply andb_true_iff in H. destruct H as [_ H].
  unfold entries. destruct (lookup k l) eqn:E; auto. exact (forallb_lookup _ _ _ _ _ H E).
Qed.

Lemma new_kmap_sorted : forall m o, kmap_sorted m = true -> kmap_sorted (new_kmap m o) = true.
Proof.
  intros m o H. destruct o; simpl; auto.
  - apply sorted_all_ins; auto. apply sorted_all_merge; [|apply to_dict_sorted].
    apply (sorted_all_entries _ pdict_sorted); auto.
  - apply sorted_all_del; auto.
Qed.

Theorem a_step_sorted : forall d h o, db_sorted d = true -> db_sorted (fst (a_step d h o)) = true.
Proof.
  intros d h o H. unfold a_step. destruct (a_apply d h o) as [[d'|] r] eqn:E; simpl; auto.
  apply a_apply_shape in E. destruct E as [E _]. subst d'. apply sorted_all_ins.
  - unfold a_load. destruct (has (resolve d h) d); simpl; auto. apply sorted_all_ins; auto.
  - apply new_kmap_sorted. apply sorted_all_entries; auto.
Qed.

(* Namespaces are isolated: an operation through handle h changes nothing but the entry of
   the namespace h resolves to. *)
Theorem namespaces_isolated : forall d h o ns,
  str_eqb ns (resolve d h) = false -> lookup ns (fst (a_step d h o)) = lookup ns d.
Proof.
  intros d h o ns H. unfold a_step. destruct (a_apply d h o) as [[d'|] r] eqn:E; simpl; auto.
  apply a_apply_shape in E. destruct E as [E _]. subst d'.
  rewrite lookup_ins_other; auto. apply a_load_lookup; auto.
Qed.

Lemma resolve_named : forall d h, str_eqb h DEFAULT_NAMESPACE = false -> resolve d h = h.
Proof. intros d h H. destruct (resolve_cases d h) as [E|(m & _ & _ & N)]; congruence. Qed.

Lemma resolve_present : forall d h, has h d = true -> resolve d h = h.
Proof. intros d h H. unfold resolve. rewrite H. reflexivity. Qed.

(* ... hence what any other named handle (or a default handle whose namespace exists) sees
   is unchanged *)
Theorem other_handles_unchanged : forall d h o h2,
  str_eqb h2 (resolve d h) = false ->
  (str_eqb h2 DEFAULT_NAMESPACE = false \/ has h2 d = true) ->
  view (fst (a_step d h o)) h2 = view d h2.
Proof.
  intros d h o h2 Hne Hh2.
  pose proof (namespaces_isolated d h o h2 Hne) as L.
  assert (resolve d h2 = h2 /\ resolve (fst (a_step d h o)) h2 = h2) as [R1 R2].
  { destruct Hh2 as [Hn|Hp].
    - split; apply resolve_named; auto.
    - split; apply resolve_present; auto. rewrite (has_lookup_eq _ _ _ _ L). auto. }
  unfold view. rewrite R1, R2. apply entries_lookup_eq. exact L.
Qed.

(* the handle that performed the operation keeps resolving to the same namespace *)
Lemma resolve_after : forall d h o d' r, a_apply d h o = (Some d', r) -> resolve d' h = resolve d h.
Proof.
  intros d h o d' r E. apply a_apply_shape in E. destruct E as [E _]. subst d'.
  destruct (resolve_cases d h) as [E|(m & E & Hh & Hd)].
  - rewrite E. apply resolve_present, has_ins_same.
  - (* the file holds the one namespace ns: it is replaced in place, and adopted again *)
    unfold a_load. revert E Hh. generalize (resolve d h). intros ns E Hh. subst d.
    unfold has in *. simpl in *. rewrite str_eqb_refl. simpl. rewrite str_eqb_refl.
    unfold resolve, has. simpl. destruct (str_eqb h ns); [discriminate|]. rewrite Hd. reflexivity.
Qed.

(* The view of the handle evolves as a map: update inserts the merged entry, delete removes
   it, delete_all empties it, reads change nothing. *)
Theorem view_after : forall d h o,
  view (fst (a_step d h o)) h =
  match o with
  | Delete name => if has name (view d h) then del name (view d h) else view d h
  | _ => new_kmap (view d h) o
  end.
Proof.
  intros d h o. unfold a_step. destruct (a_apply d h o) as [[d'|] r] eqn:E; simpl fst.
  - pose proof (resolve_after d h o d' r E) as R. pose proof E as E0.
    apply a_apply_shape in E. destruct E as [E _].
    unfold view at 1. rewrite R. subst d'. unfold entries at 1. rewrite lookup_ins_same.
    destruct o; try reflexivity.
    rewrite a_apply_eq in E0. simpl in E0. destruct (has name (view d h)); try discriminate. reflexivity.
  - rewrite a_apply_eq in E. destruct o; simpl in E; try discriminate; try reflexivity.
    destruct (has name (view d h)); try discriminate. reflexivity.
Qed.

(* what the reads return is a function of the view alone *)
Theorem reads_from_view : forall d h,
  (forall name, snd (a_step d h (Get name)) =
     match lookup name (view d h) with
     | None => OGet None
     | Some pd => match from_dict pd with Some k => OGet (Some k) | None => OBadKeys end
     end) /\
  snd (a_step d h GetAll) = match all_from_dict (view d h) with Some l => OAll l | None => OBadKeys end.
Proof. intros d h. unfold a_step. split; [intro name|]; rewrite a_apply_eq; reflexivity. Qed.

(* what one operation does to the key map it works on *)
Definition step_view (m : kmap) (o : op) : kmap :=
  match o with
  | Delete name => if has name m then del name m else m
  | _ => new_kmap m o
  end.

Definition item_named (it : item) : bool :=
  match it with
  | Do h _ _ => negb (str_eqb h DEFAULT_NAMESPACE)
  | Crash _ _ _ _ _ => false
  end.

(* the operations of a history that go through namespace h, applied in order to a key map *)
Definition replay_view (h : str) (items : list item) (m : kmap) : kmap :=
  fold_left (fun m it => if str_eqb (fst (item_hop it)) h then step_view m (snd (item_hop it)) else m) items m.

(* What a named store sees after any history of operations through any named stores on the
   same file is its own updates and deletions applied in order to what it saw before; the
   operations through the other namespaces leave no trace in it. *)
Theorem view_history : forall items d h,
  str_eqb h DEFAULT_NAMESPACE = false -> forallb item_named items = true ->
  view (fst (a_run d items [])) h = replay_view h items (view d h).
Proof.
  induction items as [|it items IH]; intros d h Hh Hn.
  - reflexivity.
  - simpl in Hn. apply andb_true_iff in Hn. destruct Hn as [Hi Hr].
    destruct it as [h' o lens|]; simpl in Hi; try discriminate.
    apply negb_true_iff in Hi.
    cbn [a_run]. destruct (a_step d h' o) as [d1 x] eqn:E.
    specialize (IH d1 h Hh Hr). destruct (a_run d1 items []) as [d2 xs]. simpl fst in *.
    rewrite IH. unfold replay_view. cbn [fold_left item_hop fst snd]. f_equal.
    assert (d1 = fst (a_step d h' o)) as Ed by (rewrite E; reflexivity). subst d1.
    destruct (str_eqb h' h) eqn:Eh.
    + apply str_eqb_eq in Eh. subst h'. rewrite view_after. unfold step_view. destruct o; reflexivity.
    + apply other_handles_unchanged.
      * rewrite (resolve_named d h' Hi). rewrite str_eqb_sym. exact Eh.
      * left. exact Hh.
Qed.

Lemma exec_steps_app : forall a b f,
  exec_steps f (a ++ b) = match exec_steps f a with Some f' => exec_steps f' b | None => None end.
Proof.
  induction a as [|s a IH]; intros; simpl; auto.
  destruct (exec_step f s); auto.
Qed.

Lemma chunks_concat : forall lens b, concat (chunks lens b) = b.
Proof.
  induction lens as [|n ls IH]; intros; simpl.
  - apply app_nil_r.
  - rewrite IH. apply firstn_skipn.
Qed.

(* writes only fill the buffer *)
Lemma exec_writes : forall cs d m t b,
  exec_steps (MkFs d m t (Some (PTmp, b))) (map (SWrite PTmp) cs) = Some (MkFs d m t (Some (PTmp, b ++ concat cs))).
Proof.
  induction cs as [|c cs IH]; intros; simpl.
  - rewrite app_nil_r. reflexivity.
  - unfold set_buf. simpl. rewrite IH. rewrite <- app_assoc. reflexivity.
Qed.

Definition saved (d : db) : fs := mkFs true (Some (ser_db d)) None.

(* everything before the rename *)
Definition save_pre (f : fs) (d : db) (lens : list nat) : list step :=
  (if f_dir f then [] else [SMkdir]) ++ [SOpenTrunc PTmp]
  ++ map (SWrite PTmp) (chunks lens (ser_db d)) ++ [SClose PTmp].

Lemma save_steps_split : forall f d lens, save_steps f d lens = save_pre f d lens ++ [SRename PTmp PMain].
Proof.
  intros. unfold save_steps, save_pre. rewrite <- !app_assoc. simpl. reflexivity.
Qed.

Lemma save_pre_exec : forall f d lens,
  exec_steps f (save_pre f d lens) = Some (mkFs true (f_main f) (Some (ser_db d))).
Proof.
  intros [dir m t bf] d lens. unfold save_pre. simpl f_dir.
  transitivity (exec_steps (MkFs true m t bf) ([SOpenTrunc PTmp] ++ map (SWrite PTmp) (chunks lens (ser_db d)) ++ [SClose PTmp])).
  { destruct dir; reflexivity. }
  simpl. rewrite exec_steps_app. unfold fset, set_buf. simpl.
  rewrite exec_writes. simpl. rewrite chunks_concat. reflexivity.
Qed.

(* a completed save: exactly the new text in the key file, no temporary file, nothing buffered *)
Theorem save_exec : forall f d lens, exec_steps f (save_steps f d lens) = Some (saved d).
Proof.
  intros. rewrite save_steps_split, exec_steps_app, save_pre_exec. reflexivity.
Qed.

(* steps that cannot touch the key file *)
Definition tmp_only (s : step) : bool :=
  match s with
  | SMkdir | SOpenTrunc PTmp | SWrite PTmp _ | SClose PTmp => true
  | _ => false
  end.

(* no file object is writing to the key file *)
Definition buf_off_main (f : fs) : bool :=
  match f_buf f with Some (PMain, _) => false | _ => true end.

Lemma tmp_only_step : forall s f f', tmp_only s = true -> buf_off_main f = true -> exec_step f s = Some f' ->
  f_main f' = f_main f /\ buf_off_main f' = true.
Proof.
  intros s [dir m t bf] f' H B E. unfold buf_off_main in *. simpl in B.
  destruct s as [|[|]|[|] c|[|]|a b]; simpl in H; try discriminate; simpl in E.
  - inversion E; subst; simpl; auto.
  - destruct dir; inversion E; subst; simpl; auto.
  - destruct bf as [[[|] b]|]; simpl in E; try discriminate. inversion E; subst; simpl; auto.
  - destruct bf as [[[|] b]|]; simpl in E; try discriminate.
    destruct t; inversion E; subst; simpl; auto.
Qed.

Lemma die_main : forall cut f, buf_off_main f = true ->
  f_main (die cut f) = f_main f /\ f_buf (die cut f) = None \/ (f_buf f = None /\ die cut f = f).
Proof.
  intros cut [dir m t bf] B. unfold buf_off_main in B. simpl in B. unfold die. simpl.
  destruct bf as [[[|] b]|]; try discriminate.
  - left. destruct t; simpl; auto.
  - right. auto.
Qed.

Lemma die_off_main : forall cut f, buf_off_main f = true ->
  f_main (die cut f) = f_main f /\ f_buf (die cut f) = None.
Proof. intros cut f B. destruct (die_main cut f B) as [H|[N E]]; auto. rewrite E. auto. Qed.

(* a crash anywhere inside steps that only touch the temporary file *)
Lemma crash_tmp_only : forall l f f1 k cut,
  forallb tmp_only l = true -> buf_off_main f = true -> exec_steps f l = Some f1 ->
  exists f', crash_exec k cut l f = Some f' /\ f_main f' = f_main f /\ f_buf f' = None.
Proof.
  induction l as [|s l IH]; intros f f1 k cut H B E.
  - exists (die cut f). split; [destruct k; reflexivity | apply die_off_main, B].
  - simpl in H. apply andb_true_iff in H. destruct H as [Hs Hl].
    simpl in E. destruct (exec_step f s) as [f2|] eqn:E2; try discriminate.
    destruct (tmp_only_step s f f2 Hs B E2) as [M2 B2].
    destruct k as [|k]; cbn [crash_exec].
    + destruct (die_off_main cut f B) as [M N]. destruct (die_off_main cut f2 B2) as [M' N'].
      destruct s as [|p|p c|p|a b]; try (exists (die cut f); auto; fail).
      rewrite E2. exists (die cut f2). repeat split; auto. congruence.
    + rewrite E2. destruct (IH f2 f1 k cut Hl B2 E) as (f' & C & M & N). exists f'. repeat split; auto. congruence.
Qed.

Lemma crash_exec_app : forall a b k cut f,
  crash_exec k cut (a ++ b) f =
  if (k <? List.length a)%nat then crash_exec k cut a f
  else match exec_steps f a with Some f' => crash_exec (k - List.length a) cut b f' | None => None end.
Proof.
  induction a as [|s a IH]; intros b k cut f.
  - simpl. rewrite Nat.sub_0_r. reflexivity.
  - destruct k as [|k].
    + reflexivity.
    + cbn [List.app crash_exec List.length exec_steps]. destruct (exec_step f s) as [f2|].
      * rewrite IH. reflexivity.
      * destruct (S k <? S (List.length a))%nat; reflexivity.
Qed.

Lemma crash_exec_all : forall l k cut f, (List.length l <= k)%nat ->
  crash_exec k cut l f = option_map (die cut) (exec_steps f l).
Proof.
  induction l as [|s l IH]; intros k cut f H.
  { destruct k; reflexivity. }
  destruct k as [|k]; [simpl in H; lia|]. simpl.
  destruct (exec_step f s); auto. apply IH. simpl in H. lia.
Qed.

Lemma save_pre_tmp_only : forall f d lens, forallb tmp_only (save_pre f d lens) = true.
Proof.
  intros. unfold save_pre. rewrite !forallb_app.
  assert (forall cs, forallb tmp_only (map (SWrite PTmp) cs) = true) as W by (induction cs; simpl; auto).
  rewrite W. destruct (f_dir f); reflexivity.
Qed.

(* the heart of crash atomicity: wherever save is interrupted and whatever part of the buffered
   data had reached the temporary file, the key file is untouched until the rename, and complete
   after it (the rename comes after the close, so nothing is buffered any more) *)
Theorem save_crash : forall f d lens k cut, f_buf f = None ->
  exists f', crash_exec k cut (save_steps f d lens) f = Some f' /\ f_buf f' = None /\
    ((k < List.length (save_steps f d lens))%nat -> f_main f' = f_main f) /\
    ((List.length (save_steps f d lens) <= k)%nat -> f' = saved d).
Proof.
  intros f d lens k cut Hb.
  assert (buf_off_main f = true) as B by (unfold buf_off_main; rewrite Hb; reflexivity).
  destruct (Nat.le_gt_cases (List.length (save_steps f d lens)) k) as [Hk|Hk].
  - exists (saved d). rewrite crash_exec_all by auto. rewrite save_exec. repeat split; auto. lia.
  - rewrite save_steps_split in *. rewrite app_length in Hk. simpl in Hk.
    rewrite crash_exec_app.
    destruct (k <? List.length (save_pre f d lens))%nat eqn:L.
    + destruct (crash_tmp_only _ f _ k cut (save_pre_tmp_only f d lens) B (save_pre_exec f d lens)) as (f' & C & M & N).
      exists f'. repeat split; auto. rewrite app_length. simpl. lia.
    + rewrite save_pre_exec.
      assert (k - List.length (save_pre f d lens) = 0)%nat as Z by lia. rewrite Z. simpl.
      eexists. split; [reflexivity|]. repeat split; auto. rewrite app_length. simpl. lia.
Qed.

(* the key file holds (a text that reads as) the well-formed database d and no file object is open
   (between operations none is); the ".tmp" file and the directory flag are unconstrained: leftovers
   of an interrupted save are harmless *)
Definition rel (f : fs) (d : db) : Prop := db_ok d = true /\ read_db f = Some d /\ f_buf f = None.

Lemma rel_saved : forall d, db_ok d = true -> rel (saved d) d.
Proof. intros d H. split; auto. split; [|reflexivity]. unfold read_db, saved. simpl. apply parse_ser; auto. Qed.

Lemma rel_same_main : forall f f' d, rel f d -> f_main f' = f_main f -> f_buf f' = None -> rel f' d.
Proof. intros f f' d (H1 & H2 & H3) E N. repeat split; auto. unfold read_db in *. rewrite E. auto. Qed.

Definition item_ok (it : item) : bool :=
  match it with
  | Do h o _ => str_ok h && op_ok o
  | Crash h o _ _ _ => str_ok h && op_ok o
  end.

(* One item on the files against the same item on the database: the operation took effect or
   (an interrupted one) did not, which the commit flag of a crashed item records; either way
   the file reads as the database that results. *)
Lemma c_item_sim : forall f d it, rel f d -> item_ok it = true ->
  exists d' c, rel (fst (c_item f it)) d' /\
    forall r cs, a_run d (it :: r) (c ++ cs) =
                 (fst (a_run d' r cs), snd (c_item f it) :: snd (a_run d' r cs)).
Proof.
  intros f d it R Hok. pose proof R as (Hd & Hr & Hb).
  destruct it as [h o lens|h o lens k cut]; simpl in Hok; apply andb_true_iff in Hok; destruct Hok as [Hh Ho];
    unfold c_item; rewrite Hr; destruct (a_apply d h o) as [[d1|] x] eqn:E.
  3: destruct (save_crash f d1 lens k cut Hb) as (f' & C & N & Hold & _);
     destruct (k <? List.length (save_steps f d1 lens))%nat eqn:L.
  (* the database that results and the commit flags, case by case *)
  1: rewrite save_exec; exists d1, [].
  2: exists d, [].
  3: rewrite C; exists d, [false].
  4: rewrite save_exec; exists d1, [true].
  5: exists d, [false].
  (* in every case [a_run] on the item is one unfolding with the outcome [E] of [a_apply] *)
  all: split; [|intros r cs; cbn [a_run List.app]; unfold a_step; rewrite E; destruct (a_run _ r cs); reflexivity].
  - apply rel_saved. eapply a_apply_ok; eauto.
  - exact R.
  - apply rel_same_main with f; auto. apply Hold, Nat.ltb_lt, L.
  - apply rel_saved. eapply a_apply_ok; eauto.
  - exact R.
Qed.

Theorem store_refines_map : forall items f d,
  rel f d -> forallb item_ok items = true ->
  exists commits,
    let '(f', outs) := c_run f items in
    let '(d', outs') := a_run d items commits in
    outs = outs' /\ rel f' d'.
Proof.
  induction items as [|it items IH]; intros f d R Hok.
  - exists []. simpl. auto.
  - simpl in Hok. apply andb_true_iff in Hok. destruct Hok as [Hit Hrest].
    destruct (c_item_sim f d it R Hit) as (d1 & c & R1 & A).
    destruct (IH _ d1 R1 Hrest) as [cs S]. exists (c ++ cs). rewrite A. cbn [c_run].
    destruct (c_item f it) as [f1 x]. cbn [fst snd] in *. destruct (c_run f1 items) as [f2 os].
    destruct (a_run d1 items cs) as [d2 os']. destruct S as [Eo R2]. subst. auto.
Qed.

Fixpoint no_crash (l : list item) : bool :=
  match l with [] => true | Do _ _ _ :: r => no_crash r | Crash _ _ _ _ _ :: _ => false end.

Lemma a_run_no_crash : forall items d cs, no_crash items = true -> a_run d items cs = a_run d items [].
Proof.
  induction items as [|[h o lens|h o lens k cut] items IH]; intros d cs H; simpl in *; auto; try discriminate.
  destruct (a_step d h o) as [d1 x]. rewrite (IH d1 cs H). reflexivity.
Qed.

(* crash atomicity of one operation: for every mutating operation, every crash point k of its
   step list and every amount [cut] of the still-buffered data that had reached the disk, the file
   afterwards reads as the complete previous database or the complete new one *)
Theorem crash_atomic : forall f d h o lens k cut,
  rel f d -> str_ok h = true -> op_ok o = true ->
  exists f', crash_exec k cut (op_steps f h o lens) f = Some f' /\
    (f_main f' = f_main f \/ f_main f' = Some (ser_db (fst (a_step d h o)))) /\
    (read_db f' = Some d \/ read_db f' = Some (fst (a_step d h o))) /\
    ((k < List.length (op_steps f h o lens))%nat -> read_db f' = Some d) /\
    ((List.length (op_steps f h o lens) <= k)%nat -> read_db f' = Some (fst (a_step d h o))).
Proof.
  intros f d h o lens k cut (Hd & Hr & Hb) Hh Ho. unfold op_steps, a_step. rewrite Hr.
  destruct (a_apply d h o) as [[d'|] r] eqn:E; simpl fst.
  - destruct (save_crash f d' lens k cut Hb) as (f' & C & N & Hold & Hnew).
    assert (db_ok d' = true) as Hd' by (eapply a_apply_ok; eauto).
    exists f'. split; auto.
    destruct (Nat.le_gt_cases (List.length (save_steps f d' lens)) k) as [Hk|Hk].
    + rewrite (Hnew Hk). unfold read_db, saved. simpl. rewrite parse_ser by auto.
      repeat split; auto. intro. lia.
    + assert (read_db f' = Some d) as Hrd by (unfold read_db in *; rewrite (Hold Hk); auto).
      repeat split; auto. intro. lia.
  - exists f. split.
    { assert (die cut f = f) as D by (unfold die; rewrite Hb; reflexivity). destruct k; simpl; rewrite D; reflexivity. }
    repeat split; auto.
Qed.

Theorem resolving_keys_spec : forall l v name t,
  In (v, name, t) (resolving_keys l) <->
  exists k key, In (name, k) l /\ irk k = Some key /\ v = k_value key /\
                t = match address_type k with Some a => a | None => RANDOM_DEVICE_ADDRESS end.
Proof.
  induction l as [|[n k] r IH]; intros v name t; simpl.
  - split; [tauto|]. intros (k & key & H & _). exact H.
  - destruct (irk k) as [key|] eqn:E; simpl; rewrite IH; split.
    + intros [H|(k' & key' & H1 & H2)]; [inversion H; subst; eauto 10|eauto 10].
    + intros (k' & key' & [H|H] & H2 & H3 & H4); [|eauto 10].
      inversion H; subst. left. rewrite E in H2. inversion H2; subst. reflexivity.
    + intros (k' & key' & H1 & H2). eauto 10.
    + intros (k' & key' & [H|H] & H2 & H3 & H4); [congruence|eauto 10].
Qed.

Lemma resolving_keys_length : forall l, (List.length (resolving_keys l) <= List.length l)%nat.
Proof. induction l as [|[n k] r IH]; simpl; auto. destruct (irk k); simpl; lia. Qed.
