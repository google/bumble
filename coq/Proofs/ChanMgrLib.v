(* Library lemmas for Proofs/ChanMgr.v: association tables with dictionary semantics, the
   channel heap, the waiter list, indexed maps, and the CID allocator. *)
From Coq Require Import ZArith List Bool Lia.
From BV Require Import Gen.C09Tables Model.ChanMgr.
Import ListNotations.
Open Scope Z_scope.

(* ------------------------------------------------------------------ small facts *)
Lemma memz_In x l : memz x l = true <-> In x l.
Proof.
  induction l as [|y l IH]; cbn; [split; [discriminate|tauto]|].
  rewrite orb_true_iff, IH, Z.eqb_eq. split; intros [H|H]; auto.
Qed.

Lemma memz_false x l : memz x l = false <-> ~ In x l.
Proof. rewrite <- memz_In. destruct (memz x l); split; congruence. Qed.

Lemma nodupz_NoDup l : nodupz l = true <-> NoDup l.
Proof.
  induction l as [|x l IH]; cbn; [split; [constructor|reflexivity]|].
  rewrite andb_true_iff, negb_true_iff, memz_false, IH. split.
  - intros [H1 H2]. constructor; auto.
  - intros H. inversion H; auto.
Qed.

Lemma any_mem_false xs ys : any_mem xs ys = false <-> (forall x, In x xs -> ~ In x ys).
Proof.
  induction xs as [|x xs IH]; cbn; [split; [intros _ ? []|reflexivity]|].
  rewrite orb_false_iff, IH, memz_false. split.
  - intros [H1 H2] y [<-|Hy]; auto.
  - intros H. split; [apply H; auto|intros y Hy; apply H; auto].
Qed.

(* ------------------------------------------------------------------ tables *)
Section Tables.
  Context {V : Type}.
  Implicit Types (t : table V) (h k : Z) (v : V).

  Lemma key_is_iff h k (e : Z * Z * V) :
    key_is h k e = true <-> fst (fst e) = h /\ snd (fst e) = k.
  Proof. unfold key_is. rewrite andb_true_iff, !Z.eqb_eq. tauto. Qed.

  Lemma tget_In h k v t : tget h k t = Some v -> In (h, k, v) t.
  Proof.
    induction t as [|[[h' k'] v'] t IH]; cbn; [discriminate|].
    destruct (key_is h k (h', k', v')) eqn:E.
    - apply key_is_iff in E. cbn in E. destruct E; subst. intros [= ->]. auto.
    - auto.
  Qed.

  Lemma tget_None_In h k t : tget h k t = None -> forall v, ~ In (h, k, v) t.
  Proof.
    induction t as [|[[h' k'] v'] t IH]; cbn; [intros _ v []|].
    destruct (key_is h k (h', k', v')) eqn:E; [discriminate|].
    intros Hn v [Hv|Hv]; [|eapply IH; eauto].
    inversion Hv; subst. unfold key_is in E. cbn in E. rewrite !Z.eqb_refl in E. discriminate.
  Qed.

  Lemma In_tget h k v t : NoDup (map fst t) -> In (h, k, v) t -> tget h k t = Some v.
  Proof.
    induction t as [|[[h' k'] v'] t IH]; cbn; [intros _ []|].
    intros Hnd [He|Hi].
    - inversion He; subst. unfold key_is. cbn. now rewrite !Z.eqb_refl.
    - inversion Hnd as [|? ? Hni Hnd']; subst.
      destruct (key_is h k (h', k', v')) eqn:E; [|auto].
      apply key_is_iff in E. cbn in E. destruct E; subst.
      exfalso. apply Hni. change (h, k) with (fst (h, k, v)). now apply in_map.
  Qed.

  Lemma tget_tset h k v t h' k' :
    tget h' k' (tset h k v t) = if Z.eqb h' h && Z.eqb k' k then Some v else tget h' k' (tdel h k t).
  Proof. unfold tset. cbn [tget]. unfold key_is at 1. cbn. now rewrite (Z.eqb_sym h h'), (Z.eqb_sym k k'). Qed.

  Lemma tget_tdel h k t h' k' :
    tget h' k' (tdel h k t) = if Z.eqb h' h && Z.eqb k' k then None else tget h' k' t.
  Proof.
    unfold tdel. induction t as [|[[h2 k2] v2] t IH]; cbn; [now destruct (_ && _)|].
    unfold key_is in *. cbn in *.
    destruct (Z.eqb_spec h2 h), (Z.eqb_spec k2 k), (Z.eqb_spec h' h), (Z.eqb_spec k' k);
      subst; cbn in *; rewrite ?IH; cbn; unfold key_is, conn_is; cbn;
      repeat match goal with
             | |- context [Z.eqb ?a ?b] => destruct (Z.eqb_spec a b); subst; cbn; try congruence
             end; auto.
  Qed.

  Lemma tget_tdrop h t h' k' :
    tget h' k' (tdrop h t) = if Z.eqb h' h then None else tget h' k' t.
  Proof.
    unfold tdrop. induction t as [|[[h2 k2] v2] t IH]; cbn; [now destruct (_ =? _)|].
    unfold key_is, conn_is in *. cbn in *.
    destruct (Z.eqb_spec h2 h), (Z.eqb_spec h' h);
      subst; cbn in *; rewrite ?IH; cbn; unfold key_is, conn_is; cbn;
      repeat match goal with
             | |- context [Z.eqb ?a ?b] => destruct (Z.eqb_spec a b); subst; cbn; try congruence
             end; auto.
  Qed.

  (* which entry a lookup after an update finds *)
  Lemma tget_tdel_inv h k t h' k' v' :
    tget h' k' (tdel h k t) = Some v' -> (h' <> h \/ k' <> k) /\ tget h' k' t = Some v'.
  Proof.
    rewrite tget_tdel. destruct (Z.eqb_spec h' h), (Z.eqb_spec k' k); cbn; try discriminate; auto.
  Qed.
  Lemma tget_tset_inv h k v t h' k' v' :
    tget h' k' (tset h k v t) = Some v' ->
    (h' = h /\ k' = k /\ v' = v) \/ ((h' <> h \/ k' <> k) /\ tget h' k' t = Some v').
  Proof.
    rewrite tget_tset. destruct (Z.eqb_spec h' h), (Z.eqb_spec k' k); cbn;
      [intros [= <-]; auto|..]; intros H; right; now apply tget_tdel_inv in H.
  Qed.

  Lemma tget_tset_other h k v t b k' : b <> h -> tget b k' (tset h k v t) = tget b k' t.
  Proof. intros H. rewrite tget_tset, tget_tdel. destruct (Z.eqb_spec b h); [contradiction|reflexivity]. Qed.
  Lemma tget_tdel_other h k t b k' : b <> h -> tget b k' (tdel h k t) = tget b k' t.
  Proof. intros H. rewrite tget_tdel. destruct (Z.eqb_spec b h); [contradiction|reflexivity]. Qed.
  Lemma tget_tdrop_other h t b k' : b <> h -> tget b k' (tdrop h t) = tget b k' t.
  Proof. intros H. rewrite tget_tdrop. destruct (Z.eqb_spec b h); [contradiction|reflexivity]. Qed.

  Lemma map_fst_filter (f : Z * Z * V -> bool) t x :
    In x (map fst (filter f t)) -> In x (map fst t).
  Proof.
    rewrite !in_map_iff. intros [e [He Hi]]. apply filter_In in Hi. exists e. tauto.
  Qed.

  Lemma NoDup_filter_keys (f : Z * Z * V -> bool) t :
    NoDup (map fst t) -> NoDup (map fst (filter f t)).
  Proof.
    induction t as [|e t IH]; cbn; [auto|]. intros H. inversion H; subst.
    destruct (f e); cbn; [constructor|]; auto.
    intros Hi. apply map_fst_filter in Hi. auto.
  Qed.

  Lemma NoDup_tdel h k t : NoDup (map fst t) -> NoDup (map fst (tdel h k t)).
  Proof. apply NoDup_filter_keys. Qed.
  Lemma NoDup_tdrop h t : NoDup (map fst t) -> NoDup (map fst (tdrop h t)).
  Proof. apply NoDup_filter_keys. Qed.

  Lemma NoDup_tset h k v t : NoDup (map fst t) -> NoDup (map fst (tset h k v t)).
  Proof.
    intros H. unfold tset. cbn. constructor; [|now apply NoDup_tdel].
    rewrite in_map_iff. intros [[[h' k'] v'] [He Hi]]. cbn in He. inversion He; subst.
    unfold tdel in Hi. apply filter_In in Hi. destruct Hi as [_ Hi].
    unfold key_is in Hi. cbn in Hi. rewrite !Z.eqb_refl in Hi. discriminate.
  Qed.

  (* projection on one connection *)
  Lemma conn_is_iff h (e : Z * Z * V) : conn_is h e = true <-> fst (fst e) = h.
  Proof. unfold conn_is. apply Z.eqb_eq. Qed.

  Ltac tconn_tac IH :=
    cbn; unfold key_is, conn_is in *; cbn in *;
    repeat match goal with
           | |- context [Z.eqb ?a ?b] => destruct (Z.eqb_spec a b); subst; cbn; try congruence
           end; rewrite ?IH; auto.

  Lemma tconn_tdel_other h k t b : b <> h -> tconn b (tdel h k t) = tconn b t.
  Proof.
    intros Hb. unfold tconn, tdel. induction t as [|[[h2 k2] v2] t IH]; [auto|]. tconn_tac IH.
  Qed.

  Lemma tconn_tset_other h k v t b : b <> h -> tconn b (tset h k v t) = tconn b t.
  Proof.
    intros Hb. unfold tset. unfold tconn at 1. cbn [filter]. unfold conn_is at 1. cbn.
    destruct (Z.eqb_spec h b); [congruence|]. now apply tconn_tdel_other.
  Qed.

  Lemma tconn_tdrop_other h t b : b <> h -> tconn b (tdrop h t) = tconn b t.
  Proof.
    intros Hb. unfold tconn, tdrop. induction t as [|[[h2 k2] v2] t IH]; [auto|]. tconn_tac IH.
  Qed.

  Lemma tconn_tdrop_same h t : tconn h (tdrop h t) = [].
  Proof.
    unfold tconn, tdrop. induction t as [|e t IH]; cbn; [auto|].
    destruct (conn_is h e) eqn:E; cbn; [auto|]. now rewrite E.
  Qed.

  Lemma In_tconn h t e : In e (tconn h t) <-> In e t /\ fst (fst e) = h.
  Proof. unfold tconn. rewrite filter_In, conn_is_iff. tauto. Qed.

  Lemma tconn_nil_In h t e : tconn h t = [] -> In e t -> fst (fst e) <> h.
  Proof. intros E Hi Hh. assert (H : In e (tconn h t)) by now apply In_tconn. rewrite E in H. destruct H. Qed.

  Lemma tkeys_In h k t : In k (tkeys h t) <-> exists v, In (h, k, v) t.
  Proof.
    unfold tkeys. rewrite in_map_iff. split.
    - intros [[[h' k'] v] [Hk Hi]]. apply In_tconn in Hi. cbn in *. destruct Hi; subst. eauto.
    - intros [v Hi]. exists (h, k, v). split; [auto|]. apply In_tconn. auto.
  Qed.

  Lemma tkeys_tget h k t : In k (tkeys h t) <-> tget h k t <> None.
  Proof.
    rewrite tkeys_In. split.
    - intros [v Hi] Hn. eapply tget_None_In; eauto.
    - destruct (tget h k t) eqn:E; [|congruence]. intros _. eauto using tget_In.
  Qed.
  Lemma tkeys_fresh h k t : ~ In k (tkeys h t) <-> tget h k t = None.
  Proof. rewrite tkeys_tget. destruct (tget h k t); intuition congruence. Qed.
End Tables.

(* ------------------------------------------------------------------ lists with update *)
Lemma nth_error_lupd {A} (l : list A) n f n' :
  nth_error (lupd l n f) n' = if Nat.eqb n' n then option_map f (nth_error l n') else nth_error l n'.
Proof.
  revert n n'. induction l as [|x l IH]; intros n n'; cbn.
  - destruct (Nat.eqb n' n); destruct n'; auto.
  - destruct n, n'; cbn; auto.
Qed.

Lemma length_lupd {A} (l : list A) n f : length (lupd l n f) = length l.
Proof. revert n. induction l; intros [|n]; cbn; auto. Qed.

Lemma nth_error_map_from {A B} (f : Z -> A -> B) i l n :
  nth_error (map_from f i l) n = option_map (f (i + Z.of_nat n)) (nth_error l n).
Proof.
  revert i n. induction l as [|x l IH]; intros i n; cbn.
  - now destruct n.
  - destruct n; cbn. { now rewrite Z.add_0_r. }
    rewrite IH. f_equal. f_equal. lia.
Qed.

Lemma length_map_from {A B} (f : Z -> A -> B) i l : length (map_from f i l) = length l.
Proof. revert i. induction l; intros; cbn; auto. Qed.

Lemma In_flat_map_from {A B} (f : Z -> A -> list B) i l y :
  In y (flat_map_from f i l) <-> exists n x, nth_error l n = Some x /\ In y (f (i + Z.of_nat n) x).
Proof.
  revert i. induction l as [|x l IH]; intros i; cbn.
  - split; [intros []|intros [n [x [H _]]]; now destruct n].
  - rewrite in_app_iff, IH. split.
    + intros [H|[n [x' [Hn Hy]]]].
      * exists O, x. cbn. now rewrite Z.add_0_r.
      * exists (S n), x'. cbn. split; auto. replace (i + Z.pos (Pos.of_succ_nat n)) with (i + 1 + Z.of_nat n) by lia. auto.
    + intros [[|n] [x' [Hn Hy]]]; cbn in *.
      * inversion Hn; subst. rewrite Z.add_0_r in Hy. auto.
      * right. exists n, x'. split; auto. replace (i + 1 + Z.of_nat n) with (i + Z.pos (Pos.of_succ_nat n)) by lia. auto.
Qed.

(* ------------------------------------------------------------------ heap and waiters *)
Definition wget (m : mgr) (w : Z) : option waiter :=
  if w <? 0 then None else nth_error (m_w m) (Z.to_nat w).

Lemma wout_wget m w : wout m w = match wget m w with Some x => w_out x | None => O_ERROR end.
Proof. unfold wout, wget. now destruct (w <? 0). Qed.

Lemma hget_bound m u c : hget m u = Some c -> 0 <= u < Z.of_nat (length (m_heap m)).
Proof.
  unfold hget. destruct (Z.ltb_spec u 0) as [|Hu]; [discriminate|]. intros Hn.
  assert (Hs : nth_error (m_heap m) (Z.to_nat u) <> None) by congruence.
  apply nth_error_Some in Hs. lia.
Qed.

Lemma wget_bound m w x : wget m w = Some x -> 0 <= w < Z.of_nat (length (m_w m)).
Proof.
  unfold wget. destruct (Z.ltb_spec w 0) as [|Hw]; [discriminate|]. intros Hn.
  assert (Hs : nth_error (m_w m) (Z.to_nat w) <> None) by congruence.
  apply nth_error_Some in Hs. lia.
Qed.

Lemma hget_hupd m u f u' :
  hget (hupd m u f) u' = if Z.eqb u' u then option_map f (hget m u') else hget m u'.
Proof.
  unfold hupd. destruct (Z.ltb_spec u 0).
  - destruct (Z.eqb_spec u' u); auto. subst. unfold hget. destruct (Z.ltb_spec u 0); [auto|lia].
  - unfold hget. cbn [m_heap with_heap]. destruct (Z.ltb_spec u' 0).
    + destruct (Z.eqb_spec u' u); auto.
    + rewrite nth_error_lupd. destruct (Z.eqb_spec u' u).
      * subst. now rewrite Nat.eqb_refl.
      * destruct (Nat.eqb_spec (Z.to_nat u') (Z.to_nat u)); [lia|auto].
Qed.

Lemma hget_hnew m c u' :
  hget (hnew m c) u' = if Z.eqb u' (huid m) then Some c else hget m u'.
Proof.
  unfold hnew, hget, huid. cbn. destruct (Z.ltb_spec u' 0).
  - destruct (Z.eqb_spec u' (Z.of_nat (length (m_heap m)))); [lia|auto].
  - destruct (Z.eqb_spec u' (Z.of_nat (length (m_heap m)))).
    + subst. rewrite Nat2Z.id, nth_error_app2, Nat.sub_diag; auto.
    + destruct (Nat.lt_ge_cases (Z.to_nat u') (length (m_heap m))).
      * now rewrite nth_error_app1.
      * rewrite nth_error_app2 by lia.
        destruct (Z.to_nat u' - length (m_heap m))%nat eqn:E; [lia|]. cbn.
        assert (Hnn : nth_error (m_heap m) (Z.to_nat u') = None) by (apply nth_error_None; lia).
        rewrite Hnn. now destruct n0.
Qed.

Lemma wget_wres m w o w' :
  wget (wres m w o) w' = if Z.eqb w' w then option_map (wres1 o) (wget m w') else wget m w'.
Proof.
  unfold wres. destruct (Z.ltb_spec w 0).
  - destruct (Z.eqb_spec w' w); auto. subst. unfold wget. destruct (Z.ltb_spec w 0); [auto|lia].
  - unfold wget. cbn [m_w with_w]. destruct (Z.ltb_spec w' 0).
    + destruct (Z.eqb_spec w' w); auto.
    + rewrite nth_error_lupd. destruct (Z.eqb_spec w' w).
      * subst. now rewrite Nat.eqb_refl.
      * destruct (Nat.eqb_spec (Z.to_nat w') (Z.to_nat w)); [lia|auto].
Qed.

Lemma wget_wnew m o k h r w' :
  wget (wnew m o k h r) w' = if Z.eqb w' (wuid m) then Some (mkW o k h r) else wget m w'.
Proof.
  unfold wnew, wget, wuid. cbn. destruct (Z.ltb_spec w' 0).
  - destruct (Z.eqb_spec w' (Z.of_nat (length (m_w m)))); [lia|auto].
  - destruct (Z.eqb_spec w' (Z.of_nat (length (m_w m)))).
    + subst. rewrite Nat2Z.id, nth_error_app2, Nat.sub_diag; auto.
    + destruct (Nat.lt_ge_cases (Z.to_nat w') (length (m_w m))).
      * now rewrite nth_error_app1.
      * rewrite nth_error_app2 by lia.
        destruct (Z.to_nat w' - length (m_w m))%nat eqn:E; [lia|]. cbn.
        assert (Hnn : nth_error (m_w m) (Z.to_nat w') = None) by (apply nth_error_None; lia).
        rewrite Hnn. now destruct n0.
Qed.

(* completing a future: only a pending one changes, and it is then no longer pending *)
Lemma wres1_out o x : w_out x = O_PENDING -> w_out (wres1 o x) = o.
Proof. intros H. unfold wres1. rewrite H. reflexivity. Qed.
Lemma wres1_notpending o x : w_out x <> O_PENDING -> wres1 o x = x.
Proof. intros H. unfold wres1. destruct (Z.eqb_spec (w_out x) O_PENDING); congruence. Qed.
Lemma wres1_done o x : o <> O_PENDING -> w_out x = O_PENDING -> w_out (wres1 o x) <> O_PENDING.
Proof. intros Ho Hx. now rewrite wres1_out. Qed.
Lemma wres1_pending o x : w_out (wres1 o x) = O_PENDING -> o <> O_PENDING -> False.
Proof. unfold wres1. destruct (Z.eqb_spec (w_out x) O_PENDING); cbn; congruence. Qed.
Lemma wres1_twice o1 o2 x : o1 <> O_PENDING -> wres1 o2 (wres1 o1 x) = wres1 o1 x.
Proof.
  intros H. unfold wres1. destruct (Z.eqb_spec (w_out x) O_PENDING) as [E|E]; cbn.
  - destruct (Z.eqb_spec o1 O_PENDING); [congruence|reflexivity].
  - destruct (Z.eqb_spec (w_out x) O_PENDING); [congruence|reflexivity].
Qed.
Lemma w_conn_wres1 o x : w_conn (wres1 o x) = w_conn x.
Proof. unfold wres1. destruct (Z.eqb _ _); reflexivity. Qed.

(* ------------------------------------------------------------------ CID allocator *)
Lemma scan_spec fuel cid hi used count x :
  In x (scan fuel cid hi used count) -> cid <= x <= hi /\ ~ In x used.
Proof.
  revert cid count. induction fuel as [|fuel IH]; intros cid count; destruct count; cbn; try tauto.
  destruct (Z.ltb_spec hi cid); [intros []|].
  destruct (memz cid used) eqn:E.
  - intros Hx. apply IH in Hx. destruct Hx. split; [lia|auto].
  - intros [<-|Hx]; [split; [lia|now apply memz_false]|]. apply IH in Hx. destruct Hx. split; [lia|auto].
Qed.

Lemma scan_sorted fuel cid hi used count :
  NoDup (scan fuel cid hi used count).
Proof.
  revert cid count. induction fuel as [|fuel IH]; intros cid count; destruct count; cbn; try constructor.
  destruct (Z.ltb_spec hi cid); [constructor|].
  destruct (memz cid used); [apply IH|]. constructor; [|apply IH].
  intros Hx. apply scan_spec in Hx. lia.
Qed.

Lemma scan_length fuel cid hi used count : (length (scan fuel cid hi used count) <= count)%nat.
Proof.
  revert cid count. induction fuel as [|fuel IH]; intros cid count; destruct count; cbn; try lia.
  destruct (Z.ltb_spec hi cid); [cbn; lia|].
  destruct (memz cid used); [apply IH|]. cbn. specialize (IH (cid + 1) count). lia.
Qed.

Lemma find_free_n_spec lo hi used count x :
  In x (find_free_n lo hi used count) -> lo <= x <= hi /\ ~ In x used.
Proof.
  unfold find_free_n. destruct (Nat.eqb _ _); [apply scan_spec|intros []].
Qed.

Lemma find_free_n_NoDup lo hi used count : NoDup (find_free_n lo hi used count).
Proof. unfold find_free_n. destruct (Nat.eqb _ _); [apply scan_sorted|constructor]. Qed.

Lemma find_free_n_length lo hi used count :
  find_free_n lo hi used count = [] \/ length (find_free_n lo hi used count) = count.
Proof.
  unfold find_free_n. destruct (Nat.eqb_spec (length (scan (length used + count) lo hi used count)) count); auto.
Qed.

(* completeness: with `count` free CIDs left in the range the scan finds them.
   The number of candidates scanned that are in `used` is bounded by the number of
   distinct used CIDs at or above the current candidate. *)
Fixpoint count_ge (cid : Z) (used : list Z) : nat :=
  match used with [] => O | y :: l => (if cid <=? y then 1 else 0) + count_ge cid l end.

Lemma count_ge_remove cid used :
  In cid used -> (S (count_ge (cid + 1) (remove Z.eq_dec cid used)) <= count_ge cid used)%nat.
Proof.
  induction used as [|y l IH]; cbn; [intros []|].
  intros [->|Hi].
  - destruct (Z.eq_dec cid cid); [|congruence]. destruct (Z.leb_spec cid cid); [|lia].
    clear. induction l as [|z l IH]; cbn; [lia|].
    destruct (Z.eq_dec cid z); cbn.
    + subst. destruct (Z.leb_spec z z); lia.
    + destruct (Z.leb_spec (cid + 1) z), (Z.leb_spec cid z); lia.
  - destruct (Z.eq_dec cid y); cbn.
    + subst. destruct (Z.leb_spec y y); [|lia]. specialize (IH Hi). lia.
    + specialize (IH Hi). destruct (Z.leb_spec (cid + 1) y), (Z.leb_spec cid y); lia.
Qed.

Lemma count_ge_mono cid used : (count_ge (cid + 1) used <= count_ge cid used)%nat.
Proof.
  induction used as [|y l IH]; cbn; [lia|].
  destruct (Z.leb_spec (cid + 1) y), (Z.leb_spec cid y); lia.
Qed.

Lemma memz_remove x y l : y <> x -> memz x (remove Z.eq_dec y l) = memz x l.
Proof.
  intros Hn. induction l as [|z l IH]; cbn; [auto|].
  destruct (Z.eq_dec y z); cbn.
  - subst. destruct (Z.eqb_spec x z); [congruence|auto].
  - now rewrite IH.
Qed.

Lemma scan_remove fuel cid hi used count y :
  y < cid -> scan fuel cid hi (remove Z.eq_dec y used) count = scan fuel cid hi used count.
Proof.
  revert cid count. induction fuel as [|fuel IH]; intros cid count Hy; destruct count; cbn; auto.
  destruct (hi <? cid); auto. rewrite memz_remove by lia.
  destruct (memz cid used); rewrite IH by lia; auto.
Qed.

Lemma scan_complete fuel cid hi used count :
  (count_ge cid used + count <= fuel)%nat ->
  cid + Z.of_nat (count_ge cid used) + Z.of_nat count - 1 <= hi ->
  length (scan fuel cid hi used count) = count.
Proof.
  revert cid used count. induction fuel as [|fuel IH]; intros cid used count Hf Hh.
  - destruct count; [reflexivity|lia].
  - destruct count; [reflexivity|]. cbn.
    destruct (Z.ltb_spec hi cid); [lia|].
    destruct (memz cid used) eqn:E.
    + apply memz_In in E. pose proof (count_ge_remove cid used E).
      rewrite <- (scan_remove fuel (cid + 1) hi used (S count) cid) by lia.
      apply IH; lia.
    + cbn. f_equal. pose proof (count_ge_mono cid used). apply IH; lia.
Qed.

Lemma count_ge_length cid used : (count_ge cid used <= length used)%nat.
Proof. induction used as [|y l IH]; cbn; [lia|]. destruct (cid <=? y); lia. Qed.

(* if fewer than (range size - count + 1) CIDs are in use, `count` free ones are found *)
Lemma find_free_n_complete lo hi used count :
  (count > 0)%nat ->
  lo + Z.of_nat (length used) + Z.of_nat count - 1 <= hi ->
  length (find_free_n lo hi used count) = count.
Proof.
  intros Hc Hr. unfold find_free_n.
  pose proof (count_ge_length lo used).
  assert (Hs : length (scan (length used + count) lo hi used count) = count)
    by (apply scan_complete; lia).
  rewrite Hs, Nat.eqb_refl. exact Hs.
Qed.

(* the first CID found is in the range and free, and there is one while the range is not used up *)
Lemma find_free_hd lo hi used n x :
  hd_error (find_free_n lo hi used n) = Some x -> lo <= x <= hi /\ ~ In x used.
Proof.
  destruct (find_free_n lo hi used n) as [|y l] eqn:E; [discriminate|]. intros [= <-].
  apply (find_free_n_spec lo hi used n). rewrite E. now left.
Qed.

Lemma find_free_hd_some lo hi used :
  Z.of_nat (length used) < hi - lo + 1 -> exists x, hd_error (find_free_n lo hi used 1) = Some x.
Proof.
  intros H. pose proof (find_free_n_complete lo hi used 1) as L.
  destruct (find_free_n lo hi used 1) as [|x l]; [|now exists x].
  assert (Hx : (0 = 1)%nat); [|lia]. apply L; lia.
Qed.
