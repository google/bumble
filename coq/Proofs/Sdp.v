(* SDP (Model/Sdp.v): pattern matching, attribute selection, continuation chunking and the
   client accumulation loops, and independence of simultaneously connected clients. *)
From Coq Require Import ZArith List Bool Lia Sorted.
From BV Require Import Model.C19Chunks Model.Sdp Proofs.C19Chunks.
Import ListNotations.
Open Scope Z_scope.

Lemma uuid_in_seq : forall u l, uuid_in u (DSeq l) = existsb (uuid_in u) l.
Proof.
  intros u l. simpl. induction l as [|x l IH]; [reflexivity|].
  simpl. rewrite <- IH. destruct (uuid_in u x); reflexivity.
Qed.

Lemma service_has_uuid_iff : forall svc u,
  service_has_uuid svc u = true <-> exists a, In a svc /\ uuid_in u (at_val a) = true.
Proof. intros. unfold service_has_uuid. apply existsb_exists. Qed.

(* A record is returned exactly when it is registered and contains EVERY UUID of the pattern. *)
Theorem match_iff_all_uuids : forall recs pat h svc,
  In (h, svc) (match_services recs pat) <->
  In (h, svc) recs /\ forall u, In u pat -> service_has_uuid svc u = true.
Proof.
  intros. unfold match_services. rewrite filter_In. unfold record_matches. simpl.
  rewrite forallb_forall. tauto.
Qed.

Lemma match_services_cons : forall h svc recs pat,
  match_services ((h, svc) :: recs) pat =
  if record_matches pat svc then (h, svc) :: match_services recs pat else match_services recs pat.
Proof. reflexivity. Qed.

Lemma In_ins_attr : forall a b l, In a (ins_attr b l) <-> a = b \/ In a l.
Proof.
  intros a b l. induction l as [|c l IH]; simpl.
  - intuition.
  - destruct (at_id b <=? at_id c); simpl; rewrite ?IH; intuition.
Qed.

Lemma In_sort_attrs : forall a l, In a (sort_attrs l) <-> In a l.
Proof.
  intros a l. induction l as [|b l IH]; simpl; [tauto|].
  rewrite In_ins_attr, IH. intuition.
Qed.

Definition id_le (a b : attr) : Prop := at_id a <= at_id b.

Lemma ins_attr_sorted : forall a l, StronglySorted id_le l -> StronglySorted id_le (ins_attr a l).
Proof.
  intros a l H. induction H as [|b l Hs IH Hall]; simpl.
  - constructor; constructor.
  - destruct (at_id a <=? at_id b) eqn:E.
    + apply Z.leb_le in E. constructor.
      * constructor; assumption.
      * constructor; [exact E|]. eapply Forall_impl; [|exact Hall].
        intros c Hc. unfold id_le in *. lia.
    + apply Z.leb_gt in E. constructor; [exact IH|].
      apply Forall_forall. intros c Hc. apply In_ins_attr in Hc. destruct Hc as [->|Hc].
      * unfold id_le. lia.
      * rewrite Forall_forall in Hall. exact (Hall c Hc).
Qed.

Lemma sort_attrs_sorted : forall l, StronglySorted id_le (sort_attrs l).
Proof. induction l; simpl; [constructor|apply ins_attr_sorted; assumption]. Qed.

(* get_service_attributes returns exactly the attributes of the record that fall in one of the
   requested ids / ranges, in increasing id order. *)
Theorem get_service_attributes_spec : forall svc ids,
  (forall a, In a (get_service_attributes svc ids) <->
             In a svc /\ exists i, In i ids /\ id_lo i <= at_id a <= id_hi i) /\
  StronglySorted id_le (get_service_attributes svc ids).
Proof.
  intros svc ids. split; [|apply sort_attrs_sorted].
  intro a. unfold get_service_attributes, select_attrs. rewrite In_sort_attrs, in_flat_map. split.
  - intros (i & Hi & Ha). apply filter_In in Ha. destruct Ha as [Ha Hr].
    unfold in_range in Hr. apply andb_true_iff in Hr. destruct Hr as [H1 H2].
    apply Z.leb_le in H1, H2. split; [exact Ha|]. exists i. tauto.
  - intros (Ha & i & Hi & H1 & H2). exists i. split; [exact Hi|]. apply filter_In. split; [exact Ha|].
    unfold in_range. apply andb_true_iff. split; apply Z.leb_le; assumption.
Qed.

(* get_next_response_payload: with a budget of at least one byte every non-final piece is
   non-empty and the remainder strictly shorter: the continuation loop terminates. *)
Lemma next_payload_more : forall mx b,
  0 <= mx -> mx < zlen b ->
  next_payload mx b = (firstn (Z.to_nat mx) b, true, RBytes (skipn (Z.to_nat mx) b)) /\
  zlen (firstn (Z.to_nat mx) b) = mx /\ zlen (skipn (Z.to_nat mx) b) = zlen b - mx.
Proof.
  intros mx b H0 H. unfold next_payload. apply Z.ltb_lt in H. rewrite H. apply Z.ltb_lt in H.
  split; [reflexivity|]. unfold zlen in *. rewrite firstn_length, skipn_length. lia.
Qed.

Lemma next_payload_last : forall mx b,
  zlen b <= mx -> next_payload mx b = (b, false, RNone).
Proof. intros mx b H. unfold next_payload. apply Z.ltb_ge in H. rewrite H. reflexivity. Qed.

Definition bytes_req (q : req) : option Z :=
  match q with QAttr _ mb _ _ => Some mb | QSearchAttr _ mb _ _ => Some mb | QSearch _ _ _ => None end.

Lemma handle_valid_bytes : forall recs mtu q mb b,
  bytes_req q = Some mb ->
  handle recs mtu (RBytes b) (set_cont q CValid) =
  let '(payload, more, cur') := next_payload (Z.min mb (mtu - 9)) b in
  (cur', match q with QAttr _ _ _ _ => EAttr payload more | _ => ESearchAttr payload more end).
Proof.
  intros recs mtu q mb b Hq.
  destruct q as [pt mc c|hd mb' ids c|pt mb' ids c]; simpl in Hq; inversion Hq; subst;
    unfold handle, respond_bytes; cbn [set_cont req_cont];
    destruct (next_payload (Z.min mb (mtu - 9)) b) as [[pp mm] cc]; reflexivity.
Qed.

(* continuation requests against a pending bytes response [b]: for EVERY watchdog value w and
   every size, w * budget >= size suffices; the pieces are concatenated in order *)
Lemma bytes_loop : forall w recs mtu q mb b acc,
  bytes_req q = Some mb -> 1 <= Z.min mb (mtu - 9) ->
  (1 <= w)%nat -> zlen b <= Z.of_nat w * Z.min mb (mtu - 9) ->
  client_bytes w recs mtu q (RBytes b) CValid acc = (RNone, CDoneBytes (acc ++ b)).
Proof.
  induction w as [|w IH]; intros recs mtu q mb b acc Hq Hmx Hw Hb; [lia|].
  set (mx := Z.min mb (mtu - 9)) in *.
  cbn [client_bytes]. rewrite (handle_valid_bytes recs mtu q mb b Hq). fold mx.
  destruct (Z.lt_ge_cases mx (zlen b)) as [Hlt|Hge].
  - destruct (next_payload_more mx b ltac:(lia) Hlt) as (E & L1 & L2). rewrite E.
    assert (Hw' : (1 <= w)%nat) by (destruct w; [lia|lia]).
    assert (Hb' : zlen (skipn (Z.to_nat mx) b) <= Z.of_nat w * mx) by (rewrite L2; lia).
    pose proof (IH recs mtu q mb (skipn (Z.to_nat mx) b) (acc ++ firstn (Z.to_nat mx) b) Hq Hmx Hw' Hb') as R.
    destruct q; simpl in Hq; try discriminate; rewrite R, <- app_assoc, firstn_skipn; reflexivity.
  - rewrite (next_payload_last mx b ltac:(lia)).
    destruct q; simpl in Hq; try discriminate; reflexivity.
Qed.

(* with a budget of zero bytes and something to send the transaction never ends: whatever the
   watchdog, the client is left with a partial (empty) answer and the server state is unchanged *)
Lemma bytes_loop_zero_budget : forall w recs mtu q mb b acc,
  bytes_req q = Some mb -> Z.min mb (mtu - 9) = 0 -> b <> [] ->
  client_bytes w recs mtu q (RBytes b) CValid acc = (RBytes b, CPartialBytes acc).
Proof.
  induction w as [|w IH]; intros recs mtu q mb b acc Hq Hmx Hb; [reflexivity|].
  cbn [client_bytes]. rewrite (handle_valid_bytes recs mtu q mb b Hq), Hmx.
  assert (Hl : 0 < zlen b) by (destruct b; [congruence|rewrite zlen_cons; pose proof (zlen_nonneg _ b); lia]).
  destruct (next_payload_more 0 b ltac:(lia) Hl) as (E & _ & _). rewrite E.
  change (Z.to_nat 0) with 0%nat. simpl firstn. simpl skipn.
  pose proof (IH recs mtu q mb b acc Hq Hmx Hb) as R.
  destruct q; simpl in Hq; try discriminate; rewrite app_nil_r; exact R.
Qed.

(* the first request of a transaction computes the response and then behaves as a continuation *)
Lemma handle_fresh_attr : forall recs mtu cur h mb ids svc,
  lookup_record h recs = Some svc ->
  handle recs mtu cur (QAttr h mb ids CFresh) =
  handle recs mtu (RBytes (attr_list_bytes (get_service_attributes svc ids))) (QAttr h mb ids CValid).
Proof. intros. unfold handle. cbn [req_cont]. rewrite H. reflexivity. Qed.

Lemma handle_fresh_search_attr : forall recs mtu cur pat mb ids,
  handle recs mtu cur (QSearchAttr pat mb ids CFresh) =
  handle recs mtu (RBytes (search_attr_bytes recs pat ids)) (QSearchAttr pat mb ids CValid).
Proof. reflexivity. Qed.

Lemma client_bytes_first : forall w recs mtu q cur b acc,
  handle recs mtu cur (set_cont q CFresh) = handle recs mtu (RBytes b) (set_cont q CValid) ->
  client_bytes (S w) recs mtu q cur CFresh acc = client_bytes (S w) recs mtu q (RBytes b) CValid acc.
Proof. intros * H. cbn [client_bytes]. now rewrite H. Qed.

Lemma client_bytes_exact : forall w recs mtu q mb cur b,
  bytes_req q = Some mb -> 1 <= Z.min mb (mtu - 9) -> (1 <= w)%nat ->
  zlen b <= Z.of_nat w * Z.min mb (mtu - 9) ->
  handle recs mtu cur (set_cont q CFresh) = handle recs mtu (RBytes b) (set_cont q CValid) ->
  client_bytes w recs mtu q cur CFresh [] = (RNone, CDoneBytes b).
Proof.
  intros [|w] recs mtu q mb cur b Hq Hmx Hw Hb Hf; [lia|].
  rewrite (client_bytes_first w recs mtu q cur b [] Hf). now apply (bytes_loop (S w) recs mtu q mb).
Qed.

Definition capacity (mtu : Z) : Z := Z.min 65535 (mtu - 9).

(* Client.get_attributes against the server: whatever partial response a previous transaction
   left behind, for every MTU >= 10 and every response of at most 64 pieces, the client
   accumulates exactly the serialised attribute list, and the server is left clean. *)
Theorem get_attributes_exact : forall recs mtu cur h ids svc,
  lookup_record h recs = Some svc -> 10 <= mtu ->
  zlen (attr_list_bytes (get_service_attributes svc ids)) <= 64 * capacity mtu ->
  client_get_attributes recs mtu cur h ids =
  (RNone, CDoneBytes (attr_list_bytes (get_service_attributes svc ids))).
Proof.
  intros recs mtu cur h ids svc Hl Hmtu Hsz. unfold capacity in Hsz.
  apply (client_bytes_exact WATCHDOG recs mtu _ 65535); try reflexivity; try (unfold WATCHDOG; lia).
  now apply handle_fresh_attr.
Qed.

Theorem search_attributes_exact : forall recs mtu cur pat ids,
  10 <= mtu -> zlen (search_attr_bytes recs pat ids) <= 64 * capacity mtu ->
  client_search_attributes recs mtu cur pat ids = (RNone, CDoneBytes (search_attr_bytes recs pat ids)).
Proof.
  intros recs mtu cur pat ids Hmtu Hsz. unfold capacity in Hsz.
  apply (client_bytes_exact WATCHDOG recs mtu _ 65535); try reflexivity; unfold WATCHDOG; lia.
Qed.

(* the guard is needed: a maximum_attribute_byte_count of 0 never terminates *)
Theorem zero_byte_count_never_terminates : forall w recs mtu cur pat ids,
  9 <= mtu ->
  client_bytes (S w) recs mtu (QSearchAttr pat 0 ids CFresh) cur CFresh [] =
  (RBytes (search_attr_bytes recs pat ids), CPartialBytes []).
Proof.
  intros w recs mtu cur pat ids Hmtu.
  rewrite (client_bytes_first w recs mtu (QSearchAttr pat 0 ids CFresh) cur (search_attr_bytes recs pat ids) [])
    by apply handle_fresh_search_attr.
  apply (bytes_loop_zero_budget (S w) recs mtu (QSearchAttr pat 0 ids CFresh) 0); try reflexivity.
  - lia.
  - unfold search_attr_bytes, seq_bytes.
    destruct (zlen _ <=? 255); [discriminate|]. destruct (zlen _ <=? 65535); discriminate.
Qed.

Lemma handle_valid_handles : forall recs mtu pat mc total hs,
  handle recs mtu (RHandles total hs) (QSearch pat mc CValid) =
  (RHandles total (skipn (Z.to_nat ((mtu - 11) / 4)) hs),
   ESearch total (firstn (Z.to_nat ((mtu - 11) / 4)) hs) (negb (is_nil (skipn (Z.to_nat ((mtu - 11) / 4)) hs)))).
Proof. reflexivity. Qed.

Lemma handles_loop : forall w recs mtu pat mc total hs acc,
  1 <= (mtu - 11) / 4 -> (1 <= w)%nat -> zlen hs <= Z.of_nat w * ((mtu - 11) / 4) ->
  client_handles w recs mtu (QSearch pat mc CFresh) (RHandles total hs) CValid acc =
  (RHandles total [], CDoneHandles (acc ++ hs)).
Proof.
  induction w as [|w IH]; intros recs mtu pat mc total hs acc Hper Hw Hb; [lia|].
  set (per := (mtu - 11) / 4) in *.
  cbn [client_handles set_cont]. rewrite handle_valid_handles. fold per.
  destruct (skipn (Z.to_nat per) hs) as [|x rest] eqn:Es.
  - cbn [is_nil negb]. rewrite <- (firstn_skipn (Z.to_nat per) hs) at 2. rewrite Es, app_nil_r. reflexivity.
  - cbn [is_nil negb].
    assert (Hlen : zlen (x :: rest) = zlen hs - per /\ per < zlen hs).
    { rewrite <- Es. unfold zlen. rewrite skipn_length.
      assert (length (skipn (Z.to_nat per) hs) <> 0%nat) by (rewrite Es; discriminate).
      rewrite skipn_length in H. lia. }
    assert (Hw' : (1 <= w)%nat) by (destruct w; [lia|lia]).
    rewrite (IH recs mtu pat mc total (x :: rest) (acc ++ firstn (Z.to_nat per) hs) Hper Hw' ltac:(lia)).
    rewrite <- app_assoc, <- Es, firstn_skipn. reflexivity.
Qed.

(* Client.search_services: exactly the handles of the matching records, in table order. *)
Theorem search_services_exact : forall recs mtu cur pat,
  15 <= mtu ->
  zlen (match_services recs pat) <= 65535 ->
  zlen (match_services recs pat) <= 64 * ((mtu - 11) / 4) ->
  client_search_services recs mtu cur pat =
  (RHandles (zlen (match_services recs pat)) [], CDoneHandles (map fst (match_services recs pat))).
Proof.
  intros recs mtu cur pat Hmtu H16 Hsz. unfold client_search_services, WATCHDOG.
  set (hs := map fst (match_services recs pat)).
  assert (Hlen : zlen hs = zlen (match_services recs pat)) by (unfold hs, zlen; rewrite map_length; reflexivity).
  assert (Hper : 1 <= (mtu - 11) / 4) by (apply Z.div_le_lower_bound; lia).
  assert (Hsub : firstn (Z.to_nat 65535) hs = hs) by (apply firstn_all2; unfold zlen in *; lia).
  assert (E : handle recs mtu cur (QSearch pat 65535 CFresh) =
              handle recs mtu (RHandles (zlen hs) hs) (QSearch pat 65535 CValid)).
  { rewrite handle_valid_handles. unfold handle. cbn [req_cont]. fold hs. rewrite Hsub. reflexivity. }
  transitivity (client_handles 64 recs mtu (QSearch pat 65535 CFresh) (RHandles (zlen hs) hs) CValid []).
  { change 64%nat with (S 63). generalize 63%nat. intros w. cbn [client_handles set_cont]. now rewrite E. }
  rewrite <- Hlen. apply handles_loop; lia.
Qed.

Lemma respond_bytes_fits : forall mk mtu mb cur,
  (forall p m, rsp_size (mk p m) = 5 + 2 + zlen p + cont_size m) -> 9 <= mtu ->
  rsp_size (snd (respond_bytes mk (Z.min mb (mtu - 9)) cur)) <= mtu.
Proof.
  intros mk mtu mb cur Hmk Hmtu. unfold respond_bytes. destruct cur as [|b|t hs].
  - simpl. lia.
  - unfold next_payload. destruct (Z.min mb (mtu - 9) <? zlen b) eqn:E; simpl; rewrite Hmk; simpl cont_size.
    + unfold zlen. rewrite firstn_length. lia.
    + apply Z.ltb_ge in E. lia.
  - destruct (2 <=? Z.min mb (mtu - 9)); simpl; lia.
Qed.

(* every response of every handler fits the MTU of the channel it is sent on (MTU >= 11) *)
Theorem response_fits_mtu : forall recs mtu cur q,
  11 <= mtu -> rsp_size (snd (handle recs mtu cur q)) <= mtu.
Proof.
  intros recs mtu cur q Hmtu.
  assert (Hper : 0 <= (mtu - 11) / 4 /\ 4 * ((mtu - 11) / 4) <= mtu - 11).
  { split; [apply Z.div_pos; lia|]. pose proof (Z.mul_div_le (mtu - 11) 4). lia. }
  assert (Hfirst : forall (hs : list Z), 4 * zlen (firstn (Z.to_nat ((mtu - 11) / 4)) hs) <= mtu - 11).
  { intro hs. unfold zlen. rewrite firstn_length. lia. }
  unfold handle. destruct q as [pat mc c|h mb ids c|pat mb ids c]; cbn [req_cont]; destruct c.
  - (* search, fresh *) cbn [snd rsp_size]. specialize (Hfirst (firstn (Z.to_nat mc) (map fst (match_services recs pat)))).
    destruct (negb _); simpl cont_size; lia.
  - destruct cur as [|b|t hs]; cbn [snd rsp_size]; try lia. specialize (Hfirst hs). destruct (negb _); simpl cont_size; lia.
  - simpl. lia.
  - destruct (lookup_record h recs); [apply respond_bytes_fits; [reflexivity|lia]|simpl; lia].
  - destruct cur as [|b|t hs]; [simpl; lia| |]; apply respond_bytes_fits; try reflexivity; lia.
  - simpl. lia.
  - apply respond_bytes_fits; [reflexivity|lia].
  - destruct cur as [|b|t hs]; [simpl; lia| |]; apply respond_bytes_fits; try reflexivity; lia.
  - simpl. lia.
Qed.

Lemma p_lookup_remove : forall c d l,
  p_lookup c (p_remove d l) = if d =? c then RNone else p_lookup c l.
Proof.
  intros c d l. induction l as [|[c' r] l IH]; cbn [p_remove p_lookup]; [now destruct (d =? c)|].
  destruct (c' =? d) eqn:E.
  - apply Z.eqb_eq in E. subst c'. rewrite IH. now destruct (d =? c).
  - cbn [p_lookup]. rewrite IH. destruct (d =? c) eqn:E2; [|reflexivity].
    apply Z.eqb_eq in E2. subst d. now rewrite E.
Qed.

(* serving another client moves continuation states between [s_cur] and [s_pending]; nobody's changes *)
Lemma view_select : forall s c d, view (select_channel s c) d = view s d.
Proof.
  intros s c d. unfold select_channel. destruct (is_chan s c) eqn:E; [reflexivity|].
  unfold view, is_chan in *. cbn [s_chan s_cur s_pending]. rewrite p_lookup_remove.
  destruct (c =? d) eqn:Ecd; [apply Z.eqb_eq in Ecd; subst d|];
    (destruct (s_chan s) as [c0|]; [|reflexivity]); unfold p_put; cbn [p_lookup]; rewrite ?E, p_lookup_remove.
  - now rewrite E.
  - now destruct (c0 =? d).
Qed.

Lemma chan_select : forall s c, s_chan (select_channel s c) = Some c.
Proof.
  intros s c. unfold select_channel. destruct (is_chan s c) eqn:E; [|reflexivity].
  unfold is_chan in E. destruct (s_chan s); [|discriminate]. apply Z.eqb_eq in E. now subst.
Qed.

(* so after [select_channel s c] the served state is c's and the parked ones are the others' *)
Lemma select_views : forall s c d,
  s_cur (select_channel s c) = view s c /\
  ((c =? d) = false -> p_lookup d (s_pending (select_channel s c)) = view s d).
Proof.
  intros s c d. rewrite <- (view_select s c c), <- (view_select s c d).
  unfold view, is_chan. rewrite chan_select, Z.eqb_refl. split; [reflexivity|]. now intros ->.
Qed.

(* a request is handled against the requester's own continuation state, and answered to the requester *)
Lemma s_step_request : forall recs s c mtu q,
  s_step recs s (Request c mtu q) =
  (mkS (Some c) (fst (handle recs mtu (view s c) q)) (s_pending (select_channel s c)),
   [(c, snd (handle recs mtu (view s c) q))]).
Proof.
  intros recs s c mtu q. cbn [s_step]. rewrite chan_select, (proj1 (select_views s c c)).
  now destruct (handle recs mtu (view s c) q).
Qed.

(* one server step seen from client d *)
Lemma step_view : forall recs s o d,
  view (fst (s_step recs s o)) d =
  if op_chan o =? d then fst (solo_step recs (view s d) o) else view s d.
Proof.
  intros recs s o d. destruct o as [c|c|c mtu q]; cbn [op_chan].
  - cbn [s_step fst]. rewrite view_select. now destruct (c =? d).
  - cbn [s_step solo_step]. unfold view, is_chan.
    destruct (s_chan s) as [c0|]; [destruct (c0 =? c) eqn:E|]; cbn [fst s_chan s_cur s_pending];
      rewrite p_lookup_remove; destruct (c =? d) eqn:Ecd; try reflexivity.
    + apply Z.eqb_eq in E. subst c0. now rewrite Ecd.
    + apply Z.eqb_eq in Ecd. subst d. now rewrite E.
  - rewrite s_step_request. cbn [solo_step fst]. unfold view at 1, is_chan. cbn [s_chan s_cur s_pending].
    destruct (c =? d) eqn:Ecd; [|now apply select_views].
    apply Z.eqb_eq in Ecd. subst d. now destruct (handle recs mtu (view s c) q).
Qed.

Lemma step_out : forall recs s o d,
  to_chan d (snd (s_step recs s o)) =
  if op_chan o =? d then snd (solo_step recs (view s d) o) else [].
Proof.
  intros recs s o d. destruct o as [c|c|c mtu q]; cbn [op_chan].
  - simpl. destruct (c =? d); reflexivity.
  - simpl. destruct (is_chan s c); destruct (c =? d); reflexivity.
  - rewrite s_step_request. unfold to_chan. cbn [solo_step snd filter fst].
    destruct (c =? d) eqn:E; [|reflexivity]. apply Z.eqb_eq in E. subst d.
    now destruct (handle recs mtu (view s c) q).
Qed.

Lemma for_chan_cons : forall d o ops,
  for_chan d (o :: ops) = if op_chan o =? d then o :: for_chan d ops else for_chan d ops.
Proof. reflexivity. Qed.

Lemma to_chan_app : forall d a b, to_chan d (a ++ b) = to_chan d a ++ to_chan d b.
Proof. intros. unfold to_chan. rewrite filter_app, map_app. reflexivity. Qed.

(* Independence of simultaneously connected clients: for ANY interleaving of the operations of
   ANY number of clients, the responses client d receives -- and the continuation state the
   server holds for it -- are those of a server that only ever saw d's own operations. *)
Theorem clients_independent : forall recs ops s d,
  to_chan d (snd (s_run recs s ops)) = snd (solo_run recs (view s d) (for_chan d ops)) /\
  view (fst (s_run recs s ops)) d = fst (solo_run recs (view s d) (for_chan d ops)).
Proof.
  intros recs ops. induction ops as [|o ops IH]; intros s d; [split; reflexivity|].
  cbn [s_run]. rewrite for_chan_cons.
  pose proof (step_view recs s o d) as Hv. pose proof (step_out recs s o d) as Ho.
  destruct (s_step recs s o) as [s1 o1]. simpl fst in Hv. simpl snd in Ho.
  destruct (IH s1 d) as [IH1 IH2]. destruct (s_run recs s1 ops) as [s2 o2].
  simpl fst in *. simpl snd in *. rewrite to_chan_app, Ho, IH1, IH2, Hv.
  destruct (op_chan o =? d).
  - cbn [solo_run]. destruct (solo_step recs (view s d) o) as [c1 r1]. simpl fst. simpl snd.
    destruct (solo_run recs c1 (for_chan d ops)) as [c2 r2]. split; reflexivity.
  - split; reflexivity.
Qed.

(* A client's channel closes (Server.on_channel_close): the continuation state of every OTHER client is left
   untouched, wherever it is kept (served or parked); the closing client's own state is dropped; the served
   state (channel, current_response) is reset exactly when the closing channel is the one being served. *)
Theorem disconnect_other_untouched : forall recs s a b,
  a <> b -> view (fst (s_step recs s (Disconnect b))) a = view s a.
Proof.
  intros recs s a b Hn. rewrite step_view. simpl op_chan.
  destruct (b =? a) eqn:E; [apply Z.eqb_eq in E; congruence|reflexivity].
Qed.

Theorem disconnect_served_state : forall recs s b,
  fst (s_step recs s (Disconnect b)) =
  if is_chan s b then mkS None RNone (p_remove b (s_pending s))
  else mkS (s_chan s) (s_cur s) (p_remove b (s_pending s)).
Proof. intros. simpl. destruct (is_chan s b); reflexivity. Qed.

(* the responses client d receives are those of a server that saw only d's operations: any exactness
   result about a transaction against one client (such as get_attributes_exact) carries over *)
Corollary interleaved_transaction : forall recs ops s d,
  to_chan d (snd (s_run recs s ops)) = snd (solo_run recs (view s d) (for_chan d ops)).
Proof. intros. exact (proj1 (clients_independent recs ops s d)). Qed.
