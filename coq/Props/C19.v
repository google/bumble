(* Property C19: SDP answers and AVDTP/AVCTP messages are reassembled exactly across PDUs; an SDP
   pattern matches a record only if it contains every UUID; AVDTP stream states agree on both
   ends.  The statements: each is closed by [exact] of a result of Proofs/, in a few lines from such results, or,
   where it compares the models with the regenerated source shape or is a test vector, by evaluation. *)
From Coq Require Import ZArith List Bool Sorted.
From BV Require Import Model.C19Chunks Model.Sdp Model.AvdtpAsm Model.AvctpAsm Model.AvdtpStream Model.C19Shape.
From BV Require Import Model.CodecsSdp Model.SdpE2E Proofs.SdpE2E.
From BV Require Import Gen.C19Shape.
From BV Require Import Proofs.C19Chunks Proofs.Sdp Proofs.AvdtpAsm Proofs.AvctpAsm Proofs.AvdtpStream Proofs.C19Shape.
Import ListNotations.
Open Scope Z_scope.

(* ============================================================ SDP *)

(* A record is returned by a search exactly when it is in the table and contains EVERY UUID of
   the pattern (any table, any pattern, nested sequences included). *)
Theorem C19_sdp_match_iff_all_uuids : forall recs pat h svc,
  In (h, svc) (match_services recs pat) <->
  In (h, svc) recs /\ forall u, In u pat -> service_has_uuid svc u = true.
Proof. exact match_iff_all_uuids. Qed.
Print Assumptions C19_sdp_match_iff_all_uuids.

(* The attributes returned for a record are exactly those in one of the requested ids / ranges,
   sorted by attribute id. *)
Theorem C19_sdp_attributes_exact : forall svc ids,
  (forall a, In a (get_service_attributes svc ids) <->
             In a svc /\ exists i, In i ids /\ id_lo i <= at_id a <= id_hi i) /\
  StronglySorted id_le (get_service_attributes svc ids).
Proof. exact get_service_attributes_spec. Qed.
Print Assumptions C19_sdp_attributes_exact.

(* One response carries at most the budget; a non-final piece carries exactly the budget (>= 1
   byte when the budget is >= 1) and leaves a strictly shorter remainder: the loop terminates. *)
Theorem C19_sdp_chunk_progress : forall mx b,
  0 <= mx -> mx < zlen b ->
  next_payload mx b = (firstn (Z.to_nat mx) b, true, RBytes (skipn (Z.to_nat mx) b)) /\
  zlen (firstn (Z.to_nat mx) b) = mx /\ zlen (skipn (Z.to_nat mx) b) = zlen b - mx.
Proof. exact next_payload_more. Qed.
Print Assumptions C19_sdp_chunk_progress.

Theorem C19_sdp_chunk_fits : forall mx b, 0 <= mx -> zlen (fst (fst (next_payload mx b))) <= mx.
Proof.
  intros mx b H0. unfold next_payload. destruct (mx <? zlen b) eqn:E; simpl.
  - unfold zlen. rewrite firstn_length, Nat2Z.inj_min, Z2Nat.id by exact H0. apply Z.le_min_l.
  - apply Z.ltb_ge in E. exact E.
Qed.
Print Assumptions C19_sdp_chunk_fits.

(* concat(chunks) = response, for every response size, every MTU, every budget >= 1 and every
   continuation limit w with w * budget >= size; whatever the server held before. *)
Theorem C19_sdp_chunks_concat_response : forall w recs mtu cur pat mb ids,
  1 <= Z.min mb (mtu - 9) -> (1 <= w)%nat ->
  zlen (search_attr_bytes recs pat ids) <= Z.of_nat w * Z.min mb (mtu - 9) ->
  client_bytes w recs mtu (QSearchAttr pat mb ids CFresh) cur CFresh [] =
  (RNone, CDoneBytes (search_attr_bytes recs pat ids)).
Proof. intros w recs mtu cur pat mb ids Hmx Hw Hsz. now apply (client_bytes_exact w recs mtu _ mb). Qed.
Print Assumptions C19_sdp_chunks_concat_response.

(* The guard is needed: with maximum_attribute_byte_count = 0 the transaction never ends,
   whatever the continuation limit (the client is left with an empty partial answer). *)
Theorem C19_sdp_zero_byte_count_never_terminates : forall w recs mtu cur pat ids,
  9 <= mtu ->
  client_bytes (S w) recs mtu (QSearchAttr pat 0 ids CFresh) cur CFresh [] =
  (RBytes (search_attr_bytes recs pat ids), CPartialBytes []).
Proof. exact zero_byte_count_never_terminates. Qed.
Print Assumptions C19_sdp_zero_byte_count_never_terminates.

(* The three client transactions (continuation limit 64, as in the code) against the server. *)
Theorem C19_sdp_get_attributes_exact : forall recs mtu cur h ids svc,
  lookup_record h recs = Some svc -> 10 <= mtu ->
  zlen (attr_list_bytes (get_service_attributes svc ids)) <= 64 * capacity mtu ->
  client_get_attributes recs mtu cur h ids =
  (RNone, CDoneBytes (attr_list_bytes (get_service_attributes svc ids))).
Proof. exact get_attributes_exact. Qed.
Print Assumptions C19_sdp_get_attributes_exact.

Theorem C19_sdp_get_attributes_unknown_handle : forall recs mtu cur h ids,
  lookup_record h recs = None ->
  client_get_attributes recs mtu cur h ids = (RNone, CErr ERR_INVALID_HANDLE).
Proof.
  intros. unfold client_get_attributes. change WATCHDOG with (S 63). generalize 63%nat. intros w.
  cbn [client_bytes set_cont]. unfold handle. cbn [req_cont]. now rewrite H.
Qed.
Print Assumptions C19_sdp_get_attributes_unknown_handle.

Theorem C19_sdp_search_attributes_exact : forall recs mtu cur pat ids,
  10 <= mtu -> zlen (search_attr_bytes recs pat ids) <= 64 * capacity mtu ->
  client_search_attributes recs mtu cur pat ids = (RNone, CDoneBytes (search_attr_bytes recs pat ids)).
Proof. exact search_attributes_exact. Qed.
Print Assumptions C19_sdp_search_attributes_exact.

Theorem C19_sdp_search_services_exact : forall recs mtu cur pat,
  15 <= mtu ->
  zlen (match_services recs pat) <= 65535 ->
  zlen (match_services recs pat) <= 64 * ((mtu - 11) / 4) ->
  client_search_services recs mtu cur pat =
  (RHandles (zlen (match_services recs pat)) [], CDoneHandles (map fst (match_services recs pat))).
Proof. exact search_services_exact. Qed.
Print Assumptions C19_sdp_search_services_exact.

(* Any number of clients connected at the same time, any interleaving of their connects,
   disconnects and requests: what client d receives, and the continuation state held for it,
   are those of a server that only ever saw d's own operations. *)
Theorem C19_sdp_clients_independent : forall recs ops s d,
  to_chan d (snd (s_run recs s ops)) = snd (solo_run recs (view s d) (for_chan d ops)) /\
  view (fst (s_run recs s ops)) d = fst (solo_run recs (view s d) (for_chan d ops)).
Proof. exact clients_independent. Qed.
Print Assumptions C19_sdp_clients_independent.

(* A client's L2CAP channel closes at any point: every OTHER client's continuation state is untouched (served
   or parked), so its transaction under way continues exactly as if the closing client had never existed; the
   closing client's own state is dropped; the served state is reset exactly when the closing channel is the
   one being served. *)
Theorem C19_sdp_close_leaves_others_untouched : forall recs s a b,
  a <> b -> view (fst (s_step recs s (Disconnect b))) a = view s a.
Proof. exact disconnect_other_untouched. Qed.
Print Assumptions C19_sdp_close_leaves_others_untouched.

Theorem C19_sdp_close_between_pieces : forall recs s a b mtu q,
  a <> b ->
  snd (s_step recs (fst (s_step recs s (Disconnect b))) (Request a mtu q)) =
  [(a, snd (handle recs mtu (view s a) q))].
Proof. intros recs s a b mtu q Hn. now rewrite s_step_request, (disconnect_other_untouched recs s a b Hn). Qed.
Print Assumptions C19_sdp_close_between_pieces.

Theorem C19_sdp_close_drops_own_state : forall recs s b, view (fst (s_step recs s (Disconnect b))) b = RNone.
Proof. intros. rewrite step_view. simpl op_chan. now rewrite Z.eqb_refl. Qed.
Print Assumptions C19_sdp_close_drops_own_state.

Theorem C19_sdp_response_to_requester : forall recs s c mtu q,
  exists r, snd (s_step recs s (Request c mtu q)) = [(c, r)].
Proof. intros. rewrite s_step_request. now eexists. Qed.
Print Assumptions C19_sdp_response_to_requester.

(* Every response of every handler fits the MTU of the channel it is sent on. *)
Theorem C19_sdp_response_fits_mtu : forall recs mtu cur q,
  11 <= mtu -> rsp_size (snd (handle recs mtu cur q)) <= mtu.
Proof. exact response_fits_mtu. Qed.
Print Assumptions C19_sdp_response_fits_mtu.

(* END TO END (chunking composed with the DataElement round trip of property C18): for any record table
   whose attribute values are well-formed data elements ([tv a] is the element serialised in [at_bytes a]),
   any MTU >= 10, any id list, a response of at most 64 pieces, whatever the server held before:
   Client.get_attributes hands the caller exactly (id, value) of every selected attribute, in id order ... *)
Theorem C19_sdp_get_attributes_end_to_end : forall max_depth tv recs mtu cur h ids svc,
  lookup_record h recs = Some svc -> 10 <= mtu -> (1 <= max_depth)%nat ->
  (forall a, In a svc -> attr_typed max_depth tv a) ->
  zlen (attr_list_bytes (get_service_attributes svc ids)) <= 64 * capacity mtu ->
  exists acc,
    client_get_attributes recs mtu cur h ids = (RNone, CDoneBytes acc) /\
    client_parse_attributes max_depth acc = PValue (typed tv (get_service_attributes svc ids)).
Proof. exact get_attributes_end_to_end. Qed.
Print Assumptions C19_sdp_get_attributes_end_to_end.

(* ... and Client.search_attributes one such list per matching record that has a requested attribute. *)
Theorem C19_sdp_search_attributes_end_to_end : forall max_depth tv recs mtu cur pat ids,
  10 <= mtu -> (1 <= max_depth)%nat ->
  (forall h svc a, In (h, svc) recs -> In a svc -> attr_typed max_depth tv a) ->
  zlen (search_attr_bytes recs pat ids) <= 64 * capacity mtu ->
  exists acc,
    client_search_attributes recs mtu cur pat ids = (RNone, CDoneBytes acc) /\
    client_parse_attribute_lists max_depth acc = PValue (map (typed tv) (search_attr_lists recs pat ids)).
Proof. exact search_attributes_end_to_end. Qed.
Print Assumptions C19_sdp_search_attributes_end_to_end.

(* ============================================================ AVDTP signalling messages *)

(* For every MTU >= 4, every header, every payload within the packet-count guard, and from
   EVERY assembler state: what send_message emits fits the MTU and is delivered as exactly that
   message. *)
Theorem C19_avdtp_fragment_reassemble : forall mtu label sg mt payload s,
  4 <= mtu -> hdr_ok label sg mt = true -> size_ok mtu payload = true ->
  exists ps, a_frag mtu label sg mt payload = FPackets ps /\
             a_run s ps = (a_reset, [AMsg label sg mt payload]) /\
             Forall (fun p => zlen p <= mtu) ps.
Proof. exact frag_asm. Qed.
Print Assumptions C19_avdtp_fragment_reassemble.

(* Beyond the guard (more than 255 packets) send_message raises before sending anything. *)
Theorem C19_avdtp_over_guard_refused : forall mtu label sg mt payload,
  4 <= mtu -> size_ok mtu payload = false -> a_frag mtu label sg mt payload = FRaise.
Proof. exact frag_over_guard. Qed.
Print Assumptions C19_avdtp_over_guard_refused.

(* A broken fragment sequence discards only that message: after ANY PDUs at all, the next
   message is delivered intact, after whatever the junk itself produced. *)
Theorem C19_avdtp_resync : forall junk mtu label sg mt payload s,
  4 <= mtu -> hdr_ok label sg mt = true -> size_ok mtu payload = true ->
  exists ps, a_frag mtu label sg mt payload = FPackets ps /\
             a_run s (junk ++ ps) = (a_reset, snd (a_run s junk) ++ [AMsg label sg mt payload]).
Proof. exact resync. Qed.
Print Assumptions C19_avdtp_resync.

(* The assembler does not depend on the sender's fragment size: any cut of the payload. *)
Theorem C19_avdtp_any_cut : forall label sg mt c0 cs s,
  hdr_ok label sg mt = true -> cs <> [] ->
  a_run s ((a_hdr label PT_START mt :: sg :: (1 + zlen cs) :: c0) :: a_tail_packets label mt cs) =
  (a_reset, [AMsg label sg mt (c0 ++ concat cs)]).
Proof. exact any_cut_asm. Qed.
Print Assumptions C19_avdtp_any_cut.

(* ============================================================ AVCTP messages *)

(* Layout the implementation accepts (PID in every packet): any cut, any header a peer may
   send, from any assembler state, after any junk. *)
Theorem C19_avctp_pid_layout_reassembles : forall junk label cr ipid pid c0 cs s,
  chdr_ok label cr ipid = true ->
  c_run s (junk ++ c_frag_pid label cr ipid pid c0 cs) =
  (c_reset, snd (c_run s junk) ++ [CMsg label (cr =? 0) (negb (ipid =? 0)) pid (c0 ++ concat cs)]).
Proof. intros. rewrite c_run_app, pid_layout_reassembles by assumption. reflexivity. Qed.
Print Assumptions C19_avctp_pid_layout_reassembles.

(* Layout of the AVCTP specification (PID in the start packet only): proved for messages that
   are not fragmented -- the hypothesis that excludes finding D19d ... *)
Theorem C19_avctp_spec_layout_unfragmented : forall label cr ipid pid c0 s,
  chdr_ok label cr ipid = true ->
  c_run s (c_frag_spec label cr ipid pid c0 []) =
  (c_reset, [CMsg label (cr =? 0) (negb (ipid =? 0)) pid c0]).
Proof.
  intros. change (c_frag_spec label cr ipid pid c0 []) with (c_frag_pid label cr ipid pid c0 []).
  rewrite pid_layout_reassembles by assumption. cbn [concat]. now rewrite app_nil_r.
Qed.
Print Assumptions C19_avctp_spec_layout_unfragmented.

(* ... and that hypothesis is needed: the statement for fragmented messages is false of the
   code as it is (known finding D19d). *)
Theorem C19_avctp_spec_layout_fragmented_refuted :
  ~ (forall label cr ipid pid c0 cs s, chdr_ok label cr ipid = true ->
       c_run s (c_frag_spec label cr ipid pid c0 cs) =
       (c_reset, [CMsg label (cr =? 0) (negb (ipid =? 0)) pid (c0 ++ concat cs)])).
Proof.
  intro H. specialize (H 1 0 0 4366 [1; 2; 3] [[4; 5; 6]] c_reset eq_refl).
  vm_compute in H. discriminate H.
Qed.
Print Assumptions C19_avctp_spec_layout_fragmented_refuted.

(* ============================================================ AVDTP stream states *)

(* After ANY sequence of configure / open / start / suspend / close / abort from the initiating
   side, both ends hold the same stream state and the same view of the transport channel. *)
Theorem C19_stream_states_agree : forall ops,
  let p := fst (run p_init ops) in src_st p = snk_st p /\ src_rtp p = snk_rtp p.
Proof. exact states_agree. Qed.
Print Assumptions C19_stream_states_agree.

Theorem C19_stream_states_follow_spec : forall ops,
  src_st (fst (run p_init ops)) = fold_left (fun st o => spec_next o st) ops Idle.
Proof. exact states_follow_spec. Qed.
Print Assumptions C19_stream_states_follow_spec.

(* A procedure that is not legal in the current state is refused and changes nothing on either
   end; a legal one is accepted. *)
Theorem C19_stream_illegal_refused_unchanged : forall ops o,
  let p := fst (run p_init ops) in
  legal o (src_st p) = false -> step p o = (p, refusal o).
Proof. exact illegal_refused_unchanged. Qed.
Print Assumptions C19_stream_illegal_refused_unchanged.

Theorem C19_stream_legal_accepted : forall ops o,
  let p := fst (run p_init ops) in
  legal o (src_st p) = true -> snd (step p o) = Ok.
Proof.
  intros ops o p Hl. exact (proj1 (proj2 (proj2 (step_facts p o (run_agree ops p_init eq_refl)))) Hl).
Qed.
Print Assumptions C19_stream_legal_accepted.

(* the finite evaluation covers every state of the pair *)
Theorem C19_stream_enumeration_complete : forall p, In p all_pairs.
Proof. exact all_pairs_complete. Qed.
Print Assumptions C19_stream_enumeration_complete.

(* ============================================================ the models against the CURRENT source
   Gen/C19Shape.v is regenerated from bumble/sdp.py, avdtp.py, avctp.py on every run (tools/translate/
   c19_shape.py, fail-closed).  An edit to a constant, a comparison, a bound, a slice, a guard, the order or
   presence of a statement in an anchored function changes a g_ definition and breaks one of these. *)

(* the service-search handler cuts the handle list at the source's (peer_mtu - 11) // 4 *)
Theorem C19_sdp_search_handler_matches_source : forall recs mtu pat mc total hs,
  handle recs mtu (RHandles total hs) (QSearch pat mc CValid) =
  (RHandles total (skipn (Z.to_nat (g_sdp_search_per mtu)) hs),
   ESearch total (firstn (Z.to_nat (g_sdp_search_per mtu)) hs)
           (negb (is_nil (skipn (Z.to_nat (g_sdp_search_per mtu)) hs)))).
Proof. reflexivity. Qed.
Print Assumptions C19_sdp_search_handler_matches_source.

(* get_next_response_payload: the source's comparison and the source's two slice bounds *)
Theorem C19_sdp_next_payload_matches_source : forall mx b,
  next_payload mx b =
  if g_sdp_more (zlen b) mx
  then (firstn (Z.to_nat (g_sdp_payload_end mx)) b, true, RBytes (skipn (Z.to_nat (g_sdp_rest_start mx)) b))
  else (b, false, RNone).
Proof. reflexivity. Qed.
Print Assumptions C19_sdp_next_payload_matches_source.

(* the byte budget of both bytes-kind handlers is the source's min(maximum_attribute_byte_count, peer_mtu - 9) *)
Theorem C19_sdp_budget_matches_source : forall recs mtu b h pat mb ids,
  handle recs mtu (RBytes b) (QAttr h mb ids CValid) = respond_bytes EAttr (g_sdp_attr_budget mb mtu) (RBytes b) /\
  handle recs mtu (RBytes b) (QSearchAttr pat mb ids CValid) =
  respond_bytes ESearchAttr (g_sdp_sattr_budget mb mtu) (RBytes b).
Proof. split; reflexivity. Qed.
Print Assumptions C19_sdp_budget_matches_source.

(* Server.on_channel_close as it is in the source (unconditional pop; reset guarded by `channel is
   self.channel`) is the model's Disconnect step *)
Theorem C19_sdp_close_matches_source :
  g_sdp_close_shape = [1; 1; 1; 1; 2] /\
  forall recs s b,
    fst (s_step recs s (Disconnect b)) =
    if is_chan s b then mkS None RNone (p_remove b (s_pending s))
    else mkS (s_chan s) (s_cur s) (p_remove b (s_pending s)).
Proof. split; [vm_compute; reflexivity|exact disconnect_served_state]. Qed.
Print Assumptions C19_sdp_close_matches_source.

Theorem C19_sdp_continuation_matches_source :
  g_sdp_continuation_state = e_sdp_continuation_state /\
  g_sdp_is_continuation 1 = false /\ g_sdp_is_continuation (zlen g_sdp_continuation_state) = true /\
  g_sdp_client_done 1 0 = true /\ g_sdp_client_done (zlen g_sdp_continuation_state) 1 = false.
Proof. vm_compute. repeat split. Qed.
Print Assumptions C19_sdp_continuation_matches_source.

(* attribute id ranges: value_size 4 means hi16..lo16, the comparison is inclusive on both ends *)
Theorem C19_sdp_id_ranges_match_source : forall v,
  g_sdp_is_range 4 = true /\ g_sdp_is_range 2 = false /\
  id_lo (true, v) = g_sdp_id_lo v /\ id_hi (true, v) = g_sdp_id_hi v /\
  id_lo (false, v) = v /\ id_hi (false, v) = v.
Proof. exact sdp_ids_src. Qed.
Print Assumptions C19_sdp_id_ranges_match_source.

Theorem C19_sdp_in_range_matches_source : forall i a,
  in_range i a = g_sdp_in_range (at_id a) (id_lo i) (id_hi i).
Proof. reflexivity. Qed.
Print Assumptions C19_sdp_in_range_matches_source.

(* the client loops: watchdog and request constants of the source *)
Theorem C19_sdp_client_matches_source : forall recs mtu cur h pat ids,
  client_get_attributes recs mtu cur h ids =
    client_bytes (Z.to_nat g_sdp_watchdog) recs mtu (QAttr h g_sdp_client_get_attributes_max ids CFresh) cur CFresh [] /\
  client_search_attributes recs mtu cur pat ids =
    client_bytes (Z.to_nat g_sdp_watchdog) recs mtu (QSearchAttr pat g_sdp_client_search_attributes_max ids CFresh) cur CFresh [] /\
  client_search_services recs mtu cur pat =
    client_handles (Z.to_nat g_sdp_watchdog) recs mtu (QSearch pat g_sdp_client_search_services_max CFresh) cur CFresh [].
Proof. intros. repeat split. Qed.
Print Assumptions C19_sdp_client_matches_source.

Theorem C19_sdp_error_codes_match_source :
  g_sdp_errors_check_continuation = [ERR_INVALID_CONTINUATION] /\
  g_sdp_errors_on_sdp_service_search_request = [] /\
  g_sdp_errors_on_sdp_service_attribute_request = [ERR_INVALID_HANDLE] /\
  g_sdp_errors_on_sdp_service_search_attribute_request = [] /\
  g_sdp_errors_on_pdu = [3; ERR_INSUFFICIENT_RESOURCES; 3] /\
  g_sdp_pdu_ids = e_sdp_pdu_ids.
Proof. vm_compute. repeat split. Qed.
Print Assumptions C19_sdp_error_codes_match_source.

(* send_message: the model's fragmenter IS the source's arithmetic (fragment size, single-packet test,
   packet count) *)
Theorem C19_avdtp_frag_matches_source : forall mtu label sig mt payload,
  a_frag mtu label sig mt payload = a_frag_src mtu label sig mt payload.
Proof. reflexivity. Qed.
Print Assumptions C19_avdtp_frag_matches_source.

Theorem C19_avdtp_header_matches_source : forall label pt mt,
  0 <= label < 16 -> 0 <= pt < 4 -> 0 <= mt < 4 -> g_avdtp_header label pt mt = a_hdr label pt mt.
Proof. exact avdtp_header_src. Qed.
Print Assumptions C19_avdtp_header_matches_source.

Theorem C19_avdtp_decode_matches_source : forall b, 0 <= b < 256 ->
  g_avdtp_label b = b / 16 /\ g_avdtp_packet_type b = (b / 4) mod 4 /\
  g_avdtp_message_type b = b mod 4 /\ g_avdtp_signal b = b mod 64.
Proof. intros b _. exact (avdtp_decode_src b). Qed.
Print Assumptions C19_avdtp_decode_matches_source.

Theorem C19_avdtp_guards_match_source : forall len cnt nsp F,
  g_avdtp_too_short len = (len <? 2) /\ g_avdtp_start_too_short len = (len <? 3) /\
  g_avdtp_end_bad cnt nsp = negb (cnt =? nsp) /\ g_avdtp_continue_bad cnt nsp = (nsp <? cnt) /\
  g_avdtp_continue len F = (F <? len) /\
  g_avdtp_body_offsets = e_avdtp_body_offsets /\ g_avdtp_packet_types = e_packet_types /\
  e_packet_types = [PT_SINGLE; PT_START; PT_CONTINUE; PT_END].
Proof. intros. repeat split. Qed.
Print Assumptions C19_avdtp_guards_match_source.

Theorem C19_avdtp_count_tests_match_source : forall label acc mt sg n k c,
  (k =? 0) = false ->
  a_on_frame (mkA label (Some acc) mt sg n k) label PT_END mt c =
    (if g_avdtp_end_bad k n then (a_reset, []) else (a_reset, [AMsg label sg mt (acc ++ c)])) /\
  a_on_frame (mkA label (Some acc) mt sg n k) label PT_CONTINUE mt c =
    (if g_avdtp_continue_bad k n then (a_reset, []) else (mkA label (Some (acc ++ c)) mt sg n k, [])).
Proof. exact frame_tail. Qed.
Print Assumptions C19_avdtp_count_tests_match_source.

Theorem C19_avctp_decode_matches_source : forall b, 0 <= b < 256 ->
  g_avctp_label b = b / 16 /\ g_avctp_packet_type b = (b / 4) mod 4 /\
  g_avctp_cr b = (b / 2) mod 2 /\ g_avctp_ipid b = b mod 2.
Proof. intros b _. exact (avctp_decode_src b). Qed.
Print Assumptions C19_avctp_decode_matches_source.

Theorem C19_avctp_guards_match_source : forall cr ipid rcv nop,
  g_avctp_invalid_ipid cr ipid = ((cr =? 0) && negb (ipid =? 0)) /\
  g_avctp_too_many rcv nop = (nop <? rcv) /\ g_avctp_premature_end rcv nop = negb (rcv =? nop) /\
  g_avctp_pid_offsets = e_avctp_pid_offsets /\
  map g_avctp_body_start g_avctp_pid_offsets = [3; 4] /\
  g_avctp_packet_types = e_packet_types /\ e_packet_types = [CT_SINGLE; CT_START; CT_CONTINUE; CT_END].
Proof. intros. repeat split. Qed.
Print Assumptions C19_avctp_guards_match_source.

Theorem C19_avctp_count_tests_match_source : forall label pid cr ipid ipid' acc n k ph pl body,
  g_avctp_invalid_ipid cr ipid' = false -> ph * 256 + pl = pid ->
  c_on_frame (mkC k label pid cr ipid acc n) label CT_END cr ipid' (ph :: pl :: body) =
    (if g_avctp_too_many k n || g_avctp_premature_end k n then (c_reset, [])
     else (c_reset, [c_deliver label cr ipid pid (acc ++ body)])) /\
  c_on_frame (mkC k label pid cr ipid acc n) label CT_CONTINUE cr ipid' (ph :: pl :: body) =
    (if g_avctp_too_many k n then (c_reset, []) else (mkC k label pid cr ipid (acc ++ body) n, [])).
Proof. exact cframe_tail. Qed.
Print Assumptions C19_avctp_count_tests_match_source.

(* stream procedures: the guards and change_state targets read from the source are the table the model was
   written from, and the model's transition function agrees with that table in every state of the pair *)
Theorem C19_stream_tables_match_source :
  g_stream_initiator = e_stream_initiator /\ g_stream_acceptor = e_stream_acceptor /\
  g_avdtp_state_codes = [0; 1; 2; 3; 4; 5].
Proof. vm_compute. repeat split. Qed.
Print Assumptions C19_stream_tables_match_source.

Theorem C19_stream_initiator_matches_table :
  forallb (fun p => forallb (initiator_check p) all_ops) all_pairs = true.
Proof. vm_compute. reflexivity. Qed.
Print Assumptions C19_stream_initiator_matches_table.

Theorem C19_stream_acceptor_matches_table : forallb acceptor_check all_pairs = true.
Proof. vm_compute. reflexivity. Qed.
Print Assumptions C19_stream_acceptor_matches_table.

(* the statement skeleton of each of the 50 anchored functions is the one the models were read from *)
Theorem C19_skeletons_match_source : g_skeletons = e_skeletons.
Proof. vm_compute. reflexivity. Qed.
Print Assumptions C19_skeletons_match_source.

(* ============================================================ non-vacuity *)
Example C19_hypotheses_satisfiable :
  hdr_ok 3 1 0 = true /\ size_ok 48 (repeat 7 46) = true /\ size_ok 4 (repeat 7 256) = false /\
  chdr_ok 1 0 0 = true /\ chdr_ok 1 0 1 = false.
Proof. vm_compute. repeat split. Qed.

(* 46 bytes at MTU 48: one SINGLE packet of 48 bytes (the boundary of D19e) *)
Example C19_avdtp_boundary :
  match a_frag 48 3 1 0 (repeat 7 46) with
  | FPackets ps => map (fun p => zlen p) ps = [48] /\ snd (a_run a_reset ps) = [AMsg 3 1 0 (repeat 7 46)]
  | _ => False
  end.
Proof. vm_compute. split; reflexivity. Qed.

(* D19c: an unterminated START, then a well-formed START / END pair *)
Example C19_avdtp_after_unterminated :
  snd (a_run a_reset [[20; 1; 3; 9; 9]; [36; 1; 2; 7; 7]; [44; 8; 8]]) = [AMsg 2 1 0 [7; 7; 8; 8]].
Proof. vm_compute. reflexivity. Qed.

(* D19a: a record holding only UUID 1 does not match the pattern {1, 2}; one holding both does *)
Example C19_sdp_match_all :
  map fst (match_services [(10, [mkAttr 1 [] (DSeq [DUuid 1])]);
                           (11, [mkAttr 1 [] (DSeq [DUuid 1; DSeq [DUuid 2]])])] [1; 2]) = [11].
Proof. vm_compute. reflexivity. Qed.

(* D19b: two clients, interleaved continuation: each gets its own pieces *)
Example C19_sdp_two_clients :
  let recs := [(10, [mkAttr 1 [1; 2; 3; 4; 5; 6] DOther]); (11, [mkAttr 1 [9; 8; 7; 6; 5; 4] DOther])] in
  let ops := [Connect 1; Connect 2;
              Request 1 15 (QAttr 10 65535 [(true, 65535)] CFresh);
              Request 2 15 (QAttr 11 65535 [(true, 65535)] CFresh);
              Request 1 15 (QAttr 10 65535 [(true, 65535)] CValid);
              Request 2 15 (QAttr 11 65535 [(true, 65535)] CValid)] in
  snd (s_run recs s_init ops) =
  [(1, EAttr [53; 9; 9; 0; 1; 1] true); (2, EAttr [53; 9; 9; 0; 1; 9] true);
   (1, EAttr [2; 3; 4; 5; 6] false); (2, EAttr [8; 7; 6; 5; 4] false)].
Proof. vm_compute. reflexivity. Qed.

(* the hypothesis of the end-to-end theorems is satisfiable, and the result is what it says *)
Example C19_sdp_end_to_end_example :
  let tv := fun a : attr => if at_id a =? 0 then EUInt 4 65537 else ESeq [EUuid [1; 17]] in
  let svc := [mkAttr 1 [53; 3; 25; 17; 1] (DSeq [DUuid 1]); mkAttr 0 [10; 0; 1; 0; 1] DOther] in
  encode (tv (mkAttr 1 [] DOther)) = Some [53; 3; 25; 17; 1] /\ encode (tv (mkAttr 0 [] DOther)) = Some [10; 0; 1; 0; 1] /\
  client_parse_attributes 32 (match snd (client_get_attributes [(7, svc)] 48 RNone 7 [(true, 65535)]) with
                              | CDoneBytes acc => acc | _ => [] end)
  = PValue [(0, EUInt 4 65537); (1, ESeq [EUuid [1; 17]])].
Proof. vm_compute. repeat split. Qed.

(* D19f: configure, open, abort leaves both ends IDLE *)
Example C19_stream_abort :
  pair_obs (fst (run p_init [OpConfigure; OpOpen; OpAbort])) = (0, false, true, 0, false, false)%nat.
Proof. vm_compute. reflexivity. Qed.
