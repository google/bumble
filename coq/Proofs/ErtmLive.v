(* About the two-party system of Model/Ertm.v:
   - every frame it ever sends is well formed (so the wire round trip of Proofs/ErtmWire.v
     applies to it);
   - draining: from any state every run of deliveries is finite, bounded by an explicit
     measure (so writes that stop are followed by quiescence, where
     ertm_exactly_once_in_order says everything has been delivered).
   Both hold with or without timer events; reliable FIFO channels. *)
From Coq Require Import ZArith List Bool Lia.
From BV Require Import Model.Crc16 Model.Ertm Proofs.ErtmSeg Proofs.Ertm Proofs.ErtmWire.
Import ListNotations.
Open Scope Z_scope.

Definition seg_ok (g : seg) : Prop :=
  match g_sar g with START => 0 <= g_len g < 65536 | _ => True end.
Definition pdu_ok (p : pdu) : Prop := 0 <= p_tx p < 64 /\ seg_ok (p_seg p).

Record ep_ok (e : ep) : Prop := {
  k_next : 0 <= e_next e < 64;
  k_req : 0 <= e_req e < 64;
  k_pend : Forall pdu_ok (e_pend e);
  k_txw : Forall pdu_ok (e_txw e)
}.

Lemma mod64_range x : 0 <= x mod MAX_SEQ_NUM < 64.
Proof. unfold MAX_SEQ_NUM. apply Z.mod_pos_bound. lia. Qed.

Lemma iframe_wf r p : 0 <= r < 64 -> pdu_ok p -> frame_wf (iframe_of r p).
Proof.
  intros Hr [Ht Hs]. unfold iframe_of, frame_wf, seg_ok in *.
  destruct (g_sar (p_seg p)); auto.
Qed.

Lemma iframes_wf r ps : 0 <= r < 64 -> Forall pdu_ok ps -> Forall frame_wf (map (iframe_of r) ps).
Proof. intros Hr H. induction H; cbn; constructor; auto using iframe_wf. Qed.

Lemma Forall_skipn {A} (P : A -> Prop) n l : Forall P l -> Forall P (skipn n l).
Proof. revert l. induction n; intros l H; cbn; [assumption|]. destruct H; [constructor|auto]. Qed.

Lemma po_ok e e' out : ep_ok e -> process_output e = (e', out) ->
  ep_ok e' /\ Forall frame_wf out.
Proof.
  intros [] H.
  apply po_spec in H as (now & -> & Hp & Ht & _ & _ & (_ & _ & E3 & _ & _ & _ & E7 & _) & _).
  rewrite Hp in k_pend0. apply Forall_app in k_pend0 as [Hn Hp'].
  split; [constructor; rewrite ?E3, ?E7, ?Ht; auto; apply Forall_app; auto|now apply iframes_wf].
Qed.

Lemma update_ack_ok e n fin e' out : ep_ok e -> update_ack e n fin = (e', out) ->
  ep_ok e' /\ Forall frame_wf out.
Proof.
  intros Hk H. unfold update_ack in H. destruct (Z.ltb _ _).
  - injection H as <- <-. split; [assumption|constructor].
  - eapply po_ok; [|exact H]. destruct Hk. constructor; cbn; auto using Forall_skipn.
Qed.

Lemma assign_ok segs : forall next, 0 <= next < 64 -> Forall seg_ok segs ->
  Forall pdu_ok (fst (assign next segs)) /\ 0 <= snd (assign next segs) < 64.
Proof.
  induction segs as [|g r IH]; intros next Hn Hs; cbn [assign].
  - cbn. split; [constructor|assumption].
  - inversion Hs; subst.
    destruct (IH ((next + 1) mod MAX_SEQ_NUM) (mod64_range _) H2) as [I1 I2].
    destruct (assign ((next + 1) mod MAX_SEQ_NUM) r) as [ps n]. cbn in *.
    split; [constructor; [split; assumption|assumption]|assumption].
Qed.

Lemma seg_loop_ok total : 0 <= total < 65536 -> forall fuel first mps rest,
  Forall seg_ok (seg_loop fuel first mps total rest).
Proof.
  intros Ht. induction fuel as [|f IH]; intros first mps rest; cbn [seg_loop]; [constructor|].
  destruct rest; [constructor|]. constructor; [|apply IH].
  unfold seg_ok. cbn [g_sar g_len]. destruct first; [assumption|].
  match goal with |- context [Nat.leb ?a ?b] => destruct (Nat.leb a b) end; exact I.
Qed.

Lemma segment_ok mps w : zlen w < 65536 -> Forall seg_ok (segment mps w).
Proof.
  intros H. unfold segment. destruct (Z.leb _ _).
  - constructor; [exact I|constructor].
  - apply seg_loop_ok. unfold zlen in H. lia.
Qed.

Lemma send_sdu_ok e w e' out : ep_ok e -> zlen w < 65536 -> send_sdu e w = (e', out) ->
  ep_ok e' /\ Forall frame_wf out.
Proof.
  intros Hk Hw H. unfold send_sdu in H. destruct Hk.
  pose proof (assign_ok (segment (e_pmps e) w) (e_next e) k_next0 (segment_ok _ _ Hw)) as [A1 A2].
  destruct (assign (e_next e) (segment (e_pmps e) w)) as [ps n]. cbn in A1, A2.
  eapply po_ok; [|exact H]. constructor; cbn; auto. apply Forall_app. auto.
Qed.

Lemma on_frame_ok e f e' out sdus : ep_ok e -> on_frame e f = (e', out, sdus) ->
  ep_ok e' /\ Forall frame_wf out.
Proof.
  intros Hk H. apply on_frame_split in H
    as (fin & e1 & out1 & extra & Hu & -> & _ & Hx & _ & _ & _ & E3 & _ & E5 & E6 & _ & _ & Hr).
  destruct (update_ack_ok _ _ _ _ _ Hk Hu) as [[] Ho].
  assert (Hreq : 0 <= e_req e' < 64) by (destruct Hr as [-> | [tx ->]]; auto using mod64_range).
  split; [constructor; rewrite ?E3, ?E5, ?E6; auto|].
  apply Forall_app. split; [assumption|].
  destruct Hx as [-> | [b ->]]; repeat constructor; unfold RR; lia.
Qed.

Lemma send_rr_ok e fin e' out : ep_ok e -> send_rr e fin = (e', out) ->
  ep_ok e' /\ Forall frame_wf out.
Proof.
  intros [] H. cbn in H. injection H as <- <-. split; [constructor; cbn; auto|].
  constructor; [|constructor]. cbn. split; [unfold RR; lia|assumption].
Qed.

Lemma send_poll_ok e e' out : ep_ok e -> send_poll e = (e', out) ->
  ep_ok e' /\ Forall frame_wf out.
Proof.
  intros [] H. cbn in H. injection H as <- <-. split; [constructor; cbn; auto|].
  constructor; [|constructor]. cbn. split; [unfold RR; lia|assumption].
Qed.

Lemma timeout_ok retx e e' out : ep_ok e -> timeout retx e = (e', out) ->
  ep_ok e' /\ Forall frame_wf out.
Proof.
  intros [] H. apply timeout_spec in H as (Ho & _ & _ & E3 & _ & E5 & E6 & _ & E8 & _).
  split; [constructor; rewrite ?E3, ?E5, ?E6, ?E8; auto|].
  destruct Ho as [-> | ->]; repeat constructor; unfold RR; lia.
Qed.

Fixpoint sdus_small (sched : list label) : Prop :=
  match sched with
  | [] => True
  | WriteA w :: r => zlen w < 65536 /\ sdus_small r
  | WriteB w :: r => zlen w < 65536 /\ sdus_small r
  | _ :: r => sdus_small r
  end.

Record sys_ok (s : sys) : Prop := {
  y_a : ep_ok (s_a s);
  y_b : ep_ok (s_b s);
  y_lab : Forall frame_wf (s_log_ab s);
  y_lba : Forall frame_wf (s_log_ba s)
}.

Lemma sys_ok_run sched : forall s, sys_ok s -> sdus_small sched -> sys_ok (run s sched).
Proof.
  unfold run. induction sched as [|l r IH]; intros s Hs Hw; cbn [fold_left]; [assumption|].
  apply IH.
  - destruct Hs. destruct l; cbn [step].
    + destruct Hw as [Hw _]. destruct (send_sdu (s_a s) sdu) as [a out] eqn:E.
      destruct (send_sdu_ok _ _ _ _ y_a0 Hw E). constructor; cbn; auto. apply Forall_app; auto.
    + destruct Hw as [Hw _]. destruct (send_sdu (s_b s) sdu) as [b out] eqn:E.
      destruct (send_sdu_ok _ _ _ _ y_b0 Hw E). constructor; cbn; auto. apply Forall_app; auto.
    + destruct (s_ab s) as [|f rest]; [constructor; auto|].
      destruct (on_frame (s_b s) f) as [[b out] sdus] eqn:E.
      destruct (on_frame_ok _ _ _ _ _ y_b0 E). constructor; cbn; auto. apply Forall_app; auto.
    + destruct (s_ba s) as [|f rest]; [constructor; auto|].
      destruct (on_frame (s_a s) f) as [[a out] sdus] eqn:E.
      destruct (on_frame_ok _ _ _ _ _ y_a0 E). constructor; cbn; auto. apply Forall_app; auto.
    + destruct (retx_timeout (s_a s)) as [a out] eqn:E.
      destruct (timeout_ok true _ _ _ y_a0 E). constructor; cbn; auto. apply Forall_app; auto.
    + destruct (retx_timeout (s_b s)) as [b out] eqn:E.
      destruct (timeout_ok true _ _ _ y_b0 E). constructor; cbn; auto. apply Forall_app; auto.
    + destruct (mon_timeout (s_a s)) as [a out] eqn:E.
      destruct (timeout_ok false _ _ _ y_a0 E). constructor; cbn; auto. apply Forall_app; auto.
    + destruct (mon_timeout (s_b s)) as [b out] eqn:E.
      destruct (timeout_ok false _ _ _ y_b0 E). constructor; cbn; auto. apply Forall_app; auto.
  - destruct l; cbn in Hw; tauto.
Qed.

(* every frame ever sent is well formed: sequence numbers in 0..63, the SDU length field
   of a START frame fits 16 bits (SDUs shorter than 65536 bytes), supervisory function
   codes in 0..3 *)
Theorem frames_wf mps_a win_a mps_b win_b sched :
  sdus_small sched ->
  let s := run (sys_init mps_a win_a mps_b win_b) sched in
  Forall frame_wf (s_log_ab s) /\ Forall frame_wf (s_log_ba s).
Proof.
  intros Hw s.
  assert (H0 : sys_ok (sys_init mps_a win_a mps_b win_b)).
  { assert (He : forall m w, ep_ok (ep_init m w))
      by (intros; constructor; cbn; try lia; constructor).
    constructor; cbn; auto; constructor. }
  destruct (sys_ok_run sched _ H0 Hw). auto.
Qed.

(* a poll weighs 2: consuming it produces its answer *)
Definition fweight (f : frame) : Z :=
  match f with IFrame _ _ _ _ _ _ => 2 | SFrame _ true _ _ => 2 | SFrame _ false _ _ => 1 end.
Fixpoint weight (fs : list frame) : Z :=
  match fs with [] => 0 | f :: r => fweight f + weight r end.

Lemma weight_app a b : weight (a ++ b) = weight a + weight b.
Proof. induction a as [|f a IH]; cbn [app weight]; lia. Qed.
Lemma weight_iframes r ps : weight (map (iframe_of r) ps) = 2 * zlen ps.
Proof.
  induction ps as [|p ps IH]; cbn [map weight]; [reflexivity|].
  rewrite zlen_cons, IH. unfold iframe_of. cbn [fweight]. lia.
Qed.
Lemma weight_nonneg fs : 0 <= weight fs.
Proof.
  induction fs as [|f r IH]; cbn [weight]; [lia|]. destruct f as [| ? [] ? ?]; cbn [fweight]; lia.
Qed.

Definition measure (s : sys) : Z :=
  3 * (zlen (e_pend (s_a s)) + zlen (e_pend (s_b s))) + weight (s_ab s) + weight (s_ba s).

Lemma po_measure e e' out : process_output e = (e', out) ->
  3 * zlen (e_pend e') + weight out <= 3 * zlen (e_pend e).
Proof.
  intros H. apply po_spec in H as (now & -> & -> & _).
  rewrite weight_iframes, zlen_app. pose proof (zlen_nonneg now). lia.
Qed.

Lemma update_ack_measure e n fin e' out : update_ack e n fin = (e', out) ->
  3 * zlen (e_pend e') + weight out <= 3 * zlen (e_pend e).
Proof.
  unfold update_ack. destruct (Z.ltb _ _); [intros [= <- <-]; cbn [weight]; lia|].
  intros H. apply po_measure in H. exact H.
Qed.

Lemma on_frame_measure e f e' out sdus :
  on_frame e f = (e', out, sdus) ->
  3 * zlen (e_pend e') + weight out + 1 <= 3 * zlen (e_pend e) + fweight f.
Proof.
  intros H. apply on_frame_split in H
    as (fin & e1 & out1 & extra & Hu & -> & _ & Hx & Hnp & _ & _ & _ & _ & -> & _).
  apply update_ack_measure in Hu. rewrite weight_app.
  assert (weight extra + 1 <= fweight f); [|lia].
  destruct f as [| ? [] ? ?]; [| |now subst extra]; destruct Hx as [-> | [b ->]]; cbn; lia.
Qed.

Definition is_delivery (l : label) : bool :=
  match l with DeliverAB | DeliverBA => true | _ => false end.
Definition enabled (s : sys) (l : label) : Prop :=
  match l with
  | DeliverAB => s_ab s <> []
  | DeliverBA => s_ba s <> []
  | _ => False
  end.
Fixpoint all_enabled (s : sys) (sched : list label) : Prop :=
  match sched with
  | [] => True
  | l :: r => enabled s l /\ all_enabled (step s l) r
  end.

Lemma deliver_decreases s l : enabled s l -> measure (step s l) + 1 <= measure s.
Proof.
  intros He. destruct l; cbn [enabled] in He; try contradiction; cbn [step]; unfold measure.
  - destruct (s_ab s) as [|f rest]; [congruence|].
    destruct (on_frame (s_b s) f) as [[b out] sdus] eqn:E. apply on_frame_measure in E.
    cbn [s_a s_b s_ab s_ba weight]. rewrite weight_app. lia.
  - destruct (s_ba s) as [|f rest]; [congruence|].
    destruct (on_frame (s_a s) f) as [[a out] sdus] eqn:E. apply on_frame_measure in E.
    cbn [s_a s_b s_ab s_ba weight]. rewrite weight_app. lia.
Qed.

Lemma measure_nonneg s : 0 <= measure s.
Proof.
  unfold measure. pose proof (weight_nonneg (s_ab s)). pose proof (weight_nonneg (s_ba s)).
  pose proof (zlen_nonneg (e_pend (s_a s))). pose proof (zlen_nonneg (e_pend (s_b s))). lia.
Qed.

(* From every state, reachable or not, a run of deliveries (each enabled when taken) has at
   most measure(s) steps: 3 per queued pdu, 2 per I-frame or poll and 1 per other S-frame in
   flight. *)
Lemma drains_from sched : forall s, all_enabled s sched -> zlen sched <= measure s.
Proof.
  induction sched as [|l r IH]; intros s H.
  - rewrite zlen_nil. apply measure_nonneg.
  - destruct H as [He Hr]. apply deliver_decreases in He. apply IH in Hr. rewrite zlen_cons. lia.
Qed.

(* and a non-quiescent state always has an enabled delivery *)
Lemma not_quiescent_enabled s :
  quiescent s = false -> enabled s DeliverAB \/ enabled s DeliverBA.
Proof.
  unfold quiescent, enabled. destruct (s_ab s); [|left; congruence].
  destruct (s_ba s); [discriminate|right; congruence].
Qed.
