(* C14 - lemmas about the byte-string helpers of Model/CryptoBytes.v *)
From Coq Require Import ZArith List Bool Lia.
From BV Require Import Model.CryptoBytes.
Import ListNotations.
Open Scope Z_scope.

Ltac Zify.zify_post_hook ::= Z.div_mod_to_equations.

Definition all_bytes : list Z := map Z.of_nat (seq 0 256).

Lemma all_bytes_nth : forall b, 0 <= b < 256 -> nth (Z.to_nat b) all_bytes 0 = b.
Proof.
  intros b Hb. unfold all_bytes. change 0 with (Z.of_nat 0).
  rewrite map_nth, seq_nth by lia. lia.
Qed.

Lemma in_all_bytes : forall b, In b all_bytes <-> 0 <= b < 256.
Proof.
  intros b. unfold all_bytes. rewrite in_map_iff. split.
  - intros (n & <- & Hn). apply in_seq in Hn. lia.
  - intros Hb. exists (Z.to_nat b). rewrite in_seq. lia.
Qed.

Lemma byte_cases : forall P : Z -> bool,
  forallb P all_bytes = true -> forall b, 0 <= b < 256 -> P b = true.
Proof.
  intros P H b Hb. rewrite forallb_forall in H. apply H, in_all_bytes, Hb.
Qed.

(* a check that succeeds along two lists in step holds at every common position *)
Lemma forallb_combine_nth : forall (A B : Type) (p : A * B -> bool) l1 l2 d1 d2 n,
  length l1 = length l2 -> forallb p (combine l1 l2) = true -> (n < length l1)%nat ->
  p (nth n l1 d1, nth n l2 d2) = true.
Proof.
  intros A B p l1 l2 d1 d2 n Hl H Hn. rewrite <- combine_nth by assumption.
  apply (proj1 (forallb_forall _ _) H), nth_In. rewrite combine_length. lia.
Qed.

Lemma byte_ok_iff : forall b, byte_ok b = true <-> 0 <= b < 256.
Proof. intros b. unfold byte_ok. rewrite andb_true_iff, Z.leb_le, Z.ltb_lt. tauto. Qed.

Lemma bytes_ok_app : forall a b, bytes_ok (a ++ b) = bytes_ok a && bytes_ok b.
Proof. intros. unfold bytes_ok. apply forallb_app. Qed.

Lemma bytes_ok_cons : forall x l, bytes_ok (x :: l) = byte_ok x && bytes_ok l.
Proof. reflexivity. Qed.

Lemma bytes_ok_zeros : forall n, bytes_ok (zeros n) = true.
Proof. induction n; simpl; auto. Qed.

Lemma bytes_ok_split : forall n l, bytes_ok l = bytes_ok (firstn n l) && bytes_ok (skipn n l).
Proof. intros. rewrite <- bytes_ok_app, firstn_skipn. reflexivity. Qed.

Lemma bytes_ok_firstn : forall n l, bytes_ok l = true -> bytes_ok (firstn n l) = true.
Proof. intros n l H. rewrite (bytes_ok_split n) in H. apply andb_true_iff in H. apply H. Qed.

Lemma bytes_ok_skipn : forall n l, bytes_ok l = true -> bytes_ok (skipn n l) = true.
Proof. intros n l H. rewrite (bytes_ok_split n) in H. apply andb_true_iff in H. apply H. Qed.

Lemma bytes_ok_rev : forall l, bytes_ok (rev l) = bytes_ok l.
Proof.
  induction l; simpl; auto. rewrite bytes_ok_app, IHl. simpl.
  rewrite andb_true_r. apply andb_comm.
Qed.

Lemma length_zeros : forall n, length (zeros n) = n.
Proof. intros. apply repeat_length. Qed.

Lemma len_app : forall a b, len (a ++ b) = len a + len b.
Proof. intros. unfold len. rewrite app_length. lia. Qed.

Lemma len_nonneg : forall l, 0 <= len l.
Proof. intros. unfold len. lia. Qed.

Lemma xor_zip_comm : forall a b, xor_zip a b = xor_zip b a.
Proof.
  induction a as [|x a IH]; intros [|y b]; simpl; auto.
  rewrite Z.lxor_comm, IH. reflexivity.
Qed.

Lemma xor_zip_assoc : forall a b c, xor_zip (xor_zip a b) c = xor_zip a (xor_zip b c).
Proof.
  induction a as [|x a IH]; intros [|y b] [|z c]; simpl; auto.
  rewrite Z.lxor_assoc, IH. reflexivity.
Qed.

Lemma xor_zip_length : forall a b, length (xor_zip a b) = Nat.min (length a) (length b).
Proof. induction a as [|x a IH]; intros [|y b]; simpl; auto. Qed.

Lemma xor_zip_length_eq : forall a b n, length a = n -> length b = n -> length (xor_zip a b) = n.
Proof. intros. rewrite xor_zip_length. lia. Qed.

Lemma xor_zip_zeros_l : forall b n, length b = n -> xor_zip (zeros n) b = b.
Proof.
  unfold zeros. induction b as [|y b IH]; intros n H; destruct n; simpl in *; try discriminate; auto.
  rewrite (IH n) by lia. reflexivity.
Qed.

Lemma xor_zip_zeros_r : forall b n, length b = n -> xor_zip b (zeros n) = b.
Proof. intros. rewrite xor_zip_comm. apply xor_zip_zeros_l. assumption. Qed.

Lemma xor_zip_app : forall a1 b1 a2 b2, length a1 = length b1 ->
  xor_zip (a1 ++ a2) (b1 ++ b2) = xor_zip a1 b1 ++ xor_zip a2 b2.
Proof.
  induction a1 as [|x a1 IH]; intros [|y b1] a2 b2 H; simpl in *; try discriminate; auto.
  rewrite IH by lia. reflexivity.
Qed.

Lemma norm_index_neg : forall n i, i < 0 -> 0 <= n + i -> norm_index n i = n + i.
Proof. intros. unfold norm_index. destruct (Z.ltb_spec i 0); lia. Qed.

Lemma norm_index_pos : forall n i, 0 <= i <= n -> norm_index n i = i.
Proof. intros. unfold norm_index. destruct (Z.ltb_spec i 0); lia. Qed.

(* a slice whose bounds fall on the seams of M = a ++ b ++ c is the middle part *)
Lemma py_slice_mid : forall M a b c i j, M = a ++ b ++ c ->
  norm_index (len M) i = len a -> norm_index (len M) j = len a + len b -> py_slice M i j = b.
Proof.
  intros M a b c i j -> Hi Hj. unfold py_slice. rewrite Hi, Hj.
  replace (Z.to_nat (len a + len b - len a)) with (length b) by (unfold len; lia).
  replace (Z.to_nat (len a)) with (length a) by (unfold len; lia).
  rewrite skipn_app, skipn_all, Nat.sub_diag. cbn [skipn app].
  rewrite firstn_app, firstn_all, Nat.sub_diag, firstn_O. apply app_nil_r.
Qed.

Lemma py_from_neg_app : forall a b n, len b = n -> 0 < n -> py_from (a ++ b) (- n) = b.
Proof.
  intros a b n Hb Hn. pose proof (len_nonneg a).
  apply (py_slice_mid _ a b []); rewrite ?app_nil_r, ?len_app; [reflexivity| |].
  - rewrite norm_index_neg; lia.
  - apply norm_index_pos. lia.
Qed.

Lemma py_upto_neg_app : forall a b n, len b = n -> 0 < n -> py_upto (a ++ b) (- n) = a.
Proof.
  intros a b n Hb Hn. pose proof (len_nonneg a).
  apply (py_slice_mid _ [] a b); rewrite ?len_app; change (len []) with 0; [reflexivity| |].
  - apply norm_index_pos. lia.
  - rewrite norm_index_neg; lia.
Qed.

Lemma py_slice_second_last : forall a c1 c2, len c1 = 16 -> len c2 = 16 ->
  py_slice (a ++ c1 ++ c2) (-32) (-16) = c1.
Proof.
  intros a c1 c2 H1 H2. pose proof (len_nonneg a).
  apply (py_slice_mid _ a c1 c2); rewrite ?len_app; [reflexivity| |]; rewrite norm_index_neg; lia.
Qed.

Lemma py_upto_nonneg : forall l k, 0 <= k -> py_upto l k = firstn (Z.to_nat k) l.
Proof.
  intros l k Hk. unfold py_upto, py_slice, norm_index. pose proof (len_nonneg l).
  change (0 <? 0) with false. cbv iota. rewrite (Z.min_l 0) by lia.
  destruct (k <? 0) eqn:E; [lia|]. change (Z.to_nat 0) with 0%nat. cbn [skipn].
  rewrite Z.sub_0_r.
  destruct (Z.le_ge_cases k (len l)).
  - rewrite Z.min_l by lia. reflexivity.
  - rewrite Z.min_r by lia.
    rewrite !firstn_all2; auto; unfold len in *; lia.
Qed.

Lemma py_slice_all : forall l, py_slice l 0 (len l) = l.
Proof.
  intros l. change (py_slice l 0 (len l)) with (py_upto l (len l)).
  rewrite py_upto_nonneg by apply len_nonneg. apply firstn_all2. unfold len. lia.
Qed.

Lemma py_from_nonneg : forall l k, 0 <= k -> py_from l k = skipn (Z.to_nat k) l.
Proof.
  intros l k Hk. unfold py_from, py_slice, norm_index. pose proof (len_nonneg l).
  destruct (k <? 0) eqn:E; [lia|]. destruct (len l <? 0) eqn:E2; [lia|].
  rewrite (Z.min_l (len l)) by lia.
  destruct (Z.le_ge_cases k (len l)).
  - rewrite Z.min_l by lia. apply firstn_all2. rewrite skipn_length. unfold len in *. lia.
  - rewrite Z.min_r by lia. rewrite Z.sub_diag. change (Z.to_nat 0) with 0%nat. cbn [firstn].
    symmetry. apply skipn_all2. unfold len in *. lia.
Qed.

Lemma py_splice_app : forall a b v n, len a = n -> py_splice (a ++ b) n (len (a ++ b)) v = a ++ v.
Proof.
  intros a b v n Ha. unfold py_splice. rewrite len_app.
  pose proof (len_nonneg b).
  rewrite Z.max_r by lia.
  replace (Z.to_nat n) with (length a) by (unfold len in *; lia).
  rewrite firstn_app, firstn_all, Nat.sub_diag. simpl. rewrite app_nil_r.
  rewrite skipn_all2 by (rewrite app_length; unfold len in *; lia).
  rewrite app_nil_r. reflexivity.
Qed.

Lemma len_cons : forall x l, len (x :: l) = len l + 1.
Proof. intros. unfold len. cbn [length]. lia. Qed.

Lemma be_int_acc : forall l acc,
  fold_left (fun a b => a * 256 + b) l acc = acc * 256 ^ len l + be_int l.
Proof.
  unfold be_int. induction l as [|x l IH]; intros acc.
  - cbn [fold_left]. change (len []) with 0. rewrite Z.pow_0_r. ring.
  - cbn [fold_left]. rewrite (IH (acc * 256 + x)), (IH (0 * 256 + x)).
    rewrite len_cons. rewrite Z.pow_add_r by (unfold len; lia).
    change (256 ^ 1) with 256. ring.
Qed.

Lemma be_int_cons : forall x l, be_int (x :: l) = x * 256 ^ len l + be_int l.
Proof.
  intros. unfold be_int at 1. cbn [fold_left]. rewrite be_int_acc. ring.
Qed.

Lemma be_int_bound : forall l, bytes_ok l = true -> 0 <= be_int l < 256 ^ len l.
Proof.
  induction l as [|x l IH]; intros H.
  - unfold be_int. change (len []) with 0. cbn. lia.
  - rewrite bytes_ok_cons in H. apply andb_true_iff in H as [Hx Hl].
    apply byte_ok_iff in Hx. specialize (IH Hl). rewrite be_int_cons.
    rewrite len_cons. rewrite Z.pow_add_r by (unfold len; lia). change (256 ^ 1) with 256.
    assert (0 < 256 ^ len l) by (apply Z.pow_pos_nonneg; unfold len; lia). nia.
Qed.

Lemma to_be_length : forall n v, length (to_be n v) = n.
Proof. induction n; intros; simpl; auto. rewrite app_length, IHn. simpl. lia. Qed.

Lemma to_be_ok : forall n v, bytes_ok (to_be n v) = true.
Proof.
  induction n; intros; simpl; auto. rewrite bytes_ok_app, IHn. simpl.
  rewrite andb_true_r. apply byte_ok_iff. apply Z.mod_pos_bound. lia.
Qed.

Lemma to_be_mod : forall n v, to_be n (v mod 256 ^ Z.of_nat n) = to_be n v.
Proof.
  induction n; intros v; [reflexivity|].
  cbn [to_be]. rewrite Nat2Z.inj_succ, Z.pow_succ_r by lia.
  assert (Hp : 0 < 256 ^ Z.of_nat n) by (apply Z.pow_pos_nonneg; lia).
  rewrite Z.rem_mul_r by lia.
  set (a := v mod 256). set (b := (v / 256) mod 256 ^ Z.of_nat n).
  assert (Ha : 0 <= a < 256) by (apply Z.mod_pos_bound; lia).
  replace ((a + 256 * b) / 256) with b by lia.
  replace ((a + 256 * b) mod 256) with a by lia.
  unfold b. rewrite IHn. reflexivity.
Qed.

Lemma lxor_div_256 : forall a b, Z.lxor a b / 256 = Z.lxor (a / 256) (b / 256).
Proof.
  intros. change 256 with (2 ^ 8). rewrite <- !Z.shiftr_div_pow2 by lia. apply Z.shiftr_lxor.
Qed.

Lemma land_lxor_l : forall a b c, Z.land (Z.lxor a b) c = Z.lxor (Z.land a c) (Z.land b c).
Proof.
  intros. apply Z.bits_inj'. intros n Hn.
  rewrite Z.lxor_spec, !Z.land_spec, Z.lxor_spec.
  destruct (Z.testbit c n); rewrite ?andb_true_r, ?andb_false_r; reflexivity.
Qed.

Lemma lxor_mod_pow2 : forall a b m, 0 <= m ->
  Z.lxor a b mod 2 ^ m = Z.lxor (a mod 2 ^ m) (b mod 2 ^ m).
Proof. intros. rewrite <- !Z.land_ones by assumption. apply land_lxor_l. Qed.

Lemma lxor_mod_256 : forall a b, Z.lxor a b mod 256 = Z.lxor (a mod 256) (b mod 256).
Proof. intros. apply (lxor_mod_pow2 a b 8). lia. Qed.

Lemma lxor_lt_pow2 : forall a b m, 0 <= a < 2 ^ m -> 0 <= b < 2 ^ m -> 0 <= m ->
  0 <= Z.lxor a b < 2 ^ m.
Proof.
  intros a b m Ha Hb Hm.
  rewrite <- (Z.mod_small a (2 ^ m)), <- (Z.mod_small b (2 ^ m)), <- lxor_mod_pow2 by assumption.
  apply Z.mod_pos_bound, Z.pow_pos_nonneg; lia.
Qed.

Lemma lxor_byte : forall a b, 0 <= a < 256 -> 0 <= b < 256 -> 0 <= Z.lxor a b < 256.
Proof. intros a b Ha Hb. apply (lxor_lt_pow2 a b 8); lia. Qed.

(* generate_prand: clearing bit 7 and setting bit 6 leaves a byte whose top two bits are 01 *)
Lemma lor_land_127_64 : forall b, 64 <= Z.lor (Z.land b 127) 64 < 128.
Proof.
  intros b. change 127 with (Z.ones 7). rewrite Z.land_ones by lia.
  pose proof (Z.mod_pos_bound b (2 ^ 7) eq_refl) as Hm. change (2 ^ 7) with 128 in *.
  assert (Hv : 0 <= b mod 128 < 256) by lia.
  apply (byte_cases (fun v => (128 <=? v) || ((64 <=? Z.lor v 64) && (Z.lor v 64 <? 128)))) in Hv;
    [|vm_compute; reflexivity].
  apply orb_true_iff in Hv as [Hv|Hv]; [apply Z.leb_le in Hv; lia|].
  apply andb_true_iff in Hv as [H1 H2]. apply Z.leb_le in H1. apply Z.ltb_lt in H2. lia.
Qed.

Lemma xor_zip_ok : forall a b, bytes_ok a = true -> bytes_ok b = true -> bytes_ok (xor_zip a b) = true.
Proof.
  induction a as [|x a IH]; intros [|y b] Ha Hb; try reflexivity.
  rewrite bytes_ok_cons in Ha, Hb. apply andb_true_iff in Ha as [Hx Ha]. apply andb_true_iff in Hb as [Hy Hb].
  cbn [xor_zip]. rewrite bytes_ok_cons. apply andb_true_iff. split; [|apply IH; assumption].
  apply byte_ok_iff. apply lxor_byte; apply byte_ok_iff; assumption.
Qed.

Lemma to_be_lxor : forall n a b, to_be n (Z.lxor a b) = xor_zip (to_be n a) (to_be n b).
Proof.
  induction n; intros a b; [reflexivity|].
  cbn [to_be]. rewrite lxor_div_256, IHn, lxor_mod_256.
  rewrite xor_zip_app by (rewrite !to_be_length; reflexivity). reflexivity.
Qed.

Lemma to_be_tail : forall n v, tl (to_be (S n) v) = to_be n v.
Proof.
  induction n; intros v.
  - reflexivity.
  - change (to_be (S (S n)) v) with (to_be (S n) (v / 256) ++ [v mod 256]).
    assert (H : forall (l : list Z) r, l <> [] -> tl (l ++ r) = tl l ++ r)
      by (intros [|? ?] ? ?; [congruence|reflexivity]).
    rewrite H. 2:{ intro E. apply (f_equal (@length Z)) in E. rewrite to_be_length in E. discriminate. }
    rewrite IHn. reflexivity.
Qed.

Definition blocks_ok (bs : list (list Z)) : Prop := Forall (fun b => length b = 16%nat) bs.

Lemma chunks_fuel_concat : forall bs f, blocks_ok bs -> (length bs <= f)%nat ->
  chunks_fuel f (concat bs) = bs.
Proof.
  induction bs as [|b bs IH]; intros f Hok Hf.
  - destruct f; reflexivity.
  - inversion Hok as [|? ? Hb Hbs]; subst. destruct f as [|f]; [simpl in Hf; lia|].
    simpl concat. cbn [chunks_fuel].
    destruct b as [|x b']; [discriminate|].
    change ((x :: b') ++ concat bs) with (x :: (b' ++ concat bs)) at 1.
    cbv iota.
    change (x :: b' ++ concat bs) with ((x :: b') ++ concat bs).
    rewrite firstn_app, skipn_app, Hb, Nat.sub_diag.
    rewrite firstn_all2 by lia. rewrite skipn_all2 by lia. simpl.
    rewrite app_nil_r. f_equal. apply IH; auto. simpl in Hf. lia.
Qed.

Lemma concat_blocks_length : forall bs, blocks_ok bs -> length (concat bs) = (16 * length bs)%nat.
Proof.
  induction bs as [|b bs IH]; intros H; [reflexivity|].
  inversion H; subst. simpl. rewrite app_length, IH by assumption. lia.
Qed.

Lemma chunks16_concat : forall bs, blocks_ok bs -> chunks16 (concat bs) = bs.
Proof.
  intros bs H. unfold chunks16. apply chunks_fuel_concat; auto.
  rewrite concat_blocks_length by assumption. lia.
Qed.

Lemma blocks_ok_app : forall a b, blocks_ok (a ++ b) <-> blocks_ok a /\ blocks_ok b.
Proof. intros. unfold blocks_ok. apply Forall_app. Qed.

(* every byte string is a sequence of full blocks followed by a shorter remainder *)
Lemma split_blocks_fuel : forall f (M : list Z), (length M <= f)%nat ->
  exists bs r, M = concat bs ++ r /\ blocks_ok bs /\ (length r < 16)%nat.
Proof.
  induction f; intros M Hf.
  - destruct M; [|simpl in Hf; lia]. exists [], []. repeat split; [constructor|simpl; lia].
  - destruct (Nat.lt_ge_cases (length M) 16) as [Hs|Hl].
    + exists [], M. repeat split; [constructor|assumption].
    + destruct (IHf (skipn 16 M)) as (bs & r & E & Hok & Hr).
      { rewrite skipn_length. lia. }
      exists (firstn 16 M :: bs), r. split; [|split].
      * cbn [concat]. rewrite <- app_assoc, <- E. symmetry. apply firstn_skipn.
      * constructor; auto. apply firstn_length_le. assumption.
      * assumption.
Qed.

Lemma split_blocks : forall M : list Z,
  exists bs r, M = concat bs ++ r /\ blocks_ok bs /\ (length r < 16)%nat.
Proof. intros M. apply (split_blocks_fuel (length M)). lia. Qed.

(* ... or full blocks followed by a last block, which is empty only if the string is *)
Lemma split_last_block : forall M : list Z,
  exists bs m, M = concat bs ++ m /\ blocks_ok bs /\
               ((0 < length m <= 16)%nat \/ (m = [] /\ bs = [])).
Proof.
  intros M. destruct (split_blocks M) as (bs & r & HM & Hok & Hr).
  destruct r as [|x r].
  - destruct bs as [|b bs _] using rev_ind; [exists [], []; auto|].
    apply blocks_ok_app in Hok as [Hok Hb]. exists bs, b.
    rewrite concat_app in HM. cbn [concat] in HM. rewrite !app_nil_r in HM.
    repeat split; auto. left. rewrite (Forall_inv Hb). lia.
  - exists bs, (x :: r). cbn [length] in *. repeat split; auto. left. lia.
Qed.

Lemma list_eqb_refl : forall l, list_eqb l l = true.
Proof. induction l; simpl; auto. rewrite Z.eqb_refl. assumption. Qed.

Lemma list_eqb_eq : forall a b, list_eqb a b = true <-> a = b.
Proof.
  induction a as [|x a IH]; intros [|y b]; simpl; split; intros H; try discriminate; auto.
  - apply andb_true_iff in H as [H1 H2]. apply Z.eqb_eq in H1. apply IH in H2. congruence.
  - inversion H; subst. rewrite Z.eqb_refl. apply IH. reflexivity.
Qed.
