(* AVDTP stream state machine on both ends (Model/AvdtpStream.v): the state space of the pair
   is finite (6 x 2 x 2 x 6 x 2 x 2 = 576 states, 9 operations); the one-step facts are
   established by complete case analysis inside the kernel and lifted to every operation
   sequence by induction. *)
From Coq Require Import List Bool.
From BV Require Import Model.AvdtpStream.
Import ListNotations.

Lemma sst_eqb_eq : forall a b, sst_eqb a b = true <-> a = b.
Proof. intros a b; destruct a, b; simpl; split; intro H; try reflexivity; discriminate H. Qed.

(* the enumeration used by the correspondence check is complete *)
Lemma all_pairs_complete : forall p, In p all_pairs.
Proof.
  intros [a b c d e f]. unfold all_pairs.
  apply in_flat_map. exists a. split; [destruct a; simpl; tauto|].
  apply in_flat_map. exists b. split; [destruct b; simpl; tauto|].
  apply in_flat_map. exists c. split; [destruct c; simpl; tauto|].
  apply in_flat_map. exists d. split; [destruct d; simpl; tauto|].
  apply in_flat_map. exists e. split; [destruct e; simpl; tauto|].
  apply in_map. destruct f; simpl; tauto.
Qed.

(* one-step properties as a boolean check over a state and an operation *)
Definition pair_eqb (p q : pair) : bool :=
  sst_eqb (src_st p) (src_st q) && Bool.eqb (src_rtp p) (src_rtp q) && Bool.eqb (snk_has p) (snk_has q)
  && sst_eqb (snk_st p) (snk_st q) && Bool.eqb (snk_rtp p) (snk_rtp q) && Bool.eqb (snk_acc p) (snk_acc q).

Lemma pair_eqb_eq : forall p q, pair_eqb p q = true -> p = q.
Proof.
  intros [a b c d e f] [a' b' c' d' e' f'] H. unfold pair_eqb in H. simpl in H.
  repeat rewrite andb_true_iff in H. destruct H as (((((H1 & H2) & H3) & H4) & H5) & H6).
  apply sst_eqb_eq in H1, H4. apply eqb_prop in H2, H3, H5, H6. subst. reflexivity.
Qed.

Definition sres_eqb (a b : sres) : bool :=
  match a, b with Ok, Ok | Refused, Refused | Rejected, Rejected => true | _, _ => false end.

Definition step_check (p : pair) (o : sop) : bool :=
  implb (agree p)
    (let '(p', r) := step p o in
     agree p'
     && sst_eqb (src_st p') (spec_next o (src_st p))
     && (if legal o (src_st p) then sres_eqb r Ok else sres_eqb r (refusal o) && pair_eqb p' p)).

Lemma step_check_all : forallb (fun p => forallb (step_check p) all_ops) all_pairs = true.
Proof. vm_compute. reflexivity. Qed.

Lemma all_ops_complete : forall o, In o all_ops.
Proof. destruct o; simpl; tauto. Qed.

Lemma step_check_holds : forall p o, step_check p o = true.
Proof.
  intros p o. pose proof step_check_all as H. rewrite forallb_forall in H.
  specialize (H p (all_pairs_complete p)). rewrite forallb_forall in H.
  exact (H o (all_ops_complete o)).
Qed.

Lemma step_facts : forall p o, agree p = true ->
  agree (fst (step p o)) = true /\
  src_st (fst (step p o)) = spec_next o (src_st p) /\
  (legal o (src_st p) = true -> snd (step p o) = Ok) /\
  (legal o (src_st p) = false -> step p o = (p, refusal o)).
Proof.
  intros p o Ha. pose proof (step_check_holds p o) as H. unfold step_check in H.
  rewrite Ha in H. simpl implb in H. destruct (step p o) as [p' r]. simpl fst; simpl snd.
  repeat rewrite andb_true_iff in H. destruct H as ((H1 & H2) & H3).
  apply sst_eqb_eq in H2. repeat split; try assumption.
  - intro Hl. rewrite Hl in H3. destruct r; simpl in H3; try discriminate; reflexivity.
  - intro Hl. rewrite Hl in H3. apply andb_true_iff in H3. destruct H3 as [H3 H4].
    apply pair_eqb_eq in H4. subst p'. destruct r, o; simpl in H3; try discriminate; reflexivity.
Qed.

Lemma agree_same_state : forall p, agree p = true -> src_st p = snk_st p /\ src_rtp p = snk_rtp p.
Proof.
  intros p H. unfold agree in H. repeat rewrite andb_true_iff in H.
  destruct H as ((((H1 & H2) & _) & _) & _). apply sst_eqb_eq in H1. apply eqb_prop in H2. tauto.
Qed.

Lemma run_snoc : forall ops p o,
  run p (ops ++ [o]) =
  (fst (step (fst (run p ops)) o), snd (run p ops) ++ [snd (step (fst (run p ops)) o)]).
Proof.
  induction ops as [|a ops IH]; intros p o; simpl.
  - destruct (step p o). reflexivity.
  - destruct (step p a) as [p1 r]. rewrite IH. destruct (run p1 ops). reflexivity.
Qed.

Lemma run_agree : forall ops p, agree p = true -> agree (fst (run p ops)) = true.
Proof.
  induction ops as [|o ops IH]; intros p Ha; simpl; [exact Ha|].
  destruct (step p o) as [p1 r] eqn:E.
  assert (H1 : agree p1 = true) by (pose proof (step_facts p o Ha) as H; rewrite E in H; simpl in H; tauto).
  specialize (IH p1 H1). destruct (run p1 ops). exact IH.
Qed.

(* After ANY sequence of procedures from the initiating side the two ends hold the same state
   (and the same view of the transport channel). *)
Theorem states_agree : forall ops,
  let p := fst (run p_init ops) in src_st p = snk_st p /\ src_rtp p = snk_rtp p.
Proof. intros ops p. apply agree_same_state. apply run_agree. reflexivity. Qed.

(* The state reached is the one the specification's table gives. *)
Theorem states_follow_spec : forall ops,
  src_st (fst (run p_init ops)) = fold_left (fun st o => spec_next o st) ops Idle.
Proof.
  intros ops. induction ops as [|o ops IH] using rev_ind; [reflexivity|].
  rewrite run_snoc, fold_left_app. simpl fst. simpl fold_left.
  destruct (step_facts (fst (run p_init ops)) o (run_agree ops p_init eq_refl)) as (_ & H & _).
  rewrite H, IH. reflexivity.
Qed.

(* A procedure that is not legal in the current state is refused and changes nothing on either
   end; a legal one is accepted.  For every history. *)
Theorem illegal_refused_unchanged : forall ops o,
  let p := fst (run p_init ops) in
  legal o (src_st p) = false -> step p o = (p, refusal o).
Proof.
  intros ops o p Hl. exact (proj2 (proj2 (proj2 (step_facts p o (run_agree ops p_init eq_refl)))) Hl).
Qed.
