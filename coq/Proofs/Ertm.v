(* The sliding-window invariant of the two-party system of Model/Ertm.v and the theorems of
   property C08 about the ERTM data path.

   Assumption built into the model (and therefore into every statement here): channels are
   reliable FIFOs.  Timer firings are events of the schedule like any other.
   The Basic-mode theorem (basic_exact, about Processor) stands at the end of the file. *)
From Coq Require Import ZArith List Bool Lia.
From BV Require Import Model.Crc16 Model.Ertm Proofs.ErtmSeg.
Import ListNotations.
Open Scope Z_scope.

Lemma mod_diff a b : 0 <= b - a < 64 -> (b mod 64 - a mod 64) mod 64 = b - a.
Proof.
  intros H. rewrite <- Zminus_mod. apply Z.mod_small. exact H.
Qed.

Lemma e_mon_mk a b c d e f g h i j tm : e_mon (mkEp a b c d e f g h i j tm) = tm_mon tm.
Proof. reflexivity. Qed.

Lemma split_zlen {A} (l : list A) n :
  0 <= n <= zlen l -> exists l1 l2, l = l1 ++ l2 /\ zlen l1 = n.
Proof.
  intros H. exists (firstn (Z.to_nat n) l), (skipn (Z.to_nat n) l).
  rewrite firstn_skipn. unfold zlen in *. rewrite firstn_length. split; [reflexivity|lia].
Qed.

Lemma skipn_zlen_app {A} (l1 l2 : list A) : skipn (Z.to_nat (zlen l1)) (l1 ++ l2) = l2.
Proof. unfold zlen. now rewrite Nat2Z.id, skipn_app, skipn_all, Nat.sub_diag. Qed.

Definition req_of (f : frame) : Z :=
  match f with IFrame _ r _ _ _ _ => r | SFrame _ _ _ r => r end.

Definition key := (Z * sar * Z * list Z)%type.
Definition pkey (p : pdu) : key :=
  (p_tx p, g_sar (p_seg p),
   match g_sar (p_seg p) with START => g_len (p_seg p) | _ => 0 end, g_data (p_seg p)).
Definition fkeys (f : frame) : list key :=
  match f with IFrame tx _ s l d _ => [(tx, s, l, d)] | SFrame _ _ _ _ => [] end.
Definition ikeys (fs : list frame) : list key := flat_map fkeys fs.

(* the only supervisory frames that travel are RR (with or without P / F) *)
Definition sframe_ok (f : frame) : Prop :=
  match f with SFrame func _ _ _ => func = RR | IFrame _ _ _ _ _ _ => True end.

(* polls (P=1) and poll answers (F=1 supervisory frames) on a channel *)
Definition is_poll (f : frame) : bool :=
  match f with SFrame _ p _ _ => p | IFrame _ _ _ _ _ _ => false end.
Definition is_final (f : frame) : bool :=
  match f with SFrame _ _ fin _ => fin | IFrame _ _ _ _ _ _ => false end.
Definition npolls (fs : list frame) : Z := zlen (filter is_poll fs).
Definition nfinals (fs : list frame) : Z := zlen (filter is_final fs).

Lemma npolls_app a b : npolls (a ++ b) = npolls a + npolls b.
Proof. unfold npolls. now rewrite filter_app, zlen_app. Qed.
Lemma nfinals_app a b : nfinals (a ++ b) = nfinals a + nfinals b.
Proof. unfold nfinals. now rewrite filter_app, zlen_app. Qed.
Lemma npolls_nonneg a : 0 <= npolls a. Proof. apply zlen_nonneg. Qed.
Lemma nfinals_nonneg a : 0 <= nfinals a. Proof. apply zlen_nonneg. Qed.
Lemma npolls_cons f a : npolls (f :: a) = (if is_poll f then 1 else 0) + npolls a.
Proof. unfold npolls. cbn [filter]. destruct (is_poll f); [now rewrite zlen_cons|lia]. Qed.
Lemma nfinals_cons f a : nfinals (f :: a) = (if is_final f then 1 else 0) + nfinals a.
Proof. unfold nfinals. cbn [filter]. destruct (is_final f); [now rewrite zlen_cons|lia]. Qed.

(* a poll or a poll answer stays on its way when frames are added *)
Lemma pf_mono fwd bwd f b :
  1 <= npolls fwd + nfinals bwd -> 1 <= npolls (fwd ++ f) + nfinals (bwd ++ b).
Proof.
  rewrite npolls_app, nfinals_app. pose proof (npolls_nonneg f). pose proof (nfinals_nonneg b). lia.
Qed.

Lemma ikeys_app a b : ikeys (a ++ b) = ikeys a ++ ikeys b.
Proof. apply flat_map_app. Qed.

Lemma ikeys_iframes r ps : ikeys (map (iframe_of r) ps) = map pkey ps.
Proof. induction ps as [|p ps IH]; cbn; [|rewrite <- IH]; auto. Qed.

Lemma iframes_ok r ps : Forall sframe_ok (map (iframe_of r) ps).
Proof. induction ps; cbn; constructor; cbn; auto. Qed.

Lemma iframes_req r ps : Forall (fun f => req_of f = r) (map (iframe_of r) ps).
Proof. induction ps; cbn; constructor; cbn; auto. Qed.

(* lo <= r1 <= ... <= hi: acknowledgement values on their way, oldest first *)
Fixpoint chain (lo : Z) (rs : list Z) (hi : Z) : Prop :=
  match rs with
  | [] => lo = hi
  | r :: t => lo <= r /\ chain r t hi
  end.

Lemma chain_le rs : forall lo hi, chain lo rs hi -> lo <= hi.
Proof.
  induction rs as [|r t IH]; cbn; intros lo hi H; [lia|].
  destruct H as [H1 H2]. apply IH in H2. lia.
Qed.

Lemma chain_app rs1 : forall lo mid rs2 hi,
  chain lo rs1 mid -> chain mid rs2 hi -> chain lo (rs1 ++ rs2) hi.
Proof.
  induction rs1 as [|r t IH]; cbn; intros lo mid rs2 hi H1 H2.
  - now subst.
  - destruct H1 as [Ha Hb]. split; [exact Ha|]. eapply IH; eauto.
Qed.

Lemma chain_repeat k : forall hi, chain hi (repeat hi k) hi.
Proof. induction k; cbn; intros; [reflexivity|split; [lia|auto]]. Qed.

Lemma Forall2_repeat (fs : list frame) r :
  Forall (fun f => req_of f = r mod 64) fs ->
  Forall2 (fun f r => req_of f = r mod 64) fs (repeat r (length fs)).
Proof. induction 1; cbn; constructor; auto. Qed.

(* The invariant of one direction X -> Y.
   done : pdus acknowledged to X;  rcv : accepted by Y, not yet acknowledged to X;
   infl : I-frames on the channel;  rs : the (unbounded) acknowledgement values carried
   by the frames travelling back from Y to X, oldest first. *)
Record dinv (strict : bool) (X Y : ep) (fwd bwd logf : list frame)
            (W S : list (list Z)) (done rcv infl : list pdu) (rs : list Z) : Prop := {
  d_mps : 1 <= e_pmps X;
  d_winr : 1 <= e_pwin X <= 63;
  d_num : number 0 (segs_of (e_pmps X) W) = done ++ rcv ++ infl ++ e_pend X;
  d_txw : e_txw X = rcv ++ infl;
  d_next : e_next X = zlen (segs_of (e_pmps X) W) mod 64;
  d_lack : e_lack X = zlen done mod 64;
  d_win : zlen (e_txw X) <= e_pwin X;
  d_work : strict = true -> e_mon X = MonNone -> e_pend X <> [] -> zlen (e_txw X) = e_pwin X;
  d_busy : e_busy X = false;
  (* a monitor handle is only set while a poll of X is on its way or being answered *)
  d_pf : mon_set (e_mon X) = true -> 1 <= npolls fwd + nfinals bwd;
  d_fwd : ikeys fwd = map pkey infl;
  d_log : ikeys logf = map pkey (done ++ rcv ++ infl);
  d_sok : Forall sframe_ok fwd;
  d_req : e_req Y = (zlen done + zlen rcv) mod 64;
  d_lar : e_lackrx Y = e_req Y;
  d_rs : Forall2 (fun f r => req_of f = r mod 64) bwd rs;
  d_chain : chain (zlen done) rs (zlen done + zlen rcv);
  d_reasm : reasm [] (map p_seg (done ++ rcv)) = (S, e_insdu Y)
}.

Definition dinvE (X Y : ep) (fwd bwd logf : list frame) (W S : list (list Z)) : Prop :=
  exists done rcv infl rs, dinv true X Y fwd bwd logf W S done rcv infl rs.

Definition snd_eq (e e' : ep) : Prop :=
  e_pmps e' = e_pmps e /\ e_pwin e' = e_pwin e /\ e_next e' = e_next e /\
  e_lack e' = e_lack e /\ e_pend e' = e_pend e /\ e_txw e' = e_txw e /\ e_busy e' = e_busy e /\
  e_mon e' = e_mon e.
Definition rcv_eq (e e' : ep) : Prop :=
  e_req e' = e_req e /\ e_lackrx e' = e_lackrx e /\ e_insdu e' = e_insdu e.

Lemma dinv_transport st X Y X' Y' fwd bwd lg W S done rcv infl rs :
  dinv st X Y fwd bwd lg W S done rcv infl rs -> snd_eq X X' -> rcv_eq Y Y' ->
  dinv st X' Y' fwd bwd lg W S done rcv infl rs.
Proof.
  intros [] (E1 & E2 & E3 & E4 & E5 & E6 & E7 & E8) (F1 & F2 & F3).
  constructor; rewrite ?E1, ?E2, ?E3, ?E4, ?E5, ?E6, ?E7, ?E8, ?F1, ?F2, ?F3; auto.
Qed.

(* the fields _process_output, _update_ack_seq and the timers leave alone or only copy *)
Definition ctl_eq (e e' : ep) : Prop :=
  e_pmps e' = e_pmps e /\ e_pwin e' = e_pwin e /\ e_next e' = e_next e /\
  e_lack e' = e_lack e /\ e_busy e' = e_busy e /\ e_mon e' = e_mon e /\
  e_req e' = e_req e /\ e_insdu e' = e_insdu e.

(* _process_output moves a prefix [now] of the pending pdus to the transmit window and sends
   it: as many as fit the window, none while the peer is busy or a monitor handle is set *)
Lemma po_spec e e' out : process_output e = (e', out) ->
  exists now,
    out = map (iframe_of (e_req e)) now /\
    e_pend e = now ++ e_pend e' /\ e_txw e' = e_txw e ++ now /\
    zlen (e_txw e') <= Z.max (e_pwin e) (zlen (e_txw e)) /\
    (e_busy e = false -> e_mon e = MonNone -> e_pend e' <> [] -> e_pwin e <= zlen (e_txw e')) /\
    ctl_eq e e' /\ (e_lackrx e' = e_lackrx e \/ e_lackrx e' = e_req e).
Proof.
  unfold process_output, ctl_eq. destruct (e_busy e || mon_set (e_mon e)) eqn:Eb; intros [= <- <-].
  - exists []. rewrite app_nil_r. repeat split; auto; [lia|].
    intros Hb Hm. rewrite Hb, Hm in Eb. discriminate.
  - set (k := Z.to_nat _). exists (firstn k (e_pend e)).
    cbn [e_pmps e_pwin e_next e_lack e_pend e_txw e_busy e_req e_lackrx e_insdu].
    rewrite firstn_skipn, zlen_app, e_mon_mk. unfold zlen at 2 5. rewrite firstn_length.
    repeat split; auto; try (destruct (firstn k (e_pend e)); now auto).
    + unfold zlen. lia.
    + intros _ _ Hne.
      destruct (Nat.le_gt_cases (length (e_pend e)) k) as [Hle|Hgt]; [|unfold zlen; lia].
      now rewrite (skipn_all2 _ Hle) in Hne.
Qed.

(* what the receiver half of an endpoint sees of its own sender-side functions *)
Definition rcv_after (e e' : ep) (out : list frame) : Prop :=
  e_req e' = e_req e /\ e_insdu e' = e_insdu e /\
  (e_lackrx e' = e_lackrx e \/ e_lackrx e' = e_req e) /\
  Forall (fun f => req_of f = e_req e) out.

Lemma po_rcv e e' out : process_output e = (e', out) -> rcv_after e e' out.
Proof.
  intros H. apply po_spec in H as (now & -> & _ & _ & _ & _ & (_ & _ & _ & _ & _ & _ & E7 & E8) & Hl).
  repeat split; auto. apply iframes_req.
Qed.

Lemma update_ack_rcv e n fin e' out : update_ack e n fin = (e', out) -> rcv_after e e' out.
Proof.
  unfold update_ack. destruct (Z.ltb _ _).
  - intros [= <- <-]. repeat split; auto.
  - intros H. apply po_rcv in H. exact H.
Qed.

Lemma send_sdu_rcv e sdu e' out : send_sdu e sdu = (e', out) -> rcv_after e e' out.
Proof.
  unfold send_sdu. destruct (assign _ _) as [ps n]. intros H. apply po_rcv in H. exact H.
Qed.

Lemma succ_mod64_neq x : (x + 1) mod 64 <> x.
Proof. Z.div_mod_to_equations. lia. Qed.

(* an I-frame that is accepted: first _update_ack_seq, whose output still carries the old
   ReqSeq, then the payload is taken and one RR announces the new ReqSeq *)
Lemma on_frame_rcv_i e tx req s l data fin e' out sdus :
  on_frame e (IFrame tx req s l data fin) = (e', out, sdus) ->
  e_lackrx e = e_req e -> tx = e_req e ->
  exists e1 out1,
    rcv_after e e1 out1 /\ out = out1 ++ [SFrame RR false false (e_req e')] /\
    e_req e' = (tx + 1) mod 64 /\ e_lackrx e' = e_req e' /\
    (if delivers s then sdus = [e_insdu e ++ data] /\ e_insdu e' = []
     else sdus = [] /\ e_insdu e' = e_insdu e ++ data).
Proof.
  cbn [on_frame]. intros H Hlar ->.
  destruct (update_ack e req fin) as [e1 out1] eqn:Hu. exists e1, out1.
  apply update_ack_rcv in Hu. pose proof Hu as (R1 & R2 & R3 & _).
  rewrite R1, Z.eqb_refl in H. cbn [negb e_req e_lackrx send_rr] in H.
  (* the RR is always sent: the new ReqSeq differs from the last one acknowledged *)
  replace (e_lackrx e1) with (e_req e) in H by (destruct R3; congruence).
  destruct (Z.eqb_spec ((e_req e + 1) mod MAX_SEQ_NUM) (e_req e)) as [Heq|_];
    [now apply succ_mod64_neq in Heq|].
  injection H as <- <- <-. cbn [e_req e_lackrx e_insdu]. rewrite R2.
  split; [exact Hu|]. repeat split. destruct (delivers s); auto.
Qed.

Lemma on_frame_rcv_s e poll final req e' out sdus :
  on_frame e (SFrame RR poll final req) = (e', out, sdus) ->
  rcv_after e e' out /\ sdus = [] /\ (if poll then 1 else 0) <= nfinals out.
Proof.
  cbn [on_frame]. intros H.
  destruct (update_ack e req final) as [e1 out1] eqn:Hu.
  apply update_ack_rcv in Hu as (R1 & R2 & R3 & R4).
  change ((RR =? RR) || (RR =? RNR)) with true in H. cbn [andb] in H.
  destruct poll; cbn [send_rr] in H; injection H as <- <- <-;
    unfold rcv_after; cbn [e_req e_lackrx e_insdu]; repeat split; auto.
  - apply Forall_app. split; [assumption|]. now repeat constructor.
  - rewrite nfinals_app, nfinals_cons. cbn [is_final]. pose proof (nfinals_nonneg out1).
    pose proof (nfinals_nonneg []). lia.
  - apply nfinals_nonneg.
Qed.

(* on_pdu is _update_ack_seq followed by at most one RR (always, for a poll; never, for
   another supervisory frame); past _update_ack_seq only the receiver fields and the busy
   flag change *)
Lemma on_frame_split e f e' out sdus :
  on_frame e f = (e', out, sdus) ->
  exists fin e1 out1 extra,
    update_ack e (req_of f) fin = (e1, out1) /\ out = out1 ++ extra /\
    (is_final f = true -> fin = true) /\
    (extra = [] \/ exists b, extra = [SFrame RR false b (e_req e')]) /\
    match f with SFrame _ false _ _ => extra = [] | _ => True end /\
    e_pmps e' = e_pmps e1 /\ e_pwin e' = e_pwin e1 /\ e_next e' = e_next e1 /\
    e_lack e' = e_lack e1 /\ e_pend e' = e_pend e1 /\ e_txw e' = e_txw e1 /\
    e_mon e' = e_mon e1 /\
    e_busy e' = match f with SFrame func _ _ _ => func =? RNR | _ => e_busy e1 end /\
    (e_req e' = e_req e1 \/ exists tx, e_req e' = (tx + 1) mod MAX_SEQ_NUM).
Proof.
  destruct f as [tx req s l data ifin | func poll final req]; cbn [on_frame req_of is_final];
    intros H.
  - destruct (update_ack e req ifin) as [e1 out1] eqn:Hu. exists ifin, e1, out1.
    destruct (negb (tx =? e_req e1)).
    + injection H as <- <- <-. exists []. rewrite app_nil_r. repeat split; auto; try discriminate.
    + match type of H with (if ?c then _ else _) = _ => destruct c end;
        cbn [send_rr] in H; injection H as <- <- <-;
        [exists []; rewrite app_nil_r|eexists]; cbn [e_pmps e_pwin e_next e_lack e_pend e_txw e_busy e_req];
        repeat split; auto; try discriminate.
      all: right; eexists; reflexivity.
  - destruct (update_ack e req final) as [e1 out1] eqn:Hu. exists final, e1, out1.
    destruct (((func =? RR) || (func =? RNR)) && poll) eqn:Ep;
      cbn [send_rr] in H; injection H as <- <- <-;
      [eexists|exists []; rewrite app_nil_r]; cbn [e_pmps e_pwin e_next e_lack e_pend e_txw e_busy e_req];
      repeat split; auto.
    + right. eexists. reflexivity.
    + destruct poll; auto. now rewrite andb_false_r in Ep.
    + now destruct poll.
Qed.

(* process_output re-establishes the strict invariant (d_work) *)
Lemma po_snd st X Y fwd bwd lg W S done rcv infl rs X' out :
  dinv st X Y fwd bwd lg W S done rcv infl rs ->
  process_output X = (X', out) ->
  exists now, dinv true X' Y (fwd ++ out) bwd (lg ++ out) W S done rcv (infl ++ now) rs.
Proof.
  intros [] H.
  apply po_spec in H as (now & -> & Hp & Ht & Hmax & Hfull & (E1 & E2 & E3 & E4 & E5 & E6 & _) & _).
  exists now. rewrite Hp in d_num0. rewrite Ht in Hmax, Hfull.
  constructor; rewrite ?E1, ?E2, ?E3, ?E4, ?E5, ?E6, ?Ht; auto.
  - now rewrite d_num0, <- !app_assoc.
  - now rewrite d_txw0, app_assoc.
  - lia.
  - intros _ Hm Hne. specialize (Hfull d_busy0 Hm Hne). lia.
  - intros Hs. rewrite <- (app_nil_r bwd). auto using pf_mono.
  - now rewrite ikeys_app, ikeys_iframes, d_fwd0, map_app.
  - now rewrite ikeys_app, ikeys_iframes, d_log0, !map_app, <- !app_assoc.
  - apply Forall_app. split; [assumption|apply iframes_ok].
Qed.

Lemma snd_write X Y fwd bwd lg W S sdu X' out :
  dinvE X Y fwd bwd lg W S -> send_sdu X sdu = (X', out) ->
  dinvE X' Y (fwd ++ out) bwd (lg ++ out) (W ++ [sdu]) S.
Proof.
  intros (done & rcv & infl & rs & I) H. unfold send_sdu in H.
  pose proof I as [].
  rewrite d_next0, (assign_number _ (zlen (segs_of (e_pmps X) W))) in H.
  unfold MAX_SEQ_NUM in H.
  match type of H with process_output ?e = _ => set (X1 := e) in H end.
  assert (I1 : dinv false X1 Y fwd bwd lg (W ++ [sdu]) S done rcv infl rs).
  { constructor; subst X1; cbn [e_pmps e_pwin e_next e_lack e_pend e_txw e_busy]; auto.
    - rewrite segs_of_app. cbn [segs_of flat_map]. rewrite app_nil_r.
      rewrite number_app, d_num0, Z.add_0_l. now rewrite <- !app_assoc.
    - rewrite segs_of_app. cbn [segs_of flat_map]. rewrite app_nil_r.
      now rewrite zlen_app.
    - intros Hf; discriminate. }
  destruct (po_snd _ _ _ _ _ _ _ _ _ _ _ _ _ _ I1 H) as [now I2].
  now exists done, rcv, (infl ++ now), rs.
Qed.

(* Y sends frames of its own: they carry the current ReqSeq *)
Lemma dinv_bwd_grow st X Y Y' fwd bwd lg W S done rcv infl rs out :
  dinv st X Y fwd bwd lg W S done rcv infl rs ->
  rcv_after Y Y' out ->
  dinv st X Y' fwd (bwd ++ out) lg W S done rcv infl
       (rs ++ repeat (zlen done + zlen rcv) (length out)).
Proof.
  intros [] (R1 & R2 & R3 & R4). constructor; auto.
  - intros Hs. specialize (d_pf0 Hs). rewrite nfinals_app. pose proof (nfinals_nonneg out). lia.
  - now rewrite R1.
  - rewrite R1. destruct R3; congruence.
  - apply Forall2_app; [assumption|]. apply Forall2_repeat.
    eapply Forall_impl; [|exact R4]. cbv beta. intros f Hf. now rewrite Hf, d_req0.
  - eapply chain_app; [eassumption|apply chain_repeat].
  - now rewrite R2.
Qed.

Lemma rcv_peer_extra X Y fwd bwd lg W S Y' out :
  dinvE X Y fwd bwd lg W S -> rcv_after Y Y' out -> dinvE X Y' fwd (bwd ++ out) lg W S.
Proof.
  intros (done & rcv & infl & rs & I) H.
  exists done, rcv, infl, (rs ++ repeat (zlen done + zlen rcv) (length out)).
  eapply dinv_bwd_grow; eauto.
Qed.

Lemma snd_ack X Y fwd f bwd lg W S done rcv infl rs fin X1 out1 :
  dinv true X Y fwd (f :: bwd) lg W S done rcv infl rs ->
  (is_final f = true -> fin = true) ->
  update_ack X (req_of f) fin = (X1, out1) ->
  dinvE X1 Y (fwd ++ out1) bwd (lg ++ out1) W S.
Proof.
  intros I Hfin H. pose proof I as [].
  inversion d_rs0 as [|f0 r1 bwd0 rs' Hr Hrs]; subst.
  cbn [chain] in d_chain0. destruct d_chain0 as [Hlo Hch].
  pose proof (chain_le _ _ _ Hch) as Hhi.
  (* the frame acknowledges a prefix [ra] of rcv *)
  destruct (split_zlen rcv (r1 - zlen done)) as (ra & rb & -> & Hra); [lia|].
  assert (Hd : zlen (done ++ ra) = r1) by (rewrite zlen_app; lia).
  pose proof (zlen_nonneg ra). pose proof (zlen_nonneg rb). pose proof (zlen_nonneg infl).
  rewrite d_txw0, !zlen_app in d_win0. rewrite zlen_app in d_req0, Hch.
  unfold update_ack in H. rewrite Hr, d_lack0 in H. unfold MAX_SEQ_NUM in H.
  rewrite mod_diff, <- Hra, d_txw0 in H by lia. fold (zlen ((ra ++ rb) ++ infl)) in H.
  destruct (Z.ltb_spec (zlen ((ra ++ rb) ++ infl)) (zlen ra)) as [Hlt|_];
    [rewrite !zlen_app in Hlt; lia|].
  rewrite <- app_assoc, skipn_zlen_app in H.
  match type of H with process_output ?e = _ => set (X0 := e) in H end.
  assert (I0 : dinv false X0 Y fwd bwd lg W S (done ++ ra) rb infl rs').
  { constructor; subst X0; cbn [e_pmps e_pwin e_next e_lack e_pend e_txw e_busy];
      rewrite ?Hd; auto.
    - now rewrite d_num0, <- !app_assoc.
    - rewrite zlen_app. lia.
    - intros Hf; discriminate.
    - (* F=1 with an acceptable acknowledgement clears the monitor handle *)
      rewrite e_mon_mk. cbn [tm_mon]. destruct fin; cbn [andb].
      + destruct (mon_set (e_mon X)) eqn:Em; [discriminate|]. rewrite Em. discriminate.
      + intros Hset. specialize (d_pf0 Hset). rewrite nfinals_cons in d_pf0.
        destruct (is_final f); [specialize (Hfin eq_refl); discriminate|]. lia.
    - now rewrite d_log0, <- !app_assoc.
    - rewrite d_req0. f_equal. lia.
    - replace (r1 + zlen rb) with (zlen done + (zlen ra + zlen rb)) by lia. exact Hch.
    - now rewrite <- app_assoc. }
  destruct (po_snd _ _ _ _ _ _ _ _ _ _ _ _ _ _ I0 H) as [now I2].
  unfold dinvE. eauto.
Qed.

Lemma snd_extra X Y fwd bwd lg W S X' extra :
  dinvE X Y fwd bwd lg W S ->
  e_pmps X' = e_pmps X -> e_pwin X' = e_pwin X -> e_next X' = e_next X -> e_lack X' = e_lack X ->
  e_pend X' = e_pend X -> e_txw X' = e_txw X -> (e_busy X' = e_busy X \/ e_busy X' = false) ->
  (e_mon X' = e_mon X \/
   (mon_set (e_mon X') = true /\ (1 <= npolls extra \/ mon_set (e_mon X) = true))) ->
  ikeys extra = [] -> Forall sframe_ok extra ->
  dinvE X' Y (fwd ++ extra) bwd (lg ++ extra) W S.
Proof.
  intros (done & rcv & infl & rs & []) E1 E2 E3 E4 E5 E6 E7 E8 Hk Hok.
  exists done, rcv, infl, rs.
  constructor; rewrite ?E1, ?E2, ?E3, ?E4, ?E5, ?E6; auto.
  - intros Hs Hm. destruct E8 as [E8|[E8 _]]; [rewrite E8 in Hm; auto|].
    rewrite Hm in E8. discriminate.
  - destruct E7 as [-> | ->]; auto.
  - intros Hs. rewrite npolls_app. pose proof (npolls_nonneg extra). pose proof (npolls_nonneg fwd).
    pose proof (nfinals_nonneg bwd).
    destruct E8 as [E8|[_ [E8|E8]]].
    + rewrite E8 in Hs. specialize (d_pf0 Hs). lia.
    + lia.
    + specialize (d_pf0 E8). lia.
  - now rewrite ikeys_app, Hk, app_nil_r.
  - now rewrite ikeys_app, Hk, app_nil_r.
  - apply Forall_app. auto.
Qed.

Lemma rr_only extra r :
  extra = [] \/ (exists b, extra = [SFrame RR false b r]) -> ikeys extra = [] /\ Forall sframe_ok extra.
Proof. intros [-> | [b ->]]; repeat constructor. Qed.

Lemma snd_frame X Y fwd f bwd lg W S X' out sdus :
  dinvE X Y fwd (f :: bwd) lg W S -> sframe_ok f ->
  on_frame X f = (X', out, sdus) ->
  dinvE X' Y (fwd ++ out) bwd (lg ++ out) W S.
Proof.
  intros (done & rcv & infl & rs & I) Hok H.
  destruct (on_frame_split _ _ _ _ _ H)
    as (fin & e1 & out1 & extra & Hu & -> & Hfin & Hx & _ & E1 & E2 & E3 & E4 & E5 & E6 & E8 & E7 & _).
  apply rr_only in Hx as [Hk Hx]. rewrite !app_assoc.
  eapply snd_extra; [eapply snd_ack; eassumption|try eassumption..]; [|now left].
  destruct f; [now left|right]. cbn in Hok. now subst.
Qed.

Lemma rcv_frame X Y f fwd bwd lg W S Y' out sdus :
  dinvE X Y (f :: fwd) bwd lg W S ->
  on_frame Y f = (Y', out, sdus) ->
  dinvE X Y' fwd (bwd ++ out) lg W (S ++ sdus).
Proof.
  intros (done & rcv & infl & rs & I) H. pose proof I as [].
  destruct f as [tx req s l data ifin | func poll final req].
  - (* I-frame: it is the next expected one *)
    cbn [ikeys flat_map fkeys app] in d_fwd0.
    destruct infl as [|p infl']; [discriminate|].
    cbn [map] in d_fwd0. unfold pkey in d_fwd0. injection d_fwd0 as K1 K2 K3 K4 Hfwd.
    assert (Htx : p_tx p = (zlen done + zlen rcv) mod 64).
    { replace (done ++ rcv ++ (p :: infl') ++ e_pend X)
        with ((done ++ rcv) ++ p :: (infl' ++ e_pend X)) in d_num0
        by (now rewrite <- !app_assoc).
      apply number_head in d_num0. now rewrite zlen_app, Z.add_0_l in d_num0. }
    assert (Hacc : tx = e_req Y) by congruence.
    destruct (on_frame_rcv_i _ _ _ _ _ _ _ _ _ _ H d_lar0 Hacc)
      as (Y1 & out1 & Ha & -> & R1 & R2 & R5).
    destruct (dinv_bwd_grow _ _ _ _ _ _ _ _ _ _ _ _ _ _ I Ha).
    exists done, (rcv ++ [p]), infl',
           ((rs ++ repeat (zlen done + zlen rcv) (length out1)) ++ [zlen done + zlen rcv + 1]).
    assert (Hz : zlen done + zlen (rcv ++ [p]) = zlen done + zlen rcv + 1).
    { rewrite zlen_app, zlen_cons, zlen_nil. lia. }
    assert (Hreq : e_req Y' = (zlen done + zlen rcv + 1) mod 64).
    { rewrite R1, Hacc, d_req0. unfold MAX_SEQ_NUM. now rewrite Zplus_mod_idemp_l. }
    rewrite app_assoc. constructor; rewrite ?Hz; auto.
    + rewrite d_num0. now rewrite <- !app_assoc.
    + rewrite d_txw0. now rewrite <- app_assoc.
    + intros Hs. specialize (d_pf1 Hs). rewrite npolls_cons in d_pf1.
      rewrite <- (app_nil_r fwd). now apply pf_mono.
    + rewrite d_log0. now rewrite <- !app_assoc.
    + now inversion d_sok0.
    + apply Forall2_app; [assumption|]. now repeat constructor.
    + eapply chain_app; [eassumption|]. cbn. lia.
    + rewrite app_assoc, map_app, reasm_app, d_reasm0. cbn [map reasm].
      rewrite K2, K4 in R5.
      destruct (delivers (g_sar (p_seg p))); destruct R5 as [-> ->]; cbn; auto.
  - (* S-frame: only RR travels; a poll is answered with F=1 *)
    inversion d_sok0 as [|f0 fwd0 Hf Hrest]; subst. cbn in Hf. subst func.
    destruct (on_frame_rcv_s _ _ _ _ _ _ _ H) as (Ha & -> & R6).
    exists done, rcv, infl, (rs ++ repeat (zlen done + zlen rcv) (length out)).
    rewrite app_nil_r.
    pose proof (dinv_bwd_grow _ _ _ _ _ _ _ _ _ _ _ _ _ _ I Ha) as [].
    constructor; auto.
    intros Hs. specialize (d_pf0 Hs). rewrite npolls_cons in d_pf0. cbn [is_poll] in d_pf0.
    rewrite nfinals_app. destruct poll; lia.
Qed.

Lemma send_poll_rcv e e' out : send_poll e = (e', out) ->
  e_req e' = e_req e /\ e_insdu e' = e_insdu e /\ e_lackrx e' = e_req e /\
  out = [SFrame RR true false (e_req e)].
Proof. cbn. intros [= <- <-]. auto. Qed.

Lemma send_rr_rcv e fin e' out : send_rr e fin = (e', out) ->
  e_req e' = e_req e /\ e_insdu e' = e_insdu e /\ e_lackrx e' = e_req e /\
  out = [SFrame RR false fin (e_req e)].
Proof. cbn. intros [= <- <-]. auto. Qed.

Definition timeout (retx : bool) (e : ep) : ep * list frame :=
  if retx then retx_timeout e else mon_timeout e.

(* A timer that fires sends at most one poll, which carries ReqSeq like any RR; otherwise
   it changes timer fields only.  It never clears a monitor handle, and sets one only
   along with a poll. *)
Lemma timeout_spec retx e e' out : timeout retx e = (e', out) ->
  (out = [] \/ out = [SFrame RR true false (e_req e)]) /\
  e_pmps e' = e_pmps e /\ e_pwin e' = e_pwin e /\ e_next e' = e_next e /\
  e_lack e' = e_lack e /\ e_pend e' = e_pend e /\ e_txw e' = e_txw e /\
  e_busy e' = e_busy e /\ e_req e' = e_req e /\ e_insdu e' = e_insdu e /\
  (e_lackrx e' = e_lackrx e \/ e_lackrx e' = e_req e) /\
  (e_mon e' = e_mon e \/
   mon_set (e_mon e') = true /\ (1 <= npolls out \/ mon_set (e_mon e) = true)).
Proof.
  destruct retx; cbn [timeout];
    [unfold retx_timeout; destruct (e_rrarm e)
    |unfold mon_timeout; destruct (e_mon e) eqn:Em; [|destruct (_ || _)|]];
    cbn; intros [= <- <-]; cbn; rewrite ?Em; repeat split; auto.
  right. split; [reflexivity|left; reflexivity].
Qed.

Lemma poll_only out r :
  out = [] \/ out = [SFrame RR true false r] -> ikeys out = [] /\ Forall sframe_ok out.
Proof. intros [-> | ->]; repeat constructor. Qed.

Lemma timeout_rcv retx e e' out : timeout retx e = (e', out) -> rcv_after e e' out.
Proof.
  intros H. apply timeout_spec in H as (Ho & _ & _ & _ & _ & _ & _ & _ & E8 & E9 & El & _).
  repeat split; auto. destruct Ho as [-> | ->]; repeat constructor.
Qed.

Lemma timeout_snd retx X Y fwd bwd lg W S X' out :
  dinvE X Y fwd bwd lg W S -> timeout retx X = (X', out) ->
  dinvE X' Y (fwd ++ out) bwd (lg ++ out) W S.
Proof.
  intros I H. apply timeout_spec in H as (Ho & E1 & E2 & E3 & E4 & E5 & E6 & E7 & _ & _ & _ & Em).
  apply poll_only in Ho as [Hk Ho]. eapply snd_extra; try eassumption. now left.
Qed.

Definition Inv (s : sys) (WA WB : list (list Z)) : Prop :=
  dinvE (s_a s) (s_b s) (s_ab s) (s_ba s) (s_log_ab s) WA (s_sink_b s) /\
  dinvE (s_b s) (s_a s) (s_ba s) (s_ab s) (s_log_ba s) WB (s_sink_a s).

Definition params_ok (mps_a win_a mps_b win_b : Z) : Prop :=
  1 <= mps_a /\ 1 <= mps_b /\ 1 <= win_a <= 63 /\ 1 <= win_b <= 63.

Lemma dinv_init pmps pwin qmps qwin :
  1 <= pmps -> 1 <= pwin <= 63 ->
  dinvE (ep_init pmps pwin) (ep_init qmps qwin) [] [] [] [] [].
Proof.
  intros Hm Hw. exists [], [], [], []. constructor; cbn; auto; try lia.
  intros _ _ Hf. congruence.
Qed.

Lemma inv_init mps_a win_a mps_b win_b :
  params_ok mps_a win_a mps_b win_b -> Inv (sys_init mps_a win_a mps_b win_b) [] [].
Proof.
  intros (H1 & H2 & H3 & H4). split; cbn; apply dinv_init; auto.
Qed.

Definition wa_of (l : label) : list (list Z) := match l with WriteA sdu => [sdu] | _ => [] end.
Definition wb_of (l : label) : list (list Z) := match l with WriteB sdu => [sdu] | _ => [] end.

Lemma dinvE_head_ok X Y f fwd bwd lg W S : dinvE X Y (f :: fwd) bwd lg W S -> sframe_ok f.
Proof. intros (done & rcv & infl & rs & []). now inversion d_sok0. Qed.

Lemma inv_step s WA WB l :
  Inv s WA WB -> Inv (step s l) (WA ++ wa_of l) (WB ++ wb_of l).
Proof.
  intros [IA IB]. destruct l as [sdu | sdu | | | | | | ];
    cbn [step wa_of wb_of]; rewrite ?app_nil_r.
  - destruct (send_sdu (s_a s) sdu) as [a out] eqn:E. split; cbn.
    + eapply snd_write; eauto.
    + eapply rcv_peer_extra; eauto using send_sdu_rcv.
  - destruct (send_sdu (s_b s) sdu) as [b out] eqn:E. split; cbn.
    + eapply rcv_peer_extra; eauto using send_sdu_rcv.
    + eapply snd_write; eauto.
  - destruct (s_ab s) as [|f rest] eqn:Eab; [split; rewrite Eab; assumption|].
    destruct (on_frame (s_b s) f) as [[b out] sdus] eqn:E. split; cbn.
    + eapply rcv_frame; eauto.
    + eapply snd_frame; eauto. eapply dinvE_head_ok; eauto.
  - destruct (s_ba s) as [|f rest] eqn:Eba; [split; rewrite Eba; assumption|].
    destruct (on_frame (s_a s) f) as [[a out] sdus] eqn:E. split; cbn.
    + eapply snd_frame; eauto. eapply dinvE_head_ok; eauto.
    + eapply rcv_frame; eauto.
  - destruct (retx_timeout (s_a s)) as [a out] eqn:E. split; cbn.
    + eapply (timeout_snd true); eauto.
    + eapply rcv_peer_extra; eauto using (timeout_rcv true).
  - destruct (retx_timeout (s_b s)) as [b out] eqn:E. split; cbn.
    + eapply rcv_peer_extra; eauto using (timeout_rcv true).
    + eapply (timeout_snd true); eauto.
  - destruct (mon_timeout (s_a s)) as [a out] eqn:E. split; cbn.
    + eapply (timeout_snd false); eauto.
    + eapply rcv_peer_extra; eauto using (timeout_rcv false).
  - destruct (mon_timeout (s_b s)) as [b out] eqn:E. split; cbn.
    + eapply rcv_peer_extra; eauto using (timeout_rcv false).
    + eapply (timeout_snd false); eauto.
Qed.

Lemma writes_a_app l1 l2 : writes_a (l1 ++ l2) = writes_a l1 ++ writes_a l2.
Proof. induction l1 as [|[]]; cbn; auto. now rewrite IHl1. Qed.
Lemma writes_b_app l1 l2 : writes_b (l1 ++ l2) = writes_b l1 ++ writes_b l2.
Proof. induction l1 as [|[]]; cbn; auto. now rewrite IHl1. Qed.

Lemma inv_run sched : forall s WA WB,
  Inv s WA WB -> Inv (run s sched) (WA ++ writes_a sched) (WB ++ writes_b sched).
Proof.
  induction sched as [|l r IH]; intros s WA WB I; cbn [run fold_left writes_a writes_b].
  - now rewrite !app_nil_r.
  - apply (inv_step _ _ _ l) in I. apply IH in I. fold (run (step s l) r).
    destruct l; cbn [wa_of wb_of] in I; rewrite ?app_nil_r, <- ?app_assoc in I; exact I.
Qed.

(* with or without timer events *)
Lemma inv_reachable mps_a win_a mps_b win_b sched :
  params_ok mps_a win_a mps_b win_b ->
  Inv (run (sys_init mps_a win_a mps_b win_b) sched) (writes_a sched) (writes_b sched).
Proof.
  intros H. apply inv_init in H. apply (inv_run sched) in H. exact H.
Qed.

(* without timer events no monitor handle is ever set *)
Lemma po_mon e e' out : process_output e = (e', out) -> e_mon e' = e_mon e.
Proof. intros H. now apply po_spec in H as (now & _ & _ & _ & _ & _ & (_ & _ & _ & _ & _ & E & _) & _). Qed.
Lemma update_ack_mon e n fin e' out :
  update_ack e n fin = (e', out) -> e_mon e = MonNone -> e_mon e' = MonNone.
Proof.
  unfold update_ack. destruct (Z.ltb _ _); [intros [= <- <-]; auto|].
  intros H Hm. apply po_mon in H. rewrite H, e_mon_mk. cbn [tm_mon]. rewrite Hm.
  now destruct fin.
Qed.
Lemma send_sdu_mon e w e' out : send_sdu e w = (e', out) -> e_mon e' = e_mon e.
Proof. unfold send_sdu. destruct (assign _ _). intros H. apply po_mon in H. exact H. Qed.
Lemma on_frame_mon e f e' out sd :
  on_frame e f = (e', out, sd) -> e_mon e = MonNone -> e_mon e' = MonNone.
Proof.
  intros H Hm. apply on_frame_split in H
    as (fin & e1 & out1 & extra & Hu & _ & _ & _ & _ & _ & _ & _ & _ & _ & _ & -> & _).
  eapply update_ack_mon; eauto.
Qed.

Lemma run_mon_none sched : forall s,
  no_timer sched = true -> e_mon (s_a s) = MonNone -> e_mon (s_b s) = MonNone ->
  e_mon (s_a (run s sched)) = MonNone /\ e_mon (s_b (run s sched)) = MonNone.
Proof.
  unfold run. induction sched as [|l r IH]; intros s Hn Ha Hb; cbn [fold_left]; [auto|].
  cbn [no_timer forallb] in Hn. apply andb_true_iff in Hn as [Hl Hr].
  apply IH; [exact Hr| |]; destruct l; try discriminate Hl; cbn [step].
  - destruct (send_sdu (s_a s) sdu) eqn:E. apply send_sdu_mon in E. cbn. congruence.
  - destruct (send_sdu (s_b s) sdu) eqn:E. cbn. assumption.
  - destruct (s_ab s); [assumption|]. destruct (on_frame (s_b s) f) as [[? ?] ?]. cbn. assumption.
  - destruct (s_ba s); [assumption|]. destruct (on_frame (s_a s) f) as [[? ?] ?] eqn:E.
    cbn. eapply on_frame_mon; eauto.
  - destruct (send_sdu (s_a s) sdu) eqn:E. cbn. assumption.
  - destruct (send_sdu (s_b s) sdu) eqn:E. apply send_sdu_mon in E. cbn. congruence.
  - destruct (s_ab s); [assumption|]. destruct (on_frame (s_b s) f) as [[? ?] ?] eqn:E.
    cbn. eapply on_frame_mon; eauto.
  - destruct (s_ba s); [assumption|]. destruct (on_frame (s_a s) f) as [[? ?] ?]. cbn. assumption.
Qed.

Lemma dinvE_prefix X Y fwd bwd lg W S :
  dinvE X Y fwd bwd lg W S -> exists j, S = firstn j W.
Proof.
  intros (done & rcv & infl & rs & []).
  assert (H : segs_of (e_pmps X) W = map p_seg (done ++ rcv) ++ map p_seg (infl ++ e_pend X)).
  { rewrite <- map_app, <- app_assoc, <- d_num0. now rewrite number_segs. }
  destruct (reasm_prefix _ d_mps0 _ _ _ H) as [j Hj]. exists j.
  now rewrite d_reasm0 in Hj.
Qed.

Lemma dinvE_quiescent X Y lg W S :
  dinvE X Y [] [] lg W S ->
  S = W /\ e_pend X = [] /\ e_txw X = [] /\ e_insdu Y = [] /\ e_mon X = MonNone.
Proof.
  intros (done & rcv & infl & rs & []).
  assert (Hmon : e_mon X = MonNone).
  { destruct (e_mon X) eqn:Em; [reflexivity| |]; specialize (d_pf0 eq_refl); cbn in d_pf0; lia. }
  inversion d_rs0; subst. cbn in d_chain0.
  assert (rcv = []).
  { destruct rcv; [reflexivity|]. rewrite zlen_cons in d_chain0. pose proof (zlen_nonneg rcv). lia. }
  subst rcv. destruct infl; [|discriminate]. cbn [app] in *.
  assert (Hp : e_pend X = []).
  { destruct (e_pend X) eqn:E; [reflexivity|]. rewrite d_txw0 in d_work0.
    specialize (d_work0 eq_refl Hmon ltac:(congruence)). cbn in d_work0. lia. }
  rewrite Hp, !app_nil_r in *.
  assert (H : segs_of (e_pmps X) W = map p_seg done).
  { rewrite <- d_num0. now rewrite number_segs. }
  rewrite <- H, (reasm_all _ d_mps0) in d_reasm0. injection d_reasm0 as -> <-. auto.
Qed.

Lemma dinvE_window X Y fwd bwd lg W S :
  dinvE X Y fwd bwd lg W S ->
  exists acked, 0 <= acked /\ e_lack X = acked mod 64 /\
    zlen (ikeys lg) = acked + zlen (e_txw X) /\ zlen (e_txw X) <= e_pwin X.
Proof.
  intros (done & rcv & infl & rs & []). exists (zlen done).
  repeat split; auto; [apply zlen_nonneg|].
  now rewrite d_log0, zlen_map, zlen_app, d_txw0.
Qed.

Definition tx_of (k : key) : Z := let '(tx, _, _, _) := k in tx.

Lemma pkey_tx ps : map tx_of (map pkey ps) = map p_tx ps.
Proof. induction ps as [|p r IH]; cbn; [|rewrite IH]; auto. Qed.

(* if [sent] followed by [pend] is the numbered segment stream, the i-th pdu sent carries
   TxSeq = i mod 64 *)
Lemma sent_keys segs sent pend keys :
  number 0 segs = sent ++ pend -> keys = map pkey sent ->
  map pkey (number 0 segs) = keys ++ map pkey pend /\
  map tx_of keys = map (fun i => Z.of_nat i mod 64) (seq 0 (length keys)).
Proof.
  intros Hn ->. split; [now rewrite Hn, map_app|].
  apply number_split in Hn as [Hn _]. rewrite pkey_tx, map_length. rewrite Hn at 1.
  now rewrite number_txs, map_length.
Qed.

Lemma dinvE_stream X Y fwd bwd lg W S :
  dinvE X Y fwd bwd lg W S ->
  (exists rest, map pkey (number 0 (segs_of (e_pmps X) W)) = ikeys lg ++ rest) /\
  map tx_of (ikeys lg) = map (fun i => Z.of_nat i mod 64) (seq 0 (length (ikeys lg))).
Proof.
  intros (done & rcv & infl & rs & []).
  rewrite (app_assoc rcv), app_assoc in d_num0.
  destruct (sent_keys _ _ _ _ d_num0 d_log0). eauto.
Qed.

Lemma dinvE_mps X Y fwd bwd lg W S :
  dinvE X Y fwd bwd lg W S ->
  Forall (fun k => let '(_, _, _, d) := k in zlen d <= e_pmps X) (ikeys lg).
Proof.
  intros (done & rcv & infl & rs & []).
  assert (Hall : Forall (fun g => zlen (g_data g) <= e_pmps X) (segs_of (e_pmps X) W)).
  { apply Forall_flat_map, Forall_forall. intros w _. apply segment_le_mps. lia. }
  rewrite <- (number_segs _ 0), d_num0, (app_assoc rcv), app_assoc, map_app in Hall.
  apply Forall_app in Hall as [Hall _]. rewrite d_log0. now rewrite Forall_map in *.
Qed.

(* the negotiated parameters never change *)
Definition same_params (e e' : ep) : Prop := e_pwin e' = e_pwin e /\ e_pmps e' = e_pmps e.

Lemma po_params e e' out : process_output e = (e', out) -> same_params e e'.
Proof. intros H. apply po_spec in H as (now & _ & _ & _ & _ & _ & (E1 & E2 & _) & _). now split. Qed.
Lemma update_ack_params e n fin e' out : update_ack e n fin = (e', out) -> same_params e e'.
Proof.
  unfold update_ack. destruct (Z.ltb _ _); [intros [= <- <-]; split; reflexivity|].
  intros Hp. apply po_params in Hp. exact Hp.
Qed.
Lemma send_sdu_params e w e' out : send_sdu e w = (e', out) -> same_params e e'.
Proof. unfold send_sdu. destruct (assign _ _). intros Hp. apply po_params in Hp. exact Hp. Qed.
Lemma on_frame_params e f e' out sd : on_frame e f = (e', out, sd) -> same_params e e'.
Proof.
  intros H. apply on_frame_split in H as (fin & e1 & out1 & extra & Hu & _ & _ & _ & _ & E1 & E2 & _).
  apply update_ack_params in Hu as [U1 U2]. split; congruence.
Qed.

Lemma timeout_params retx e e' out : timeout retx e = (e', out) -> same_params e e'.
Proof. intros H. apply timeout_spec in H as (_ & E1 & E2 & _). now split. Qed.

Lemma run_params sc : forall s,
  same_params (s_a s) (s_a (run s sc)) /\ same_params (s_b s) (s_b (run s sc)).
Proof.
  unfold run. induction sc as [|l r IH]; intros s; cbn [fold_left]; [repeat split|].
  destruct (IH (step s l)) as [[A1 A2] [B1 B2]]. clear IH.
  unfold same_params. rewrite A1, A2, B1, B2. clear.
  destruct l; cbn [step].
  - destruct (send_sdu (s_a s) sdu) eqn:E. apply send_sdu_params in E. cbn. split; [exact E|split; reflexivity].
  - destruct (send_sdu (s_b s) sdu) eqn:E. apply send_sdu_params in E. cbn. split; [split; reflexivity|exact E].
  - destruct (s_ab s); [repeat split|]. destruct (on_frame (s_b s) f) as [[? ?] ?] eqn:E.
    apply on_frame_params in E. cbn. split; [split; reflexivity|exact E].
  - destruct (s_ba s); [repeat split|]. destruct (on_frame (s_a s) f) as [[? ?] ?] eqn:E.
    apply on_frame_params in E. cbn. split; [exact E|split; reflexivity].
  - destruct (retx_timeout (s_a s)) eqn:E. apply (timeout_params true) in E. cbn. split; [exact E|split; reflexivity].
  - destruct (retx_timeout (s_b s)) eqn:E. apply (timeout_params true) in E. cbn. split; [split; reflexivity|exact E].
  - destruct (mon_timeout (s_a s)) eqn:E. apply (timeout_params false) in E. cbn. split; [exact E|split; reflexivity].
  - destruct (mon_timeout (s_b s)) eqn:E. apply (timeout_params false) in E. cbn. split; [split; reflexivity|exact E].
Qed.

(* complete delivery: every schedule, timers included (after fixes/D08t.patch a monitor
   handle is only ever set while a poll is on its way or being answered, so in a quiescent
   state nothing blocks the output) *)
Theorem ertm_exactly_once_in_order mps_a win_a mps_b win_b sched :
  params_ok mps_a win_a mps_b win_b ->
  let s := run (sys_init mps_a win_a mps_b win_b) sched in
  (exists j, s_sink_b s = firstn j (writes_a sched)) /\
  (exists j, s_sink_a s = firstn j (writes_b sched)) /\
  (quiescent s = true ->
     s_sink_b s = writes_a sched /\ s_sink_a s = writes_b sched /\
     e_pend (s_a s) = [] /\ e_txw (s_a s) = [] /\ e_pend (s_b s) = [] /\ e_txw (s_b s) = [] /\
     e_insdu (s_a s) = [] /\ e_insdu (s_b s) = [] /\
     e_mon (s_a s) = MonNone /\ e_mon (s_b s) = MonNone).
Proof.
  intros H s. destruct (inv_reachable _ _ _ _ sched H) as [IA IB]. fold s in IA, IB.
  split; [eapply dinvE_prefix; eauto|]. split; [eapply dinvE_prefix; eauto|].
  unfold quiescent. intros Hq.
  destruct (s_ab s) eqn:Eab; [|discriminate]. destruct (s_ba s) eqn:Eba; [|discriminate].
  apply dinvE_quiescent in IA as (A1 & A2 & A3 & A4 & A5).
  apply dinvE_quiescent in IB as (B1 & B2 & B3 & B4 & B5). auto 12.
Qed.

Theorem window_respected mps_a win_a mps_b win_b sched :
  params_ok mps_a win_a mps_b win_b ->
  let s := run (sys_init mps_a win_a mps_b win_b) sched in
  (exists acked, 0 <= acked /\ e_lack (s_a s) = acked mod 64 /\
     zlen (ikeys (s_log_ab s)) = acked + zlen (e_txw (s_a s)) /\
     zlen (e_txw (s_a s)) <= win_b) /\
  (exists acked, 0 <= acked /\ e_lack (s_b s) = acked mod 64 /\
     zlen (ikeys (s_log_ba s)) = acked + zlen (e_txw (s_b s)) /\
     zlen (e_txw (s_b s)) <= win_a).
Proof.
  intros H s. destruct (inv_reachable _ _ _ _ sched H) as [IA IB]. fold s in IA, IB.
  destruct (run_params sched (sys_init mps_a win_a mps_b win_b)) as [[PA _] [PB _]].
  change (e_pwin (s_a s) = win_b) in PA. change (e_pwin (s_b s) = win_a) in PB. split.
  - destruct (dinvE_window _ _ _ _ _ _ _ IA) as (k & K1 & K2 & K3 & K4).
    exists k. rewrite <- PA. auto.
  - destruct (dinvE_window _ _ _ _ _ _ _ IB) as (k & K1 & K2 & K3 & K4).
    exists k. rewrite <- PB. auto.
Qed.

Theorem seq_mod64 mps_a win_a mps_b win_b sched :
  params_ok mps_a win_a mps_b win_b ->
  let s := run (sys_init mps_a win_a mps_b win_b) sched in
  map tx_of (ikeys (s_log_ab s)) =
    map (fun i => Z.of_nat i mod 64) (seq 0 (length (ikeys (s_log_ab s)))) /\
  map tx_of (ikeys (s_log_ba s)) =
    map (fun i => Z.of_nat i mod 64) (seq 0 (length (ikeys (s_log_ba s)))).
Proof.
  intros H s. destruct (inv_reachable _ _ _ _ sched H) as [IA IB]. fold s in IA, IB.
  split; eapply dinvE_stream; eauto.
Qed.

Lemma basic_inv sched : forall s W,
  b_sink s ++ b_chan s = W ->
  b_sink (brun s sched) ++ b_chan (brun s sched) = W ++ bwrites sched.
Proof.
  induction sched as [|l r IH]; intros s W H; cbn [brun fold_left bwrites].
  - now rewrite app_nil_r.
  - fold (brun (bstep s l) r). destruct l as [sdu|]; cbn [bstep].
    + rewrite (IH _ (W ++ [sdu])); [now rewrite <- app_assoc|].
      cbn. now rewrite app_assoc, H.
    + destruct (b_chan s) as [|p c] eqn:E.
      * apply IH. now rewrite E.
      * apply IH. cbn. rewrite <- H. now rewrite <- app_assoc.
Qed.

Theorem basic_exact sched :
  let s := brun (mkB [] []) sched in
  b_sink s ++ b_chan s = bwrites sched /\ (b_chan s = [] -> b_sink s = bwrites sched).
Proof.
  intros s. pose proof (basic_inv sched (mkB [] []) [] eq_refl) as H. cbn in H. fold s in H.
  split; [exact H|]. intros E. now rewrite E, app_nil_r in H.
Qed.
