(* C17 - the avdtp capabilities and advertising-data TLV loops: a zero length byte still
   consumes its header, so fuel len + 1 is never used up. *)
From Coq Require Import ZArith List Bool Lia Arith.
From BV Require Import Model.HostileLoops.
Import ListNotations.
Open Scope Z_scope.

(* every iteration consumes at least the two header bytes *)
Lemma parse_capabilities_fuel_enough : forall fuel payload off,
  (1 <= fuel)%nat -> (length payload + 1 - off <= fuel)%nat -> parse_capabilities fuel payload off <> None.
Proof.
  induction fuel as [|f IH]; intros payload off H1 Hf; [lia|].
  cbn [parse_capabilities]. destruct (nth_error payload off) eqn:E; [|discriminate].
  assert (off < length payload)%nat by (apply nth_error_Some; congruence).
  destruct (nth_error payload (off + 1)); [|discriminate].
  specialize (IH payload (off + 2 + Z.to_nat z0)%nat ltac:(lia) ltac:(lia)).
  destruct (parse_capabilities f payload (off + 2 + Z.to_nat z0)) as [[e|items]|]; try discriminate. congruence.
Qed.

(* every iteration consumes at least the length byte, also when the length is 0 *)
Lemma parse_advertising_fuel_enough : forall fuel data off,
  (1 <= fuel)%nat -> (length data + 1 - off <= fuel)%nat -> parse_advertising fuel data off <> None.
Proof.
  induction fuel as [|f IH]; intros data off H1 Hf; [lia|].
  cbn [parse_advertising]. destruct (off + 1 <? length data)%nat eqn:G; [|discriminate].
  apply Nat.ltb_lt in G. destruct (nth_error data off); [|discriminate].
  specialize (IH data (off + 1 + Z.to_nat z)%nat ltac:(lia) ltac:(lia)).
  destruct (parse_advertising f data (off + 1 + Z.to_nat z)) as [items|]; [|congruence].
  destruct (0 <? z); [destruct (nth_error data (off + 1))|]; discriminate.
Qed.

(* the number of structures never exceeds the number of bytes *)
Lemma parse_advertising_count : forall fuel data off items,
  parse_advertising fuel data off = Some items -> (length items + off <= Nat.max (length data) off)%nat.
Proof.
  induction fuel as [|f IH]; intros data off items H; [discriminate|].
  cbn [parse_advertising] in H. destruct (off + 1 <? length data)%nat eqn:G.
  2:{ inversion H; subst. simpl. lia. }
  apply Nat.ltb_lt in G. destruct (nth_error data off) as [len|]; [|inversion H; subst; simpl; lia].
  destruct (parse_advertising f data (off + 1 + Z.to_nat len)) as [its|] eqn:P; [|discriminate].
  apply IH in P. destruct (0 <? len).
  - destruct (nth_error data (off + 1)); inversion H; subst; simpl; lia.
  - inversion H; subst. lia.
Qed.
