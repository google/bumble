(* Proofs about Model/L2capConfig.v: a verified complete exploration of the product of
   the two configuration machines, for every pair of specs. *)
From Coq Require Import List Bool Lia.
From BV Require Import Model.L2capConfig.
Import ListNotations.

(* s' is reached from s by exactly n enabled deliveries *)
Inductive reach : nat -> csys -> csys -> Prop :=
| reach0 s : reach 0 s s
| reachS n s s1 s2 : In s1 (succs s) -> reach n s1 s2 -> reach (S n) s s2.

Lemma explore_sound ok : forall fuel front,
  explore ok fuel front = true ->
  forall s n s', In s front -> reach n s s' -> (n < fuel)%nat /\ ok s' = true.
Proof.
  induction fuel as [|f IH]; intros front H s n s' Hin Hr; cbn [explore] in H.
  - destruct front; [destruct Hin | discriminate].
  - apply andb_true_iff in H as [Hall Hrest].
    inversion Hr; subst.
    + split; [lia|]. rewrite forallb_forall in Hall. now apply Hall.
    + assert (Hin1 : In s1 (flat_map succs front)) by (apply in_flat_map; eauto).
      destruct (IH _ Hrest _ _ _ Hin1 H0) as [Hlt Hok]. split; [lia|exact Hok].
Qed.

(* schedules (lists of labels, disabled labels skipped) are runs *)
Lemma crun_reach sched : forall s, exists n, reach n s (crun s sched).
Proof.
  induction sched as [|l r IH]; intros s; cbn [crun].
  - exists 0%nat. constructor.
  - destruct (cstep s l) as [s1|] eqn:E; [|apply IH].
    destruct (IH s1) as [n Hn]. exists (S n). econstructor; [|exact Hn].
    unfold succs. destruct l; rewrite E.
    + left. reflexivity.
    + apply in_or_app. right. left. reflexivity.
Qed.

Lemma terminal_no_succ s : terminal s = true -> succs s = [].
Proof.
  unfold terminal, succs, cstep. destruct (k_ab s); [|discriminate].
  destruct (k_ba s); [reflexivity|discriminate].
Qed.

Lemma nonterminal_succ s : terminal s = false -> succs s <> [].
Proof.
  unfold terminal, succs, cstep. destruct (k_ab s) as [|m r].
  - destruct (k_ba s) as [|m r]; [discriminate|]. intros _.
    destruct (on_msg false (k_a s) m). discriminate.
  - intros _. destruct (on_msg (k_srv s) (k_b s) m). discriminate.
Qed.

(* The strict reading "both state fields end CLOSED" fails exactly when the INITIATOR is
   the end that detects the mode mismatch (its spec is Basic and the acceptor's configure
   request carries the ERTM option): connect() raises, create_classic_channel unregisters
   the channel while it waits for the Disconnection Response, and the orphaned object
   stays in WAIT_DISCONNECT. *)
Definition initiator_aborts (sa sb : spec) (srv : bool) : bool :=
  srv && mode_eqb (sp_mode sa) Basic && mode_eqb (sp_mode sb) Ertm.

Definition ok_strict (sa sb : spec) (srv : bool) (s : csys) : bool :=
  if terminal s && negb (expected_open sa sb srv)
  then (if initiator_aborts sa sb srv
        then st_eqb (c_st (k_a s)) WAIT_DISCONNECT && closed_ok s
        else closed_strict s)
  else true.

Definition all_specs : list spec :=
  flat_map (fun m => flat_map (fun f => map (mkSpec m f) [false; true]) [false; true])
           [Basic; Ertm].

Lemma all_specs_complete sa : In sa all_specs.
Proof. destruct sa as [[] [] []]; cbn; tauto. Qed.

(* one exploration of the 128 set-ups (pairs of specs, with or without a server), checking
   both predicates on every state *)
Lemma all_setups_explored :
  forallb (fun sa => forallb (fun sb => forallb (fun srv =>
    explore (fun s => ok_state sa sb srv s && ok_strict sa sb srv s)
            SETUP_BOUND [cinit sa sb srv]) [false; true]) all_specs) all_specs = true.
Proof. vm_compute. reflexivity. Qed.

(* For every pair of specs (mode, FCS requested, FCS supported) and with or without a
   server: every run of the two machines has fewer than SETUP_BOUND steps, and every
   state on it satisfies ok_state (terminal => both OPEN in the same mode with the same
   FCS setting and the peer's parameters, or both CLOSED; and nobody is OPEN on the way
   to CLOSED/CLOSED) and ok_strict. *)
Theorem setup_explored sa sb srv n s' :
  reach n (cinit sa sb srv) s' ->
  (n < SETUP_BOUND)%nat /\ ok_state sa sb srv s' = true /\ ok_strict sa sb srv s' = true.
Proof.
  intros H. pose proof all_setups_explored as E.
  rewrite forallb_forall in E. specialize (E sa (all_specs_complete sa)).
  rewrite forallb_forall in E. specialize (E sb (all_specs_complete sb)).
  rewrite forallb_forall in E. specialize (E srv ltac:(destruct srv; cbn; auto)).
  destruct (explore_sound _ _ _ E _ _ _ (or_introl eq_refl) H) as [Hn Hok].
  apply andb_true_iff in Hok. tauto.
Qed.

Theorem setup_agrees : forall sa sb srv n s',
  reach n (cinit sa sb srv) s' ->
  (n < SETUP_BOUND)%nat /\
  (succs s' = [] -> if expected_open sa sb srv then open_ok s' = true else closed_ok s' = true) /\
  (expected_open sa sb srv = false -> c_st (k_a s') <> OPEN /\ c_st (k_b s') <> OPEN).
Proof.
  intros sa sb srv n s' H. destruct (setup_explored _ _ _ _ _ H) as (Hn & Hok & _).
  split; [exact Hn|]. unfold ok_state in Hok. apply andb_true_iff in Hok as [H1 H2]. split.
  - intros Hs. destruct (terminal s') eqn:T.
    + destruct (expected_open sa sb srv); exact H1.
    + apply nonterminal_succ in T. contradiction.
  - intros E. rewrite E in H2. apply andb_true_iff in H2 as [A B].
    split; intros Heq; rewrite Heq in *; discriminate.
Qed.
