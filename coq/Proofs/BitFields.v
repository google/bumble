(* Proofs/BitFields.v — fields packed into one integer.  As a number, a field a < k below a field
   b is a + k * b, read back by mod and div ([pack_lo], [pack_hi]).  Written with shifts and
   [Z.lor], the way the HCI, L2CAP, AVDTP, AVCTP, RTP and A2DP headers are, the packing is that
   number ([pack_sum], [pack3_sum]), its fields are read back by the matching shift and mask, and
   every integer is the packing of its own fields ([unpack]).  The three- and four-field forms
   are stated with the shifts written as sums, in the flat shape [a << (j+k) | b << k | c] the
   code uses, so that a header with literal shifts and masks is an instance up to computation:
   [rewrite (pack3_b 2 2)], with the widths given and the fields left to unification, finds
   [Z.land (Z.shiftr _ 2) 3]. *)
From Coq Require Import ZArith Lia.
From BV Require Import Proofs.Bytes.
Open Scope Z_scope.

Lemma pack_lo : forall a b k, 0 <= a < k -> (a + k * b) mod k = a.
Proof. intros a b k H. rewrite Z.mul_comm, Z_mod_plus_full. apply Z.mod_small. exact H. Qed.
Lemma pack_hi : forall a b k, 0 <= a < k -> (a + k * b) / k = b.
Proof. intros a b k H. rewrite Z.mul_comm, Z_div_plus_full, Z.div_small by lia. reflexivity. Qed.

Lemma land_small : forall w x, 0 <= w -> 0 <= x < 2 ^ w -> Z.land x (Z.ones w) = x.
Proof. intros. rewrite Z.land_ones by assumption. apply Z.mod_small. assumption. Qed.

Lemma land_range : forall w x, 0 <= w -> 0 <= Z.land x (Z.ones w) < 2 ^ w.
Proof. intros. rewrite Z.land_ones by assumption. apply Z.mod_pos_bound. lia. Qed.

Lemma shiftr_range : forall k n x, 0 <= k -> 0 <= n -> 0 <= x < 2 ^ (n + k) -> 0 <= Z.shiftr x k < 2 ^ n.
Proof.
  intros k n x Hk Hn Hx. rewrite Z.shiftr_div_pow2 by assumption. rewrite Z.pow_add_r in Hx by assumption.
  split; [apply Z.div_pos; lia | apply Z.div_lt_upper_bound; lia].
Qed.

Section Pack.
  Variables k hi lo : Z.
  Hypothesis Hk : 0 <= k.
  Hypothesis Hlo : 0 <= lo < 2 ^ k.

  Lemma pack_sum : Z.lor (Z.shiftl hi k) lo = lo + 2 ^ k * hi.
  Proof. rewrite Z.lor_comm, lor_shiftl_add by assumption. lia. Qed.

  Lemma pack_shiftr : Z.shiftr (Z.lor (Z.shiftl hi k) lo) k = hi.
  Proof. rewrite pack_sum, Z.shiftr_div_pow2 by assumption. apply pack_hi. assumption. Qed.

  Lemma pack_land : Z.land (Z.lor (Z.shiftl hi k) lo) (Z.ones k) = lo.
  Proof. rewrite pack_sum, Z.land_ones by assumption. apply pack_lo. assumption. Qed.

  Lemma pack_range : forall n, 0 <= n -> 0 <= hi < 2 ^ n -> 0 <= Z.lor (Z.shiftl hi k) lo < 2 ^ (n + k).
  Proof. intros n Hn Hhi. rewrite pack_sum, Z.pow_add_r by assumption. nia. Qed.
End Pack.

Lemma unpack : forall k x, 0 <= k -> Z.lor (Z.shiftl (Z.shiftr x k) k) (Z.land x (Z.ones k)) = x.
Proof. intros. rewrite <- Z.ldiff_ones_r by assumption. apply Z.lor_ldiff_and. Qed.

(* two adjacent fields shifted separately are their packing shifted once *)
Lemma lor_shiftl_shiftl : forall a b j k, 0 <= j -> 0 <= k ->
  Z.lor (Z.shiftl a (j + k)) (Z.shiftl b k) = Z.shiftl (Z.lor (Z.shiftl a j) b) k.
Proof. intros. rewrite Z.shiftl_lor, Z.shiftl_shiftl by assumption. reflexivity. Qed.

Section Pack3.
  Variables j k a b c : Z.
  Hypothesis Hj : 0 <= j.
  Hypothesis Hk : 0 <= k.
  Hypothesis Hb : 0 <= b < 2 ^ j.
  Hypothesis Hc : 0 <= c < 2 ^ k.
  Local Notation x := (Z.lor (Z.lor (Z.shiftl a (j + k)) (Z.shiftl b k)) c).

  Lemma pack3_a : Z.shiftr x (j + k) = a.
  Proof.
    rewrite lor_shiftl_shiftl, (Z.add_comm j k), <- Z.shiftr_shiftr, !pack_shiftr by assumption. reflexivity.
  Qed.
  Lemma pack3_b : Z.land (Z.shiftr x k) (Z.ones j) = b.
  Proof. rewrite lor_shiftl_shiftl, pack_shiftr, pack_land by assumption. reflexivity. Qed.
  Lemma pack3_c : Z.land x (Z.ones k) = c.
  Proof. rewrite lor_shiftl_shiftl by assumption. apply pack_land; assumption. Qed.

  Lemma pack3_sum : x = c + 2 ^ k * b + 2 ^ (j + k) * a.
  Proof.
    rewrite lor_shiftl_shiftl, !pack_sum, Z.pow_add_r by assumption. lia.
  Qed.

  Lemma pack3_range : forall i, 0 <= i -> 0 <= a < 2 ^ i -> 0 <= x < 2 ^ (i + (j + k)).
  Proof.
    intros i Hi Ha. rewrite lor_shiftl_shiftl, Z.add_assoc by assumption.
    apply pack_range; try lia. apply pack_range; assumption.
  Qed.
End Pack3.

(* two fields above k zero bits *)
Section Pack2Shifted.
  Variables j k a b : Z.
  Hypothesis Hj : 0 <= j.
  Hypothesis Hk : 0 <= k.
  Hypothesis Hb : 0 <= b < 2 ^ j.
  Local Notation x := (Z.lor (Z.shiftl a (j + k)) (Z.shiftl b k)).

  Lemma zero_fits : 0 <= 0 < 2 ^ k.
  Proof. split; [lia | apply Z.pow_pos_nonneg; lia]. Qed.

  Lemma pack2s_a : Z.shiftr x (j + k) = a.
  Proof. rewrite <- (Z.lor_0_r x). apply pack3_a; auto using zero_fits. Qed.
  Lemma pack2s_b : Z.land (Z.shiftr x k) (Z.ones j) = b.
  Proof. rewrite <- (Z.lor_0_r x). apply pack3_b; auto using zero_fits. Qed.
  Lemma pack2s_range : forall i, 0 <= i -> 0 <= a < 2 ^ i -> 0 <= x < 2 ^ (i + (j + k)).
  Proof. intros i Hi Ha. rewrite <- (Z.lor_0_r x). apply pack3_range; auto using zero_fits. Qed.
End Pack2Shifted.

Section Pack4.
  Variables i j k a b c d : Z.
  Hypothesis Hi : 0 <= i.
  Hypothesis Hj : 0 <= j.
  Hypothesis Hk : 0 <= k.
  Hypothesis Hb : 0 <= b < 2 ^ i.
  Hypothesis Hc : 0 <= c < 2 ^ j.
  Hypothesis Hd : 0 <= d < 2 ^ k.
  Local Notation x :=
    (Z.lor (Z.lor (Z.lor (Z.shiftl a (i + (j + k))) (Z.shiftl b (j + k))) (Z.shiftl c k)) d).

  Lemma pack4_a : Z.shiftr x (i + (j + k)) = a.
  Proof.
    rewrite (lor_shiftl_shiftl a b), (Z.add_comm i), <- Z.shiftr_shiftr, pack3_a, pack_shiftr by (assumption || lia).
    reflexivity.
  Qed.
  Lemma pack4_b : Z.land (Z.shiftr x (j + k)) (Z.ones i) = b.
  Proof. rewrite (lor_shiftl_shiftl a b), pack3_a, pack_land by (assumption || lia). reflexivity. Qed.
  Lemma pack4_c : Z.land (Z.shiftr x k) (Z.ones j) = c.
  Proof. rewrite (lor_shiftl_shiftl a b) by lia. apply pack3_b; assumption. Qed.
  Lemma pack4_d : Z.land x (Z.ones k) = d.
  Proof. rewrite (lor_shiftl_shiftl a b) by lia. apply pack3_c; assumption. Qed.
End Pack4.

Lemma unpack3 : forall j k x, 0 <= j -> 0 <= k ->
  Z.lor (Z.lor (Z.shiftl (Z.shiftr x (j + k)) (j + k)) (Z.shiftl (Z.land (Z.shiftr x k) (Z.ones j)) k))
        (Z.land x (Z.ones k)) = x.
Proof.
  intros j k x Hj Hk. rewrite lor_shiftl_shiftl, (Z.add_comm j k), <- Z.shiftr_shiftr, !unpack by assumption.
  reflexivity.
Qed.

Lemma unpack4 : forall i j k x, 0 <= i -> 0 <= j -> 0 <= k ->
  Z.lor (Z.lor (Z.lor (Z.shiftl (Z.shiftr x (i + (j + k))) (i + (j + k)))
                      (Z.shiftl (Z.land (Z.shiftr x (j + k)) (Z.ones i)) (j + k)))
               (Z.shiftl (Z.land (Z.shiftr x k) (Z.ones j)) k))
        (Z.land x (Z.ones k)) = x.
Proof.
  intros i j k x Hi Hj Hk.
  rewrite (lor_shiftl_shiftl _ _ i), (Z.add_comm i), <- Z.shiftr_shiftr, unpack by lia. apply unpack3; assumption.
Qed.

(* a field that is not contiguous: a zero test against a mask with gaps, read one bit at a time *)
Lemma land_bit_zero : forall a m n, 0 <= n -> Z.land a m = 0 -> Z.testbit m n = true -> (a / 2 ^ n) mod 2 = 0.
Proof.
  intros a m n Hn H Hm. rewrite <- Z.testbit_spec' by exact Hn.
  apply (f_equal (fun x => Z.testbit x n)) in H. rewrite Z.land_spec, Hm, Z.bits_0, Bool.andb_true_r in H.
  rewrite H. reflexivity.
Qed.
