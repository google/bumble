(* Property C14: both crypto back ends agree with each other and with the specification.
   What is proved here is the pure-Python logic (see docs/C14.md for the boundary):
   the built-in CMAC is RFC 4493 for every message length and every chunking; every toolbox
   function as written equals the Core Vol 3 Part H 2.2 formula over the two primitives, so two
   back ends that agree on e / AES-CMAC agree on all of them; a generated resolvable private
   address resolves under its key and has type bits 01; the built-in ECDH (after
   fixes/D14.patch) rejects every coordinate pair that is not a point of P-256; the AES tables
   in the source are the FIPS-197 ones, the T-table AES-128 as written is the FIPS-197 cipher
   with the FIPS-197 key schedule for every key and block, and the curve constants are those
   of P-256.
   NOT proved: anything about the OpenSSL-backed back end; ECDH symmetry and correctness of
   the Jacobian arithmetic (needs the elliptic-curve group law).
   The statements; each is closed by [exact] of a result of the Proofs files or in a few lines from
   such results; the tests at the end are evaluated. *)
From Coq Require Import String.
From Coq Require Import ZArith List Bool.
From BV Require Import Gen.C14Tables Model.CryptoBytes Model.Aes Model.Cmac Model.SmToolbox.
From BV Require Import Model.P256 Model.CryptoBuiltin.
From BV Require Import Proofs.CryptoBytes Proofs.Cmac Proofs.SmToolbox Proofs.P256 Proofs.Aes.
From BV Require Import Proofs.AesSpec Proofs.P256Inv Proofs.BuiltinSpec Proofs.BuiltinCmacSpec.
From BV Require Import Model.PyAst Gen.C14Source.
From BV Require Import Proofs.PySourceToolbox Proofs.PySourceEc Proofs.PySourceCmac Proofs.PySourceRpa Proofs.PySourceExpected.
Import ListNotations.
Open Scope list_scope.
Open Scope Z_scope.

(* For every block function that maps 16-byte blocks to 16 bytes, and every message (every
   length: 0, 16k, 16k+-1, ...), the code path of builtin.aes_cmac - sub-keys with 0x87,
   cache / _update / digest with the full-block vs padded-block choice - returns the
   RFC 4493 tag. *)
Theorem C14_cmac_is_rfc4493 : forall E : list Z -> list Z,
  (forall b, length b = 16%nat -> length (E b) = 16%nat) ->
  (forall b, length b = 16%nat -> bytes_ok (E b) = true) ->
  forall M, len M <= max_size -> aes_cmac_code E M = Some (cmac_spec E M).
Proof. exact aes_cmac_code_is_rfc4493. Qed.
Print Assumptions C14_cmac_is_rfc4493.

(* ... and so does any sequence of update() calls that cuts the message anywhere. *)
Theorem C14_cmac_any_chunking : forall E : list Z -> list Z,
  (forall b, length b = 16%nat -> length (E b) = 16%nat) ->
  (forall b, length b = 16%nat -> bytes_ok (E b) = true) ->
  forall chunks, len (concat chunks) <= max_size ->
  cmac_chunked E chunks = Some (cmac_spec E (concat chunks)).
Proof. exact cmac_chunked_is_rfc4493. Qed.
Print Assumptions C14_cmac_any_chunking.

Theorem C14_cmac_tag_is_16_bytes : forall E : list Z -> list Z,
  (forall b, length b = 16%nat -> length (E b) = 16%nat) ->
  (forall b, length b = 16%nat -> bytes_ok (E b) = true) ->
  forall M, length (cmac_spec E M) = 16%nat.
Proof. exact cmac_spec_len. Qed.
Print Assumptions C14_cmac_tag_is_16_bytes.

(* Instantiated with the model of the built-in _AES (any accepted key size). *)
Theorem C14_builtin_cmac_is_rfc4493 : forall m k, len m <= max_size ->
  aes_cmac_builtin m k = aes_cmac_rfc m k.
Proof. exact builtin_cmac_eq_rfc. Qed.
Print Assumptions C14_builtin_cmac_is_rfc4493.

Theorem C14_builtin_cmac_any_chunking : forall chunks k, len (concat chunks) <= max_size ->
  aes_cmac_chunked_builtin chunks k = aes_cmac_rfc (concat chunks) k.
Proof.
  intros cs k H. unfold aes_cmac_chunked_builtin, aes_cmac_rfc.
  destruct (aes_init k) eqn:E; [|reflexivity].
  apply cmac_chunked_is_rfc4493; [| |exact H]; intros b Hb; apply (aes_block_good k _ E b Hb).
Qed.
Print Assumptions C14_builtin_cmac_any_chunking.

(* Code values are least-significant-byte-first (bumble's convention), the specification
   formulas most-significant-byte-first: the statements relate them by [rev]. *)
Theorem C14_ah_is_spec : forall e k r, rev (ah e k r) = spec_ah e (rev k) (rev r).
Proof. exact ah_spec. Qed.
Print Assumptions C14_ah_is_spec.

Theorem C14_c1_is_spec : forall e k r preq pres iat rat ia ra out,
  c1 e k r preq pres iat rat ia ra = Some out ->
  rev out = spec_c1 e (rev k) (rev r) (rev preq) (rev pres) iat rat (rev ia) (rev ra).
Proof. exact c1_spec. Qed.
Print Assumptions C14_c1_is_spec.

Theorem C14_c1_defined : forall e k r preq pres iat rat ia ra,
  (forall d, length d = 16%nat -> length (e k d) = 16%nat) ->
  length r = 16%nat -> length preq = 7%nat -> length pres = 7%nat ->
  length ia = 6%nat -> length ra = 6%nat -> bytes_ok [iat; rat] = true ->
  exists out, c1 e k r preq pres iat rat ia ra = Some out.
Proof. exact c1_defined. Qed.
Print Assumptions C14_c1_defined.

Theorem C14_s1_is_spec : forall e k r1 r2, rev (s1 e k r1 r2) = spec_s1 e (rev k) (rev r1) (rev r2).
Proof. exact s1_spec. Qed.
Print Assumptions C14_s1_is_spec.

Theorem C14_f4_is_spec : forall cmac u v x z, length z = 1%nat ->
  rev (f4 cmac u v x z) = spec_f4 cmac (rev u) (rev v) (rev x) (rev z).
Proof. exact f4_spec. Qed.
Print Assumptions C14_f4_is_spec.

Theorem C14_f5_is_spec : forall cmac w n1 n2 a1 a2,
  (rev (fst (f5 cmac w n1 n2 a1 a2)), rev (snd (f5 cmac w n1 n2 a1 a2))) =
  spec_f5 cmac (rev w) (rev n1) (rev n2) (rev a1) (rev a2).
Proof. exact f5_spec. Qed.
Print Assumptions C14_f5_is_spec.

Theorem C14_f6_is_spec : forall cmac w n1 n2 r io_cap a1 a2,
  rev (f6 cmac w n1 n2 r io_cap a1 a2) =
  spec_f6 cmac (rev w) (rev n1) (rev n2) (rev r) (rev io_cap) (rev a1) (rev a2).
Proof. exact f6_spec. Qed.
Print Assumptions C14_f6_is_spec.

Theorem C14_g2_is_spec : forall cmac u v x y,
  length (cmac (rev u ++ rev v ++ rev y) (rev x)) = 16%nat ->
  bytes_ok (cmac (rev u ++ rev v ++ rev y) (rev x)) = true ->
  g2 cmac u v x y = spec_g2 cmac (rev u) (rev v) (rev x) (rev y).
Proof. exact g2_spec. Qed.
Print Assumptions C14_g2_is_spec.

Theorem C14_h6_is_spec : forall cmac w key_id, rev (h6 cmac w key_id) = spec_h6 cmac (rev w) key_id.
Proof. exact h6_spec. Qed.
Print Assumptions C14_h6_is_spec.

Theorem C14_h7_is_spec : forall cmac salt w, rev (h7 cmac salt w) = spec_h7 cmac salt (rev w).
Proof. exact h7_spec. Qed.
Print Assumptions C14_h7_is_spec.

(* If two back ends agree on e for 16-byte keys and blocks and on AES-CMAC for 16-byte keys
   (messages of any length), they agree on every toolbox function on arguments of the sizes
   the Security Manager uses. *)
Theorem C14_backends_agree_on_toolbox :
  forall e1 e2 cm1 cm2 : list Z -> list Z -> list Z,
  (forall k d, length k = 16%nat -> length d = 16%nat -> e1 k d = e2 k d) ->
  (forall k d, length k = 16%nat -> length d = 16%nat -> length (e1 k d) = 16%nat) ->
  (forall m k, length k = 16%nat -> cm1 m k = cm2 m k) ->
  (forall m k, length k = 16%nat -> length (cm1 m k) = 16%nat) ->
  (forall k r, length k = 16%nat -> length r = 3%nat -> ah e1 k r = ah e2 k r) /\
  (forall k r preq pres iat rat ia ra,
     length k = 16%nat -> length r = 16%nat -> length preq = 7%nat -> length pres = 7%nat ->
     length ia = 6%nat -> length ra = 6%nat ->
     c1 e1 k r preq pres iat rat ia ra = c1 e2 k r preq pres iat rat ia ra) /\
  (forall k r1 r2, length k = 16%nat -> (8 <= length r1)%nat -> (8 <= length r2)%nat ->
     s1 e1 k r1 r2 = s1 e2 k r1 r2) /\
  (forall u v x z, length x = 16%nat -> f4 cm1 u v x z = f4 cm2 u v x z) /\
  (forall w n1 n2 a1 a2, f5 cm1 w n1 n2 a1 a2 = f5 cm2 w n1 n2 a1 a2) /\
  (forall w n1 n2 r io_cap a1 a2, length w = 16%nat ->
     f6 cm1 w n1 n2 r io_cap a1 a2 = f6 cm2 w n1 n2 r io_cap a1 a2) /\
  (forall u v x y, length x = 16%nat -> g2 cm1 u v x y = g2 cm2 u v x y) /\
  (forall w key_id, length w = 16%nat -> h6 cm1 w key_id = h6 cm2 w key_id) /\
  (forall salt w, length salt = 16%nat -> h7 cm1 salt w = h7 cm2 salt w).
Proof. exact backends_agree_on_toolbox. Qed.
Print Assumptions C14_backends_agree_on_toolbox.

(* For every identity resolving key and every 6 random bytes drawn by generate_prand, the
   generated address resolves under that key (the hash comparison of AddressResolver.resolve /
   verify_rpa_with_irk succeeds) ... *)
Theorem C14_rpa_resolves : forall e,
  (forall k d, length d = 16%nat -> length (e k d) = 16%nat) ->
  forall irk tb, length tb = 6%nat -> rpa_matches e irk (rpa_generate e irk tb) = true.
Proof. exact rpa_resolves. Qed.
Print Assumptions C14_rpa_resolves.

(* ... also when the key sits anywhere in the resolver's key list (an earlier key may win only
   by a 24-bit hash collision, hence [i <= position]) ... *)
Theorem C14_rpa_resolves_in_list : forall e,
  (forall k d, length d = 16%nat -> length (e k d) = 16%nat) ->
  forall irk tb before after, length tb = 6%nat ->
  exists i, resolve e (before ++ irk :: after) (rpa_generate e irk tb) = Some i /\
            (i <= length before)%nat.
Proof. exact rpa_resolves_in_list. Qed.
Print Assumptions C14_rpa_resolves_in_list.

(* ... it is 6 bytes long and its two most significant bits are 0b01 (Address.is_resolvable);
   the non-resolvable branch produces 0b00. *)
Theorem C14_rpa_type_bits : forall e,
  (forall k d, length d = 16%nat -> length (e k d) = 16%nat) ->
  forall irk tb, length tb = 6%nat ->
  length (rpa_generate e irk tb) = 6%nat /\ is_resolvable_bytes (rpa_generate e irk tb) = true.
Proof. intros e He irk tb H. exact (conj (rpa_length e He irk tb H) (rpa_type_bits e He irk tb H)). Qed.
Print Assumptions C14_rpa_type_bits.

Theorem C14_nrpa_type_bits : forall tb, length tb = 6%nat -> top_bits (nrpa_generate tb) = 0.
Proof. exact nrpa_type_bits. Qed.
Print Assumptions C14_nrpa_type_bits.

(* The built-in ecdh_shared_secret (with fixes/D14.patch) returns InvalidPacketError for every
   private key and every coordinate pair that fails the validation ... *)
Theorem C14_ecdh_rejects_invalid : forall c d x y,
  on_curve c x y = false -> ecdh c d x y = InvalidKey.
Proof. exact ecdh_rejects_invalid. Qed.
Print Assumptions C14_ecdh_rejects_invalid.

Theorem C14_dh_rejects_invalid : forall c d xb yb,
  on_curve c (be_int xb) (be_int yb) = false -> ecc_dh c d xb yb = InvalidKey.
Proof. intros c d xb yb. apply ecdh_rejects_invalid. Qed.
Print Assumptions C14_dh_rejects_invalid.

(* ... also in the middle of any sequence of dh() calls on one key object: every result is the
   result of that call alone (the object keeps no state but the private scalar) ... *)
Theorem C14_dh_history_pure : forall c d calls i xb yb,
  nth_error calls i = Some (xb, yb) ->
  nth_error (ecc_dh_history c d calls) i = Some (ecc_dh c d xb yb).
Proof. exact dh_history_pure. Qed.
Print Assumptions C14_dh_history_pure.

Theorem C14_dh_history_rejects_invalid : forall c d calls i xb yb,
  nth_error calls i = Some (xb, yb) -> on_curve c (be_int xb) (be_int yb) = false ->
  nth_error (ecc_dh_history c d calls) i = Some InvalidKey.
Proof.
  intros c d calls i xb yb H Hoff. rewrite (dh_history_pure c d calls i xb yb H).
  f_equal. apply ecdh_rejects_invalid, Hoff.
Qed.
Print Assumptions C14_dh_history_rejects_invalid.

(* ... the validation is exactly y^2 = x^3 + ax + b (mod p), coordinates read modulo p (as the
   OpenSSL-based back end reads them) ... *)
Theorem C14_on_curve_meaning : forall c x y, 0 < cp c ->
  (on_curve c x y = true <->
   (y * y) mod cp c = (x * x * x + ca c * x + cb c) mod cp c).
Proof. intros c x y Hp. unfold on_curve. rewrite Z.eqb_eq. apply cong_iff_0, Hp. Qed.
Print Assumptions C14_on_curve_meaning.

Theorem C14_on_curve_modulo_p : forall c x y, 0 < cp c ->
  on_curve c x y = on_curve c (x mod cp c) (y mod cp c).
Proof. exact on_curve_mod. Qed.
Print Assumptions C14_on_curve_modulo_p.

(* ... and a shared secret comes out only for a valid point, as 32 bytes. *)
Theorem C14_ecdh_secret_only_on_curve : forall c d x y s,
  ecdh c d x y = Secret s -> on_curve c x y = true /\ length s = 32%nat /\ bytes_ok s = true.
Proof.
  intros c d x y s. unfold ecdh. destruct (on_curve c x y); cbn [negb]; [|discriminate].
  destruct (to_affine c (jac_mul c (from_affine x y) d)); intros H; try discriminate.
  apply (f_equal (fun r => match r with Secret b => b | _ => [] end)) in H. cbv beta iota in H.
  rewrite <- H. split; [reflexivity|]. split; [apply to_be_length|apply to_be_ok].
Qed.
Print Assumptions C14_ecdh_secret_only_on_curve.

(* The curve parameters read from the source are those of NIST P-256 and G is on the curve. *)
Theorem C14_curve_is_p256 :
  secp256r1 = mk_curve nist_p (nist_p - 3) nist_b nist_n nist_gx nist_gy /\
  on_curve secp256r1 (cgx secp256r1) (cgy secp256r1) = true.
Proof. split; [vm_compute; reflexivity|exact generator_on_curve]. Qed.
Print Assumptions C14_curve_is_p256.

(* Why the fix was needed: without the validation the same arithmetic turns the off-curve
   pairs (1,1) and (0,0) into a "secret". *)
Theorem C14_unvalidated_ecdh_refuted :
  on_curve secp256r1 1 1 = false /\ (exists s, ecdh_unchecked secp256r1 5 1 1 = Secret s) /\
  on_curve secp256r1 0 0 = false /\ ecdh_unchecked secp256r1 5 0 0 = Secret (to_be 32 0).
Proof. exact ecdh_unchecked_refuted. Qed.
Print Assumptions C14_unvalidated_ecdh_refuted.

(* Re-checked against the tables regenerated from the source on every run: for all 256
   indexes, S = affine(inverse in GF(2^8)), T1..T4 = MixColumns columns of S, RCON = x^i. *)
Theorem C14_aes_tables_are_fips197 :
  (forall x, 0 <= x < 256 -> tbl aes_S x = sbox_ref x) /\
  (forall x, 0 <= x < 256 -> tbl aes_T1 x = t1_ref x) /\
  (forall x, 0 <= x < 256 -> tbl aes_T2 x = t2_ref x) /\
  (forall x, 0 <= x < 256 -> tbl aes_T3 x = t3_ref x) /\
  (forall x, 0 <= x < 256 -> tbl aes_T4 x = t4_ref x) /\
  aes_RCON = rcon_ref (length aes_RCON) 1 /\
  aes_ROUNDS = [(16, 10); (24, 12); (32, 14)].
Proof. exact aes_tables_are_fips197. Qed.
Print Assumptions C14_aes_tables_are_fips197.

(* The T-table rounds of _AES.encrypt are SubBytes / ShiftRows / MixColumns / AddRoundKey of
   FIPS-197 5.1, for every 16-byte block and every list of round keys (any key size) ... *)
Theorem C14_aes_encrypt_is_fips197_cipher : forall ke pt,
  length pt = 16%nat -> bytes_ok pt = true -> (2 <= length ke)%nat ->
  aes_encrypt ke pt = Some (cipher (map st_bytes ke) pt).
Proof. exact aes_encrypt_is_fips197_cipher. Qed.
Print Assumptions C14_aes_encrypt_is_fips197_cipher.

(* ... for every 16-byte key _AES.__init__ succeeds and its round keys are FIPS-197 5.2
   KeyExpansion (Nk = 4) ... *)
Theorem C14_aes128_key_schedule_is_fips197 : forall key,
  length key = 16%nat -> bytes_ok key = true ->
  exists ke, aes_init key = Some ke /\ map st_bytes ke = round_keys_of (key_schedule_128 key) /\
             length ke = 11%nat.
Proof. exact aes128_key_schedule_is_fips197. Qed.
Print Assumptions C14_aes128_key_schedule_is_fips197.

(* ... hence builtin.e is the security function e of Core Vol 3 Part H 2.2.1 (AES-128, values
   passed least significant byte first) for all 16-byte keys and blocks. *)
Theorem C14_builtin_e_is_aes128 : forall key data,
  length key = 16%nat -> bytes_ok key = true -> length data = 16%nat -> bytes_ok data = true ->
  e_builtin key data = Some (e_spec key data).
Proof. exact e_builtin_is_aes128. Qed.
Print Assumptions C14_builtin_e_is_aes128.

(* End to end for the built-in back end: ah, c1, s1 computed with builtin.e equal the Core
   formulas over FIPS-197 AES-128, for all arguments of the Security Manager sizes. *)
Theorem C14_builtin_ah_is_core_spec : forall k r,
  length k = 16%nat -> bytes_ok k = true -> length r = 3%nat -> bytes_ok r = true ->
  rev (b_ah k r) = spec_ah e_spec (rev k) (rev r).
Proof. exact builtin_ah_is_core_spec. Qed.
Print Assumptions C14_builtin_ah_is_core_spec.

Theorem C14_builtin_c1_is_core_spec : forall k r preq pres iat rat ia ra,
  length k = 16%nat -> bytes_ok k = true -> length r = 16%nat -> bytes_ok r = true ->
  length preq = 7%nat -> bytes_ok preq = true -> length pres = 7%nat -> bytes_ok pres = true ->
  length ia = 6%nat -> bytes_ok ia = true -> length ra = 6%nat -> bytes_ok ra = true ->
  bytes_ok [iat; rat] = true ->
  exists out, b_c1 k r preq pres iat rat ia ra = Some out /\
    rev out = spec_c1 e_spec (rev k) (rev r) (rev preq) (rev pres) iat rat (rev ia) (rev ra).
Proof. exact builtin_c1_is_core_spec. Qed.
Print Assumptions C14_builtin_c1_is_core_spec.

Theorem C14_builtin_s1_is_core_spec : forall k r1 r2,
  length k = 16%nat -> bytes_ok k = true ->
  (8 <= length r1)%nat -> bytes_ok r1 = true -> (8 <= length r2)%nat -> bytes_ok r2 = true ->
  rev (b_s1 k r1 r2) = spec_s1 e_spec (rev k) (rev r1) (rev r2).
Proof. exact builtin_s1_is_core_spec. Qed.
Print Assumptions C14_builtin_s1_is_core_spec.

(* resolve returns the FIRST key whose hash of the address's prand equals the address's hash part;
   a key for which they differ never matches (the deterministic content of "does not resolve under
   an unrelated key"); in a sequence of calls on one resolver every result is that of its call. *)
Theorem C14_rpa_unrelated_key_rejected : forall e k addr,
  ah e k (py_slice addr 3 6) <> py_slice addr 0 3 -> rpa_matches e k addr = false.
Proof.
  intros e k addr H. destruct (rpa_matches e k addr) eqn:E; [|reflexivity].
  apply rpa_matches_iff in E. contradiction.
Qed.
Print Assumptions C14_rpa_unrelated_key_rejected.

Theorem C14_resolve_first_match : forall e irks addr,
  match resolve e irks addr with
  | Some i => rpa_matches e (nth i irks []) addr = true /\ (i < length irks)%nat /\
              forall j, (j < i)%nat -> rpa_matches e (nth j irks []) addr = false
  | None => forall j, (j < length irks)%nat -> rpa_matches e (nth j irks []) addr = false
  end.
Proof. exact resolve_first_match. Qed.
Print Assumptions C14_resolve_first_match.

Theorem C14_resolve_history_pure : forall e irks addrs i addr,
  nth_error addrs i = Some addr ->
  nth_error (resolve_history e irks addrs) i = Some (resolve e irks addr).
Proof. intros e irks addrs i addr H. unfold resolve_history. rewrite nth_error_map, H. reflexivity. Qed.
Print Assumptions C14_resolve_history_pure.

(* f4, f5, f6, g2, h6, h7 computed with builtin.aes_cmac equal the Core formulas over RFC 4493
   AES-CMAC over FIPS-197 AES-128 ([cmac_fips]), for arguments of the Security Manager sizes. *)
Theorem C14_builtin_cmac_is_rfc4493_over_fips197 : forall m k,
  length k = 16%nat -> bytes_ok k = true -> bytes_ok m = true -> len m <= max_size ->
  cmac_total m k = cmac_fips m k /\ good_block (cmac_total m k).
Proof. exact cmac_total_is_fips. Qed.
Print Assumptions C14_builtin_cmac_is_rfc4493_over_fips197.

Theorem C14_builtin_f4_is_core_spec : forall u v x z,
  length u = 32%nat -> bytes_ok u = true -> length v = 32%nat -> bytes_ok v = true ->
  good_block x -> length z = 1%nat -> bytes_ok z = true ->
  rev (b_f4 u v x z) = spec_f4 cmac_fips (rev u) (rev v) (rev x) (rev z).
Proof. exact builtin_f4_is_core_spec. Qed.
Print Assumptions C14_builtin_f4_is_core_spec.

Theorem C14_builtin_f5_is_core_spec : forall w n1 n2 a1 a2,
  length w = 32%nat -> bytes_ok w = true -> good_block n1 -> good_block n2 ->
  length a1 = 7%nat -> bytes_ok a1 = true -> length a2 = 7%nat -> bytes_ok a2 = true ->
  (rev (fst (b_f5 w n1 n2 a1 a2)), rev (snd (b_f5 w n1 n2 a1 a2))) =
  spec_f5 cmac_fips (rev w) (rev n1) (rev n2) (rev a1) (rev a2).
Proof. exact builtin_f5_is_core_spec. Qed.
Print Assumptions C14_builtin_f5_is_core_spec.

Theorem C14_builtin_f6_is_core_spec : forall w n1 n2 r io_cap a1 a2,
  good_block w -> good_block n1 -> good_block n2 -> good_block r ->
  length io_cap = 3%nat -> bytes_ok io_cap = true ->
  length a1 = 7%nat -> bytes_ok a1 = true -> length a2 = 7%nat -> bytes_ok a2 = true ->
  rev (b_f6 w n1 n2 r io_cap a1 a2) =
  spec_f6 cmac_fips (rev w) (rev n1) (rev n2) (rev r) (rev io_cap) (rev a1) (rev a2).
Proof. exact builtin_f6_is_core_spec. Qed.
Print Assumptions C14_builtin_f6_is_core_spec.

Theorem C14_builtin_g2_is_core_spec : forall u v x y,
  length u = 32%nat -> bytes_ok u = true -> length v = 32%nat -> bytes_ok v = true ->
  good_block x -> good_block y ->
  b_g2 u v x y = spec_g2 cmac_fips (rev u) (rev v) (rev x) (rev y).
Proof. exact builtin_g2_is_core_spec. Qed.
Print Assumptions C14_builtin_g2_is_core_spec.

Theorem C14_builtin_h6_is_core_spec : forall w key_id,
  good_block w -> length key_id = 4%nat -> bytes_ok key_id = true ->
  rev (b_h6 w key_id) = spec_h6 cmac_fips (rev w) key_id.
Proof. exact builtin_h6_is_core_spec. Qed.
Print Assumptions C14_builtin_h6_is_core_spec.

Theorem C14_builtin_h7_is_core_spec : forall salt w,
  good_block salt -> good_block w ->
  rev (b_h7 salt w) = spec_h7 cmac_fips salt (rev w).
Proof. exact builtin_h7_is_core_spec. Qed.
Print Assumptions C14_builtin_h7_is_core_spec.

(* Gen/C14Source.v holds the current source of the anchored functions as terms of a Python-subset
   syntax (regenerated on every run, fail closed).  Running those terms in the interpreter of
   Model/PyAst.v gives the hand-written models: an edit of argument order, a reversal, a slice
   bound, an operator, a guard or the order of statements breaks the theorem for that function. *)
Theorem C14_toolbox_matches_source : forall e aes_cmac tokens,
  (forall k r, PySourceToolbox.run e aes_cmac tokens src_ah_params src_ah [VBytes k; VBytes r] = VBytes (ah e k r)) /\
  (forall k r preq pres iat rat ia ra,
     PySourceToolbox.run e aes_cmac tokens src_c1_params src_c1
       [VBytes k; VBytes r; VBytes preq; VBytes pres; VInt iat; VInt rat; VBytes ia; VBytes ra] =
     match c1 e k r preq pres iat rat ia ra with Some o => VBytes o | None => VErr end) /\
  (forall k r1 r2, PySourceToolbox.run e aes_cmac tokens src_s1_params src_s1 [VBytes k; VBytes r1; VBytes r2] = VBytes (s1 e k r1 r2)) /\
  (forall u v x z, PySourceToolbox.run e aes_cmac tokens src_f4_params src_f4 [VBytes u; VBytes v; VBytes x; VBytes z] =
     VBytes (f4 aes_cmac u v x z)) /\
  (forall w n1 n2 a1 a2, PySourceToolbox.run e aes_cmac tokens src_f5_params src_f5 [VBytes w; VBytes n1; VBytes n2; VBytes a1; VBytes a2] =
     VTuple [VBytes (fst (f5 aes_cmac w n1 n2 a1 a2)); VBytes (snd (f5 aes_cmac w n1 n2 a1 a2))]) /\
  (forall w n1 n2 r io_cap a1 a2,
     PySourceToolbox.run e aes_cmac tokens src_f6_params src_f6
       [VBytes w; VBytes n1; VBytes n2; VBytes r; VBytes io_cap; VBytes a1; VBytes a2] = VBytes (f6 aes_cmac w n1 n2 r io_cap a1 a2)) /\
  (forall u v x y, PySourceToolbox.run e aes_cmac tokens src_g2_params src_g2 [VBytes u; VBytes v; VBytes x; VBytes y] =
     VInt (g2 aes_cmac u v x y)) /\
  (forall w key_id, PySourceToolbox.run e aes_cmac tokens src_h6_params src_h6 [VBytes w; VBytes key_id] = VBytes (h6 aes_cmac w key_id)) /\
  (forall salt w, PySourceToolbox.run e aes_cmac tokens src_h7_params src_h7 [VBytes salt; VBytes w] = VBytes (h7 aes_cmac salt w)) /\
  (forall x y, PySourceToolbox.run e aes_cmac tokens src_xor_params src_xor [VBytes x; VBytes y] =
     match xor_assert x y with Some r => VBytes r | None => VErr end) /\
  (forall b, PySourceToolbox.run e aes_cmac tokens src_reverse_params src_reverse [VBytes b] = VBytes (rev b)).
Proof. exact toolbox_matches_source. Qed.
Print Assumptions C14_toolbox_matches_source.

Theorem C14_generate_prand_matches_source : forall e aes_cmac tokens, length tokens = 6%nat ->
  PySourceToolbox.run e aes_cmac tokens src_generate_prand_params src_generate_prand [] = VBytes (prand_of tokens).
Proof. exact generate_prand_matches_source. Qed.
Print Assumptions C14_generate_prand_matches_source.

(* _JacobianPoint.double / __add__ / to_affine, _EllipticCurve.is_on_curve / ecdh_shared_secret,
   EccKey.dh, for any curve whose modulus is positive (written Z.pos pp) and fits in 32 bytes *)
Theorem C14_jac_double_matches_source : forall pp a b n gx gy P,
  PySourceEc.run pp a b n gx gy (("self"%string, jacv P) :: jac_env pp a b n gx gy P)
    src_jac_double_params src_jac_double [jacv P] = jacv (jac_double (PySourceEc.c pp a b n gx gy) P).
Proof. exact jac_double_matches_source. Qed.
Print Assumptions C14_jac_double_matches_source.

Theorem C14_jac_add_matches_source : forall pp a b n gx gy P Q,
  PySourceEc.run pp a b n gx gy (("self"%string, jacv P) :: jac_env pp a b n gx gy P)
    src_jac_add_params src_jac_add [jacv P; jacv Q] = jacv (jac_add (PySourceEc.c pp a b n gx gy) P Q).
Proof. exact jac_add_matches_source. Qed.
Print Assumptions C14_jac_add_matches_source.

Theorem C14_jac_to_affine_matches_source : forall pp a b n gx gy P,
  PySourceEc.run pp a b n gx gy (("self"%string, jacv P) :: jac_env pp a b n gx gy P)
    src_jac_to_affine_params src_jac_to_affine [jacv P] = affv (to_affine (PySourceEc.c pp a b n gx gy) P).
Proof. exact jac_to_affine_matches_source. Qed.
Print Assumptions C14_jac_to_affine_matches_source.

Theorem C14_is_on_curve_matches_source : forall pp a b n gx gy x y,
  PySourceEc.run pp a b n gx gy (("self"%string, VStr "curve"%string) :: curve_env pp a b n gx gy)
    src_is_on_curve_params src_is_on_curve [VStr "curve"%string; VTuple [VInt x; VInt y; VBool false]] =
  VBool (on_curve (PySourceEc.c pp a b n gx gy) x y).
Proof. exact is_on_curve_matches_source. Qed.
Print Assumptions C14_is_on_curve_matches_source.

Theorem C14_ecdh_shared_secret_matches_source : forall pp a b n gx gy, Z.pos pp <= 2 ^ 256 -> forall d x y,
  PySourceEc.run pp a b n gx gy (("self"%string, VStr "curve"%string) :: curve_env pp a b n gx gy)
    src_ecdh_shared_secret_params src_ecdh_shared_secret
    [VStr "curve"%string; VInt d; VTuple [VInt x; VInt y; VBool false]] = dhv (ecdh (PySourceEc.c pp a b n gx gy) d x y).
Proof. exact ecdh_shared_secret_matches_source. Qed.
Print Assumptions C14_ecdh_shared_secret_matches_source.

Theorem C14_ecc_dh_matches_source : forall pp a b n gx gy d xb yb,
  PySourceEc.run pp a b n gx gy (("self"%string, VStr "key"%string) :: key_env d) src_ecc_dh_params src_ecc_dh
    [VStr "key"%string; VBytes xb; VBytes yb] = dhv (ecc_dh (PySourceEc.c pp a b n gx gy) d xb yb).
Proof. exact ecc_dh_matches_source. Qed.
Print Assumptions C14_ecc_dh_matches_source.

(* _CMAC.digest (with its truthiness guard on _last_pt), _CMAC._update and _shift_bytes *)
Theorem C14_cmac_digest_matches_source : forall E s,
  result_of (PySourceCmac.run E 40 (cmac_env E s) src_cmac_digest_params src_cmac_digest [VStr "cmac"%string]) =
  match digest E s with Some t => VBytes t | None => VErr end.
Proof. exact cmac_digest_matches_source. Qed.
Print Assumptions C14_cmac_digest_matches_source.

Theorem C14_cmac_update_aligned_matches_source : forall E s data, (len data mod 16 =? 0) = true ->
  state_in (env_of (PySourceCmac.run E 40 (cmac_env E s) src_cmac_update_aligned_params src_cmac_update_aligned
                      [VStr "cmac"%string; VBytes data]))
           (update_aligned E s data).
Proof. exact cmac_update_aligned_matches_source. Qed.
Print Assumptions C14_cmac_update_aligned_matches_source.

Theorem C14_shift_bytes_matches_source : forall E bs x, bytes_ok bs = true -> 0 <= x < 256 ->
  result_of (PySourceCmac.run E 10 [] src_shift_bytes_params src_shift_bytes [VBytes bs; VInt x]) =
  VBytes (shift_bytes bs x).
Proof. exact shift_bytes_matches_source. Qed.
Print Assumptions C14_shift_bytes_matches_source.

(* Address.generate_private_address (resolvable branch), Address.is_resolvable, verify_rpa_with_irk *)
Theorem C14_generate_private_address_matches_source : forall e tokens irk, (len irk =? 0) = false ->
  PySourceRpa.run e tokens class_env src_generate_private_address_params src_generate_private_address
    [VStr "cls"%string; VBytes irk] = VTuple [VBytes (rpa_generate e irk tokens); VInt 1].
Proof. exact generate_private_address_resolvable_matches_source. Qed.
Print Assumptions C14_generate_private_address_matches_source.

Theorem C14_is_resolvable_matches_source : forall e tokens t b, length b = 6%nat ->
  PySourceRpa.run e tokens
    [("self.address_type"%string, VInt t); ("self.RANDOM_DEVICE_ADDRESS"%string, VInt 1); ("self.address_bytes"%string, VBytes b)]
    src_is_resolvable_params src_is_resolvable [VStr "address"%string] = VBool ((t =? 1) && is_resolvable_bytes b).
Proof. exact is_resolvable_matches_source. Qed.
Print Assumptions C14_is_resolvable_matches_source.

Theorem C14_verify_rpa_with_irk_matches_source : forall e tokens addr irk,
  PySourceRpa.run e tokens [] src_verify_rpa_with_irk_params src_verify_rpa_with_irk [VBytes addr; VBytes irk] =
  VBool (list_eqb (py_slice (ah e irk (py_from addr 3)) 0 3) (py_slice addr 0 3)).
Proof. exact verify_rpa_with_irk_matches_source. Qed.
Print Assumptions C14_verify_rpa_with_irk_matches_source.

(* Functions whose meaning is not derived from the translated source - _CMAC.__init__ / update
   (interpreted through their callees), aes_cmac, e - must be syntactically the recorded ones;
   functions with loops (_AES, _ECB.encrypt, _CBC.encrypt, __mul__, AddressResolver.resolve, ...)
   and the field sets of _Point / _JacobianPoint / EccKey / _CMAC / AddressResolver must have the
   recorded digest of their normalised AST.  (A per-object cache added to EccKey.dh or to
   AddressResolver.resolve, or _last_pt kept as an int, breaks one of these or a theorem above.) *)
Theorem C14_cmac_init_source_unchanged : src_cmac_init = expected_cmac_init.
Proof. reflexivity. Qed.
Print Assumptions C14_cmac_init_source_unchanged.

Theorem C14_cmac_update_source_unchanged : src_cmac_update = expected_cmac_update.
Proof. exact cmac_update_source_unchanged. Qed.
Print Assumptions C14_cmac_update_source_unchanged.

Theorem C14_builtin_aes_cmac_source_unchanged : src_builtin_aes_cmac = expected_builtin_aes_cmac.
Proof. reflexivity. Qed.
Print Assumptions C14_builtin_aes_cmac_source_unchanged.

Theorem C14_builtin_e_source_unchanged : src_builtin_e = expected_builtin_e.
Proof. reflexivity. Qed.
Print Assumptions C14_builtin_e_source_unchanged.

Theorem C14_loop_functions_source_unchanged : source_fingerprints = expected_fingerprints.
Proof. exact loop_functions_source_unchanged. Qed.
Print Assumptions C14_loop_functions_source_unchanged.

(* pow(z, -1, p) as modelled returns a modular inverse, so to_affine divides by z^2 and z^3. *)
Theorem C14_modinv_correct : forall z p x, 0 < p ->
  modinv z p = Some x -> (z * x) mod p = 1 mod p /\ 0 <= x < p.
Proof. exact modinv_correct. Qed.
Print Assumptions C14_modinv_correct.

Theorem C14_to_affine_correct : forall c X Y Z0 x y, 0 < cp c ->
  to_affine c (X, Y, Z0) = Affine x y ->
  (x * Z0 ^ 2) mod cp c = X mod cp c /\ (y * Z0 ^ 3) mod cp c = Y mod cp c /\
  0 <= x < cp c /\ 0 <= y < cp c.
Proof. exact to_affine_correct. Qed.
Print Assumptions C14_to_affine_correct.

(* Tests: sample data of the specifications, evaluated on the models. *)
Definition hex_block (v : Z) : list Z := to_be 16 v.

(* FIPS-197 Appendix C.1 / C.2 / C.3 *)
Example C14_test_fips197 :
  let pt := hex_block 0x00112233445566778899aabbccddeeff in
  (match aes_init (hex_block 0x000102030405060708090a0b0c0d0e0f) with Some ke => aes_encrypt ke pt | None => None end)
    = Some (hex_block 0x69c4e0d86a7b0430d8cdb78070b4c55a) /\
  (match aes_init (to_be 24 0x000102030405060708090a0b0c0d0e0f1011121314151617) with Some ke => aes_encrypt ke pt | None => None end)
    = Some (hex_block 0xdda97ca4864cdfe06eaf70a0ec0d7191) /\
  (match aes_init (to_be 32 0x000102030405060708090a0b0c0d0e0f101112131415161718191a1b1c1d1e1f) with Some ke => aes_encrypt ke pt | None => None end)
    = Some (hex_block 0x8ea2b7ca516745bfeafc49904b496089).
Proof. vm_compute. repeat split. Qed.

(* RFC 4493 section 4 examples 1-4 (= Core Vol 3 Part H D.1) *)
Example C14_test_rfc4493 :
  let k := hex_block 0x2b7e151628aed2a6abf7158809cf4f3c in
  let m := to_be 64 0x6bc1bee22e409f96e93d7e117393172aae2d8a571e03ac9c9eb76fac45af8e5130c81c46a35ce411e5fbc1191a0a52eff69f2445df4f9b17ad2b417be66c3710 in
  aes_cmac_builtin [] k = Some (hex_block 0xbb1d6929e95937287fa37d129b756746) /\
  aes_cmac_builtin (firstn 16 m) k = Some (hex_block 0x070a16b46b4d4144f79bdd9dd04a287c) /\
  aes_cmac_builtin (firstn 40 m) k = Some (hex_block 0xdfa66747de9ae63030ca32611497c827) /\
  aes_cmac_builtin m k = Some (hex_block 0x51f0bebf7e3b9d92fc49741779363cfe) /\
  key_k1 (aes_block (unopt_ke (aes_init k))) = hex_block 0xfbeed618357133667c85e08f7236a8de /\
  key_k2 (aes_block (unopt_ke (aes_init k))) = hex_block 0xf7ddac306ae266ccf90bc11ee46d513b.
Proof. vm_compute. repeat split. Qed.

(* Core Vol 3 Part H Appendix D sample data (values written as in the specification,
   most significant byte first; the code takes them reversed) *)
Example C14_test_core_sample_data :
  let r16 v := rev (to_be 16 v) in
  let U := rev (to_be 32 0x20b003d2f297be2c5e2c83a7e9f9a5b9eff49111acf4fddbcc0301480e359de6) in
  let V := rev (to_be 32 0x55188b3d32f6bb9a900afcfbeed4e72a59cb9ac2f19d7cfb6b4fdd49f47fc5fd) in
  let X := r16 0xd5cb8454d177733effffb2ec712baeab in
  let Y := r16 0xa6e8e7cc25a75f6e216583f7ff3dc4cf in
  let W := rev (to_be 32 0xec0234a357c8ad05341010a60a397d9b99796b13b4f866f1868d34f373bfa698) in
  let A1 := rev (to_be 7 0x0056123737bfce) in
  let A2 := rev (to_be 7 0x00a713702dcfc1) in
  let MacKey := r16 0x2965f176a1084a02fd3f6a20ce636e20 in
  let KEY := r16 0xec0234a357c8ad05341010a60a397d9b in
  (* D.2 f4, D.3 f5, D.4 f6, D.5 g2, D.6 h6, D.7 ah, D.8 h7; 2.2.3 c1 and 2.2.4 s1 examples *)
  b_f4 U V X [0] = r16 0xf2c916f107a9bd1cf1eda1bea974872d /\
  b_f5 W X Y A1 A2 = (MacKey, r16 0x6986791169d7cd23980522b594750a38) /\
  b_f6 MacKey X Y (r16 0x12a3343bb453bb5408da42d20c2d0fc8) (rev (to_be 3 0x010102)) A1 A2
    = r16 0xe3c473989cd0e8c5d26c0b09da958f61 /\
  b_g2 U V X Y = 0x2f9ed5ba /\
  b_h6 KEY (to_be 4 0x6c656272) = r16 0x2d9ae102e76dc91ce8d3a9e280b16399 /\
  b_ah KEY (rev (to_be 3 0x708194)) = rev (to_be 3 0x0dfbaa) /\
  b_h7 (to_be 16 0x000000000000000000000000746D7031) KEY = r16 0xfb173597c6a3c0ecd2998c2a75a57011 /\
  b_c1 (zeros 16) (r16 0x5783D52156AD6F0E6388274EC6702EE0) (rev (to_be 7 0x07071000000101))
       (rev (to_be 7 0x05000800000302)) 1 0 (rev (to_be 6 0xA1A2A3A4A5A6)) (rev (to_be 6 0xB1B2B3B4B5B6))
    = Some (r16 0x1e1e3fef878988ead2a74dc5bef13b86) /\
  b_s1 (zeros 16) (r16 0x000F0E0D0C0B0A091122334455667788) (r16 0x010203040506070899AABBCCDDEEFF00)
    = r16 0x9a1fe1f0e8b0f49b5b4216ae796da062.
Proof. vm_compute. repeat split. Qed.

(* non-vacuity of the hypotheses used above: the model of the built-in AES satisfies the
   block-function hypotheses, and a generated address resolves *)
Example C14_nonvacuous :
  let k := hex_block 0x2b7e151628aed2a6abf7158809cf4f3c in
  let tb := [1; 2; 255; 4; 5; 6] in
  length (e_total k (zeros 16)) = 16%nat /\
  b_rpa_matches k (b_rpa_generate k tb) = true /\
  b_rpa_matches (zeros 16) (b_rpa_generate k tb) = false /\
  nth 5 (b_rpa_generate k tb) 0 = 127 /\
  ecdh secp256r1 5 1 1 = InvalidKey /\
  (exists s, ecdh secp256r1 5 (cgx secp256r1) (cgy secp256r1) = Secret s).
Proof. repeat split; [vm_compute; reflexivity..|exact ecdh_of_generator]. Qed.
