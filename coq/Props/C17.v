(* Property C17: hostile peer or controller input cannot wedge or derail the stack.
   The proofs instantiate the lemmas of Proofs/Hostile*.v (with the regenerated tables where a
   statement is about them), take a few lines from them, or are a computation.  Scope: the parsers whose loops and recursion are driven by attacker-chosen
   lengths, and the containment logic at the boundaries (see docs/C17.md for what is
   modelled and what is only exercised by the campaign). *)
From Coq Require Import ZArith List Bool Lia.
From BV Require Import Model.HostileAt Model.HostileFields Model.HostileSdp Model.HostileHost Model.HostileRfcomm Model.HostileLoops.
From BV Require Import Proofs.HostileAt Proofs.HostileFields Proofs.HostileSdp Proofs.HostileHost Proofs.HostileRfcomm Proofs.HostileLoops.
From BV Require Import Proofs.HostileTransport.
From BV Require Import Gen.C17Tables.
Import ListNotations.
Open Scope Z_scope.

(* ------------------------------------------------------------------ at.py *)
(* tokenize_parameters makes one step per input byte (structural recursion on the buffer)
   and never emits more token bytes than it read, nor more than two tokens per byte. *)
Theorem C17_at_tokens_bounded : forall buf toks,
  tokenize buf = inr toks ->
  (size toks <= length buf)%nat /\ (length toks <= 2 * length buf + 1)%nat.
Proof. intros buf toks H. apply tok_loop_bounded in H. simpl in H. lia. Qed.
Print Assumptions C17_at_tokens_bounded.

(* parse_parameters: for every byte string the result is a value or one of the four
   AtParsingErrors; the accumulator stack is never indexed while empty. *)
Theorem C17_at_no_internal_error : forall buf, parse_parameters buf <> inl EmptyStack.
Proof.
  intros buf. unfold parse_parameters. destruct (tokenize buf) eqn:E.
  - intros H. inversion H; subst. exact (tok_loop_no_empty_stack _ _ _ _ E).
  - apply par_loop_no_empty_stack. discriminate.
Qed.
Print Assumptions C17_at_no_internal_error.

(* ------------------------------------------------------------------ l2cap.py options loop *)
(* decode_configuration_options: with fuel len/2 + 1 the loop never runs out of fuel, for
   every byte string (every iteration consumes at least the two header bytes, also when
   the length byte is 0 or larger than what is left). *)
Theorem C17_config_options_terminate : forall data,
  decode_options (decode_options_fuel data) data <> None.
Proof. intros data. apply decode_options_fuel_enough, div2_bound. Qed.
Print Assumptions C17_config_options_terminate.

Theorem C17_config_options_progress : forall fuel data opts,
  decode_options fuel data = Some opts ->
  (options_size opts <= length data)%nat /\ (2 * length opts <= length data)%nat.
Proof. exact decode_options_progress. Qed.
Print Assumptions C17_config_options_progress.

(* ------------------------------------------------------------------ regenerated tables *)
(* Every ATT / SMP / L2CAP signalling class of the current source is either inside the model
   (no '*' before the last field) or explicitly outside it (uses a named parser). *)
Definition has_opaque (fs : list fspec) : bool :=
  existsb (fun f => match f with FOpaque => true | _ => false end) fs.
Definition class_ok (c : Z * list fspec) : bool := wf_fields (snd c) || has_opaque (snd c).

Theorem C17_tables_modelled :
  forallb class_ok att_classes && forallb class_ok smp_classes && forallb class_ok sig_classes = true.
Proof. vm_compute. reflexivity. Qed.
Print Assumptions C17_tables_modelled.

(* the model's literals are the packet types of the current source *)
Theorem C17_hci_packet_types : hci_packet_types = [1; 2; 3; 4; 5].
Proof. vm_compute. reflexivity. Qed.
Print Assumptions C17_hci_packet_types.

(* ------------------------------------------------------------------ ATT / SMP parse *)
(* For every modelled class: the PDU is rejected with IndexError/struct.error exactly when
   it is shorter than [need] (the end of its last integer field), and otherwise accepted;
   nothing is dispatched on an error. *)
Theorem C17_att_too_short_is_error : forall pdu op fs,
  hd_error pdu = Some op -> lookup op att_classes = Some fs -> wf_fields fs = true ->
  HostileFields.mem op att_post_classes = false ->
  ((length pdu < need fs 1)%nat <->
   exists e, att_from_bytes att_classes pdu = PErr e /\ (e = EIndex \/ e = EStruct)).
Proof. exact (att_too_short_is_error att_classes). Qed.
Print Assumptions C17_att_too_short_is_error.

(* The four ATT response classes that split their '*' field into items in __post_init__
   (the list is regenerated from the source): their length-driven loops never run out of
   fuel len + 1, whatever length byte the peer sends (0 skips the loop, 1..3 make the item
   header unpack fail with struct.error as soon as one item fits). *)
Theorem C17_att_post_init_classes : att_post_init_classes = att_post_classes.
Proof. vm_compute. reflexivity. Qed.
Print Assumptions C17_att_post_init_classes.

Theorem C17_att_from_bytes_terminates : forall pdu,
  bytes_nonneg pdu = true -> att_from_bytes att_classes pdu <> POutOfFuel.
Proof. exact (att_from_bytes_terminates att_classes). Qed.
Print Assumptions C17_att_from_bytes_terminates.

Theorem C17_smp_too_short_is_error : forall pdu code fs,
  hd_error pdu = Some code -> lookup code smp_classes = Some fs -> wf_fields fs = true ->
  ((length pdu < need fs 1)%nat <->
   exists e, smp_from_bytes smp_classes pdu = PErr e /\ (e = EIndex \/ e = EStruct)).
Proof. exact (smp_too_short_is_error smp_classes). Qed.
Print Assumptions C17_smp_too_short_is_error.

Theorem C17_att_smp_empty_is_error :
  att_from_bytes att_classes [] = PErr EEmpty /\ smp_from_bytes smp_classes [] = PErr EEmpty.
Proof. exact (conj (att_empty_is_error att_classes) (smp_empty_is_error smp_classes)). Qed.
Print Assumptions C17_att_smp_empty_is_error.

(* ------------------------------------------------------------------ signalling handler *)
(* For every handler behaviour and every representation of the channel tables: *)
Theorem C17_sig_short_contained :
  forall (chan_state : Type) handler (st : chan_state) pdu, (length pdu < 4)%nat ->
  on_signalling_pdu chan_state handler sig_classes sig_handled st pdu = (st, [], SigParseError EStruct).
Proof. intros chan_state handler. exact (sig_short_contained chan_state handler sig_classes sig_handled). Qed.
Print Assumptions C17_sig_short_contained.

Theorem C17_sig_parse_error_contained :
  forall (chan_state : Type) handler (st : chan_state) pdu e i,
  sig_from_bytes sig_classes pdu = (PErr e, i) ->
  on_signalling_pdu chan_state handler sig_classes sig_handled st pdu = (st, [], SigParseError e).
Proof. intros chan_state handler. exact (sig_parse_error_contained chan_state handler sig_classes sig_handled). Qed.
Print Assumptions C17_sig_parse_error_contained.

Theorem C17_sig_reject_unchanged :
  forall (chan_state : Type) handler (st : chan_state) pdu st' sent,
  on_signalling_pdu chan_state handler sig_classes sig_handled st pdu = (st', sent, SigRejected) ->
  st' = st /\ sent = [command_reject (ident_of pdu)] /\ (4 <= length pdu)%nat.
Proof. intros chan_state handler. exact (sig_reject_unchanged chan_state handler sig_classes sig_handled). Qed.
Print Assumptions C17_sig_reject_unchanged.

Theorem C17_sig_unhandled_rejected :
  forall (chan_state : Type) handler (st : chan_state) code ident l0 l1 body,
  mem code sig_handled = false ->
  (forall fs, lookup code sig_classes = Some fs ->
     exists r, parse_fields fs (code :: ident :: l0 :: l1 :: body) 4 = inr r) ->
  on_signalling_pdu chan_state handler sig_classes sig_handled st (code :: ident :: l0 :: l1 :: body)
  = (st, [command_reject ident], SigRejected).
Proof. intros chan_state handler. exact (sig_unhandled_rejected chan_state handler sig_classes sig_handled). Qed.
Print Assumptions C17_sig_unhandled_rejected.

Theorem C17_sig_handler_raised_rejects :
  forall (chan_state : Type) handler (st : chan_state) pdu st' sent,
  on_signalling_pdu chan_state handler sig_classes sig_handled st pdu = (st', sent, SigHandlerRaised) ->
  exists before, sent = before ++ [command_reject (ident_of pdu)].
Proof. intros chan_state handler. exact (sig_handler_raised_rejects chan_state handler sig_classes sig_handled). Qed.
Print Assumptions C17_sig_handler_raised_rejects.

(* ------------------------------------------------------------------ SDP data elements *)
(* DataElement.from_bytes, for every byte string, with the regenerated nesting limit, with
   or without D17b.patch: fuel (max_depth + 2) * (len + 4) is never used up, i.e. the chain
   of nested parse_next / _list_from_bytes calls and loop iterations is bounded. *)
Theorem C17_sdp_terminates : forall strict data, bytes_ok data = true ->
  element_from_bytes strict sdp_max_nesting data <> SOutOfFuel.
Proof. intros strict data H. exact (element_from_bytes_terminates strict sdp_max_nesting data H). Qed.
Print Assumptions C17_sdp_terminates.

(* With D17b.patch the whole parse makes at most len + 1 parse_next calls, whatever the
   sizes the elements declare (work linear in the input: "terminates promptly"). *)
Theorem C17_sdp_work_linear : forall data, bytes_ok data = true ->
  0 <= steps_of (element_from_bytes true sdp_max_nesting data) <= zlen data + 1.
Proof. exact (element_from_bytes_work_linear sdp_max_nesting). Qed.
Print Assumptions C17_sdp_work_linear.

(* End to end, as the property reads: whatever bytes arrive as an SDP data element, the
   (patched) parser comes back - with a value or an ordinary error - after at most len + 1
   parse_next calls and within the stated fuel. *)
Theorem C17_sdp_element_prompt : forall data, bytes_ok data = true ->
  element_from_bytes true sdp_max_nesting data <> SOutOfFuel /\
  0 <= steps_of (element_from_bytes true sdp_max_nesting data) <= zlen data + 1.
Proof.
  intros data H.
  exact (conj (element_from_bytes_terminates true sdp_max_nesting data H)
              (element_from_bytes_work_linear sdp_max_nesting data H)).
Qed.
Print Assumptions C17_sdp_element_prompt.

(* Without the patch the statement is false: 83 bytes cost more than 30 calls per byte. *)
Theorem C17_sdp_work_linear_refuted_before_D17b :
  exists data, bytes_ok data = true /\
    steps_of (element_from_bytes false 32 data) > 30 * zlen data.
Proof.
  exists (overrun_witness 6 (repeat 0 50)). rewrite overrun_witness_steps. split; reflexivity.
Qed.
Print Assumptions C17_sdp_work_linear_refuted_before_D17b.

(* A SEQUENCE / ALTERNATIVE header met at the nesting limit is rejected at once. *)
Theorem C17_sdp_nesting_limit : forall strict data f off depth hd vsize szlen,
  0 <= off -> byte_at data off = Some hd ->
  (hd / 8 =? 6) || (hd / 8 =? 7) = true ->
  value_size data (off + 1) (hd / 8) (hd mod 8) = inr (vsize, szlen) ->
  sdp_max_nesting <= depth ->
  parse_next strict sdp_max_nesting data (S f) off depth = SErr SNesting 1.
Proof. intros strict data. exact (nesting_limit strict sdp_max_nesting data). Qed.
Print Assumptions C17_sdp_nesting_limit.

(* ------------------------------------------------------------------ rfcomm.DLC.process_tx *)
(* The frame size is negotiated by the peer and stored unvalidated (0 and negative values
   included).  As the code is - a tx credit is spent for every data frame attempted - the
   loop never exhausts fuel credits + 2, sends at most credits + 1 frames and never drives
   the credits negative, for every mtu, buffer length and pending rx-credit grant. *)
Theorem C17_rfcomm_process_tx_terminates : forall mtu buf credits rxn,
  0 <= credits -> process_tx true (process_tx_fuel credits) mtu buf credits rxn <> None.
Proof.
  intros mtu buf credits rxn Hc. apply process_tx_fuel_enough; [assumption|].
  unfold process_tx_fuel. rewrite Z2Nat.id by lia. destruct (0 <? rxn); lia.
Qed.
Print Assumptions C17_rfcomm_process_tx_terminates.

Theorem C17_rfcomm_process_tx_bounded : forall fuel mtu buf credits rxn st frames,
  0 <= credits -> process_tx true fuel mtu buf credits rxn = Some (st, frames) ->
  Z.of_nat (length frames) <= credits + (if 0 <? rxn then 1 else 0) /\ 0 <= t_credits st <= credits.
Proof. exact process_tx_bounds. Qed.
Print Assumptions C17_rfcomm_process_tx_bounded.

(* The guard matters: if a credit were spent only for a non-empty payload (seeded change
   C17-a), then for mtu <= 0, data buffered and a credit available no fuel is ever enough. *)
Theorem C17_rfcomm_payload_rule_refuted : forall fuel mtu buf credits,
  mtu <= 0 -> 0 < buf -> 0 < credits -> take mtu buf = 0 ->
  process_tx false fuel mtu buf credits 0 = None.
Proof. exact process_tx_payload_rule_refuted. Qed.
Print Assumptions C17_rfcomm_payload_rule_refuted.

(* l2cap LeCreditBasedChannel.process_output (one SDU in progress): one PDU per credit, the
   credits never go negative, for every peer MPS; with the loop guard "credits >= 0" a PDU is
   sent without credit. *)
Theorem C17_coc_output_within_credits : forall fuel mps sdu credits,
  0 <= credits -> credits + 1 <= Z.of_nat fuel ->
  exists rest c n, coc_output true fuel mps sdu credits = Some (rest, c, n) /\
                   0 <= c /\ n + c = credits /\ 0 <= n.
Proof. exact coc_output_spec. Qed.
Print Assumptions C17_coc_output_within_credits.

Theorem C17_coc_output_boundary_refuted : coc_output false 10 23 100 2 = Some (31, -1, 3).
Proof. vm_compute. reflexivity. Qed.
Print Assumptions C17_coc_output_boundary_refuted.

(* ------------------------------------------------------------------ two more TLV loops *)
(* avdtp ServiceCapabilities.parse_capabilities and core AdvertisingData.append: fuel len + 1
   is never used up, for every byte string (a zero length byte still consumes the header). *)
Theorem C17_avdtp_capabilities_terminate : forall payload,
  parse_capabilities (tlv_fuel payload) payload 0 <> None.
Proof. intros. apply parse_capabilities_fuel_enough; unfold tlv_fuel; lia. Qed.
Print Assumptions C17_avdtp_capabilities_terminate.

Theorem C17_advertising_data_terminates : forall data,
  parse_advertising (tlv_fuel data) data 0 <> None.
Proof. intros. apply parse_advertising_fuel_enough; unfold tlv_fuel; lia. Qed.
Print Assumptions C17_advertising_data_terminates.

(* ------------------------------------------------------------------ shapes read from the source *)
(* The constants of the loops the models copy, extracted from the AST of the anchored
   functions on every run (tools/translate/c17_shapes.py, fail closed).  Each equation is
   what the corresponding model was written from: a removed progress step, a changed bound
   or comparison, a dropped guard makes the equation (or the extractor) fail. *)
Theorem C17_options_loop_matches_source : options_loop_shape = [4; 2; 0; 1; 2; 2; 2].
Proof. vm_compute. reflexivity. Qed.
Print Assumptions C17_options_loop_matches_source.

Theorem C17_sdp_parser_matches_source :
  sdp_list_loop_shape = [4; 1; 1; 3; 1] /\ sdp_offset_check = 4 /\
  sdp_size_forms = [(0, 1, 0, 0); (1, 2, 0, -1); (2, 4, 0, -1); (3, 8, 0, -1); (4, 16, 0, -1);
                    (5, -1, 1, -1); (6, -1, 2, -1); (7, -1, 4, -1)].
Proof. vm_compute. repeat split. Qed.
Print Assumptions C17_sdp_parser_matches_source.

Theorem C17_at_tokenizer_matches_source :
  at_special_chars = [(c_space, 0); (c_comma, 1); (c_close, 1); (c_open, 2); (c_quote, 3)].
Proof. vm_compute. reflexivity. Qed.
Print Assumptions C17_at_tokenizer_matches_source.

Theorem C17_process_tx_matches_source : process_tx_spends = [1; 0; 1].
Proof. vm_compute. reflexivity. Qed.
Print Assumptions C17_process_tx_matches_source.

Theorem C17_coc_output_loop_matches_source : coc_output_loop_shape = [3; 0; 1; 1].
Proof. vm_compute. reflexivity. Qed.
Print Assumptions C17_coc_output_loop_matches_source.

Theorem C17_rfcomm_pn_validation_matches_source : rfcomm_pn_validation = [23; 32767; 1; 2].
Proof. vm_compute. reflexivity. Qed.
Print Assumptions C17_rfcomm_pn_validation_matches_source.

(* avdtp.Stream: the media transport channel is forgotten on every close of that channel, so
   that a Close / Abort arriving afterwards (teardown out of order) finds nothing to wait for *)
Theorem C17_avdtp_channel_close_matches_source : avdtp_channel_close_shape = [1; 0; 1; 1; 1].
Proof. vm_compute. reflexivity. Qed.
Print Assumptions C17_avdtp_channel_close_matches_source.

Theorem C17_credit_based_validation_matches_source : credit_based_validation = [23; 23; 1; 1; 1; 1].
Proof. vm_compute. reflexivity. Qed.
Print Assumptions C17_credit_based_validation_matches_source.

Theorem C17_att_item_loops_match_source :
  att_item_loop_shapes = [(5, 0, 2, -2); (7, 4, 4, 4); (9, 0, 2, 0); (17, 0, 4, 0)].
Proof. vm_compute. reflexivity. Qed.
Print Assumptions C17_att_item_loops_match_source.

Theorem C17_tlv_loops_match_source :
  capabilities_loop_shape = [1; 2; 2; 2] /\ advertising_loop_shape = [1; 1; 0; 1].
Proof. vm_compute. split; reflexivity. Qed.
Print Assumptions C17_tlv_loops_match_source.

(* ------------------------------------------------------------------ transport boundary *)
(* Every transport source feeds each received chunk to one PacketParser and goes on after an
   InvalidPacketError (the parser is C02's model, Model/Framer.v).  A byte that is not an HCI
   packet type, at whatever point of whatever stream, leaves the parser in its initial state *)
Theorem C17_transport_reject_is_init : forall (t : tp_table) d (s s' : tp_parser) o,
  tp_feed t s d = (s', o, tp_raised) -> s' = tp_init.
Proof. intros t d s s' o H. exact (proj1 (Proofs.Framer.feed_raise_resets t d s s' o H)). Qed.
Print Assumptions C17_transport_reject_is_init.

(* ... hence, with the packet table of the current source, every well-formed packet the
   controller sends after the rejected byte, cut into chunks in any way, is delivered. *)
Theorem C17_transport_table_wf : tp_wf_table tp_packet_info = true.
Proof. vm_compute. reflexivity. Qed.
Print Assumptions C17_transport_table_wf.

Theorem C17_transport_delivers_after_reject : forall (s : tp_parser) d s' o pkts chunks,
  tp_feed tp_packet_info s d = (s', o, tp_raised) ->
  forallb (tp_wf_packet tp_packet_info) pkts = true -> concat chunks = concat pkts ->
  fst (tp_receive_all tp_packet_info s' chunks) = tp_init /\
  concat (snd (tp_receive_all tp_packet_info s' chunks)) = map tp_packet pkts.
Proof.
  intros s d s' o pkts chunks.
  exact (Proofs.Framer.recover_after_any_error tp_packet_info s d s' o pkts chunks C17_transport_table_wf).
Qed.
Print Assumptions C17_transport_delivers_after_reject.

(* pinned to the source: feed_data calls self.reset() before raising, and the two sources
   with a handler of their own (StreamPacketSource, PumpedPacketSource) continue after it *)
Theorem C17_transport_reject_matches_source : transport_reject_shape = [1; 1; 2; 1; 1].
Proof. vm_compute. reflexivity. Qed.
Print Assumptions C17_transport_reject_matches_source.

(* ------------------------------------------------------------------ Host.on_packet *)
Theorem C17_host_undecodable_contained : forall st p,
  hci_from_bytes p = HErr -> host_on_packet st p = (st, [OParseError]).
Proof. intros st p H. unfold host_on_packet. rewrite H. reflexivity. Qed.
Print Assumptions C17_host_undecodable_contained.

(* Any sequence of packets (of the modelled kinds: data packets, unknown types, undecodable
   bytes; command/event packets are outside the model) leaves the connection table, the
   CIS/BIS tables and the ready flag unchanged. *)
Theorem C17_host_tables_unchanged : forall ps st, fst (host_run st ps) = st.
Proof. exact host_run_state_unchanged. Qed.
Print Assumptions C17_host_tables_unchanged.

Theorem C17_host_to_assembler_only_if : forall st p handle pb data,
  In (OToAssembler handle pb data) (snd (host_on_packet st p)) ->
  h_ready st = true /\ HostileHost.mem handle (h_conns st) = true /\
  exists bc, hci_from_bytes p = HAcl handle pb bc data.
Proof. exact host_to_assembler_only_if. Qed.
Print Assumptions C17_host_to_assembler_only_if.

Theorem C17_acl_bad_framing_is_error :
  (forall rest, (length rest < 4)%nat -> hci_from_bytes (2 :: rest) = HErr) /\
  (forall a b c d data, HostileHost.zlen data <> le16 c d ->
     hci_from_bytes (2 :: a :: b :: c :: d :: data) = HErr).
Proof. exact (conj acl_short_is_error acl_length_mismatch_is_error). Qed.
Print Assumptions C17_acl_bad_framing_is_error.

(* ------------------------------------------------------------------ non-vacuity *)
Fixpoint nest (depth : nat) (leaf : list Z) : list Z :=
  match depth with
  | O => leaf
  | S k => let body := nest k leaf in
           if Z.of_nat (length body) <=? 255 then [53; Z.of_nat (length body)] ++ body
           else [54; Z.of_nat (length body) / 256; Z.of_nat (length body) mod 256] ++ body
  end.

Example C17_nesting_32_accepted_33_rejected :
  (exists e n, element_from_bytes true sdp_max_nesting (nest 32 [8; 1]) = SOk e (HostileSdp.zlen (nest 32 [8; 1])) n) /\
  element_from_bytes true sdp_max_nesting (nest 33 [8; 1]) = SErr SNesting 33 /\
  element_from_bytes true sdp_max_nesting (nest 600 [8; 1]) = SErr SNesting 33.
Proof. split; [eexists; eexists; vm_compute; reflexivity | split; vm_compute; reflexivity]. Qed.

Example C17_overrun_rejected_when_patched :
  element_from_bytes true sdp_max_nesting (overrun_witness 6 (repeat 0 50)) = SErr SOverrun 63 /\
  steps_of (element_from_bytes false sdp_max_nesting (overrun_witness 6 (repeat 0 50))) = 3327.
Proof. split; [vm_compute; reflexivity|exact overrun_witness_steps]. Qed.

Example C17_options_zero_and_oversize_length :
  decode_options (decode_options_fuel [1; 0; 5; 200; 7]) [1; 0; 5; 200; 7] = Some [(1, []); (5, [7])].
Proof. vm_compute. reflexivity. Qed.

Example C17_at_examples :
  parse_parameters [40; 49; 44; 50; 41; 44; 34; 97; 34] =
    inr [AtList [AtBytes [49]; AtBytes [50]]; AtBytes [97]] /\
  parse_parameters [40; 49] = inl MissingClose /\
  parse_parameters [49; 41] = inl CloseWithoutOpen /\
  parse_parameters [97; 40] = inl OpenParenAfterChar.
Proof. vm_compute. repeat split. Qed.

Example C17_unknown_signalling_code_rejected :
  on_signalling_pdu unit (fun _ _ _ s => (s, [], false)) sig_classes sig_handled tt [200; 7; 0; 0]
  = (tt, [[1; 7; 2; 0; 0; 0]], SigRejected).
Proof. vm_compute. reflexivity. Qed.

Example C17_transport_junk_then_event :
  tp_receive_all tp_packet_info tp_init [[119]; [4; 16; 1; 0]] =
    (tp_init, [[Framer.Error 119]; [tp_packet [4; 16; 1; 0]]]).
Proof. vm_compute. reflexivity. Qed.

Example C17_tlv_examples :
  parse_capabilities (tlv_fuel [1; 0; 7; 2; 9; 9; 4]) [1; 0; 7; 2; 9; 9; 4] 0 = Some (inl LIndex) /\
  parse_capabilities (tlv_fuel [1; 0; 7; 200; 9]) [1; 0; 7; 200; 9] 0 = Some (inr [(1, []); (7, [9])]) /\
  parse_advertising (tlv_fuel [0; 0; 2; 1; 6; 9]) [0; 0; 2; 1; 6; 9] 0 = Some [(1, [6])].
Proof. vm_compute. repeat split. Qed.

Example C17_process_tx_mtu_zero :
  process_tx true (process_tx_fuel 7) 0 10 7 0 = Some (mkTx 10 0, [(0, false); (0, false); (0, false); (0, false); (0, false); (0, false); (0, false)]) /\
  process_tx false 1000 0 10 7 0 = None.
Proof. vm_compute. split; reflexivity. Qed.

Example C17_att_read_request_too_short :
  att_from_bytes att_classes [10; 3] = PErr EStruct /\
  att_from_bytes att_classes [10; 3; 0] = PKnown 10 [VInt 3].
Proof. vm_compute. split; reflexivity. Qed.

Example C17_att_read_by_type_response_lengths :
  att_from_bytes att_classes [9; 0; 1; 2; 3] = PKnown 9 [VInt 0; VBytes [1; 2; 3]; VItems []] /\
  att_from_bytes att_classes [9; 1; 114; 55; 51] = PErr EStruct /\
  att_from_bytes att_classes [9; 3; 1; 0; 7; 2; 0; 8; 9] =
    PKnown 9 [VInt 3; VBytes [1; 0; 7; 2; 0; 8; 9]; VItems [[1; 0; 7]; [2; 0; 8]]].
Proof. vm_compute. repeat split. Qed.
