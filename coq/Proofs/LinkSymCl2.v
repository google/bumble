(* Symmetry of the BR/EDR tables, part 2: one lemma for each step that moves a pair through its
   protocol (six) or changes an entry under nobody's address (two), the induction, and what an
   LMP_accepted does to the pending future of a connection request. *)
From Coq Require Import ZArith List Bool Lia Arith.
From BV Require Import Model.Link Proofs.Link Proofs.LinkSym Proofs.LinkSymCl.
Import ListNotations.
Open Scope Z_scope.

Lemma cquiet_nil : forall s i j, cquiet s i j = true -> crel s i j = [] /\ crel s j i = [].
Proof.
  unfold cquiet. intros s i j H. apply andb_true_iff in H. now rewrite !nil_b_iff in H.
Qed.

Lemma cpair_idle_facts : forall s i j ci cj, nth_error (st_cs s) i = Some ci -> nth_error (st_cs s) j = Some cj ->
  cpair_idle s i j = true ->
  ent ci cj = None /\ ent cj ci = None /\ crel s i j = [] /\ crel s j i = [] /\
  settled (fut ci cj) /\ settled (fut cj ci).
Proof.
  unfold cpair_idle, ent, fut, settled. intros s i j ci cj Hi Hj H. rewrite Hi, Hj in H.
  rewrite !andb_true_iff in H. destruct H as [[E1 E2] [Q [F1 F2]]]. apply cquiet_nil in Q.
  destruct (tbl_get (c_cl ci) (c_public cj)), (tbl_get (c_cl cj) (c_public ci)); try discriminate.
  destruct (lmp_get (c_lmp ci) (c_public cj)) as [[|]|], (lmp_get (c_lmp cj) (c_public ci)) as [[|]|];
    try discriminate; intuition discriminate.
Qed.

(* controller i0 asks for a connection to the public address of j1 *)
Lemma cinvs_request : forall s i0 j1 c c' cj1,
  let s' := mkState (upd (st_cs s) i0 c') (st_net s ++ [(i0, j1, MLmpConnReq (c_public c))]) in
  cinvs s -> ginv s' ->
  nth_error (st_cs s) i0 = Some c -> nth_error (st_cs s) j1 = Some cj1 -> j1 <> i0 ->
  c_public c' = c_public c ->
  c_cl c' = tbl_set (c_cl c) (mkConn (c_public cj1) (c_public c) 0 true) ->
  c_lmp c' = lmp_set (c_lmp c) (c_public cj1) false ->
  cpair_idle s i0 j1 = true ->
  cinvs s'.
Proof.
  intros s i0 j1 c c' cj1 s' S G' Hi Hj Hne Hp Hcl Hlmp Hidle. subst s'.
  destruct (cpair_idle_facts _ _ _ _ _ Hi Hj Hidle) as [_ [E2 [R1 [R2 [_ F2]]]]].
  unfold ent in E2. unfold fut in F2.
  apply (cinvs_pair_send s i0 j1 _ c c' cj1); auto.
  - intros p Hp'. rewrite Hcl, Hlmp. split; [now apply tbl_get_set_other | now apply lmp_get_set_other].
  - unfold cl_ok, ent, fut. rewrite R1, R2, Hcl, Hlmp, Hp.
    rewrite tbl_get_set_key, lmp_get_set_same, E2 by reflexivity.
    right. right. left. split; [exact F2|]. left. eexists. repeat split; auto.
Qed.

(* the connection request of i1 reaches j0 *)
Lemma cinvs_requested : forall s k i1 j0 a c c',
  let s' := mkState (upd (st_cs s) j0 c') (remove_nth k (st_net s)) in
  cinvs s -> ginv s' ->
  nth_error (st_net s) k = Some (i1, j0, MLmpConnReq a) ->
  nth_error (st_cs s) j0 = Some c -> c_public c' = c_public c ->
  c_cl c' = tbl_set (c_cl c) (mkConn a (c_public c) 0 false) -> c_lmp c' = c_lmp c ->
  cinvs s'.
Proof.
  intros s k i1 j0 a c c' s' S G' Hk Hj Hp Hcl Hlmp. subst s'.
  apply (cinvs_pair_deliver s k i1 j0 (MLmpConnReq a) c c'); auto.
  intros ci1 Hi1 -> Hpair.
  destruct (cst_in_flight _ _ _ _ _ _ _ _ _ _ _ Hpair (or_introl eq_refl)) as [_ [_ [_ [Fj [_ [E4 [k0 [E1 [E2 E3]]]]]]]]].
  unfold ent in E1. unfold fut in E4, Fj. split.
  - intros p Hp'. rewrite Hcl, Hlmp. split; [now apply tbl_get_set_other | reflexivity].
  - unfold cl_ok, ent, fut. rewrite Hcl, Hlmp, Hp. rewrite tbl_get_set_key, E1, E4 by reflexivity.
    right. right. right. split; [exact Fj|]. right. left. exists k0. eexists. repeat split; auto.
Qed.

(* the host of j0 accepts the waiting request of i1 *)
Lemma cinvs_accept : forall s i1 j0 c c' ci1 k0 h,
  let s' := mkState (upd (st_cs s) j0 c') (st_net s ++ [(j0, i1, MLmpAccepted (c_public c))]) in
  cinvs s -> ginv s' ->
  nth_error (st_cs s) j0 = Some c -> nth_error (st_cs s) i1 = Some ci1 -> i1 <> j0 ->
  tbl_get (c_cl c) (c_public ci1) = Some k0 -> k_handle k0 = 0 -> k_central k0 = false ->
  alloc c = Some h -> c_public c' = c_public c ->
  c_cl c' = tbl_set (c_cl c) (mkConn (c_public ci1) (k_self k0) h (k_central k0)) -> c_lmp c' = c_lmp c ->
  cinvs s'.
Proof.
  intros s i1 j0 c c' ci1 k0 h s' S G' Hj Hi1 Hne Hget Hh0 Hc0 Hal Hp Hcl Hlmp. subst s'.
  apply alloc_spec in Hal. destruct Hal as [_ [Hh _]].
  pose proof (cs_pair s S _ _ _ _ Hne Hi1 Hj) as Hpair. unfold cpair_ok in Hpair.
  destruct (cst_waiting_request _ _ _ _ _ _ _ _ _ _ _ Hpair Hget Hh0 Hc0) as [Fj [E4 [R1 [R2 [k1 [E1 [E2 E3]]]]]]].
  unfold ent in E1. unfold fut in E4, Fj.
  apply (cinvs_pair_send s j0 i1 _ c c' ci1); auto.
  - intros p Hp'. rewrite Hcl, Hlmp. split; [now apply tbl_get_set_other | reflexivity].
  - unfold cl_ok, ent, fut. rewrite R1, R2, Hcl, Hlmp, Hp. rewrite tbl_get_set_key, E1, E4 by reflexivity.
    right. right. right. split; [exact Fj|]. right. right. left. exists k1. eexists.
    repeat split; auto. simpl. lia.
Qed.

(* the acceptance of j1 reaches the initiator i0 *)
Lemma cinvs_connected : forall s k i0 j1 a c c' h,
  let s' := mkState (upd (st_cs s) i0 c') (remove_nth k (st_net s)) in
  cinvs s -> ginv s' ->
  nth_error (st_net s) k = Some (j1, i0, MLmpAccepted a) ->
  nth_error (st_cs s) i0 = Some c -> alloc c = Some h -> c_public c' = c_public c ->
  (lmp_get (c_lmp c) a = Some false -> forall k0, tbl_get (c_cl c) a = Some k0 ->
     c_cl c' = tbl_set (c_cl c) (mkConn a (k_self k0) h (k_central k0)) /\ c_lmp c' = lmp_set (c_lmp c) a true) ->
  cinvs s'.
Proof.
  intros s k i0 j1 a c c' h s' S G' Hk Hi Hal Hp Heff. subst s'.
  apply alloc_spec in Hal. destruct Hal as [_ [Hh _]].
  apply (cinvs_pair_deliver s k j1 i0 (MLmpAccepted a) c c'); auto.
  intros cj1 Hj1 -> Hpair.
  destruct (cst_in_flight _ _ _ _ _ _ _ _ _ _ _ Hpair (or_introl eq_refl))
    as [_ [_ [_ [Fi [E4 [k1 [k0 [E5 [E6 [E7 [E1 [E2 E3]]]]]]]]]]]].
  unfold ent in E1, E5. unfold fut in E4, Fi. destruct (Heff E4 _ E1) as [Hcl Hlmp]. split.
  - intros p Hp'. rewrite Hcl, Hlmp. split; [now apply tbl_get_set_other | now apply lmp_get_set_other].
  - unfold cl_ok, ent, fut. rewrite Hcl, Hlmp, Hp. rewrite tbl_get_set_key, lmp_get_set_same, E5 by reflexivity.
    right. left. eexists. exists k1.
    repeat split; simpl; auto; try lia; try discriminate. rewrite E3. exact E7.
Qed.

(* i0 disconnects its established BR/EDR connection with j1 *)
Lemma cinvs_disconnect : forall s i0 j1 c c' cj1 k0 r,
  let s' := mkState (upd (st_cs s) i0 c') (st_net s ++ [(i0, j1, MLmpDetach (c_public c) r)]) in
  cinvs s -> ginv s' ->
  nth_error (st_cs s) i0 = Some c -> nth_error (st_cs s) j1 = Some cj1 -> j1 <> i0 ->
  In k0 (c_cl c) -> k_peer k0 = c_public cj1 -> k_handle k0 <> 0 ->
  c_public c' = c_public c -> c_cl c' = tbl_del (c_cl c) (k_peer k0) -> c_lmp c' = c_lmp c ->
  cquiet s i0 j1 = true ->
  cinvs s'.
Proof.
  intros s i0 j1 c c' cj1 k0 r s' S G' Hi Hj Hne Hk0 Hpeer Hh Hp Hcl Hlmp Hq. subst s'.
  pose proof (ci_cl_keys c (proj1 (g_c s (cs_g s S) _ _ Hi))) as Hkeys.
  destruct (cquiet_nil _ _ _ Hq) as [Q1 Q2].
  pose proof (cs_pair s S _ _ _ _ (not_eq_sym Hne) Hi Hj) as Hpair. unfold cpair_ok in Hpair.
  rewrite Q1, Q2 in Hpair.
  assert (Hent : ent c cj1 = Some k0) by (unfold ent; rewrite <- Hpeer; now apply tbl_get_of_in).
  (* an established entry with nothing in flight: the pair is connected *)
  destruct (cst_quiet _ _ _ _ _ _ _ _ Hpair)
    as [[E _]|[[k [k1 [E1 [E2 [_ [H2 [_ [F1 F2]]]]]]]]|[k [k1 [E1 [_ [H1 _]]]]]]]; rewrite Hent in *;
    [discriminate | | congruence].
  unfold ent in E2. unfold fut in F1, F2.
  apply (cinvs_pair_send s i0 j1 _ c c' cj1); auto.
  - intros p Hp'. rewrite Hcl, Hlmp, Hpeer. split; [now apply tbl_del_other | reflexivity].
  - unfold cl_ok, ent, fut. rewrite Q1, Q2, Hcl, Hlmp, Hp, Hpeer, (tbl_del_gone _ _ Hkeys), E2.
    right. right. left. split; [exact F2|]. right. right. right. exists k1, r. repeat split; auto.
Qed.

(* the detach of i1 reaches j0 *)
Lemma cinvs_detached : forall s k i1 j0 a r c c',
  let s' := mkState (upd (st_cs s) j0 c') (remove_nth k (st_net s)) in
  cinvs s -> ginv s' ->
  nth_error (st_net s) k = Some (i1, j0, MLmpDetach a r) ->
  nth_error (st_cs s) j0 = Some c -> c_public c' = c_public c ->
  (forall k0, tbl_get (c_cl c) a = Some k0 -> c_cl c' = tbl_del (c_cl c) a) -> c_lmp c' = c_lmp c ->
  cinvs s'.
Proof.
  intros s k i1 j0 a r c c' s' S G' Hk Hj Hp Heff Hlmp. subst s'.
  pose proof (ci_cl_keys c (proj1 (g_c s (cs_g s S) _ _ Hj))) as Hkeys.
  apply (cinvs_pair_deliver s k i1 j0 (MLmpDetach a r) c c'); auto.
  intros ci1 Hi1 -> Hpair.
  destruct (cst_in_flight _ _ _ _ _ _ _ _ _ _ _ Hpair (or_introl eq_refl)) as [_ [_ [_ [F1 [F2 [E1 [k1 [E2 H2]]]]]]]].
  unfold ent in E1, E2. unfold fut in F1, F2. pose proof (Heff _ E2) as Hcl. split.
  - intros p Hp'. rewrite Hcl, Hlmp. split; [now apply tbl_del_other | reflexivity].
  - unfold cl_ok, ent, fut. rewrite Hcl, Hlmp, Hp, (tbl_del_gone _ _ Hkeys), E1. left. repeat split; auto.
Qed.

(* the address asked for is nobody's: the placeholder is removed again *)
Lemma cinvs_page_timeout : forall s i0 c c' peer,
  cinvs s -> ginv (mkState (upd (st_cs s) i0 c') (st_net s ++ [])) ->
  nth_error (st_cs s) i0 = Some c -> find_classic (st_cs s) peer = None ->
  c_public c' = c_public c ->
  c_cl c' = tbl_del (tbl_set (c_cl c) (mkConn peer (c_public c) 0 true)) peer ->
  c_lmp c' = c_lmp c ->
  cinvs (mkState (upd (st_cs s) i0 c') (st_net s ++ [])).
Proof.
  intros s i0 c c' peer S G' Hi Hnone Hp Hcl Hlmp. rewrite app_nil_r in *.
  apply (cinvs_unseen s i0 c); auto; [|exact (cs_bc s S)].
  intros y cy Hy. pose proof (find_classic_none_pub s peer Hnone y cy Hy) as Hne.
  rewrite Hcl, tbl_del_other by exact Hne. now apply tbl_get_set_other.
Qed.

(* the peer address of the entry is nobody's public address: only the entry goes *)
Lemma cinvs_disconnect_nobody : forall s i0 c c' k0,
  cinvs s -> ginv (mkState (upd (st_cs s) i0 c') (st_net s ++ [])) ->
  nth_error (st_cs s) i0 = Some c -> find_classic (st_cs s) (k_peer k0) = None ->
  c_public c' = c_public c -> c_cl c' = tbl_del (c_cl c) (k_peer k0) -> c_lmp c' = c_lmp c ->
  cinvs (mkState (upd (st_cs s) i0 c') (st_net s ++ [])).
Proof.
  intros s i0 c c' k0 S G' Hi Hnone Hp Hcl Hlmp. rewrite app_nil_r in *.
  apply (cinvs_unseen s i0 c); auto; [|exact (cs_bc s S)].
  intros y cy Hy. rewrite Hcl. apply tbl_del_other. exact (find_classic_none_pub s _ Hnone y cy Hy).
Qed.

Lemma guard_cl_static : forall s l, guard_cl s l = true -> guard_static s l = true.
Proof. unfold guard_cl. intros s l H. apply andb_true_iff in H. tauto. Qed.

Theorem cinvs_step : forall s l s' evs out, cinvs s -> guard_cl s l = true ->
  step s l = (s', evs, out) -> cinvs s'.
Proof.
  intros s l s' evs out S Gd H.
  pose proof (cs_g s S) as G.
  assert (G' : ginv s') by (eapply ginv_step; eauto using guard_cl_static).
  pose proof H as Hstep. apply step_shape in H. destruct H.
  - now subst.
  - (* a host command or timer at controller i *)
    subst s' evs. destruct (g_c s G _ _ H0) as [Ci Ai].
    pose proof (guard_static_c _ _ _ _ (guard_cl_static _ _ Gd) H H0) as Hst.
    destruct (local_ainv _ _ _ _ _ _ _ _ Ai Hst H1) as [[Hp _] [_ _]].
    unfold guard_cl in Gd. apply andb_true_iff in Gd. destruct Gd as [_ Gd].
    assert (Hneutral : c_cl c' = c_cl c -> c_lmp c' = c_lmp c -> none_of is_cctl out ->
              cinvs (mkState (upd (st_cs s) i c') (st_net s ++ out))).
    { intros. eapply cinvs_neutral; eauto. }
    destruct (local_cases _ _ _ _ _ _ _ _ H1) as [H4|[[j [h [r [-> H4]]]]|[[j [p [-> H4]]]|[j [p [-> H4]]]]]];
      [apply Hneutral; tauto | | |]; simpl in H; inversion H; subst j; rewrite ?H0 in Gd.
    + (* LDisconnect *)
      apply disconnect_effect in H4.
      destruct (by_handle (c_cl c) h) as [k0|] eqn:B.
      2:{ (* an LE entry, a SCO link or nothing: the BR/EDR table stays *)
          destruct (by_handle (c_le c) h) as [ke|]; destruct H4 as [A1 [A2 [A3 A4]]];
            [subst out; destruct (find_le (st_cs s) (k_peer ke)) | ]; apply Hneutral; intuition auto with outs. }
      destruct H4 as [Hcl [_ [Hlmp Ho]]]. apply by_handle_in in B. destruct B as [Hk0 Hh0].
      rewrite andb_true_iff, negb_true_iff, Z.eqb_neq in Gd. destruct Gd as [Gh Gq].
      destruct (find_classic (st_cs s) (k_peer k0)) as [j|] eqn:Hf; subst out.
      * rewrite andb_true_iff, negb_true_iff, Nat.eqb_neq in Gq. destruct Gq as [Gne Gq].
        destruct (find_classic_some _ _ _ Hf) as [cj [Hj Hpj]].
        eapply cinvs_disconnect; eauto. congruence.
      * eapply cinvs_disconnect_nobody; eauto.
    + (* LClConnect *)
      destruct (cl_connect_cases _ _ _ _ _ _ _ H4) as [[-> [-> _]]|[[Hf [-> [_ ->]]]|[j [Hf [-> [_ ->]]]]]].
      * apply Hneutral; auto with outs.
      * eapply cinvs_page_timeout; eauto.
      * rewrite Hf, andb_true_iff, negb_true_iff, Nat.eqb_neq in Gd. destruct Gd as [Gne Gi].
        destruct (find_classic_some _ _ _ Hf) as [cj [Hj <-]].
        eapply cinvs_request; eauto.
    + (* LClAccept *)
      apply cl_accept_effect in H4.
      destruct (tbl_get (c_cl c) p) as [k0|] eqn:Hg; destruct H4 as [-> ->]; [|apply Hneutral; auto with outs].
      rewrite !andb_true_iff, !negb_true_iff, Z.eqb_eq, Z.eqb_neq in Gd. destruct Gd as [[[Gh Gc] Gal] Gself].
      unfold has_alloc in Gal. destruct (alloc c) as [h|] eqn:Hal; [|discriminate].
      destruct (find_classic (st_cs s) p) as [j|] eqn:Hf.
      * destruct (find_classic_some _ _ _ Hf) as [cj [Hj <-]].
        assert (Hne : j <> i) by (intros ->; rewrite H0 in Hj; inversion Hj; subst; congruence).
        eapply cinvs_accept; eauto.
      * rewrite app_nil_r in *. apply (cinvs_unseen s i c); auto; [|exact (cs_bc s S)].
        intros y cy Hy. apply tbl_get_set_other. exact (find_classic_none_pub s p Hf y cy Hy).
  - (* delivery of message m from src to dst *)
    subst s' evs. destruct (g_c s G _ _ H2) as [Cd Ad].
    destruct (message_ainv _ _ _ _ _ _ _ _ Ad H3) as [[Hp _] [_ _]].
    unfold guard_cl in Gd. apply andb_true_iff in Gd. destruct Gd as [_ Gd]. subst l. rewrite H0 in Gd.
    destruct (is_cctl m) eqn:Hm.
    2:{ destruct (proj2 (proj2 (message_effect _ _ _ _ _ _ _ _ H3)) Hm) as [A [B C]].
        eapply cinvs_neutral; eauto.
        - intros p. apply remove_nth_in.
        - intros x y. apply (filter_remove_other _ _ _ _ H0).
          destruct (crel_pkt x y (src, dst, m)) eqn:E; [|reflexivity].
          apply crel_pkt_true in E. destruct E as [_ [_ E]]. congruence. }
    destruct m; try discriminate; simpl in H3.
    + (* MLmpConnReq *) unfold on_lmp_conn_req in H3. inversion H3; subst. rewrite app_nil_r in *. eapply cinvs_requested; eauto.
    + (* MLmpAccepted *) rewrite H2 in Gd. unfold has_alloc in Gd. destruct (alloc c) as [h|] eqn:Hal; [|discriminate].
      assert (Hout : out = []).
      { unfold on_lmp_accepted in H3. destruct (lmp_get (c_lmp c) sender) as [[|]|]; try (inversion H3; reflexivity).
        destruct (classic_complete _ sender); inversion H3; reflexivity. }
      subst out. rewrite app_nil_r in *. eapply cinvs_connected with (h := h); eauto.
      intros Hfut k0 Hk0. unfold on_lmp_accepted in H3. rewrite Hfut in H3. unfold classic_complete in H3.
      simpl in H3. change (alloc (set_lmp c (lmp_set (c_lmp c) sender true))) with (alloc c) in H3.
      rewrite Hal, Hk0 in H3. inversion H3; subst. auto.
    + (* MLmpDetach *)
      assert (Hout : out = [] /\ c_lmp c' = c_lmp c).
      { unfold on_lmp_detach in H3. destruct (tbl_get (c_cl c) sender); inversion H3; subst; auto. }
      destruct Hout as [-> Hlmp]. rewrite app_nil_r in *. eapply cinvs_detached; eauto.
      intros k0 Hk0. unfold on_lmp_detach in H3. rewrite Hk0 in H3. inversion H3; subst. reflexivity.
  - (* a message to a controller that does not exist is dropped *)
    subst s' evs out. apply cinvs_of_pairwise; auto.
    + exact (noself_remove is_cctl k _ (cs_bc s S)).
    + exact (pairwise_lost (fun _ => crel_pkt) cl_ok crel_ends s k src dst m (cs_pairwise s S) H0 H1).
Qed.

Lemma cinvs_init : forall cfg, cfg_ok cfg = true -> cinvs (init cfg).
Proof.
  intros cfg H. pose proof (ginv_init cfg H) as G.
  assert (Hnew : forall i c, nth_error (st_cs (init cfg)) i = Some c -> c_cl c = [] /\ c_lmp c = []).
  { unfold init; simpl. intros i c Hc. rewrite nth_error_map in Hc.
    destruct (nth_error cfg i) as [[[p r] x]|]; [|discriminate]. simpl in Hc. inversion Hc; subst. auto. }
  constructor; auto.
  intros i j ci cj Hij Hi Hj. unfold cpair_ok, ent, fut, crel.
  destruct (Hnew _ _ Hi) as [A1 A2]. destruct (Hnew _ _ Hj) as [B1 B2]. rewrite A1, A2, B1, B2. simpl.
  left. unfold settled. repeat split; auto; discriminate.
Qed.

Lemma reachable_cinvs : forall cfg ls, cfg_ok cfg = true -> run_ok guard_cl (init cfg) ls = true ->
  cinvs (run_state (init cfg) ls).
Proof. intros cfg ls Hc. apply (run_invariant cinvs guard_cl cinvs_step). now apply cinvs_init. Qed.

(* classic_tables_symmetric: in every state reachable by a schedule satisfying the guard, for
   two controllers with no connection-management LMP message in flight between them: neither
   holds a BR/EDR entry for the other; or each holds an established one (non-zero handle) in
   opposite roles; or a connection request of one of them is waiting for the other's host to
   accept it (both entries still carry handle 0). *)
Theorem classic_tables_symmetric : forall cfg ls i j ci cj, cfg_ok cfg = true ->
  run_ok guard_cl (init cfg) ls = true ->
  let s := run_state (init cfg) ls in
  i <> j -> nth_error (st_cs s) i = Some ci -> nth_error (st_cs s) j = Some cj ->
  cquiet s i j = true ->
  (ent ci cj = None /\ ent cj ci = None)
  \/ (exists k k', ent ci cj = Some k /\ ent cj ci = Some k' /\ k_handle k <> 0 /\ k_handle k' <> 0 /\
        k_central k' = negb (k_central k))
  \/ (exists k k', ent ci cj = Some k /\ ent cj ci = Some k' /\ k_handle k = 0 /\ k_handle k' = 0 /\
        k_central k' = negb (k_central k)).
Proof.
  intros cfg ls i j ci cj Hc Hr s Hij Hi Hj Hq.
  pose proof (cs_pair s (reachable_cinvs cfg ls Hc Hr) _ _ _ _ Hij Hi Hj) as Hp. unfold cpair_ok in Hp.
  destruct (cquiet_nil _ _ _ Hq) as [Q1 Q2]. rewrite Q1, Q2 in Hp.
  destruct (cst_quiet _ _ _ _ _ _ _ _ Hp) as [H|[[k [k' H]]|H]]; [left; tauto | right; left | now do 2 right].
  exists k, k'. tauto.
Qed.

(* classic_pending_commands[peer][HOST_CONNECTION_REQ]: Controller.send_lmp_packet makes a fresh
   (unresolved) future for every request it sends (cl_connect_cases), and an LMP_accepted
   completes a connection only when the slot of its sender holds an unresolved future, which it
   resolves: a response concludes only a request issued after the previous response; a second
   response, or one without request, reports no connection *)
Theorem response_resolves_pending_request_only : forall cs n j c a c' e o h p,
  on_message cs n j c (MLmpAccepted a) = (c', e, o) -> In (EClConn h p) e ->
  lmp_get (c_lmp c) a = Some false /\ lmp_get (c_lmp c') a = Some true /\ p = a.
Proof.
  intros cs n j c a c' e o h p H Hin. simpl in H. unfold on_lmp_accepted in H.
  destruct (lmp_get (c_lmp c) a) as [[|]|] eqn:E; try (inversion H; subst; simpl in Hin; intuition discriminate).
  unfold classic_complete in H.
  change (alloc (set_lmp c (lmp_set (c_lmp c) a true))) with (alloc c) in H.
  destruct (alloc c); [|inversion H; subst; simpl in Hin; intuition discriminate].
  split; [reflexivity|].
  destruct (tbl_get (c_cl (set_lmp c (lmp_set (c_lmp c) a true))) a); inversion H; subst; simpl;
    (split; [apply lmp_get_set_same|]); destruct Hin as [Hin|[]]; inversion Hin; reflexivity.
Qed.
