(* Proofs about Model/RfcommMux.v: data links on one multiplexer do not interfere.
   Every run of the multiplexer system, projected on one DLCI, IS a run of the
   single-DLC system of Model/Rfcomm.v (under the projected schedule); all the
   single-DLC theorems therefore hold for each data link whatever the others do. *)
From Coq Require Import ZArith List Bool Lia.
From BV Require Import Model.Rfcomm Model.RfcommMux Proofs.Rfcomm.
Import ListNotations.
Open Scope Z_scope.

Lemma mux_get_set_same d x m :
  mux_get d (mux_set d x m) = match mux_get d m with Some _ => Some x | None => None end.
Proof.
  induction m as [|[k z] r IH]; cbn; [reflexivity|].
  destruct (k =? d) eqn:E; cbn; rewrite E; auto.
Qed.

Lemma mux_get_set_other d d' x m : d' <> d -> mux_get d (mux_set d' x m) = mux_get d m.
Proof.
  intros Hne. induction m as [|[k z] r IH]; cbn; [reflexivity|].
  destruct (k =? d') eqn:E; cbn.
  - apply Z.eqb_eq in E. subst k. destruct (d' =? d) eqn:E2; [apply Z.eqb_eq in E2; congruence|reflexivity].
  - destruct (k =? d); auto.
Qed.

Lemma chan_proj_app d a b : chan_proj d (a ++ b) = chan_proj d a ++ chan_proj d b.
Proof. unfold chan_proj. now rewrite filter_app, map_app. Qed.

Lemma chan_proj_tag_same d frs : chan_proj d (tag d frs) = frs.
Proof.
  unfold chan_proj, tag. induction frs as [|f r IH]; cbn; [reflexivity|].
  rewrite Z.eqb_refl. cbn. now rewrite IH.
Qed.

Lemma chan_proj_tag_other d d' frs : d' <> d -> chan_proj d (tag d' frs) = [].
Proof.
  intros Hne. unfold chan_proj, tag. induction frs as [|f r IH]; cbn; [reflexivity|].
  destruct (d' =? d) eqn:E; [apply Z.eqb_eq in E; congruence|exact IH].
Qed.

Lemma rcv_proj_app d a b : rcv_proj d (a ++ b) = rcv_proj d a ++ rcv_proj d b.
Proof. unfold rcv_proj. now rewrite filter_app, map_app, concat_app. Qed.

Lemma rcv_proj_log_same d data log : rcv_proj d (log_sink d data log) = rcv_proj d log ++ data.
Proof.
  unfold log_sink. destruct data as [|x r]; [now rewrite app_nil_r|].
  rewrite rcv_proj_app. unfold rcv_proj at 2. cbn. rewrite Z.eqb_refl. cbn. now rewrite app_nil_r.
Qed.

Lemma rcv_proj_log_other d d' data log : d' <> d -> rcv_proj d (log_sink d' data log) = rcv_proj d log.
Proof.
  intros Hne. unfold log_sink. destruct data as [|x r]; [reflexivity|].
  rewrite rcv_proj_app. unfold rcv_proj at 2. cbn.
  destruct (d' =? d) eqn:E; [apply Z.eqb_eq in E; congruence|]. cbn. now rewrite app_nil_r.
Qed.

Lemma zmem_note_same d ok bad : negb (zmem d (note_bad d ok bad)) = negb (zmem d bad) && ok.
Proof.
  unfold note_bad. destruct ok; cbn; [now rewrite andb_true_r|].
  rewrite Z.eqb_refl. cbn. now rewrite andb_false_r.
Qed.

Lemma zmem_note_other d d' ok bad : d' <> d -> zmem d (note_bad d' ok bad) = zmem d bad.
Proof.
  intros Hne. unfold note_bad. destruct ok; cbn; [reflexivity|].
  destruct (d =? d') eqn:E; [apply Z.eqb_eq in E; congruence|reflexivity].
Qed.

Lemma chan_proj_cons d d' fr rest :
  chan_proj d ((d', fr) :: rest) = if d' =? d then fr :: chan_proj d rest else chan_proj d rest.
Proof. unfold chan_proj. cbn. destruct (d' =? d); reflexivity. Qed.

(* how the projection on d sees what a step on d' does to each component *)
#[local] Hint Rewrite mux_get_set_same chan_proj_app chan_proj_tag_same rcv_proj_log_same
  zmem_note_same app_nil_r : mproj.
#[local] Hint Rewrite mux_get_set_other chan_proj_tag_other rcv_proj_log_other zmem_note_other
  using assumption : mproj.

(* after a step: reduce the fields of the new state, look at each through the projection,
   and recognise the two table entries of DLCI d *)
Local Ltac project Ea Eb :=
  cbn [m_a m_b m_ab m_ba m_rcv_a m_rcv_b m_bad]; autorewrite with mproj; rewrite Ea, Eb;
  reflexivity.

(* one multiplexer step is the projected single-DLC step (or a stutter) *)
Lemma proj_step P d s l x :
  proj d s = Some x ->
  proj d (mstep P s l) = Some (run P x (proj_label d s l)).
Proof.
  unfold proj. destruct (mux_get d (m_a s)) as [xa|] eqn:Ea; [|discriminate].
  destruct (mux_get d (m_b s)) as [xb|] eqn:Eb; [|discriminate]. intros [= <-].
  destruct l as [d' data|d' data| |]; cbn [mstep proj_label].
  - destruct (Z.eqb_spec d' d) as [->|Hne]; cbn [run step s_a].
    + rewrite Ea. destruct (dlc_write P xa data) as [[x' frs] ok]. project Ea Eb.
    + destruct (mux_get d' (m_a s)) as [y|]; [destruct (dlc_write P y data) as [[x' frs] ok]|]; project Ea Eb.
  - destruct (Z.eqb_spec d' d) as [->|Hne]; cbn [run step s_b].
    + rewrite Eb. destruct (dlc_write P xb data) as [[x' frs] ok]. project Ea Eb.
    + destruct (mux_get d' (m_b s)) as [y|]; [destruct (dlc_write P y data) as [[x' frs] ok]|]; project Ea Eb.
  - destruct (m_ab s) as [|[d' fr] rest] eqn:Eab; [cbn [run]; rewrite Ea, Eb, Eab; reflexivity|].
    rewrite chan_proj_cons. destruct (Z.eqb_spec d' d) as [->|Hne]; cbn [run step s_ab s_b].
    + rewrite Eb. destruct (dlc_on_uih P xb fr) as [[[x' frs] data] ok]. project Ea Eb.
    + destruct (mux_get d' (m_b s)) as [y|]; [destruct (dlc_on_uih P y fr) as [[[x' frs] data] ok]|]; project Ea Eb.
  - destruct (m_ba s) as [|[d' fr] rest] eqn:Eba; [cbn [run]; rewrite Ea, Eb, Eba; reflexivity|].
    rewrite chan_proj_cons. destruct (Z.eqb_spec d' d) as [->|Hne]; cbn [run step s_ba s_a].
    + rewrite Ea. destruct (dlc_on_uih P xa fr) as [[[x' frs] data] ok]. project Ea Eb.
    + destruct (mux_get d' (m_a s)) as [y|]; [destruct (dlc_on_uih P y fr) as [[[x' frs] data] ok]|]; project Ea Eb.
Qed.

(* dlcs_independent: for every schedule of the multiplexer system, the projection on
   DLCI d of the final state is the final state of the single-DLC system started
   from the projection of the initial state and run under the projected schedule *)
Lemma dlcs_independent P d : forall ls s x,
  proj d s = Some x ->
  proj d (mrun P s ls) = Some (run P x (proj_sched P d s ls)).
Proof.
  induction ls as [|l ls IH]; intros s x Hx; cbn [mrun proj_sched run].
  - exact Hx.
  - rewrite run_app. apply IH. apply proj_step. exact Hx.
Qed.

(* the initial multiplexer state projects on the single-DLC initial state *)
Fixpoint cfg_get (d : Z) (cfg : list (Z * pn * pn)) : option (pn * pn) :=
  match cfg with
  | [] => None
  | (k, ini, rsp) :: r => if k =? d then Some (ini, rsp) else cfg_get d r
  end.

Lemma msetup_proj cfg mtu_i mtu_r d ini rsp :
  cfg_get d cfg = Some (ini, rsp) ->
  proj d (msetup cfg mtu_i mtu_r) = Some (setup ini rsp mtu_i mtu_r).
Proof.
  intros H. unfold proj, msetup. cbn [m_a m_b m_ab m_ba m_rcv_a m_rcv_b m_bad].
  induction cfg as [|[[k i] r] c IH]; cbn in *; [discriminate|].
  destruct (k =? d); [injection H as -> ->; reflexivity|exact (IH H)].
Qed.

(* hence: on every data link of a multiplexer, whatever is written on the others and
   however the shared channel is scheduled, the stream is exact, the credit ledger
   balances, no fuel is exhausted, and with the channel drained everything written
   on that link has reached the peer's sink *)
Lemma mux_stream_exact P cfg mtu_i mtu_r d ini rsp ls :
  wf_params_b P = true -> wf_link_b ini rsp mtu_i mtu_r = true ->
  cfg_get d cfg = Some (ini, rsp) ->
  exists x, proj d (mrun P (msetup cfg mtu_i mtu_r) ls) = Some x /\
    let sl := proj_sched P d (msetup cfg mtu_i mtu_r) ls in
    s_rcv_b x ++ flight_data (s_ab x) ++ d_tx_buf (s_a x) = writes_a sl /\
    s_rcv_a x ++ flight_data (s_ba x) ++ d_tx_buf (s_b x) = writes_b sl /\
    s_ok x = true /\
    d_tx_credits (s_a x) + n_data (s_ab x) + sum_credits (s_ba x) = d_rx_credits (s_b x) /\
    d_tx_credits (s_b x) + n_data (s_ba x) + sum_credits (s_ab x) = d_rx_credits (s_a x) /\
    (s_ab x = [] -> s_ba x = [] -> s_rcv_b x = writes_a sl /\ s_rcv_a x = writes_b sl).
Proof.
  intros HP Hwf Hc. eexists. split; [apply dlcs_independent, msetup_proj; exact Hc|].
  cbn zeta. set (sl := proj_sched P d (msetup cfg mtu_i mtu_r) ls).
  destruct (stream_exact P ini rsp mtu_i mtu_r HP Hwf sl) as [H1 H2].
  destruct (credit_safe P ini rsp mtu_i mtu_r HP Hwf sl) as (L1 & L2 & _).
  pose proof (fuel_ok P ini rsp mtu_i mtu_r HP Hwf sl) as Hf.
  pose proof (progress P ini rsp mtu_i mtu_r HP Hwf sl) as Hp. cbn zeta in Hp.
  repeat split; try assumption; apply Hp; assumption.
Qed.

(* the projected schedule writes on A exactly what the multiplexer schedule writes on
   DLCI d at A (so "written on that link" above is what the application wrote there) *)
Fixpoint mwrites_a (d : Z) (ls : list mlabel) : list Z :=
  match ls with
  | [] => []
  | MWriteA d' data :: r => (if d' =? d then data else []) ++ mwrites_a d r
  | _ :: r => mwrites_a d r
  end.
Fixpoint mwrites_b (d : Z) (ls : list mlabel) : list Z :=
  match ls with
  | [] => []
  | MWriteB d' data :: r => (if d' =? d then data else []) ++ mwrites_b d r
  | _ :: r => mwrites_b d r
  end.

Lemma proj_sched_writes P d : forall ls s,
  writes_a (proj_sched P d s ls) = mwrites_a d ls /\
  writes_b (proj_sched P d s ls) = mwrites_b d ls.
Proof.
  induction ls as [|l ls IH]; intros s; [split; reflexivity|].
  cbn [proj_sched]. rewrite writes_a_app, writes_b_app.
  destruct (IH (mstep P s l)) as [Ia Ib]. rewrite Ia, Ib.
  destruct l as [d' data|d' data| |]; cbn [proj_label mwrites_a mwrites_b].
  - destruct (d' =? d); cbn; rewrite ?app_nil_r; split; reflexivity.
  - destruct (d' =? d); cbn; rewrite ?app_nil_r; split; reflexivity.
  - destruct (m_ab s) as [|[d' fr] r]; [split; reflexivity|]. destruct (d' =? d); split; reflexivity.
  - destruct (m_ba s) as [|[d' fr] r]; [split; reflexivity|]. destruct (d' =? d); split; reflexivity.
Qed.
