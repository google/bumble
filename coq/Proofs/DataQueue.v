(* Proofs about Model/DataQueue.v.  The send-while-credit loop is specified once, in the form
   in which a hand-over may raise (Model/DataQueueFail.v); the plain loop is the case in which
   none does.  Every operation is bookkeeping followed by that loop ([q_pre], then [run_check]):
   the invariant is proved along that cut, FIFO from the loop's specification. *)
From Coq Require Import ZArith List Bool Lia.
From BV Require Import Model.DataQueue Model.DataQueueFail.
Import ListNotations.
Open Scope Z_scope.

(* validity of histories: completion counts are unsigned *)
Definition op_ok (o : qop) : Prop :=
  match o with Completed n _ => 0 <= n | _ => True end.

(* the connection table after the packets [sent] were handed over: one bump per packet *)
Definition bumps (sent : list (Z * Z)) (cs : list conn) : list conn :=
  fold_left (fun cs ph => bump_conn (snd ph) cs) sent cs.

(* The send-while-credit loop when hand-overs can raise ([fails p]: handing p over raises): the
   packets sent took one credit each, none of them failed, and the loop stopped at a failing
   packet (dropped) with credit left, or for lack of packets or of credit. *)
Lemma check_queue_f_spec fails maxf : forall w infl cs,
  let '(infl', cs', w', sent, r) := check_queue_f fails maxf infl cs w in
  infl' = infl + Z.of_nat (length sent) /\ cs' = bumps sent cs /\
  (infl <= maxf -> infl' <= maxf) /\ Forall (fun ph => fails (fst ph) = false) sent /\
  (if r then exists p h, w = sent ++ (p, h) :: w' /\ fails p = true /\ infl' < maxf
   else w = sent ++ w' /\ (w' <> [] -> maxf <= infl')).
Proof.
  induction w as [|[p h] w IH]; intros infl cs; cbn [check_queue_f].
  - cbn. repeat split; auto; try lia. intros H; congruence.
  - destruct (Z.ltb infl maxf) eqn:E.
    + apply Z.ltb_lt in E. destruct (fails p) eqn:Fp.
      * cbn. repeat split; auto; try lia. exists p, h. repeat split; auto.
      * specialize (IH (infl + 1) (bump_conn h cs)).
        destruct (check_queue_f fails maxf (infl + 1) (bump_conn h cs) w) as [[[[i c] w'] s] r].
        destruct IH as (Hi & Hc & Hle & Hok & Hr).
        repeat split.
        -- cbn [length]. lia.
        -- exact Hc.
        -- lia.
        -- constructor; [exact Fp|exact Hok].
        -- destruct r.
           ++ destruct Hr as (p' & h' & Hw & Hf & Hlt). exists p', h'. cbn. rewrite Hw. auto.
           ++ destruct Hr as (Hw & Hwc). cbn. rewrite Hw at 1. auto.
    + apply Z.ltb_ge in E. cbn. repeat split; auto; try lia.
Qed.

(* the plain loop is the one in which no hand-over raises *)
Lemma check_queue_f_nofail fails maxf : (forall p, fails p = false) ->
  forall w infl cs, check_queue_f fails maxf infl cs w = (check_queue maxf infl cs w, false).
Proof.
  intros Hf. induction w as [|[p h] w IH]; intros infl cs; cbn [check_queue_f check_queue].
  - reflexivity.
  - destruct (Z.ltb infl maxf); [|reflexivity]. rewrite Hf, IH.
    destruct (check_queue maxf (infl + 1) (bump_conn h cs) w) as [[[i c] w'] s]. reflexivity.
Qed.

Lemma check_queue_spec maxf infl cs w :
  let '(infl', cs', w', sent) := check_queue maxf infl cs w in
  w = sent ++ w' /\ infl' = infl + Z.of_nat (length sent) /\ cs' = bumps sent cs /\
  (infl <= maxf -> infl' <= maxf) /\ (w' <> [] -> maxf <= infl').
Proof.
  pose proof (check_queue_f_spec (fun _ => false) maxf w infl cs) as H.
  rewrite check_queue_f_nofail in H by reflexivity.
  destruct (check_queue maxf infl cs w) as [[[i c] w'] s]. tauto.
Qed.

Lemma run_check_spec s :
  let '(s', sent) := run_check s in
  q_wait s = sent ++ q_wait s' /\
  q_inflight s' = q_inflight s + Z.of_nat (length sent) /\
  q_max s' = q_max s /\
  (q_inflight s <= q_max s -> q_inflight s' <= q_max s) /\
  (q_wait s' <> [] -> q_max s <= q_inflight s').
Proof.
  unfold run_check.
  pose proof (check_queue_spec (q_max s) (q_inflight s) (q_conns s) (q_wait s)) as H.
  destruct (check_queue (q_max s) (q_inflight s) (q_conns s) (q_wait s)) as [[[i c] w'] snt].
  cbn. tauto.
Qed.

Definition credit_inv (s : qstate) : Prop := 0 <= q_inflight s <= q_max s.

Lemma find_conn_nonneg h cs c :
  Forall (fun c => 0 <= c_inflight c) cs -> find_conn h cs = Some c -> 0 <= c_inflight c.
Proof.
  induction cs as [|x cs IH]; cbn; intros HF Hf; [discriminate|].
  inversion HF; subst. destruct (Z.eqb (c_handle x) h); [now inversion Hf; subst|auto].
Qed.

(* each per-connection count lies between 0 and the global count: weaker than [inv] below
   (it follows from [inv_sum] and [inv_nonneg]) *)
Definition conns_inv (s : qstate) : Prop :=
  Forall (fun c => 0 <= c_inflight c <= q_inflight s) (q_conns s).

Lemma bump_conn_inv h cs k :
  0 <= k ->
  Forall (fun c => 0 <= c_inflight c <= k) cs ->
  Forall (fun c => 0 <= c_inflight c <= k + 1) (bump_conn h cs).
Proof.
  intros Hk. induction cs as [|x cs IH]; cbn; intros HF.
  - constructor; [cbn; lia|constructor].
  - inversion HF; subst. destruct (Z.eqb (c_handle x) h).
    + constructor; [cbn; lia|]. eapply Forall_impl; [|eassumption]. cbn; intros; lia.
    + constructor; [lia|auto].
Qed.

Fixpoint sum_conns (cs : list conn) : Z :=
  match cs with [] => 0 | c :: cs' => c_inflight c + sum_conns cs' end.

Definition conns_nonneg (cs : list conn) : Prop := Forall (fun c => 0 <= c_inflight c) cs.

Fixpoint handles (cs : list conn) : list Z :=
  match cs with [] => [] | c :: cs' => c_handle c :: handles cs' end.

Definition drained_ok (cs : list conn) : Prop :=
  Forall (fun c => c_inflight c = 0 <-> c_drained c = true) cs.

Record inv (s : qstate) : Prop := {
  inv_sum : q_inflight s = sum_conns (q_conns s);
  inv_nonneg : conns_nonneg (q_conns s);
  inv_nodup : NoDup (handles (q_conns s));
  inv_bound : q_inflight s <= q_max s;
  inv_work : q_wait s <> [] -> q_max s <= q_inflight s;
  inv_drained : drained_ok (q_conns s)
}.

Lemma bump_sum h cs : sum_conns (bump_conn h cs) = sum_conns cs + 1.
Proof. induction cs as [|x cs IH]; cbn; [lia|]. destruct (Z.eqb _ _); cbn; lia. Qed.

Lemma bump_nonneg h cs : conns_nonneg cs -> conns_nonneg (bump_conn h cs).
Proof.
  unfold conns_nonneg. induction cs as [|x cs IH]; cbn; intros H.
  - constructor; [cbn; lia|constructor].
  - inversion H; subst. destruct (Z.eqb _ _); constructor; cbn; auto; lia.
Qed.

Lemma bump_handles_in h cs k : In k (handles (bump_conn h cs)) -> k = h \/ In k (handles cs).
Proof.
  induction cs as [|x cs IH]; cbn; [intuition|].
  destruct (Z.eqb (c_handle x) h) eqn:E; cbn.
  - apply Z.eqb_eq in E. intros [H|H]; [left; lia | right; right; exact H].
  - intros [H|H]; [right; left; exact H|]. destruct (IH H); tauto.
Qed.

Lemma bump_nodup h cs : NoDup (handles cs) -> NoDup (handles (bump_conn h cs)).
Proof.
  induction cs as [|x cs IH]; cbn; intros H.
  - constructor; [tauto|constructor].
  - inversion H; subst. destruct (Z.eqb (c_handle x) h) eqn:E; cbn.
    + constructor; [|assumption]. apply Z.eqb_eq in E. now rewrite <- E.
    + constructor; [|auto]. intros Hin. apply bump_handles_in in Hin.
      apply Z.eqb_neq in E. destruct Hin; [congruence|contradiction].
Qed.

Lemma bump_drained h cs : conns_nonneg cs -> drained_ok cs -> drained_ok (bump_conn h cs).
Proof.
  unfold conns_nonneg, drained_ok. induction cs as [|x cs IH]; cbn; intros Hn H.
  - constructor; [cbn; lia|constructor].
  - inversion H; subst. inversion Hn; subst.
    destruct (Z.eqb _ _); constructor; cbn; auto; lia.
Qed.

Lemma bumps_acct sent : forall cs,
  sum_conns (bumps sent cs) = sum_conns cs + Z.of_nat (length sent) /\
  (conns_nonneg cs -> conns_nonneg (bumps sent cs)) /\
  (NoDup (handles cs) -> NoDup (handles (bumps sent cs))) /\
  (conns_nonneg cs -> drained_ok cs -> drained_ok (bumps sent cs)).
Proof.
  induction sent as [|[p h] sent IH]; intros cs; [cbn; repeat split; auto; lia|].
  change (bumps ((p, h) :: sent) cs) with (bumps sent (bump_conn h cs)).
  destruct (IH (bump_conn h cs)) as (Hs & Hn & Hd & Hdr). rewrite Hs, bump_sum. cbn [length].
  repeat split; [lia|intros..].
  - apply Hn, bump_nonneg; assumption.
  - apply Hd, bump_nodup; assumption.
  - apply Hdr; [apply bump_nonneg|apply bump_drained]; assumption.
Qed.

(* The accounting part of the invariant: everything but work conservation.  Each operation
   keeps it up to its call of _check_queue() ([q_pre]); the pump then adds work conservation. *)
Definition acct (s : qstate) : Prop :=
  q_inflight s = sum_conns (q_conns s) /\ conns_nonneg (q_conns s) /\
  NoDup (handles (q_conns s)) /\ q_inflight s <= q_max s /\ drained_ok (q_conns s).

Lemma inv_acct s : inv s -> acct s.
Proof. intros [A B C D _ E]. repeat split; assumption. Qed.

Lemma run_check_inv s : acct s -> inv (fst (run_check s)).
Proof.
  intros (Hs & Hn & Hd & Hb & Hdr).
  pose proof (check_queue_spec (q_max s) (q_inflight s) (q_conns s) (q_wait s)) as H.
  unfold run_check.
  destruct (check_queue (q_max s) (q_inflight s) (q_conns s) (q_wait s)) as [[[i c] w'] snt].
  destruct H as (Hw & Hi & -> & Hle & Hwc). destruct (bumps_acct snt (q_conns s)) as (Hsum & Hnn & Hnd & Hdd).
  cbn. constructor; cbn; auto; lia.
Qed.

Lemma find_conn_in h cs c : find_conn h cs = Some c -> In c cs /\ c_handle c = h.
Proof.
  induction cs as [|x cs IH]; cbn; [discriminate|].
  destruct (Z.eqb (c_handle x) h) eqn:E.
  - intros H; inversion H; subst. apply Z.eqb_eq in E. auto.
  - intros H. destruct (IH H). auto.
Qed.

Lemma remove_conn_none h l : ~ In h (handles l) -> remove_conn h l = l.
Proof.
  induction l as [|y l IHl]; cbn; [reflexivity|]. intros Hni.
  destruct (Z.eqb (c_handle y) h) eqn:E2; [apply Z.eqb_eq in E2; tauto|].
  f_equal. apply IHl. tauto.
Qed.

Lemma remove_conn_sum h cs c :
  NoDup (handles cs) -> find_conn h cs = Some c ->
  sum_conns (remove_conn h cs) = sum_conns cs - c_inflight c.
Proof.
  induction cs as [|x cs IH]; cbn; [discriminate|]. intros Hd Hf.
  inversion Hd; subst. destruct (Z.eqb (c_handle x) h) eqn:E.
  - inversion Hf; subst. apply Z.eqb_eq in E.
    rewrite remove_conn_none; [lia|]. now rewrite <- E.
  - cbn. rewrite IH; auto. lia.
Qed.

Lemma remove_conn_incl h cs k : In k (handles (remove_conn h cs)) -> In k (handles cs).
Proof.
  induction cs as [|x cs IH]; cbn; [tauto|].
  destruct (Z.eqb _ _); cbn; tauto.
Qed.

Lemma remove_conn_nodup h cs : NoDup (handles cs) -> NoDup (handles (remove_conn h cs)).
Proof.
  induction cs as [|x cs IH]; cbn; intros H; [constructor|]. inversion H; subst.
  destruct (Z.eqb _ _); cbn; auto. constructor; auto.
  intros Hin; apply remove_conn_incl in Hin; contradiction.
Qed.

Lemma remove_conn_Forall (P : conn -> Prop) h cs : Forall P cs -> Forall P (remove_conn h cs).
Proof.
  induction cs as [|x cs IH]; cbn; intros H; [constructor|]. inversion H; subst.
  destruct (Z.eqb _ _); auto.
Qed.

Lemma remove_conn_absent h cs : ~ In h (handles (remove_conn h cs)).
Proof.
  induction cs as [|x cs IH]; cbn; [tauto|].
  destruct (Z.eqb (c_handle x) h) eqn:E; cbn; [assumption|].
  apply Z.eqb_neq in E. tauto.
Qed.

Lemma set_conn_sum h n d cs c :
  NoDup (handles cs) -> find_conn h cs = Some c ->
  sum_conns (set_conn h n d cs) = sum_conns cs - c_inflight c + n.
Proof.
  induction cs as [|x cs IH]; cbn; [discriminate|]. intros Hd Hf.
  inversion Hd; subst. destruct (Z.eqb (c_handle x) h) eqn:E.
  - inversion Hf; subst. cbn. lia.
  - cbn. rewrite IH; auto. lia.
Qed.

Lemma set_conn_handles h n d cs : handles (set_conn h n d cs) = handles cs.
Proof.
  induction cs as [|x cs IH]; cbn; [reflexivity|].
  destruct (Z.eqb (c_handle x) h) eqn:E; cbn; [apply Z.eqb_eq in E; now rewrite E|now rewrite IH].
Qed.

Lemma set_conn_Forall (P : conn -> Prop) h n d cs :
  Forall P cs -> P (mkConn h n d) -> Forall P (set_conn h n d cs).
Proof.
  induction cs as [|x cs IH]; cbn; intros H Hp; [constructor|]. inversion H; subst.
  destruct (Z.eqb _ _); constructor; auto.
Qed.

Lemma inv_init maxf : 0 <= maxf -> inv (q_init maxf).
Proof.
  intros H. constructor; cbn; try constructor; try lia. intros; congruence.
Qed.

Lemma q_step_pre s o :
  q_step s o = match q_pre s o with Some t => run_check t | None => (s, []) end.
Proof.
  destruct o as [p h|h|n h]; cbn [q_step q_pre]; try reflexivity.
  destruct (find_conn h (q_conns s)); reflexivity.
Qed.

Lemma pre_acct s o t : op_ok o -> acct s -> q_pre s o = Some t -> acct t.
Proof.
  intros Hok (Hs & Hn & Hd & Hb & Hdr).
  destruct o as [p h|h|n h]; cbn [q_pre q_conns q_inflight q_max q_wait q_queued q_completed].
  - intros [= <-]. repeat split; assumption.
  - destruct (find_conn h (q_conns s)) as [c|] eqn:Hf; intros [= <-]; [|repeat split; assumption].
    pose proof (find_conn_nonneg h _ c Hn Hf). unfold acct. cbn.
    rewrite (remove_conn_sum _ _ _ Hd Hf).
    repeat split; try lia; (apply remove_conn_Forall || apply remove_conn_nodup); assumption.
  - destruct (find_conn h (q_conns s)) as [c|] eqn:Hf; [|discriminate]. intros [= <-].
    pose proof (find_conn_nonneg h _ c Hn Hf). cbn in Hok.
    assert (Hc : c_inflight c = 0 <-> c_drained c = true).
    { destruct (find_conn_in _ _ _ Hf) as [Hin _]. eapply Forall_forall in Hdr; eauto. }
    unfold acct. cbn. rewrite (set_conn_sum _ _ _ _ _ Hd Hf), set_conn_handles.
    (* the count reported is clamped to what is in flight *)
    destruct (Z.leb_spec n (c_inflight c));
      repeat split; try lia; try assumption; apply set_conn_Forall; try assumption; cbn; try lia.
    (* drained is set when the last packet of the connection completes, and stays set *)
    rewrite orb_true_iff, Z.eqb_eq. intuition lia.
Qed.

Lemma step_inv s o : op_ok o -> inv s -> inv (fst (q_step s o)).
Proof.
  intros Hok Hi. rewrite q_step_pre. destruct (q_pre s o) as [t|] eqn:E; [|exact Hi].
  apply run_check_inv. exact (pre_acct s o t Hok (inv_acct s Hi) E).
Qed.

Definition ops_ok (ops : list qop) : Prop := Forall op_ok ops.

Lemma run_inv ops : forall s, ops_ok ops -> inv s -> inv (fst (q_run s ops)).
Proof.
  induction ops as [|o ops IH]; intros s Hok Hi; cbn [q_run]; [exact Hi|].
  inversion Hok; subst.
  pose proof (step_inv s o H1 Hi) as H. destruct (q_step s o) as [s1 o1]. cbn in H.
  specialize (IH s1 H2 H). destruct (q_run s1 ops) as [s2 o2]. exact IH.
Qed.

(* The simplest possible specification of the waiting list: an unbounded FIFO in
   which Flush h deletes h's packets that have not been handed over yet. *)
Definition spec_wait (w : list (Z * Z)) (o : qop) : list (Z * Z) :=
  match o with
  | Enqueue p h => w ++ [(p, h)]
  | Flush h => filter (not_handle h) w
  | Completed _ _ => w
  end.

(* per step: what is handed over, followed by what still waits, is exactly the
   spec's list: packets leave from the front, in order, each once, none invented *)
Lemma step_fifo s o :
  let '(s', sent) := q_step s o in sent ++ q_wait s' = spec_wait (q_wait s) o.
Proof.
  assert (R : forall t, let '(t', snt) := run_check t in snt ++ q_wait t' = q_wait t).
  { intros t. pose proof (run_check_spec t) as H. destruct (run_check t). symmetry; tauto. }
  destruct o as [p h|h|n h]; cbn [q_step spec_wait].
  - match goal with |- context [run_check ?t] => specialize (R t) end.
    destruct (run_check _). exact R.
  - match goal with |- context [run_check ?t] => specialize (R t) end.
    destruct (run_check _). rewrite R. destruct (find_conn _ _); reflexivity.
  - destruct (find_conn _ _).
    + match goal with |- context [run_check ?t] => specialize (R t) end.
      destruct (run_check _). exact R.
    + reflexivity.
Qed.

Definition is_handle (h : Z) (ph : Z * Z) : bool := Z.eqb (snd ph) h.

Fixpoint enqueued (h : Z) (ops : list qop) : list (Z * Z) :=
  match ops with
  | [] => []
  | Enqueue p h' :: ops' => if Z.eqb h' h then (p, h') :: enqueued h ops' else enqueued h ops'
  | _ :: ops' => enqueued h ops'
  end.

Fixpoint flushes (h : Z) (ops : list qop) : bool :=
  match ops with
  | [] => false
  | Flush h' :: ops' => orb (Z.eqb h' h) (flushes h ops')
  | _ :: ops' => flushes h ops'
  end.

Lemma filter_is_not h h' w : h' <> h ->
  filter (is_handle h) (filter (not_handle h') w) = filter (is_handle h) w.
Proof.
  intros Hne. induction w as [|[p k] w IH]; cbn; [reflexivity|].
  unfold not_handle, is_handle in *. cbn.
  destruct (Z.eqb k h') eqn:E1; destruct (Z.eqb k h) eqn:E2; cbn; rewrite ?E2, ?IH; auto.
  apply Z.eqb_eq in E1, E2. congruence.
Qed.

(* For a connection that is not flushed during the history, everything enqueued is
   handed over exactly once and in order, or is still waiting behind what was sent. *)
Lemma fifo_per_handle h ops : forall s,
  flushes h ops = false ->
  let '(s', sent) := q_run s ops in
  filter (is_handle h) sent ++ filter (is_handle h) (q_wait s') =
  filter (is_handle h) (q_wait s) ++ enqueued h ops.
Proof.
  induction ops as [|o ops IH]; intros s Hfl; cbn [q_run].
  - cbn. now rewrite app_nil_r.
  - pose proof (step_fifo s o) as Hstep. destruct (q_step s o) as [s1 o1].
    assert (Hfl' : flushes h ops = false).
    { destruct o; cbn in Hfl; auto. apply orb_false_iff in Hfl; tauto. }
    specialize (IH s1 Hfl'). destruct (q_run s1 ops) as [s2 o2].
    rewrite filter_app, <- app_assoc, IH, app_assoc, <- filter_app, Hstep.
    destruct o as [p k|k|n k]; cbn [spec_wait enqueued].
    + rewrite filter_app. cbn. unfold is_handle at 2. cbn.
      destruct (Z.eqb k h); cbn; now rewrite <- ?app_assoc, ?app_nil_r.
    + cbn in Hfl. apply orb_false_iff in Hfl. destruct Hfl as [Hk _].
      apply Z.eqb_neq in Hk. now rewrite filter_is_not.
    + reflexivity.
Qed.

Lemma filter_is_not_same h w : filter (is_handle h) (filter (not_handle h) w) = [].
Proof.
  induction w as [|[p k] w IH]; cbn; [reflexivity|].
  unfold not_handle, is_handle in *. cbn. destruct (Z.eqb k h) eqn:E; cbn; rewrite ?E; cbn; auto.
Qed.
