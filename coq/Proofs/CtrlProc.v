(* Proofs about Model/CtrlProc.v: for every sequence of commands and peer actions, each
   followed by the delivery of what it put on the link, the only procedures still open are
   the ones that are open-ended by specification (an invariant of quiet states).  For arbitrary
   interleavings there is the evaluation to a bounded depth, [all_ok], and what it covers. *)
From Coq Require Import ZArith List Bool Lia.
From BV Require Import Model.CtrlProc Proofs.CtrlProcScope Proofs.Skeleton.
Import ListNotations.
Open Scope Z_scope.

Lemma memz_In a l : memz a l = true <-> In a l.
Proof.
  unfold memz. rewrite existsb_exists. split.
  - intros [x [Hx E]]. apply Z.eqb_eq in E. now subst.
  - intros H. exists a. split; [exact H | apply Z.eqb_refl].
Qed.

Lemma memz_app a l1 l2 : memz a (l1 ++ l2) = memz a l1 || memz a l2.
Proof. apply existsb_app. Qed.

Lemma memz_app_r a l : memz a (l ++ [a]) = true.
Proof. rewrite memz_app. cbn. rewrite Z.eqb_refl. now rewrite !orb_true_r. Qed.

Lemma memz_app_l a b l : memz a l = true -> memz a (l ++ [b]) = true.
Proof. intros H. rewrite memz_app, H. reflexivity. Qed.

Lemma memz_remz a b l : memz a l = true -> a <> b -> memz a (remz b l) = true.
Proof.
  rewrite !memz_In. unfold remz. intros H N. apply filter_In. split; [exact H|].
  apply negb_true_iff. apply Z.eqb_neq. congruence.
Qed.

Lemma proc_eqb_eq p q : proc_eqb p q = true <-> p = q.
Proof.
  destruct p, q; cbn; try (split; discriminate); rewrite Z.eqb_eq; split; congruence.
Qed.

Lemma proc_eqb_refl p : proc_eqb p p = true.
Proof. now apply proc_eqb_eq. Qed.

Lemma close_In p q l : In q (close p l) -> In q l.
Proof.
  induction l as [|x l IH]; cbn; [tauto|].
  destruct (proc_eqb p x); cbn; intros H; [auto | destruct H; auto].
Qed.

Lemma close_NoDup p l : NoDup l -> NoDup (close p l).
Proof.
  induction l as [|x l IH]; cbn; intros ND; [constructor|].
  inversion ND as [|? ? Hn ND']; subst. destruct (proc_eqb p x); [exact ND'|].
  constructor; [|apply IH; exact ND']. intros H. apply Hn. apply (close_In _ _ _ H).
Qed.

Lemma close_not_In p l : NoDup l -> ~ In p (close p l).
Proof.
  induction l as [|x l IH]; cbn; intros ND; [tauto|].
  inversion ND as [|? ? Hn ND']; subst. destruct (proc_eqb p x) eqn:E.
  - apply proc_eqb_eq in E. subst. exact Hn.
  - cbn. intros [H|H]; [subst; rewrite proc_eqb_refl in E; discriminate | exact (IH ND' H)].
Qed.

Lemma close_app_new p l : ~ In p l -> close p (l ++ [p]) = l.
Proof.
  induction l as [|x l IH]; cbn; intros H.
  - now rewrite proc_eqb_refl.
  - destruct (proc_eqb p x) eqn:E.
    + apply proc_eqb_eq in E. subst. tauto.
    + f_equal. apply IH. tauto.
Qed.

Lemma existsb_proc_false p l : existsb (proc_eqb p) l = false -> ~ In p l.
Proof.
  intros H Hin. assert (existsb (proc_eqb p) l = true); [|congruence].
  apply existsb_exists. exists p. split; [exact Hin | apply proc_eqb_refl].
Qed.

Lemma drop_handle_In h p l : In p (drop_handle h l) -> In p l.
Proof. unfold drop_handle. intros H. apply filter_In in H. tauto. Qed.

Lemma drop_handle_NoDup h l : NoDup l -> NoDup (drop_handle h l).
Proof. apply NoDup_filter. Qed.

Lemma find_conn_LE h l k : find_conn h LE l = Some k -> In k l /\ k_handle k = h /\ is_le k = true.
Proof.
  unfold find_conn. intros H. apply find_some in H. destruct H as [Hin H].
  apply andb_true_iff in H. destruct H as [H1 H2]. apply Z.eqb_eq in H1.
  unfold is_le. destruct (k_tr k); [auto | discriminate].
Qed.

Lemma find_any_In h l k : find_any h l = Some k -> In k l /\ k_handle k = h.
Proof.
  unfold find_any. intros H. apply find_some in H. destruct H as [Hin H]. apply Z.eqb_eq in H. auto.
Qed.

Lemma conn_to_LE a l k : conn_to a LE l = Some k -> In k l /\ k_addr k = a /\ is_le k = true.
Proof.
  unfold conn_to. intros H. apply find_some in H. destruct H as [Hin H].
  apply andb_true_iff in H. destruct H as [H1 H2]. apply Z.eqb_eq in H1.
  unfold is_le. destruct (k_tr k); [auto | discriminate].
Qed.

Lemma conn_to_LE_none a l : conn_to a LE l = None -> forall k, In k l -> is_le k = true -> k_addr k <> a.
Proof.
  unfold conn_to. intros H k Hin Hle E.
  pose proof (find_none _ _ H k Hin) as F. cbn in F. unfold is_le in Hle.
  rewrite E, Z.eqb_refl in F. destruct (k_tr k); discriminate.
Qed.

Lemma rem_conn_In h l k : In k (rem_conn h l) -> In k l /\ k_handle k <> h.
Proof.
  unfold rem_conn. intros H. apply filter_In in H. destruct H as [Hin H].
  apply negb_true_iff, Z.eqb_neq in H. auto.
Qed.

(* The invariant of quiet states, in two independent parts.

   The open procedures, given the pending LE address and the peers whose host holds a classic
   connection request: there are no duplicates, and each is open-ended for a reason the state
   records. *)
Definition open_ok (pend : option Z) (req present : list Z) (p : proc) : Prop :=
  match p with
  | PLe a => pend = Some a
  | PClassic a => memz a req = true /\ memz a present = true
  | PFeat _ | PName _ => False
  end.

Definition OpenInv pend req present (open : list proc) : Prop :=
  NoDup open /\ forall p, In p open -> open_ok pend req present p.

(* The connections, given the peers that hold their end of an LE connection: the peer of an LE
   connection is on the link and has its end; there is one LE connection per peer. *)
Definition ConnInv (conns : list conn) (peer_conn present : list Z) : Prop :=
  (forall k, In k conns -> is_le k = true ->
             memz (k_addr k) peer_conn = true /\ memz (k_addr k) present = true) /\
  (forall k1 k2, In k1 conns -> In k2 conns -> is_le k1 = true -> is_le k2 = true ->
                 k_addr k1 = k_addr k2 -> k1 = k2).

Definition QInv (s : pstate) : Prop :=
  p_to s = [] /\ p_from s = [] /\
  OpenInv (p_pend_le s) (p_peer_req s) (p_present s) (p_open s) /\
  ConnInv (p_conns s) (p_peer_conn s) (p_present s).

Lemma qinv_init present : QInv (p_init present).
Proof. repeat split; try constructor; cbn in *; tauto. Qed.

Section OpenInv.
  Variables (pend : option Z) (req present : list Z) (open : list proc).
  Hypothesis O : OpenInv pend req present open.

  Lemma open_inv_not_in p : ~ open_ok pend req present p -> ~ In p open.
  Proof. intros N H. exact (N (proj2 O p H)). Qed.

  (* a procedure is opened; what the others rest on may only grow *)
  Lemma open_inv_add pend' req' p :
    ~ In p open -> open_ok pend' req' present p ->
    (forall q, open_ok pend req present q -> open_ok pend' req' present q) ->
    OpenInv pend' req' present (open ++ [p]).
  Proof.
    intros Hn Hp W. split; [apply NoDup_app_one; [apply O | exact Hn]|].
    intros q H. apply in_app_or in H. destruct H as [H|[<-|[]]]; [apply W, O, H | exact Hp].
  Qed.

  (* p is concluded; what only p rested on may go with it *)
  Lemma open_inv_close pend' req' p :
    (forall q, q <> p -> open_ok pend req present q -> open_ok pend' req' present q) ->
    OpenInv pend' req' present (close p open).
  Proof.
    intros W. destruct O as [N A]. split; [apply close_NoDup, N|].
    intros q H. apply W; [|apply A, (close_In _ _ _ H)]. intros ->. exact (close_not_In _ _ N H).
  Qed.

  Lemma open_inv_drop h : OpenInv pend req present (drop_handle h open).
  Proof.
    split; [apply drop_handle_NoDup, O | intros p H; apply O, (drop_handle_In _ _ _ H)].
  Qed.
End OpenInv.

(* the pending LE connection creation is concluded, by the connection or by its cancellation *)
Lemma open_inv_le_done a req present open :
  OpenInv (Some a) req present open -> OpenInv None req present (close (PLe a) open).
Proof.
  intros O. apply (open_inv_close _ _ _ _ O). intros [a'| |a'|] N H; try exact H.
  exfalso. apply N. congruence.
Qed.

Section ConnInv.
  Variables (conns : list conn) (pc present : list Z).
  Hypothesis C : ConnInv conns pc present.

  Lemma conn_to_unique k : In k conns -> is_le k = true -> conn_to (k_addr k) LE conns = Some k.
  Proof.
    intros Hin Hle. destruct (conn_to (k_addr k) LE conns) as [k'|] eqn:E.
    - destruct (conn_to_LE _ _ _ E) as [Hin' [Ha Hle']]. f_equal. apply (proj2 C); auto.
    - exfalso. exact (conn_to_LE_none _ _ E k Hin Hle eq_refl).
  Qed.

  Lemma conn_inv_sub conns' : (forall k, In k conns' -> In k conns) -> ConnInv conns' pc present.
  Proof. intros S. split; [intros k H; apply C, S, H | intros k1 k2 H1 H2; apply C; auto]. Qed.

  Lemma conn_inv_remz a : (forall k, In k conns -> is_le k = true -> k_addr k <> a) ->
    ConnInv conns (remz a pc) present.
  Proof.
    intros N. split; [|apply C]. intros k H L. destruct (proj1 C k H L) as [A1 A2].
    split; [apply memz_remz; [exact A1 | exact (N k H L)] | exact A2].
  Qed.

  Lemma conn_inv_more_pc a : ConnInv conns (pc ++ [a]) present.
  Proof.
    split; [|apply C]. intros k H L. destruct (proj1 C k H L). split; [apply memz_app_l|]; assumption.
  Qed.

  Lemma conn_inv_add k :
    (is_le k = true -> memz (k_addr k) pc = true /\ memz (k_addr k) present = true /\
                       conn_to (k_addr k) LE conns = None) ->
    ConnInv (conns ++ [k]) pc present.
  Proof.
    intros Hk. split.
    - intros k' H L. apply in_app_or in H. destruct H as [H|[<-|[]]]; [exact (proj1 C k' H L)|].
      destruct (Hk L) as (? & ? & _). auto.
    - intros k1 k2 H1 H2 L1 L2 E. apply in_app_or in H1. apply in_app_or in H2.
      destruct H1 as [H1|[<-|[]]], H2 as [H2|[<-|[]]]; [apply (proj2 C); auto | | | reflexivity]; exfalso.
      + destruct (Hk L2) as (_ & _ & N). exact (conn_to_LE_none _ _ N k1 H1 L1 E).
      + destruct (Hk L1) as (_ & _ & N). exact (conn_to_LE_none _ _ N k2 H2 L2 (eq_sym E)).
  Qed.
End ConnInv.

(* an LE connection goes together with the peer's end of it: no other LE connection has that peer *)
Lemma conn_inv_drop_le conns pc present k : ConnInv conns pc present -> In k conns -> is_le k = true ->
  ConnInv (rem_conn (k_handle k) conns) (remz (k_addr k) pc) present.
Proof.
  intros C H L. apply conn_inv_remz.
  - apply (conn_inv_sub _ _ _ C). intros k' H'. apply (rem_conn_In _ _ _ H').
  - intros k' H' L' E. destruct (rem_conn_In _ _ _ H') as [Hin Hh]. apply Hh.
    now rewrite (proj2 C k' k Hin H L' L E).
Qed.

Lemma conn_inv_rem conns pc present h : ConnInv conns pc present -> ConnInv (rem_conn h conns) pc present.
Proof. intros C. apply (conn_inv_sub _ _ _ C). intros k H. apply (rem_conn_In _ _ _ H). Qed.

Definition to_peer (s : pstate) : pstate := fst (p_step s ToPeer).
Definition to_cut (s : pstate) : pstate := fst (p_step s ToCut).

Lemma macro_run s x : fst (p_run s (macro x)) = to_cut (to_peer (fst (p_step s x))).
Proof.
  unfold macro, to_cut, to_peer. cbn [p_run]. destruct (p_step s x) as [s1 o1]. cbn [fst].
  destruct (p_step s1 ToPeer) as [s2 o2]. cbn [fst]. destruct (p_step s2 ToCut) as [s3 o3]. reflexivity.
Qed.

(* The command and the two deliveries are computed one after the other ([to_peer] and [to_cut] are
   unfolded by hand), on a state whose fields are variables: unfolded together, the later steps
   copy the state before them under every test that is still undecided. *)
Local Arguments to_peer : simpl never.
Local Arguments to_cut : simpl never.
Local Arguments memz : simpl never.
Local Arguments remz : simpl never.
Local Arguments find_conn : simpl never.
Local Arguments find_any : simpl never.
Local Arguments conn_to : simpl never.
Local Arguments rem_conn : simpl never.
Local Arguments close : simpl never.
Local Arguments drop_handle : simpl never.
Local Arguments alloc : simpl never.
Local Arguments classic_busy : simpl never.

Lemma macro_inv s x : QInv s -> ext_ok s x = true -> QInv (fst (p_run s (macro x))).
Proof.
  intros Q E. rewrite macro_run.
  destruct s as [pe co op to fr pr pc rq]. pose proof Q as (Ht & Hf & O & C). cbn in Ht, Hf, O, C. subst to fr.
  assert (forall pe' co' op' pc' rq', OpenInv pe' rq' pr op' -> ConnInv co' pc' pr ->
            QInv (mkP pe' co' op' [] [] pr pc' rq')) as quiet
    by (intros ? ? ? ? ? O' C'; exact (conj eq_refl (conj eq_refl (conj O' C')))).
  (* nothing is put on the link: both deliveries find it empty *)
  assert (QInv (to_cut (to_peer (mkP pe co op [] [] pr pc rq)))) as Q' by exact Q.
  destruct x as [[e a| |h|h|h|a|a]|a| | |a|a|a|a]; cbn.
  - destruct pe as [a'|]; cbn; [exact Q'|]. unfold to_peer, to_cut; cbn. apply quiet; [|exact C].
    apply (open_inv_add _ _ _ _ O); [apply (open_inv_not_in _ _ _ _ O); discriminate | reflexivity |].
    intros [] H; (discriminate H || exact H).
  - destruct pe as [a|]; cbn; [|exact Q']. unfold to_peer, to_cut; cbn.
    exact (quiet _ _ _ _ _ (open_inv_le_done _ _ _ _ O) C).
  - destruct (find_any h co) as [k|] eqn:F; cbn; [|exact Q'].
    destruct (find_any_In _ _ _ F) as [Hin <-]. unfold to_peer; cbn.
    destruct (memz (k_addr k) pr); [destruct (k_tr k) eqn:T|]; cbn; unfold to_cut; cbn;
      (apply quiet; [apply (open_inv_drop _ _ _ _ O)|]); try apply (conn_inv_rem _ _ _ _ C).
    apply (conn_inv_drop_le _ _ _ _ C Hin). unfold is_le. now rewrite T.
  - destruct (find_conn h LE co) as [k|] eqn:F; cbn; [|exact Q'].
    destruct (find_conn_LE _ _ _ F) as (Hin & <- & Hle). destruct (proj1 C k Hin Hle) as [Hpc Hpr].
    unfold to_peer; cbn. rewrite Hpr, Hpc; cbn. unfold to_cut; cbn. rewrite (conn_to_unique _ _ _ C k Hin Hle); cbn.
    rewrite (close_app_new _ _ (open_inv_not_in _ _ _ _ O (PFeat _) (fun f => f))). exact Q.
  - destruct (find_conn h LE co) as [k|]; cbn; [|exact Q'].
    unfold to_peer; cbn. destruct (memz (k_addr k) pr); cbn; unfold to_cut; cbn; exact Q.
  - destruct pe; cbn; [exact Q'|]. destruct (classic_busy _ a) eqn:B; cbn; [exact Q'|].
    destruct (memz a pr) eqn:Pr; cbn; [|exact Q'].
    unfold to_peer; cbn. rewrite Pr; cbn. unfold to_cut; cbn. apply quiet; [|exact C].
    apply orb_false_iff in B. cbn in B.
    apply (open_inv_add _ _ _ _ O); [apply existsb_proc_false, B | split; [apply memz_app_r | exact Pr] |].
    intros [] H; try exact H. destruct H. split; [apply memz_app_l|]; assumption.
  - destruct (memz a pr) eqn:Pr; cbn; [|exact Q'].
    unfold to_peer; cbn. rewrite Pr; cbn. unfold to_cut; cbn.
    rewrite (close_app_new _ _ (open_inv_not_in _ _ _ _ O (PName a) (fun f => f))). exact Q.
  - destruct (memz a pr) eqn:Pr; cbn; [|exact Q']. destruct pe as [a'|]; cbn; [|exact Q'].
    destruct (Z.eqb_spec a a') as [<-|]; cbn; [|exact Q'].
    destruct (conn_to a LE co) eqn:N; cbn; [exact Q'|].
    unfold to_peer; cbn. rewrite Pr; cbn. unfold to_cut; cbn.
    apply quiet; [exact (open_inv_le_done _ _ _ _ O)|].
    apply conn_inv_add; [apply conn_inv_more_pc, C|]. intros _. cbn. auto using memz_app_r.
  - exact Q'.
  - exact Q'.
  - destruct (memz a rq && memz a pr); cbn; [|exact Q']. unfold to_peer, to_cut; cbn. apply quiet.
    + apply (open_inv_close _ _ _ _ O). intros [] N H; try exact H. destruct H as [H1 H2].
      split; [apply memz_remz; [exact H1|] | exact H2]. intros ->. now apply N.
    + apply (conn_inv_add _ _ _ C). discriminate.
  - destruct (memz a pc && memz a pr); cbn; [|exact Q']. unfold to_peer, to_cut; cbn.
    destruct (conn_to a LE co) as [k|] eqn:N; cbn; apply quiet; try exact O.
    + apply (open_inv_drop _ _ _ _ O).
    + destruct (conn_to_LE _ _ _ N) as (Hin & <- & Hle). exact (conn_inv_drop_le _ _ _ _ C Hin Hle).
    + exact (conn_inv_remz _ _ _ C _ (conn_to_LE_none _ _ N)).
  - exact Q'.
  - discriminate.
Qed.

Lemma p_run_app a : forall b s, fst (p_run s (a ++ b)) = fst (p_run (fst (p_run s a)) b).
Proof.
  induction a as [|x a IH]; intros b s; cbn [app p_run]; [reflexivity|].
  destruct (p_step s x) as [s1 o1]. specialize (IH b s1).
  destruct (p_run s1 (a ++ b)) as [s2 o2]. destruct (p_run s1 a) as [s3 o3]. cbn [fst] in *.
  destruct (p_run s3 b) as [s4 o4]. cbn [fst] in *. exact IH.
Qed.

Lemma settled_inv xs : forall s, QInv s -> wf_ext s xs = true -> QInv (fst (p_run s (settled xs))).
Proof.
  induction xs as [|x xs IH]; intros s Q W; cbn [settled flat_map]; [exact Q|].
  cbn [wf_ext] in W. apply andb_true_iff in W. destruct W as [W1 W2].
  fold (settled xs). rewrite p_run_app. apply IH; [apply macro_inv; assumption | exact W2].
Qed.

Lemma qinv_open_ended s : QInv s -> p_quiet s = true /\ forallb (open_ended s) (p_open s) = true.
Proof.
  intros (Ht & Hf & [_ O] & _). split.
  - unfold p_quiet. now rewrite Ht, Hf.
  - apply forallb_forall. intros p Hp. specialize (O p Hp).
    destruct p as [a| |a|]; cbn in *; try contradiction.
    + rewrite O. apply Z.eqb_refl.
    + apply O.
Qed.

(* pending_has_cause, in its settled form: after every sequence of commands and peer actions,
   each followed by the delivery of the PDUs it caused, the link is quiet and every procedure
   still open is either an LE connection creation waiting for the peer's advertisement (the
   controller still holds it as pending: it can be cancelled) or a classic connection creation
   waiting for the decision of the peer's host *)
Theorem pending_has_cause present xs :
  wf_ext (p_init present) xs = true ->
  let s := fst (p_run (p_init present) (settled xs)) in
  p_quiet s = true /\ forallb (open_ended s) (p_open s) = true.
Proof. intros W. apply qinv_open_ended. apply settled_inv; [apply qinv_init | exact W]. Qed.

(* D03k (repaired): a second Create Connection for a peer whose connection is being created, or
   exists, is refused with Connection Already Exists; the first one is concluded normally *)
Lemma double_classic_create_refused :
  let '(s, o) := p_run (p_init [3]) (settled [Cmd (ClassicCreate 3); Cmd (ClassicCreate 3); PeerAccept 3;
                                              Cmd (ClassicCreate 3)]) in
  map out_code o = [[0; 1029; 0]; [0; 1029; 11]; [6; 0; 1; 3]; [0; 1029; 11]] /\ p_open s = [].
Proof. vm_compute. auto. Qed.

(* D03d (repaired): a confirmed cancellation concludes the creation with an LE Connection Complete
   (status 0x02) after its Command Complete, and a later creation is served *)
Lemma cancel_concludes :
  let '(s, o) := p_run (p_init [2]) (settled [Cmd (LeCreate false 9); Cmd LeCancel; Cmd (LeCreate true 2); Adv 2]) in
  map out_code o = [[0; 8205; 0]; [1; 8206; 0]; [2; 2; 0; 9]; [0; 8259; 0]; [2; 0; 1; 2]] /\ p_open s = [].
Proof. vm_compute. auto. Qed.

Lemma p_run_cons s x xs : fst (p_run s (x :: xs)) = fst (p_run (fst (p_step s x)) xs).
Proof.
  cbn [p_run]. destruct (p_step s x) as [s1 o1]. cbn [fst]. destruct (p_run s1 xs) as [s2 o2]. reflexivity.
Qed.

Lemma p_run_fold xs : forall s, fst (p_run s xs) = fold_left (fun s o => fst (p_step s o)) xs s.
Proof. induction xs as [|x xs IH]; intros s; [reflexivity|]. rewrite p_run_cons. apply IH. Qed.

Lemma all_ok_explore d s :
  all_ok d s = explore pstate op (fun s o => fst (p_step s o)) concludes (fun _ _ => true) alphabet d s.
Proof. reflexivity. Qed.

(* the complete evaluation [all_ok d s] covers every schedule of at most d steps over the alphabet *)
Lemma all_ok_spec d : forall s, all_ok d s = true ->
  forall xs, (length xs <= d)%nat -> Forall (fun o => In o alphabet) xs ->
  concludes (fst (p_run s xs)) = true.
Proof.
  intros s A xs L F. rewrite all_ok_explore in A. rewrite p_run_fold.
  apply (explore_spec _ _ _ _ _ _ d s A xs L F). now apply guarded_always.
Qed.

Definition pstate_eq_dec (s t : pstate) : {s = t} + {s <> t}.
Proof. repeat decide equality. Defined.

(* [all_ok], evaluated without the steps that change nothing (a command that is refused, a
   delivery on an empty link, ...): most steps of most schedules *)
Definition all_ok_moves : nat -> pstate -> bool :=
  explore_moves pstate op (fun s o => fst (p_step s o)) concludes (fun _ _ => true) alphabet
                (fun s t => if pstate_eq_dec s t then true else false).

Lemma all_ok_moves_sound d s : all_ok_moves d s = true -> all_ok d s = true.
Proof.
  intros A. rewrite all_ok_explore. refine (explore_moves_sound _ _ _ _ _ _ _ _ d s A).
  intros s0 t. now destruct (pstate_eq_dec s0 t).
Qed.

(* The pending slot: pending_le_connection is given up only on a path that emits (or has queued the callback that
   emits) the LE Connection Complete for it: by create_le_connection when the connection is made,
   by LE Create Connection Cancel through its deferred event.  In particular the early return of
   create_le_connection ("Connection for <peer> already exists?") keeps the request pending. *)
Lemma pend_cleared_emits s o s' out a :
  p_step s o = (s', out) -> p_pend_le s = Some a -> p_pend_le s' <> Some a ->
  (exists st h, In (LeConn st h a) out) \/ In (a, DeferredConnFail) (p_from s').
Proof.
  intros E P N. destruct o as [c|b| | |b|b|b|b]; cbn [p_step] in E.
  - destruct c as [e b| |h|h|h|b|b]; cbn [step_cmd] in E; rewrite ?P in E.
    + inversion E; subst. congruence.
    + inversion E; subst. right. cbn. apply in_or_app. right. cbn. auto.
    + destruct (find_any h (p_conns s)); inversion E; subst; cbn in N; congruence.
    + destruct (find_conn h LE (p_conns s)); inversion E; subst; cbn in N; congruence.
    + destruct (find_conn h LE (p_conns s)); inversion E; subst; cbn in N; congruence.
    + inversion E; subst. congruence.
    + destruct (memz b (p_present s)); inversion E; subst; cbn in N; congruence.
  - destruct (memz b (p_present s)); [|inversion E; subst; congruence].
    rewrite P in E. destruct (Z.eqb b a) eqn:Eb; [|inversion E; subst; congruence].
    apply Z.eqb_eq in Eb. subst b.
    destruct (conn_to a LE (p_conns s)); inversion E; subst; [congruence|].
    left. eexists _, _. cbn. eauto.
  - destruct (p_to s) as [|[b r] rest]; [inversion E; subst; congruence|].
    destruct (memz b (p_present s)); [|inversion E; subst; cbn in N; congruence].
    destruct r; try (inversion E; subst; cbn in N; congruence).
    destruct (memz b (p_peer_conn s)); inversion E; subst; cbn in N; congruence.
  - destruct (p_from s) as [|[b r] rest]; [inversion E; subst; congruence|].
    destruct r; try (inversion E; subst; cbn in N; congruence);
      destruct (conn_to b LE (p_conns s)); inversion E; subst; cbn in N; congruence.
  - destruct (memz b (p_peer_req s) && memz b (p_present s)); inversion E; subst; cbn in N; congruence.
  - destruct (memz b (p_peer_conn s) && memz b (p_present s)); inversion E; subst; cbn in N; congruence.
  - inversion E; subst; cbn in N; congruence.
  - inversion E; subst; cbn in N; congruence.
Qed.

