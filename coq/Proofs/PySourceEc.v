(* C14 - the P-256 models equal the denotation of the current source of
   bumble/crypto/builtin.py: _JacobianPoint.double / __add__ / to_affine / from_affine,
   _EllipticCurve.is_on_curve / ecdh_shared_secret / generate_public_key, EccKey.dh / x / y.
   (__mul__ contains a loop: it enters here as the model's jac_mul and its source is tied by a
   fingerprint and by correspondence.) *)
From Coq Require Import ZArith List Bool String Lia ZifyBool.
From BV Require Import Model.CryptoBytes Model.PyAst Model.P256 Gen.C14Source Proofs.CryptoBytes Proofs.P256Inv Proofs.PySourceEval.
Import ListNotations.
Open Scope string_scope.
Open Scope list_scope.
Open Scope Z_scope.

Definition jacv (P : jac) : val := VTuple [VInt (fst (fst P)); VInt (snd (fst P)); VInt (snd P)].
Definition affv (a : affine) : val :=
  match a with
  | Infinite => VTuple [VInt 0; VInt 0; VBool true]
  | Affine x y => VTuple [VInt x; VInt y; VBool false]
  | NotInvertible => VErr
  end.
Definition dhv (r : ecdh_result) : val := match r with Secret bs => VBytes bs | _ => VErr end.

Section Ec.
  (* any curve with a positive modulus that fits in 32 bytes; the modulus is written Z.pos pp so
     that Python's "x % p" (ZeroDivisionError for p = 0) evaluates without a side condition *)
  Variable pp : positive.
  Variables ca0 cb0 cn0 cgx0 cgy0 : Z.
  Definition c : curve := mk_curve (Z.pos pp) ca0 cb0 cn0 cgx0 cgy0.
  Hypothesis p_small : Z.pos pp <= 2 ^ 256.        (* coordinates fit in 32 bytes *)
  Lemma p_pos : 0 < cp c.
  Proof using. reflexivity. Qed.

  Definition as_jac (v : val) : option jac :=
    match v with VTuple [VInt x; VInt y; VInt z] => Some (x, y, z) | _ => None end.

  Definition prim_ec (f : string) (args : list val) : val :=
    if any_err args then VErr else
    if String.eqb f "_JacobianPoint.point_at_infinity" then jacv jac_inf else
    if String.eqb f "_JacobianPoint" then match args with [_; VInt x; VInt y; VInt z] => jacv (x, y, z) | _ => VErr end else
    if String.eqb f "_Point" then match args with [_; VInt x; VInt y; VBool i] => VTuple [VInt x; VInt y; VBool i] | _ => VErr end else
    if String.eqb f "pow" then
      match args with [VInt z; VInt (-1); VInt p] => match modinv z p with Some i => VInt i | None => VErr end | _ => VErr end else
    if String.eqb f "self.double" then match args with [v] => match as_jac v with Some P => jacv (jac_double c P) | None => VErr end | _ => VErr end else
    if String.eqb f ".to_affine" then match args with [v] => match as_jac v with Some P => affv (to_affine c P) | None => VErr end | _ => VErr end else
    if String.eqb f "_JacobianPoint.from_affine" then
      match args with
      | [VTuple [VInt x; VInt y; VBool false]] => jacv (from_affine x y)
      | [VTuple [VInt x; VInt y; VBool true]] => jacv jac_inf
      | _ => VErr
      end else
    if String.eqb f "self.is_on_curve" then
      match args with
      | [_; VTuple [VInt x; VInt y; VBool false]] => VBool (on_curve c x y)
      | [_; VTuple [VInt x; VInt y; VBool true]] => VBool false
      | _ => VErr
      end else
    if String.eqb f ".to_bytes" then
      match args with
      | [VInt x; VInt n; VStr "big"] => if (0 <=? x) && (x <? 256 ^ n) then VBytes (to_be (Z.to_nat n) x) else VErr
      | _ => VErr
      end else
    if String.eqb f "int.from_bytes" then match args with [VBytes b; VStr "big"; VBool false] => VInt (be_int b) | _ => VErr end else
    if String.eqb f "self.private_key.curve.ecdh_shared_secret" then
      match args with [_; VInt d; VTuple [VInt x; VInt y; VBool false]] => dhv (ecdh c d x y) | _ => VErr end else
    if String.eqb f "self.private_key.curve.generate_public_key" then
      match args with [_; VInt d] => affv (public_key c d) | _ => VErr end else
    VErr.

  Definition attr_ec (name : string) (v : val) : val :=
    match v with
    | VTuple [VInt x; VInt y; VInt z] =>
        if String.eqb name "x" then VInt x else if String.eqb name "y" then VInt y else
        if String.eqb name "z" then VInt z else if String.eqb name "curve" then VStr "curve" else VErr
    | VTuple [VInt x; VInt y; VBool i] =>
        if String.eqb name "x" then VInt x else if String.eqb name "y" then VInt y else
        if String.eqb name "infinite" then VBool i else if String.eqb name "curve" then VStr "curve" else VErr
    | _ => VErr
    end.

  (* __mul__ / __add__ of _JacobianPoint *)
  Definition op_ec (op : binop) (a b : val) : val :=
    match op, as_jac a, b with
    | Mul, Some P, VInt k => jacv (jac_mul c P k)
    | Add, Some P, _ => match as_jac b with Some Q => jacv (jac_add c P Q) | None => VErr end
    | _, _, _ => VErr
    end.

  Definition no_meth (n : string) : option (list string * list stmt) := None.

  Definition run (init : env) (ps : list string) (body : list stmt) (args : list val) : val :=
    result_of (call prim_ec attr_ec op_ec no_meth 60 init ps body args).

  (* the attributes of a _JacobianPoint object / of the curve object / of an EccKey object *)
  Definition jac_env (P : jac) : env :=
    let '(x, y, z) := P in
    [("self.x", VInt x); ("self.y", VInt y); ("self.z", VInt z); ("self.curve", VStr "curve");
     ("self.curve.p", VInt (cp c)); ("self.curve.a", VInt (ca c))].
  Definition curve_env : env :=
    [("self.p", VInt (cp c)); ("self.a", VInt (ca c)); ("self.b", VInt (cb c));
     ("self._generator_jacobian", jacv (cgx c, cgy c, 1))].
  Definition key_env (d : Z) : env :=
    [("self.private_key.key", VInt d); ("self.private_key.curve", VStr "curve")].

  Lemma jac_eta : forall P : jac, (fst (fst P), snd (fst P), snd P) = P.
  Proof using. intros [[x y] z]. reflexivity. Qed.

  Ltac py :=
    unfold run, call;
    py_run ltac:(with_strategy opaque [modinv jac_double jac_add jac_mul to_affine on_curve ecdh public_key jac_inf fst snd]
                   cbv_int_folded;
                 fold c; cbn [fst snd]; rewrite ?jac_eta).

  Theorem jac_double_matches_source : forall P,
    run (("self", jacv P) :: jac_env P) src_jac_double_params src_jac_double [jacv P] = jacv (jac_double c P).
  Proof using.
    intros [[x y] z]. unfold jac_double. py.
    destruct (z =? 0); [reflexivity|].
    destruct (y =? 0); reflexivity.
  Qed.

  Theorem jac_add_matches_source : forall P Q,
    run (("self", jacv P) :: jac_env P) src_jac_add_params src_jac_add [jacv P; jacv Q] = jacv (jac_add c P Q).
  Proof using.
    intros [[x1 y1] z1] [[x2 y2] z2]. unfold jac_add. py.
    destruct (z1 =? 0); destruct (z2 =? 0); try reflexivity.
    cbn [andb].
    destruct ((x1 * z2 ^ 2) mod Z.pos pp =? (x2 * z1 ^ 2) mod Z.pos pp); [|reflexivity].
    destruct ((y1 * z2 ^ 3) mod Z.pos pp =? (y2 * z1 ^ 3) mod Z.pos pp); reflexivity.
  Qed.

  Theorem jac_to_affine_matches_source : forall P,
    run (("self", jacv P) :: jac_env P) src_jac_to_affine_params src_jac_to_affine [jacv P] = affv (to_affine c P).
  Proof using.
    intros [[x y] z]. unfold to_affine. py.
    destruct (z =? 0); [reflexivity|].
    destruct (modinv z (Z.pos pp)); reflexivity.
  Qed.

  Theorem jac_from_affine_matches_source : forall x y,
    run [] src_jac_from_affine_params src_jac_from_affine [VStr "cls"; VTuple [VInt x; VInt y; VBool false]] =
    jacv (from_affine x y).
  Proof using. intros. py. reflexivity. Qed.

  Theorem is_on_curve_matches_source : forall x y,
    run (("self", VStr "curve") :: curve_env) src_is_on_curve_params src_is_on_curve
        [VStr "curve"; VTuple [VInt x; VInt y; VBool false]] = VBool (on_curve c x y).
  Proof using. intros. unfold on_curve. py. reflexivity. Qed.

  Lemma affine_coord_fits : forall P x y, to_affine c P = Affine x y ->
    ((0 <=? x) && (x <? 256 ^ 32)) = true /\ ((0 <=? y) && (y <? 256 ^ 32)) = true.
  Proof using p_small.
    intros [[X Y] Z0] x y E. destruct (to_affine_correct c _ _ _ _ _ p_pos E) as (_ & _ & Hx & Hy).
    change (cp c) with (Z.pos pp) in Hx, Hy. change (256 ^ 32) with (2 ^ 256). lia.
  Qed.

  Theorem ecdh_shared_secret_matches_source : forall d x y,
    run (("self", VStr "curve") :: curve_env) src_ecdh_shared_secret_params src_ecdh_shared_secret
        [VStr "curve"; VInt d; VTuple [VInt x; VInt y; VBool false]] = dhv (ecdh c d x y).
  Proof using p_small.
    intros. unfold ecdh, from_affine. py.
    destruct (on_curve c x y); [|reflexivity]. cbn [negb].
    destruct (to_affine c (jac_mul c (x, y, 1) d)) as [|sx sy|] eqn:E; try reflexivity.
    destruct (affine_coord_fits _ _ _ E) as [Hx _]. cbv [andb] in Hx.
    cbv beta iota. rewrite Hx. reflexivity.
  Qed.

  Theorem generate_public_key_matches_source : forall d,
    run (("self", VStr "curve") :: curve_env) src_generate_public_key_params src_generate_public_key
        [VStr "curve"; VInt d] = affv (public_key c d).
  Proof using.
    intros. unfold public_key. py.
    destruct (to_affine c (jac_mul c (cgx0, cgy0, 1) d)); reflexivity.
  Qed.

  Theorem ecc_dh_matches_source : forall d xb yb,
    run (("self", VStr "key") :: key_env d) src_ecc_dh_params src_ecc_dh [VStr "key"; VBytes xb; VBytes yb] =
    dhv (ecc_dh c d xb yb).
  Proof using.
    intros. unfold ecc_dh. py.
    destruct (ecdh c d (be_int xb) (be_int yb)); reflexivity.
  Qed.

  Theorem ecc_x_y_match_source : forall d,
    run (("self", VStr "key") :: key_env d) src_ecc_x_params src_ecc_x [VStr "key"] =
      match ecc_public c d with Some (xs, _) => VBytes xs | None => VErr end /\
    run (("self", VStr "key") :: key_env d) src_ecc_y_params src_ecc_y [VStr "key"] =
      match ecc_public c d with Some (_, ys) => VBytes ys | None => VErr end.
  Proof using p_small.
    intros d. unfold ecc_public. py.
    destruct (public_key c d) as [|x y|] eqn:E; try (split; reflexivity).
    unfold public_key in E. destruct (affine_coord_fits _ _ _ E) as [Hx Hy]. cbv [andb] in Hx, Hy.
    cbv beta iota. rewrite Hx, Hy. split; reflexivity.
  Qed.
End Ec.
