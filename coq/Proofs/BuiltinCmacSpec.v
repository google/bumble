(* C14 - end to end for the built-in back end, CMAC family: f4, f5, f6, g2, h6, h7 computed with
   builtin.aes_cmac equal the Core Vol 3 Part H formulas over RFC 4493 AES-CMAC over FIPS-197
   AES-128, for all arguments of the Security Manager sizes. *)
From Coq Require Import ZArith List Bool Lia ZifyBool ZifyNat.
From BV Require Import Gen.C14Tables Model.CryptoBytes Model.Aes Model.Cmac Model.SmToolbox Model.CryptoBuiltin.
From BV Require Import Proofs.CryptoBytes Proofs.Cmac Proofs.Aes Proofs.AesSpec Proofs.SmToolbox Proofs.BuiltinSpec.
Import ListNotations.
Open Scope Z_scope.

(* FIPS-197 AES-128 on one block, and RFC 4493 AES-CMAC over it *)
Definition cipher128 (k b : list Z) : list Z := cipher (round_keys_of (key_schedule_128 k)) b.
Definition cmac_fips (m k : list Z) : list Z := cmac_spec (cipher128 k) m.

(* the shape Aes.aes_block_good and BuiltinSpec.e_total_spec spell out as two conjuncts *)
Definition good_block (b : list Z) : Prop := length b = 16%nat /\ bytes_ok b = true.

Lemma good_xor : forall a b, good_block a -> good_block b -> good_block (xor_zip a b).
Proof. intros a b [] []. split; [apply xor_zip_length_eq|apply xor_zip_ok]; assumption. Qed.

Lemma good_zeros : good_block (zeros 16).
Proof. split; reflexivity. Qed.

Lemma good_rev : forall b, good_block b -> good_block (rev b).
Proof. intros b [H1 H2]. split; [rewrite rev_length|rewrite bytes_ok_rev]; assumption. Qed.

Lemma subkey_good : forall l, good_block (spec_subkey l).
Proof.
  intros l. unfold spec_subkey, spec_shl1.
  assert (G : good_block (to_be 16 ((2 * be_int l) mod 2 ^ 128))) by (split; [apply to_be_length|apply to_be_ok]).
  destruct (spec_msb l); [apply good_xor; [assumption|split; reflexivity]|assumption].
Qed.

Lemma padding_good : forall r, (length r < 16)%nat -> bytes_ok r = true -> good_block (spec_padding r).
Proof.
  intros r Hr Ho. unfold spec_padding. split.
  - rewrite app_length. cbn [length]. rewrite length_zeros. lia.
  - rewrite bytes_ok_app, Ho. cbn [bytes_ok forallb andb]. apply bytes_ok_zeros.
Qed.

Lemma blocks_good : forall bs, blocks_ok bs -> bytes_ok (concat bs) = true -> Forall good_block bs.
Proof.
  induction bs as [|b bs IH]; intros Hbs Ho; [constructor|].
  inversion Hbs; subst. cbn [concat] in Ho. rewrite bytes_ok_app in Ho. apply andb_true_iff in Ho as [Hb1 Hb2].
  constructor; [split; assumption|apply IH; assumption].
Qed.

(* cmac_spec depends on the block function only through its values on 16-byte blocks of bytes *)
Section Ext.
  Variables E1 E2 : list Z -> list Z.
  Hypothesis agree : forall b, good_block b -> E1 b = E2 b.
  Hypothesis shape : forall b, good_block b -> good_block (E1 b).

  Lemma chain_ext : forall bs X, good_block X -> Forall good_block bs ->
    spec_chain E1 X bs = spec_chain E2 X bs /\ good_block (spec_chain E1 X bs).
  Proof using agree shape.
    induction bs as [|b bs IH]; intros X HX Hbs; [split; [reflexivity|assumption]|].
    inversion Hbs as [|? ? Hb Hr]; subst. cbn [spec_chain].
    rewrite <- (agree _ (good_xor _ _ HX Hb)). apply IH; auto using good_xor.
  Qed.

  Theorem cmac_spec_ext : forall M, bytes_ok M = true ->
    cmac_spec E1 M = cmac_spec E2 M /\ good_block (cmac_spec E1 M).
  Proof using agree shape.
    intros M Ho. destruct (split_last_block M) as (bs & m & -> & Hbs & Hm).
    rewrite !cmac_spec_blocks by assumption.
    rewrite bytes_ok_app in Ho. apply andb_true_iff in Ho as [Hob Hom].
    assert (HL : spec_L E1 = spec_L E2) by (apply agree, good_zeros).
    assert (HK1 : spec_K1 E1 = spec_K1 E2) by (unfold spec_K1; rewrite HL; reflexivity).
    assert (HK2 : spec_K2 E1 = spec_K2 E2) by (unfold spec_K2; rewrite HK1; reflexivity).
    destruct (chain_ext bs (zeros 16) good_zeros (blocks_good bs Hbs Hob)) as [Hc Hcg].
    rewrite <- Hc, <- HK1, <- HK2.
    assert (Hlast : good_block (if Nat.eqb (length m) 16 then xor_zip m (spec_K1 E1)
                                else xor_zip (spec_padding m) (spec_K2 E1))).
    { destruct (Nat.eqb_spec (length m) 16); apply good_xor; try apply subkey_good.
      - split; assumption.
      - apply padding_good; [|assumption]. destruct Hm as [Hm | [-> _]]; cbn [length]; lia. }
    split; [apply agree|apply shape]; apply good_xor; assumption.
  Qed.
End Ext.

Lemma aes_block_is_cipher128 : forall k ke b, length k = 16%nat -> bytes_ok k = true ->
  aes_init k = Some ke -> good_block b ->
  aes_block ke b = cipher128 k b /\ good_block (aes_block ke b).
Proof.
  intros k ke b Hk Hko Hi [Hb Hbo].
  destruct (aes128_key_schedule_is_fips197 k Hk Hko) as (ke' & Hi' & Hr & Hlen).
  rewrite Hi in Hi'. inversion Hi'; subst ke'.
  split.
  - unfold aes_block, cipher128. rewrite aes_encrypt_is_fips197_cipher by (auto; lia). rewrite Hr. reflexivity.
  - destruct (aes_block_shape ke b) as [H1 H2]; [lia|assumption|]. split; assumption.
Qed.

Theorem cmac_total_is_fips : forall m k,
  length k = 16%nat -> bytes_ok k = true -> bytes_ok m = true -> len m <= max_size ->
  cmac_total m k = cmac_fips m k /\ good_block (cmac_total m k).
Proof.
  intros m k Hk Hko Hmo Hlen. unfold cmac_total.
  rewrite builtin_cmac_eq_rfc by assumption. unfold aes_cmac_rfc.
  destruct (aes128_key_schedule_is_fips197 k Hk Hko) as (ke & Hi & _ & _).
  rewrite Hi. cbn [unopt]. unfold cmac_fips.
  destruct (cmac_spec_ext (aes_block ke) (cipher128 k)) with (M := m) as [He Hg]; auto.
  - intros b Hb. apply (aes_block_is_cipher128 k ke b); assumption.
  - intros b Hb. apply (aes_block_is_cipher128 k ke b); assumption.
Qed.

Lemma cmac_total_eq : forall m k, good_block k -> bytes_ok m = true -> len m <= 4096 ->
  cmac_total m k = cmac_fips m k /\ good_block (cmac_fips m k).
Proof.
  intros m k [Hk Hko] Hm Hl.
  destruct (cmac_total_is_fips m k) as [He Hg]; auto.
  - change max_size with 4503599627370496. lia.
  - split; [assumption|]. rewrite <- He. assumption.
Qed.

(* side conditions of [cmac_total_eq] for a message assembled from the arguments *)
Ltac ok_msg := repeat rewrite bytes_ok_app; repeat rewrite bytes_ok_rev; repeat (apply andb_true_iff; split); auto.
Ltac len_msg := unfold len; repeat rewrite app_length; repeat rewrite rev_length; cbn [length f5_key_id]; lia.

(* 2.2.6 *)
Theorem builtin_f4_is_core_spec : forall u v x z,
  length u = 32%nat -> bytes_ok u = true -> length v = 32%nat -> bytes_ok v = true ->
  good_block x -> length z = 1%nat -> bytes_ok z = true ->
  rev (b_f4 u v x z) = spec_f4 cmac_fips (rev u) (rev v) (rev x) (rev z).
Proof.
  intros u v x z Hu Huo Hv Hvo Hx Hz Hzo. rewrite <- f4_spec by assumption. f_equal.
  unfold b_f4, f4. f_equal. apply cmac_total_eq; [apply good_rev; assumption|ok_msg|len_msg].
Qed.

(* 2.2.7 *)
Theorem builtin_f5_is_core_spec : forall w n1 n2 a1 a2,
  length w = 32%nat -> bytes_ok w = true -> good_block n1 -> good_block n2 ->
  length a1 = 7%nat -> bytes_ok a1 = true -> length a2 = 7%nat -> bytes_ok a2 = true ->
  (rev (fst (b_f5 w n1 n2 a1 a2)), rev (snd (b_f5 w n1 n2 a1 a2))) =
  spec_f5 cmac_fips (rev w) (rev n1) (rev n2) (rev a1) (rev a2).
Proof.
  intros w n1 n2 a1 a2 Hw Hwo [Hn1 Hn1o] [Hn2 Hn2o] Ha1 Ha1o Ha2 Ha2o.
  rewrite <- f5_spec. unfold b_f5, f5. cbn [fst snd].
  assert (Hsalt : good_block f5_salt) by (split; reflexivity).
  destruct (cmac_total_eq (rev w) f5_salt Hsalt) as [Ht Htg]; [ok_msg|len_msg|].
  rewrite Ht.
  assert (Hko : bytes_ok f5_key_id = true) by reflexivity.
  assert (H0 : bytes_ok [0] = true) by reflexivity. assert (H1 : bytes_ok [1] = true) by reflexivity.
  assert (H10 : bytes_ok [1; 0] = true) by reflexivity.
  destruct (cmac_total_eq ([0] ++ f5_key_id ++ rev n1 ++ rev n2 ++ rev a1 ++ rev a2 ++ [1; 0]) _ Htg) as [E0 _];
    [ok_msg|len_msg|].
  destruct (cmac_total_eq ([1] ++ f5_key_id ++ rev n1 ++ rev n2 ++ rev a1 ++ rev a2 ++ [1; 0]) _ Htg) as [E1 _];
    [ok_msg|len_msg|].
  rewrite E0, E1. reflexivity.
Qed.

(* 2.2.8 *)
Theorem builtin_f6_is_core_spec : forall w n1 n2 r io_cap a1 a2,
  good_block w -> good_block n1 -> good_block n2 -> good_block r ->
  length io_cap = 3%nat -> bytes_ok io_cap = true ->
  length a1 = 7%nat -> bytes_ok a1 = true -> length a2 = 7%nat -> bytes_ok a2 = true ->
  rev (b_f6 w n1 n2 r io_cap a1 a2) =
  spec_f6 cmac_fips (rev w) (rev n1) (rev n2) (rev r) (rev io_cap) (rev a1) (rev a2).
Proof.
  intros w n1 n2 r io a1 a2 Hw [Hn1 Hn1o] [Hn2 Hn2o] [Hr Hro] Hio Hioo Ha1 Ha1o Ha2 Ha2o.
  rewrite <- f6_spec. f_equal. unfold b_f6, f6. f_equal.
  apply cmac_total_eq; [apply good_rev; assumption|ok_msg|len_msg].
Qed.

(* 2.2.9 *)
Theorem builtin_g2_is_core_spec : forall u v x y,
  length u = 32%nat -> bytes_ok u = true -> length v = 32%nat -> bytes_ok v = true ->
  good_block x -> good_block y ->
  b_g2 u v x y = spec_g2 cmac_fips (rev u) (rev v) (rev x) (rev y).
Proof.
  intros u v x y Hu Huo Hv Hvo Hx [Hy Hyo].
  destruct (cmac_total_eq (rev u ++ rev v ++ rev y) (rev x)) as [He [Hl Ho]];
    [apply good_rev; assumption|ok_msg|len_msg|].
  rewrite <- g2_spec by assumption. unfold b_g2, g2. rewrite He. reflexivity.
Qed.

(* 2.2.10 *)
Theorem builtin_h6_is_core_spec : forall w key_id,
  good_block w -> length key_id = 4%nat -> bytes_ok key_id = true ->
  rev (b_h6 w key_id) = spec_h6 cmac_fips (rev w) key_id.
Proof.
  intros w kid Hw Hk Hko. rewrite <- h6_spec. f_equal. unfold b_h6, h6. f_equal.
  apply cmac_total_eq; [apply good_rev; assumption|assumption|len_msg].
Qed.

(* 2.2.11 *)
Theorem builtin_h7_is_core_spec : forall salt w,
  good_block salt -> good_block w ->
  rev (b_h7 salt w) = spec_h7 cmac_fips salt (rev w).
Proof.
  intros salt w Hs [Hw Hwo]. rewrite <- h7_spec. f_equal. unfold b_h7, h7. f_equal.
  apply cmac_total_eq; [assumption|ok_msg|len_msg].
Qed.
