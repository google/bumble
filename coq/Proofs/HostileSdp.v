(* C17 - lemmas about Model/HostileSdp.v (sdp.py DataElementParser). *)
From Coq Require Import ZArith List Bool Lia.
From BV Require Import Model.HostileSdp.
Import ListNotations.
Open Scope Z_scope.

Definition bytes_ok (data : list Z) : bool := forallb (fun b => (0 <=? b) && (b <? 256)) data.

Lemma bytes_ok_In : forall data b, bytes_ok data = true -> In b data -> 0 <= b < 256.
Proof.
  intros data b H Hin. unfold bytes_ok in H. rewrite forallb_forall in H.
  apply H in Hin. apply andb_true_iff in Hin. destruct Hin as [H1 H2].
  apply Z.leb_le in H1. apply Z.ltb_lt in H2. lia.
Qed.

Lemma bytes_ok_split : forall n data, bytes_ok data = true ->
  bytes_ok (firstn n data) = true /\ bytes_ok (skipn n data) = true.
Proof.
  intros n data H. rewrite <- (firstn_skipn n data) in H. unfold bytes_ok in *.
  rewrite forallb_app in H. apply andb_true_iff, H.
Qed.

Lemma bytes_ok_slice : forall data off n, bytes_ok data = true -> bytes_ok (slice data off n) = true.
Proof. intros data off n H. unfold slice. apply bytes_ok_split, bytes_ok_split, H. Qed.

Lemma be_int_acc_nonneg : forall bs acc, bytes_ok bs = true -> 0 <= acc ->
  0 <= fold_left (fun a b => a * 256 + b) bs acc.
Proof.
  induction bs as [|b rest IH]; intros acc H Hacc; simpl; [assumption|].
  simpl in H. apply andb_true_iff in H. destruct H as [Hb Hr].
  apply andb_true_iff in Hb. destruct Hb as [H1 H2]. apply Z.leb_le in H1.
  apply IH; [assumption | lia].
Qed.

Lemma be_int_nonneg : forall bs, bytes_ok bs = true -> 0 <= be_int bs.
Proof. intros. unfold be_int. apply be_int_acc_nonneg; [assumption | lia]. Qed.

Lemma byte_at_some : forall data off b, 0 <= off -> byte_at data off = Some b ->
  off < zlen data /\ In b data.
Proof.
  intros data off b Hoff H. unfold byte_at in H.
  destruct (off <? zlen data) eqn:E; [|discriminate]. apply Z.ltb_lt in E.
  split; [assumption|]. eapply nth_error_In; eauto.
Qed.

(* a decoded size descriptor lies inside the data and the value size is not negative *)
Lemma value_size_bounds : forall data off etype si vsize szlen,
  bytes_ok data = true -> 0 <= off -> off <= zlen data ->
  value_size data off etype si = inr (vsize, szlen) ->
  0 <= vsize /\ 0 <= szlen /\ off + szlen <= zlen data.
Proof.
  intros data off etype si vsize szlen Hok Hoff Hlen H. unfold value_size in H.
  destruct si as [|p|p].
  - inversion H; subst. destruct (etype =? 0); lia.
  - assert (Hpos : forall v, @inr serr (Z * Z) (v, 0) = inr (vsize, szlen) -> 0 <= v -> 0 <= vsize /\ 0 <= szlen /\ off + szlen <= zlen data)
      by (intros v Hv Hv0; inversion Hv; subst; lia).
    destruct p as [p|p|]; try destruct p as [p|p|]; try destruct p as [p|p|];
      try (eapply Hpos; [exact H | lia]).
    all: try (destruct (off + 4 <=? zlen data) eqn:E; [|discriminate]; apply Z.leb_le in E;
              inversion H; subst; split; [apply be_int_nonneg, bytes_ok_slice; assumption | lia]).
    + (* 5 *) destruct (byte_at data off) as [b|] eqn:B; [|discriminate].
      apply byte_at_some in B; [|assumption]. destruct B as [B1 B2].
      pose proof (bytes_ok_In data b Hok B2). inversion H; subst. lia.
    + (* 6 *) destruct (off + 2 <=? zlen data) eqn:E; [|discriminate]. apply Z.leb_le in E.
      inversion H; subst. split; [apply be_int_nonneg, bytes_ok_slice; assumption | lia].
  - destruct (off + 4 <=? zlen data) eqn:E; [|discriminate]. apply Z.leb_le in E.
    inversion H; subst. split; [apply be_int_nonneg, bytes_ok_slice; assumption | lia].
Qed.

Section Proofs.
  Variable strict : bool.
  Variable maxd : Z.
  Variable data : list Z.
  Hypothesis Hok : bytes_ok data = true.

  Let L := zlen data.
  Let D := Z.max maxd 0.

  Notation pn := (parse_next strict maxd data).
  Notation ll := (list_loop strict maxd data).

  Lemma L_nonneg : 0 <= L.
  Proof. unfold L, zlen. lia. Qed.

  Lemma pn_eq : forall f off depth, pn (S f) off depth = parse_body maxd data (ll f) off depth.
  Proof. reflexivity. Qed.

  Lemma ll_eq : forall f off end_off depth,
    ll (S f) off end_off depth = loop_body strict (pn f) (ll f) off end_off depth.
  Proof. reflexivity. Qed.

  (* What one call of parse_next does, for every header: it fails at once, or returns a
     leaf that ends beyond [off], or runs the list loop over the declared body of a
     container that starts beyond [off], inside the data and below the nesting limit. *)
  Definition pn_case (f : nat) (off depth : Z) (r : sres) : Prop :=
    (exists e, r = SErr e 1) \/
    (exists e vend, off < L /\ off < vend /\ r = SOk e vend 1) \/
    (exists vstart vend mk, off < L /\ off < vstart <= L /\ vstart <= vend /\ depth < maxd /\
       r = match ll f vstart vend (depth + 1) with
           | LOutOfFuel => SOutOfFuel
           | LErr e n => SErr e (1 + n)
           | LOk l _ n => SOk (mk l) vend (1 + n)
           end).

  Lemma parse_next_cases : forall f off depth, 0 <= off -> pn_case f off depth (pn (S f) off depth).
  Proof.
    intros f off depth Hoff. rewrite pn_eq. unfold parse_body.
    assert (Herr : forall e, pn_case f off depth (SErr e 1)) by (left; eauto).
    destruct (byte_at data off) as [hd|] eqn:B; [|apply Herr].
    apply byte_at_some in B; [|assumption]. destruct B as [B1 _]. fold L in B1.
    destruct (value_size data (off + 1) (hd / 8) (hd mod 8)) as [e0|[vsize szlen]] eqn:V; [apply Herr|].
    apply value_size_bounds in V; [|assumption|lia|fold L; lia]. destruct V as (V1 & V2 & V3). fold L in V3.
    assert (Hleaf : forall e, pn_case f off depth (SOk e (off + 1 + szlen + vsize) 1)).
    { intros e. right. left. exists e, (off + 1 + szlen + vsize). repeat split; (assumption || lia). }
    destruct (hd / 8 =? 0); [apply Hleaf|].
    destruct (hd / 8 =? 1); [destruct (int_from_bytes false data _ vsize); [apply Herr|apply Hleaf]|].
    destruct (hd / 8 =? 2); [destruct (int_from_bytes true data _ vsize); [apply Herr|apply Hleaf]|].
    destruct (hd / 8 =? 3); [destruct (_ || _)%bool; [apply Hleaf|apply Herr]|].
    destruct (hd / 8 =? 4); [apply Hleaf|].
    destruct (hd / 8 =? 5); [destruct (byte_at data _); [apply Hleaf|apply Herr]|].
    destruct ((hd / 8 =? 6) || (hd / 8 =? 7)).
    { destruct (maxd <=? depth) eqn:E; [apply Herr|]. apply Z.leb_gt in E. right. right.
      exists (off + 1 + szlen), (off + 1 + szlen + vsize), (fun l => if hd / 8 =? 6 then ESeq l else EAlt l).
      repeat split; assumption || lia. }
    destruct (hd / 8 =? 8); [destruct (all_ascii _); [apply Hleaf|apply Herr]|]. apply Hleaf.
  Qed.

  Lemma parse_next_ok_shape : forall fuel off depth e off' n,
    0 <= off -> pn fuel off depth = SOk e off' n -> off < L /\ off < off'.
  Proof.
    intros fuel off depth e off' n Hoff H. destruct fuel as [|f]; [discriminate|].
    destruct (parse_next_cases f off depth Hoff)
      as [(e0 & E)|[(e0 & vend & H1 & H2 & E)|(vs & ve & mk & H1 & H2 & H3 & _ & E)]];
      rewrite E in H; [discriminate|inversion H; subst; lia|].
    destruct (ll f vs ve (depth + 1)); inversion H; subst. lia.
  Qed.

  (* The fuel measure.  [bytes_left off] counts the bytes from [off] to the end (+2, so it
     stays positive beyond the end); [fuel_bound off depth] bounds the fuel a parse_next call
     at [off] and nesting [depth] needs: a list loop moves to a larger offset, so [bytes_left]
     falls by at least 1, and entering a container raises [depth], which gives up one whole
     block of [L + 4] (more than any [bytes_left]) for the fresh offset inside it; the list
     loop needs one more. *)
  Definition bytes_left (off : Z) : Z := L + 2 - Z.min off (L + 1).
  Definition fuel_bound (off depth : Z) : Z := (D + 1 - depth) * (L + 4) + bytes_left off.

  Lemma bytes_left_bounds : forall off, 0 <= off -> 1 <= bytes_left off <= L + 2.
  Proof. intros. unfold bytes_left. pose proof L_nonneg. lia. Qed.

  Lemma fuel_enough : forall fuel,
    (forall off depth, 0 <= off -> 0 <= depth <= D -> fuel_bound off depth <= Z.of_nat fuel ->
       pn fuel off depth <> SOutOfFuel) /\
    (forall off end_off depth, 0 <= off -> 0 <= depth <= D -> fuel_bound off depth + 1 <= Z.of_nat fuel ->
       ll fuel off end_off depth <> LOutOfFuel).
  Proof.
    pose proof L_nonneg as HL.
    induction fuel as [|f [IHp IHl]].
    - split; intros; exfalso; pose proof (bytes_left_bounds off H); unfold fuel_bound in H1; nia.
    - split.
      + intros off depth Hoff Hd Hf.
        destruct (parse_next_cases f off depth Hoff)
          as [(e0 & E)|[(e0 & vend & H1 & H2 & E)|(vs & ve & mk & H1 & H2 & H3 & H4 & E)]];
          rewrite E; try discriminate.
        assert (Hne : ll f vs ve (depth + 1) <> LOutOfFuel).
        { apply IHl; [lia | unfold D in *; lia |].
          pose proof (bytes_left_bounds off Hoff). pose proof (bytes_left_bounds vs ltac:(lia)).
          unfold fuel_bound in *. rewrite Nat2Z.inj_succ in Hf. nia. }
        destruct (ll f vs ve (depth + 1)); [discriminate | discriminate | congruence].
      + intros off end_off depth Hoff Hd Hf. rewrite ll_eq. unfold loop_body.
        destruct (off <? end_off); [|discriminate].
        rewrite Nat2Z.inj_succ in Hf.
        assert (Hp : pn f off depth <> SOutOfFuel) by (apply IHp; [assumption | assumption | lia]).
        destruct (pn f off depth) as [e off' n| |] eqn:P; [|discriminate|congruence].
        destruct (strict && (end_off <? off')); [discriminate|].
        apply parse_next_ok_shape in P; [|assumption]. destruct P as [P1 P2].
        assert (Hl : ll f off' end_off depth <> LOutOfFuel).
        { apply IHl; [lia | assumption |]. unfold fuel_bound, bytes_left in *. lia. }
        destruct (ll f off' end_off depth); [discriminate | discriminate | congruence].
  Qed.

  Theorem element_from_bytes_terminates : element_from_bytes strict maxd data <> SOutOfFuel.
  Proof.
    unfold element_from_bytes. apply (proj1 (fuel_enough (sdp_fuel maxd data))); [lia | unfold D; lia |].
    unfold sdp_fuel. fold L. fold D. pose proof L_nonneg as HL.
    assert (HD : 0 <= D) by (unfold D; lia).
    rewrite Z2Nat.id by nia. unfold fuel_bound, bytes_left. rewrite Z.min_l by lia. nia.
  Qed.

  Definition ok_bound (off off' n : Z) : Prop := off < L /\ off < off' /\ 1 <= n <= Z.min off' L - off.
  Definition err_bound (off n : Z) : Prop := 0 <= n <= Z.max (L + 1 - off) 1.

  Definition pn_spec (fuel : nat) : Prop := forall off depth, 0 <= off ->
    match pn fuel off depth with
    | SOk _ off' n => ok_bound off off' n
    | SErr _ n => 1 <= n /\ err_bound off n
    | SOutOfFuel => True
    end.

  Definition ll_spec (fuel : nat) : Prop := forall off end_off depth, 0 <= off ->
    match ll fuel off end_off depth with
    | LOk _ off' n =>
        (off < end_off -> off < L /\ off < off' /\ off' <= end_off /\ 0 <= n <= Z.min off' L - off) /\
        (end_off <= off -> off' = off /\ n = 0)
    | LErr _ n => err_bound off n
    | LOutOfFuel => True
    end.

  Lemma work_spec : strict = true -> forall fuel, pn_spec fuel /\ ll_spec fuel.
  Proof.
    intros Hstrict. pose proof L_nonneg as HL. unfold pn_spec, ll_spec, ok_bound, err_bound.
    induction fuel as [|f [IHp IHl]].
    - split; intros off; intros; exact I.
    - split.
      + intros off depth Hoff.
        destruct (parse_next_cases f off depth Hoff)
          as [(e0 & E)|[(e0 & vend & H1 & H2 & E)|(vs & ve & mk & H1 & H2 & H3 & H4 & E)]];
          rewrite E; try lia.
        specialize (IHl vs ve (depth + 1) ltac:(lia)).
        destruct (ll f vs ve (depth + 1)) as [l off'' n|e n|]; [|lia|exact I].
        destruct IHl as [I1 I2].
        destruct (Z.lt_ge_cases vs ve) as [Hlt|Hge]; [specialize (I1 Hlt)|specialize (I2 Hge)]; lia.
      + intros off end_off depth Hoff. rewrite ll_eq. unfold loop_body.
        destruct (off <? end_off) eqn:E.
        * apply Z.ltb_lt in E. specialize (IHp off depth Hoff).
          destruct (pn f off depth) as [e off' n|e n|]; [|lia|exact I].
          replace (strict && (end_off <? off')) with (end_off <? off') by (rewrite Hstrict; reflexivity).
          destruct (end_off <? off') eqn:E2; [lia|]. apply Z.ltb_ge in E2.
          specialize (IHl off' end_off depth ltac:(lia)).
          destruct (ll f off' end_off depth) as [l off'' n'|e' n'|]; [|lia|exact I].
          destruct IHl as [I1 I2]. split; [|lia]. intros _.
          destruct (Z.lt_ge_cases off' end_off) as [Hlt|Hge]; [specialize (I1 Hlt)|specialize (I2 Hge)]; lia.
        * apply Z.ltb_ge in E. split; [lia|]. intros _. split; reflexivity.
  Qed.

  (* with D17b.patch the parser never makes more parse_next calls than there are bytes (+1) *)
  Theorem element_work_linear : strict = true -> forall fuel off depth, 0 <= off ->
    0 <= steps_of (pn fuel off depth) <= Z.max (L + 1 - off) 1.
  Proof.
    intros Hstrict fuel off depth Hoff. pose proof L_nonneg as HL.
    pose proof (proj1 (work_spec Hstrict fuel) off depth Hoff) as H.
    unfold ok_bound, err_bound in H.
    destruct (pn fuel off depth) as [e off' n|e n|]; cbn [steps_of]; lia.
  Qed.

  (* a container is rejected as soon as the nesting limit is reached *)
  Lemma nesting_limit : forall f off depth hd vsize szlen,
    0 <= off -> byte_at data off = Some hd -> (hd / 8 =? 6) || (hd / 8 =? 7) = true ->
    value_size data (off + 1) (hd / 8) (hd mod 8) = inr (vsize, szlen) ->
    maxd <= depth -> pn (S f) off depth = SErr SNesting 1.
  Proof.
    intros f off depth hd vsize szlen Hoff B T V Hd. rewrite pn_eq. unfold parse_body. rewrite B, V.
    apply Z.leb_le in Hd. apply orb_true_iff in T.
    destruct T as [T|T]; apply Z.eqb_eq in T; rewrite T; cbn [Z.eqb Pos.eqb orb]; rewrite Hd; reflexivity.
  Qed.
End Proofs.

(* the hostile shape of D17b, 83 bytes: the unpatched parser makes 3327 parse_next calls *)
Lemma overrun_witness_steps :
  steps_of (element_from_bytes false 32 (overrun_witness 6 (repeat 0 50))) = 3327.
Proof. vm_compute. reflexivity. Qed.

(* DataElement.from_bytes with D17b.patch: at most len + 1 parse_next calls *)
Lemma element_from_bytes_work_linear : forall maxd data, bytes_ok data = true ->
  0 <= steps_of (element_from_bytes true maxd data) <= zlen data + 1.
Proof.
  intros maxd data H. unfold element_from_bytes.
  pose proof (element_work_linear true maxd data H eq_refl (sdp_fuel maxd data) 0 0 (Z.le_refl 0)) as B.
  assert (0 <= zlen data) by (unfold zlen; lia). cbv zeta in B. lia.
Qed.
