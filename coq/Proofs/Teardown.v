(* Proofs about Model/Teardown.v: three inductive invariants of [step], for every table,
   every history and every cut point (every prefix of every history is a history). *)
From Coq Require Import ZArith List Bool String Lia.
From BV Require Import Model.Teardown.
Import ListNotations.
Open Scope Z_scope.

Lemma mem_add : forall x h l, mem x (add h l) = (x =? h) || mem x l.
Proof.
  intros x h l. unfold add. destruct (mem h l) eqn:E; cbn; [|reflexivity].
  destruct (x =? h) eqn:Ex; [|reflexivity]. apply Z.eqb_eq in Ex. subst. now rewrite E.
Qed.

Lemma mem_remove : forall x h l, mem x (remove h l) = negb (x =? h) && mem x l.
Proof.
  intros x h l. unfold remove. induction l as [|y r IH]; cbn [filter mem].
  - now rewrite andb_false_r.
  - destruct (y =? h) eqn:Ey; cbn [negb mem]; rewrite IH.
    + apply Z.eqb_eq in Ey. subst y. now destruct (x =? h).
    + destruct (x =? y) eqn:Exy; [|reflexivity]. apply Z.eqb_eq in Exy. subst y. now rewrite Ey.
Qed.

Lemma remove_notin : forall h l, mem h l = false -> remove h l = l.
Proof.
  intros h l. unfold remove. induction l as [|y r IH]; cbn [filter mem]; [reflexivity|].
  intros H. apply orb_false_iff in H as [H1 H2].
  rewrite Z.eqb_sym, H1. cbn [negb]. now rewrite IH.
Qed.

Lemma mem_nil_all : forall l, (forall x, mem x l = false) -> l = [].
Proof.
  intros [|y r] H; [reflexivity|]. specialize (H y). cbn in H. now rewrite Z.eqb_refl in H.
Qed.

Lemma fold_remove_mem : forall l t x,
  mem x (fold_left (fun t h => remove h t) l t) = mem x t && negb (mem x l).
Proof.
  induction l as [|a l IH]; intros; cbn [fold_left mem].
  - now rewrite andb_true_r.
  - rewrite IH, mem_remove. destruct (x =? a), (mem x t), (mem x l); reflexivity.
Qed.

Lemma fold_remove_self : forall t, fold_left (fun t h => remove h t) t t = [].
Proof.
  intros t. apply mem_nil_all. intros x. rewrite fold_remove_mem. now destruct (mem x t).
Qed.

Lemma replay_app : forall q r t, replay (q ++ r) t = replay r (replay q t).
Proof.
  induction q as [|a q IH]; intros r t; [reflexivity|].
  destruct a; cbn [app replay]; apply IH.
Qed.

Lemma replay_cons : forall e q t, replay (e :: q) t = replay q (replay [e] t).
Proof. intros e q t. apply (replay_app [e]). Qed.

(* one event does the same to two tables that hold the same handles *)
Lemma replay_one_ext : forall e t t',
  (forall x, mem x t = mem x t') -> forall x, mem x (replay [e] t) = mem x (replay [e] t').
Proof.
  intros [h|h|w] t t' H x; cbn [replay]; rewrite ?mem_add, ?mem_remove, H; reflexivity.
Qed.

(* a handle the host holds and will no longer hold has its disconnection on the way *)
Lemma replay_doomed : forall q t h,
  mem h t = true -> mem h (replay q t) = false -> In (EDisc h) q.
Proof.
  induction q as [|a q IH]; intros t h Ht Hr; cbn in *.
  - congruence.
  - destruct a as [h'|h'|w].
    + right. apply (IH (add h' t)); [|exact Hr]. rewrite mem_add, Ht. apply orb_true_r.
    + destruct (h =? h') eqn:E.
      * apply Z.eqb_eq in E. subst. now left.
      * right. apply (IH (remove h' t)); [|exact Hr]. rewrite mem_remove, E, Ht. reflexivity.
    + right. now apply (IH t).
Qed.

Definition release (h : Z) (w : waiter) : waiter :=
  fold_left (fun w hk => release_at hk h w) fanout_order w.

Lemma fanout_host : forall tbl h s, host (fanout tbl h s) = remove h (host s).
Proof. reflexivity. Qed.
Lemma fanout_dev : forall tbl h s, dev (fanout tbl h s) = remove h (dev s).
Proof. reflexivity. Qed.

Lemma fanout_waiters : forall tbl h s, waiters (fanout tbl h s) = map (release h) (waiters s).
Proof.
  intros. unfold fanout, fanout_order. cbn [fold_left hook_step waiters].
  rewrite !map_map. apply map_ext. intros w.
  unfold release, fanout_order. cbn [fold_left]. reflexivity.
Qed.

Lemma in_chain_cases : forall hk, in_chain hk = true ->
  hk = HkDevice \/ hk = HkConnListeners \/ hk = HkGattServer \/ hk = HkL2cap \/
  hk = HkBearerClose \/ hk = HkHost \/ hk = HkQueueFlush.
Proof. intros []; cbn; intros H; try discriminate; tauto. Qed.

Lemma fanout_regs_in : forall tbl h s p,
  In p (regs (fanout tbl h s)) ->
  In p (regs s) /\ (in_chain (reg_hook tbl (fst p)) = true -> (kconn (snd p) =? h) = false).
Proof.
  intros tbl h s p. unfold fanout, fanout_order. cbn [fold_left hook_step regs].
  rewrite !filter_In. intros H.
  repeat match goal with H : _ /\ _ |- _ => destruct H end.
  split; [assumption|]. intros Hc.
  destruct (kconn (snd p) =? h); [|reflexivity].
  rewrite andb_true_r in *.
  apply in_chain_cases in Hc.
  repeat match goal with H : _ \/ _ |- _ => destruct H end;
    match goal with E : reg_hook _ _ = _ |- _ => rewrite E in * end; cbn in *; discriminate.
Qed.

Lemma fanout_regs_sub : forall tbl h s p, In p (regs (fanout tbl h s)) -> In p (regs s).
Proof. intros. now apply fanout_regs_in in H. Qed.

Lemma fanout_regs_keep : forall tbl h s p,
  In p (regs s) -> (kconn (snd p) =? h) = false -> In p (regs (fanout tbl h s)).
Proof.
  intros tbl h s p Hin E. unfold fanout, fanout_order. cbn [fold_left hook_step regs].
  rewrite !filter_In. rewrite E, !andb_false_r. cbn [negb]. repeat split; auto.
Qed.

(* what the whole chain does to a call on the connection that goes away *)
Definition released (w : waiter) : waiter :=
  match w_st w, w_kind w with
  | Pending, WConnBound hk | Pending, WLate hk => if in_chain hk then set_st w (Done OCancelled) else w
  | Pending, WDisconnect => set_st w (Done OResult)
  | _, _ => w
  end.

(* Every step of the chain tests the same handle, and no step changes the key: with the test
   replaced by a boolean the chain is a closed function of the call's state and kind, and
   [hook] is a finite type. *)
Definition release_at_b (b : bool) (hk : hook) (w : waiter) : waiter :=
  if negb b then w else
  match w_st w, w_kind w with
  | Pending, WConnBound hk' => if hook_eqb hk hk' then set_st w (Done OCancelled) else w
  | Pending, WLate hk' => if hook_eqb hk hk' then set_st w (Done OCancelled) else w
  | Pending, WDisconnect => if hook_eqb hk HkConnListeners then set_st w (Done OResult) else w
  | _, _ => w
  end.

Lemma release_at_b_eq : forall hk h w,
  release_at hk h w = release_at_b (kconn (w_key w) =? h) hk w.
Proof. reflexivity. Qed.

Lemma release_at_b_key : forall b hk w, w_key (release_at_b b hk w) = w_key w.
Proof.
  intros b hk [id k key st]. unfold release_at_b. destruct b; cbn; [|reflexivity].
  destruct st; try reflexivity; destruct k; try reflexivity;
    match goal with |- context [hook_eqb ?a ?b] => destruct (hook_eqb a b) end; reflexivity.
Qed.

Lemma release_spec : forall h w,
  release h w = if kconn (w_key w) =? h then released w else w.
Proof.
  intros h w. unfold release, fanout_order. cbn [fold_left].
  rewrite !release_at_b_eq, !release_at_b_key.
  destruct (kconn (w_key w) =? h); [|reflexivity].
  destruct w as [id k key st]; destruct st as [| | | |o]; try reflexivity;
    destruct k as [hk| | | |hk]; try reflexivity; destruct hk; reflexivity.
Qed.

Lemma release_other : forall h w, (kconn (w_key w) =? h) = false -> release h w = w.
Proof. intros h w E. now rewrite release_spec, E. Qed.

(* the chain only ever sets the state *)
Lemma released_fields : forall w,
  w_id (released w) = w_id w /\ w_key (released w) = w_key w /\ w_kind (released w) = w_kind w.
Proof.
  intros [id k key st]. unfold released. cbn [w_st w_kind].
  destruct st; try (repeat split; reflexivity);
    destruct k as [hk| | | |hk]; try (repeat split; reflexivity);
    destruct (in_chain hk); repeat split; reflexivity.
Qed.

Lemma released_idem : forall w, released (released w) = released w.
Proof.
  intros w. unfold released at 2 3.
  destruct (w_st w) eqn:Es; destruct (w_kind w) as [hk| | | |hk] eqn:Ek; try destruct (in_chain hk) eqn:Ec;
    unfold released; cbn [set_st w_st w_kind]; rewrite ?Es, ?Ek, ?Ec; reflexivity.
Qed.

(* on its own connection: a registered releasable call ends, everything else is unchanged *)
Lemma release_same : forall h w, (kconn (w_key w) =? h) = true ->
  w_st (release h w) =
  match w_st w, w_kind w with
  | Pending, WConnBound hk => if in_chain hk then Done OCancelled else Pending
  | Pending, WLate hk => if in_chain hk then Done OCancelled else Pending
  | Pending, WDisconnect => Done OResult
  | st, _ => st
  end.
Proof.
  intros h w E. rewrite release_spec, E. unfold released.
  destruct (w_st w) eqn:Es; try exact Es; destruct (w_kind w) as [hk| | | |hk]; try exact Es;
    try destruct (in_chain hk); try exact Es; reflexivity.
Qed.

(* used instead of [cbn [fold_left]]: on a fold of [fanout] that leaves a conversion for which [Qed]
   unfolds the whole chain *)
Lemma fold_left_cons : forall (A B : Type) (f : A -> B -> A) a l s,
  fold_left f (a :: l) s = fold_left f l (f s a).
Proof. reflexivity. Qed.

Definition fan_all (tbl : table) (l : list Z) (s : state) : state :=
  fold_left (fun a h => fanout tbl h a) l s.
Definition release_all (l : list Z) (x : waiter) : waiter := fold_left (fun x h => release h x) l x.

(* a field that one fan-out transforms by [g h] is transformed by the fold of [g] over the handles *)
Lemma fan_all_field : forall (A : Type) (f : state -> A) (g : Z -> A -> A) tbl,
  (forall h s, f (fanout tbl h s) = g h (f s)) ->
  forall l s, f (fan_all tbl l s) = fold_left (fun a h => g h a) l (f s).
Proof.
  intros A f g tbl H. unfold fan_all. induction l as [|a l IH]; intros s; [reflexivity|].
  now rewrite fold_left_cons, IH, H.
Qed.

Lemma fan_all_host : forall tbl l s,
  host (fan_all tbl l s) = fold_left (fun t h => remove h t) l (host s).
Proof. intros tbl. apply (fan_all_field _ host remove). reflexivity. Qed.
Lemma fan_all_dev : forall tbl l s,
  dev (fan_all tbl l s) = fold_left (fun t h => remove h t) l (dev s).
Proof. intros tbl. apply (fan_all_field _ dev remove). reflexivity. Qed.
Lemma fan_all_ctl : forall tbl l s,
  ctl (fan_all tbl l s) = ctl s.
Proof.
  unfold fan_all. induction l as [|a l IH]; intros s; [reflexivity|]. now rewrite fold_left_cons, IH.
Qed.
Lemma fan_all_waiters : forall tbl l s,
  waiters (fan_all tbl l s) = map (release_all l) (waiters s).
Proof.
  unfold fan_all, release_all. induction l as [|a l IH]; intros.
  - cbn [fold_left]. now rewrite map_id.
  - rewrite fold_left_cons, IH, fanout_waiters, map_map. apply map_ext. intros x.
    now rewrite fold_left_cons.
Qed.

(* the calls on the handles of [l] are released, once each *)
Lemma release_all_spec : forall l x,
  release_all l x = if mem (kconn (w_key x)) l then released x else x.
Proof.
  unfold release_all. induction l as [|a l IH]; intros x; [reflexivity|].
  rewrite fold_left_cons, IH, release_spec. cbn [mem].
  destruct (kconn (w_key x) =? a); [|reflexivity].
  rewrite released_idem, (proj1 (proj2 (released_fields x))). now destruct (mem _ l).
Qed.

Definition tinv (s : state) : Prop :=
  dev s = host s /\
  (lost s = false -> forall x, mem x (replay (c2h s) (host s)) = mem x (ctl s)) /\
  (lost s = true -> host s = [] /\ c2h s = [] /\ h2c s = []).

Lemma tinv_init : tinv init.
Proof. repeat split; intros; try reflexivity; discriminate. Qed.

(* a step that touches neither the tables nor the event queue *)
Lemma tinv_frame : forall s s',
  lost s = false -> lost s' = false -> dev s' = dev s -> host s' = host s ->
  c2h s' = c2h s -> ctl s' = ctl s -> tinv s -> tinv s'.
Proof.
  intros s s' L L' Hd Hh Hc Hk (H1 & H2 & _). unfold tinv. rewrite L', Hd, Hh, Hc, Hk.
  repeat split; auto; discriminate.
Qed.

(* the controller changes its table and queues the event that will do the same to the host's *)
Lemma tinv_emit : forall s s' e,
  lost s = false -> lost s' = false -> dev s' = dev s -> host s' = host s ->
  c2h s' = c2h s ++ [e] -> ctl s' = replay [e] (ctl s) -> tinv s -> tinv s'.
Proof.
  intros s s' e L L' Hd Hh Hc Hk (H1 & H2 & _). unfold tinv. rewrite L', Hd, Hh, Hc, Hk.
  repeat split; auto; try discriminate.
  intros _. rewrite replay_app. apply replay_one_ext, H2, L.
Qed.

(* the host takes the oldest event and does to its tables what the event says *)
Lemma tinv_consume : forall s s' e q,
  lost s = false -> lost s' = false -> c2h s = e :: q -> c2h s' = q -> ctl s' = ctl s ->
  host s' = replay [e] (host s) -> dev s' = replay [e] (dev s) -> tinv s -> tinv s'.
Proof.
  intros s s' e q L L' Hc Hc' Hk Hh Hd (H1 & H2 & _). unfold tinv. rewrite L', Hc', Hk, Hh, Hd, H1.
  repeat split; auto; try discriminate.
  intros _ x. now rewrite <- (H2 L x), Hc, (replay_cons e q).
Qed.

Lemma tinv_step : forall tbl s o, tinv s -> tinv (step tbl s o).
Proof.
  intros tbl s o H. pose proof H as (Hdh & _ & _). unfold step. destruct (lost s) eqn:L.
  - destruct o; exact H.
  - destruct o.
    + destruct (mem h (ctl s)); [exact H|]. now apply (tinv_emit s _ (EConn h)).
    + destruct (mem h (ctl s)); [|exact H]. now apply (tinv_emit s _ (EDisc h)).
    + destruct (mem h (dev s) && negb (has_waiter w s)); [|exact H]. now apply (tinv_frame s).
    + destruct (has_waiter w s); [exact H|]. now apply (tinv_frame s).
    + destruct (mem (kconn key) (dev s) && negb (has_waiter w s)); [|exact H].
      destruct k; try exact H.
      * destruct (conn_bound (WConnBound hk)); exact H.
      * destruct (in_chain hk); [|exact H]. now apply (tinv_frame s).
    + exact H.
    + destruct (known tbl r && mem (kconn key) (dev s) && negb (has_reg r key (regs s)));
        [|exact H]. now apply (tinv_frame s).
    + now apply (tinv_frame s).
    + destruct (c2h s) as [|e q] eqn:Eq; [exact H|].
      destruct e as [h|h|w]; [now apply (tinv_consume s _ (EConn h) q)| |now apply (tinv_consume s _ (EResp w) q)].
      destruct (mem h (host s)) eqn:Eh; [now apply (tinv_consume s _ (EDisc h) q)|].
      (* a handle the host does not know: the event changes nothing *)
      apply (tinv_consume s _ (EDisc h) q); auto; cbn [replay upd host dev]; symmetry; apply remove_notin; congruence.
    + destruct (h2c s) as [|c q] eqn:Eq; [exact H|].
      destruct c as [h w|w]; [|now apply (tinv_emit s _ (EResp w))].
      destruct (mem h (ctl s)); [now apply (tinv_emit s _ (EDisc h))|now apply (tinv_frame s)].
    + now apply (tinv_frame s).
    + unfold tinv. cbn [dev host lost c2h h2c ctl].
      change (fold_left (fun a h => fanout tbl h a) (host s) ?x) with (fan_all tbl (host s) x).
      rewrite fan_all_dev, fan_all_host. cbn [upd dev host]. rewrite Hdh, fold_remove_self.
      repeat split; auto; discriminate.
    + now apply (tinv_frame s).
    + now apply (tinv_frame s).
Qed.

Definition rinv (tbl : table) (s : state) : Prop :=
  forall p, In p (regs s) -> known tbl (fst p) = true /\ mem (kconn (snd p)) (dev s) = true.

Lemma known_in_chain : forall tbl r,
  all_cleaned tbl = true -> known tbl r = true -> in_chain (reg_hook tbl r) = true.
Proof.
  unfold all_cleaned, known, reg_hook. induction tbl as [|d tbl IH]; intros r Ha Hk; cbn in *.
  - discriminate.
  - apply andb_true_iff in Ha as [Hd Ha]. destruct (String.eqb (rd_name d) r); [exact Hd|].
    now apply IH.
Qed.

Lemma rinv_init : forall tbl, rinv tbl init.
Proof. intros tbl p []. Qed.

(* the chain drops every entry of the connection it tears down: what is left is on the others *)
Lemma rinv_fanout : forall tbl h s,
  all_cleaned tbl = true -> rinv tbl s -> rinv tbl (fanout tbl h s).
Proof.
  intros tbl h s Ha H p Hp. apply fanout_regs_in in Hp as [Hp Hc].
  destruct (H p Hp) as [H1 H2]. split; [exact H1|].
  now rewrite fanout_dev, mem_remove, H2, (Hc (known_in_chain tbl _ Ha H1)).
Qed.

Lemma rinv_fan_all : forall tbl l s,
  all_cleaned tbl = true -> rinv tbl s -> rinv tbl (fan_all tbl l s).
Proof.
  intros tbl l s Ha. revert s. unfold fan_all. induction l as [|a l IH]; intros s H; [exact H|].
  rewrite fold_left_cons. now apply IH, rinv_fanout.
Qed.

(* [rinv] reads [regs] and [dev] only: most steps leave it as it is, up to computation *)
Lemma rinv_step : forall tbl s o, all_cleaned tbl = true -> rinv tbl s -> rinv tbl (step tbl s o).
Proof.
  intros tbl s o Ha H. unfold step. destruct (lost s) eqn:L.
  - destruct o; exact H.
  - destruct o; try exact H.
    + destruct (mem h (ctl s)); exact H.
    + destruct (mem h (ctl s)); exact H.
    + destruct (mem h (dev s) && negb (has_waiter w s)); exact H.
    + destruct (has_waiter w s); exact H.
    + destruct (mem (kconn key) (dev s) && negb (has_waiter w s)); [|exact H].
      destruct k; try exact H.
      * destruct (conn_bound (WConnBound hk)); exact H.
      * destruct (in_chain hk); exact H.
    + destruct (known tbl r) eqn:Ek; cbn [andb]; [|exact H].
      destruct (mem (kconn key) (dev s)) eqn:Em; cbn [andb]; [|exact H].
      destruct (negb (has_reg r key (regs s))); [|exact H].
      intros p Hp. cbn [set_regs regs dev] in *. apply in_app_or in Hp as [Hp|[<-|[]]]; [now apply H|now split].
    + intros p Hp. cbn [set_regs regs dev] in *. apply filter_In in Hp as [Hp _]. now apply H.
    + destruct (c2h s) as [|e q]; [exact H|]. destruct e as [h|h|w]; [| |exact H].
      * intros p Hp. destruct (H p Hp) as [H1 H2]. split; [exact H1|].
        cbn [dev]. rewrite mem_add, H2. apply orb_true_r.
      * destruct (mem h (host s)); [|exact H]. now apply rinv_fanout.
    + destruct (h2c s) as [|c q]; [exact H|]. destruct c as [h w|w]; [destruct (mem h (ctl s))|]; exact H.
    + exact (rinv_fan_all tbl (host s) (upd s (ctl s) [] [] (map on_loss (waiters s))) Ha H).
Qed.

Definition disc_coming (s : state) (c : Z) : Prop :=
  (exists w, In (CDisc c w) (h2c s)) \/ In (EDisc c) (c2h s).
Definition resp_coming (s : state) (w : Z) : Prop :=
  In (CCmd w) (h2c s) \/ In (EResp w) (c2h s).
Definition late_kind (x : waiter) : Prop := exists hk, w_kind x = WLate hk /\ in_chain hk = true.

Definition wok (s : state) (x : waiter) : Prop :=
  match w_st x with
  | Done _ => True
  | Hung => False
  | Pending =>
      match w_kind x with
      | WConnBound hk | WLate hk => in_chain hk = true /\ mem (kconn (w_key x)) (dev s) = true
      | WTimerOnly => True
      | WDisconnect => mem (kconn (w_key x)) (dev s) = true /\ lost s = false /\
                       disc_coming s (kconn (w_key x))
      | WHciCommand => lost s = false /\ resp_coming s (w_id x)
      end
  | Issuing => late_kind x /\ lost s = false /\ resp_coming s (w_id x)
  | Responded => late_kind x      (* its task is about to run: it registers or is cancelled *)
  end.

Definition winv (s : state) : Prop := Forall (wok s) (waiters s).

Lemma winv_init : winv init.
Proof. constructor. Qed.

Lemma wok_done : forall s x, is_done (w_st x) = true -> wok s x.
Proof. intros s x H. unfold wok. now destruct (w_st x). Qed.

(* [wok] reads [lost], [dev] and the two queues: a waiter stays fine if what it relies on stays *)
Lemma wok_transfer : forall s s' x,
  lost s' = lost s ->
  (mem (kconn (w_key x)) (dev s) = true -> mem (kconn (w_key x)) (dev s') = true) ->
  (disc_coming s (kconn (w_key x)) -> mem (kconn (w_key x)) (dev s) = true ->
     disc_coming s' (kconn (w_key x))) ->
  (resp_coming s (w_id x) -> resp_coming s' (w_id x)) ->
  wok s x -> wok s' x.
Proof.
  intros s s' x Hl Hd Hc Hr. unfold wok.
  destruct (w_st x); destruct (w_kind x) eqn:Ek; rewrite ?Hl; intuition.
Qed.

(* what is on its way stays on its way when the queues only grow ... *)
Lemma coming_grow : forall s s',
  incl (h2c s) (h2c s') -> incl (c2h s) (c2h s') ->
  (forall c, disc_coming s c -> disc_coming s' c) /\ (forall w, resp_coming s w -> resp_coming s' w).
Proof.
  intros s s' Hh Hc. unfold disc_coming, resp_coming.
  split; [intros c [[w H]|H]|intros w [H|H]]; eauto.
Qed.

(* ... and when the host takes the oldest event, unless it is that event ... *)
Lemma coming_c2h_pop : forall s s' e q,
  c2h s = e :: q -> c2h s' = q -> h2c s' = h2c s ->
  (forall c, disc_coming s c -> e = EDisc c \/ disc_coming s' c) /\
  (forall w, resp_coming s w -> e = EResp w \/ resp_coming s' w).
Proof.
  intros s s' e q E E' Eh. unfold disc_coming, resp_coming. rewrite E, E', Eh. cbn [In].
  split; intros; intuition.
Qed.

(* ... and when the controller takes the oldest command, unless it is that command *)
Lemma coming_h2c_pop : forall s s' k q,
  h2c s = k :: q -> h2c s' = q -> incl (c2h s) (c2h s') ->
  (forall c, disc_coming s c -> (exists w, k = CDisc c w) \/ disc_coming s' c) /\
  (forall w, resp_coming s w -> k = CCmd w \/ resp_coming s' w).
Proof.
  intros s s' k q E E' Ec. unfold disc_coming, resp_coming. rewrite E, E'. cbn [In].
  split; [intros c [[w [H|H]]|H]|intros w [[H|H]|H]]; eauto.
Qed.

Lemma wok_c2h_pop : forall s s' e q x,
  c2h s = e :: q -> c2h s' = q -> h2c s' = h2c s -> lost s' = lost s ->
  (mem (kconn (w_key x)) (dev s) = true ->
     mem (kconn (w_key x)) (dev s') = true /\ e <> EDisc (kconn (w_key x))) ->
  e <> EResp (w_id x) -> wok s x -> wok s' x.
Proof.
  intros s s' e q x E E' Eh Hl Hd He. destruct (coming_c2h_pop s s' e q E E' Eh) as [Cd Cr].
  apply wok_transfer; [exact Hl|apply Hd| |].
  - intros Hc Hm. destruct (Cd _ Hc); [now destruct (proj2 (Hd Hm))|assumption].
  - intros Hc. now destruct (Cr _ Hc).
Qed.

Lemma winv_map : forall s s' f,
  waiters s' = map f (waiters s) -> (forall x, wok s x -> wok s' (f x)) -> winv s -> winv s'.
Proof.
  intros s s' f Hw Hf H. unfold winv. rewrite Hw. apply Forall_map. revert H. apply Forall_impl, Hf.
Qed.

Lemma winv_map_waiter : forall s s' w f,
  waiters s' = map_waiter w f (waiters s) ->
  (forall x, wok s x -> wok s' x) -> (forall x, wok s x -> wok s' (f x)) -> winv s -> winv s'.
Proof.
  intros s s' w f Hw Hk Hf. apply (winv_map s s' _ Hw). intros x Hx. destruct (w_id x =? w); auto.
Qed.

(* the queues grow, the tables stay, at most one call is added: LocalDisc, HciCommand, Start, and
   the steps of the environment *)
Lemma wok_grow : forall s k c2h' h2c' ws x,
  incl (c2h s) c2h' -> incl (h2c s) h2c' -> wok s x -> wok (upd s k c2h' h2c' ws) x.
Proof.
  intros s k c2h' h2c' ws x Hc Hh. destruct (coming_grow s (upd s k c2h' h2c' ws) Hh Hc) as [Cd Cr].
  apply wok_transfer; auto.
Qed.

Lemma winv_upd_queues : forall s k c2h' h2c',
  incl (c2h s) c2h' -> incl (h2c s) h2c' -> winv s -> winv (upd s k c2h' h2c' (waiters s)).
Proof. intros s k c2h' h2c' Hc Hh. apply Forall_impl. intros x. now apply wok_grow. Qed.

Lemma winv_upd_new : forall s k c2h' h2c' x,
  incl (c2h s) c2h' -> incl (h2c s) h2c' -> wok (upd s k c2h' h2c' []) x ->
  winv s -> winv (upd s k c2h' h2c' (waiters s ++ [x])).
Proof.
  intros s k c2h' h2c' x Hc Hh Hx H. apply Forall_app. split; [|now constructor].
  revert H. apply Forall_impl. intros y. now apply wok_grow.
Qed.

Lemma wok_tick : forall s x, wok s x -> wok s (on_tick (dev s) x).
Proof.
  intros s x H. unfold on_tick. destruct (w_st x); try exact H. destruct (w_kind x); try exact H.
  destruct (mem (kconn (w_key x)) (dev s)); [exact H|now apply wok_done].
Qed.

Lemma wok_resume : forall s x, wok s x -> wok s (on_resume (dev s) x).
Proof.
  intros s x H. unfold on_resume.
  destruct (w_st x) eqn:Es; try exact H. destruct (w_kind x) eqn:Ek; try exact H.
  destruct (mem (kconn (w_key x)) (dev s)) eqn:Em; [|now apply wok_done].
  unfold wok in *. rewrite Es in H. destruct H as (hk' & Ek' & Hc).
  cbn [set_st w_st w_kind w_key]. rewrite Ek in *. injection Ek' as <-. now split.
Qed.

Lemma wok_cancel : forall s x, wok s x -> wok s (on_cancel x).
Proof. intros s x H. unfold on_cancel. destruct (w_st x) eqn:Es; try now apply wok_done. exact H. Qed.

Lemma wok_released : forall s s' x,
  lost s' = lost s -> (resp_coming s (w_id x) -> resp_coming s' (w_id x)) -> wok s x -> wok s' (released x).
Proof.
  intros s s' x Hl Hr H. destruct (released_fields x) as (Ei & Ekey & Ek).
  unfold wok, late_kind in *. rewrite Ei, Ekey, Ek, Hl. unfold released.
  destruct (w_st x) eqn:Es; rewrite ?Es; try tauto.
  destruct (w_kind x) as [hk| | | |hk]; rewrite ?Es; try tauto; try exact I; destruct H as [-> _]; exact I.
Qed.

Lemma winv_keep : forall s s',
  waiters s' = waiters s -> (forall x, wok s x -> wok s' x) -> winv s -> winv s'.
Proof. intros s s' Hw Hf. unfold winv. rewrite Hw. apply Forall_impl, Hf. Qed.

Lemma winv_deliver_c2h : forall tbl s, tinv s -> winv s -> winv (step tbl s DeliverC2H).
Proof.
  intros tbl s (Hdh & _ & _) H. unfold step. destruct (lost s) eqn:L; [exact H|].
  destruct (c2h s) as [|e q] eqn:Eq; [exact H|]. destruct e as [h|h|w].
  - apply (winv_keep s); [reflexivity| |exact H]. intros x.
    apply (wok_c2h_pop s _ (EConn h) q x Eq); try reflexivity; try discriminate; [exact (eq_sym L)|].
    cbn [dev]. intros Hm. rewrite mem_add, Hm. split; [apply orb_true_r|discriminate].
  - destruct (mem h (host s)) eqn:Eh.
    + (* the fan-out: calls on h are released, the others rely on nothing that goes *)
      set (s1 := upd s (ctl s) q (h2c s) (waiters s)).
      apply (winv_map s _ (release h)); [exact (fanout_waiters tbl h s1)| |exact H]. intros x.
      rewrite release_spec. destruct (kconn (w_key x) =? h) eqn:E.
      * apply wok_released; [reflexivity|]. intros Hc.
        now destruct (proj2 (coming_c2h_pop s (fanout tbl h s1) _ q Eq eq_refl eq_refl) _ Hc).
      * apply (wok_c2h_pop s _ (EDisc h) q x Eq); try reflexivity; try discriminate.
        rewrite fanout_dev, mem_remove, E. intros Hm. split; [exact Hm|].
        intros [= Hh]. now rewrite <- Hh, Z.eqb_refl in E.
    + (* a handle the host does not know: no call can be waiting for this event *)
      apply (winv_keep s); [reflexivity| |exact H]. intros x.
      apply (wok_c2h_pop s _ (EDisc h) q x Eq); try reflexivity; try discriminate.
      intros Hm. split; [exact Hm|]. intros [= Hh]. congruence.
  - (* a command status: the call it answers moves on, the others did not wait for it *)
    set (s' := upd s (ctl s) q (h2c s) (map_waiter w on_resp (waiters s))).
    apply (winv_map s s' (fun x => if w_id x =? w then on_resp x else x)); [reflexivity| |exact H].
    intros x Hx. destruct (w_id x =? w) eqn:Ei.
    + assert (Hdisc : forall c, disc_coming s c -> disc_coming s' c).
      { intros c Hc. now destruct (proj1 (coming_c2h_pop s s' _ q Eq eq_refl eq_refl) _ Hc). }
      unfold on_resp. unfold wok in Hx.
      destruct (w_st x) eqn:Es; [destruct (w_kind x) eqn:Ek| | | |];
        try (now apply wok_done); try (unfold wok; rewrite Es, ?Ek; auto; tauto).
      * unfold wok. rewrite Es, Ek. split; [tauto|]. split; [tauto|]. now apply Hdisc.
      * destruct Hx as ((hk & Ek & Hc) & _). rewrite Ek. exists hk. now split.
    + revert Hx. apply (wok_c2h_pop s s' (EResp w) q x Eq); try reflexivity; try (now split).
      intros [= Hw]. now rewrite <- Hw, Z.eqb_refl in Ei.
Qed.

Lemma winv_deliver_h2c : forall tbl s, tinv s -> winv s -> winv (step tbl s DeliverH2C).
Proof.
  intros tbl s (Hdh & Hrep & _) H. unfold step. destruct (lost s) eqn:L; [exact H|].
  destruct (h2c s) as [|c q] eqn:Eq; [exact H|].
  assert (Hpop : forall s', lost s' = lost s -> dev s' = dev s -> waiters s' = waiters s ->
            h2c s' = q -> incl (c2h s) (c2h s') ->
            (forall h w, c = CDisc h w -> mem h (dev s) = true -> In (EDisc h) (c2h s')) ->
            (forall w, c = CCmd w -> In (EResp w) (c2h s')) -> winv s').
  { intros s' Hl Hd Hw Hq Hc HD HR. destruct (coming_h2c_pop s s' _ q Eq Hq Hc) as [Cd Cr].
    apply (winv_keep s); [exact Hw| |exact H]. intros x.
    apply wok_transfer; [exact Hl|now rewrite Hd| |].
    - intros Hx Hm. destruct (Cd _ Hx) as [[w ->]|]; [|assumption]. right. now apply (HD _ w).
    - intros Hx. destruct (Cr _ Hx) as [->|]; [|assumption]. right. now apply HR. }
  destruct c as [h w|w]; [destruct (mem h (ctl s)) eqn:Ec|]; apply Hpop; try reflexivity;
    try apply incl_refl; try apply incl_appl, incl_refl; try discriminate.
  - intros h' w' [= <- _] _. apply in_or_app. right. now left.
  - (* the controller no longer holds the handle: the disconnection is already on its way *)
    intros h' w' [= <- _] Hm. apply (replay_doomed (c2h s) (host s)); [congruence|].
    now rewrite (Hrep eq_refl).
  - intros w' [= <-]. apply in_or_app. right. now left.
Qed.

Lemma released_done : forall y, is_done (w_st y) = true -> released y = y.
Proof. intros y H. unfold released. now destruct (w_st y). Qed.

(* the transport goes: the outstanding command fails, then every connection the host holds goes
   through the chain; what is left pending is a timer or a task that has yet to run *)
Lemma winv_loss : forall tbl s, tinv s -> winv s -> winv (step tbl s Loss).
Proof.
  intros tbl s (Hdh & _ & _) H. unfold step. destruct (lost s) eqn:L; [exact H|].
  change (fold_left (fun a h => fanout tbl h a) (host s) ?x) with (fan_all tbl (host s) x).
  set (s' := Build_state _ _ _ _ _ _ _ _).
  apply (winv_map s s' (fun x => release_all (host s) (on_loss x))); [| |exact H].
  { unfold s'. cbn [waiters]. rewrite fan_all_waiters. cbn [upd waiters]. now rewrite map_map. }
  intros x Hx. rewrite release_all_spec, <- Hdh.
  assert (Hdone : forall y, is_done (w_st y) = true ->
            wok s' (if mem (kconn (w_key y)) (dev s) then released y else y)).
  { intros y Hy. rewrite (released_done y Hy). destruct (mem _ _); now apply wok_done. }
  assert (Hkeep : on_loss x = x -> released x = x -> wok s' x ->
            wok s' (if mem (kconn (w_key (on_loss x))) (dev s) then released (on_loss x) else on_loss x)).
  { intros -> ->. now destruct (mem _ _). }
  unfold wok, late_kind in Hx. unfold on_loss in *. unfold released in *.
  destruct (w_st x) eqn:Es; [destruct (w_kind x) as [hk| | | |hk] eqn:Ek| | | |].
  - destruct Hx as [Hc Hm]. rewrite Hm. apply wok_done. now rewrite Es, Ek, Hc.
  - apply Hkeep; try reflexivity. unfold wok. now rewrite Es, Ek.
  - destruct Hx as [Hm _]. rewrite Hm. apply wok_done. now rewrite Es, Ek.
  - now apply Hdone.
  - destruct Hx as [Hc Hm]. rewrite Hm. apply wok_done. now rewrite Es, Ek, Hc.
  - destruct Hx as ((hk & Ek & _) & _). rewrite Ek. now apply Hdone.
  - apply Hkeep; try reflexivity. unfold wok. now rewrite Es.
  - destruct Hx.
  - apply Hdone. now destruct (w_kind x); rewrite Es.
Qed.

Lemma winv_step : forall tbl s o, tinv s -> winv s -> winv (step tbl s o).
Proof.
  intros tbl s o HT H.
  destruct o; try (now apply winv_deliver_c2h); try (now apply winv_deliver_h2c); try (now apply winv_loss);
    unfold step; destruct (lost s) eqn:L; try exact H.
  - (* Establish *) destruct (mem h (ctl s)); [exact H|]. apply winv_upd_queues; auto using incl_refl, incl_appl.
  - (* PeerDisc *) destruct (mem h (ctl s)); [|exact H]. apply winv_upd_queues; auto using incl_refl, incl_appl.
  - (* LocalDisc *) destruct (mem h (dev s)) eqn:Em; cbn [andb]; [|exact H]. destruct (negb (has_waiter w s)); [|exact H].
    apply winv_upd_new; auto using incl_refl, incl_appl. unfold wok; cbn. rewrite Em, L. repeat split. left. exists w. apply in_elt.
  - (* HciCommand *) destruct (has_waiter w s); [exact H|].
    apply winv_upd_new; auto using incl_refl, incl_appl. unfold wok; cbn. rewrite L. repeat split. left. apply in_elt.
  - (* Start *) destruct (mem (kconn key) (dev s)) eqn:Em; cbn [andb]; [|exact H].
    destruct (negb (has_waiter w s)); [|exact H]. destruct k; try exact H.
    + destruct (conn_bound (WConnBound hk)) eqn:Ec; [|exact H].
      apply winv_upd_new; auto using incl_refl. unfold wok; cbn. cbn in Ec. now rewrite Em, Ec.
    + apply winv_upd_new; auto using incl_refl. exact I.
    + destruct (in_chain hk) eqn:Ec; [|exact H].
      apply winv_upd_new; auto using incl_refl, incl_appl. unfold wok; cbn. rewrite L. repeat split; [now exists hk|]. left. apply in_elt.
  - (* Finish *) eapply winv_map_waiter; [reflexivity|auto| |exact H]. intros x Hx. cbn beta.
    destruct (w_st x) eqn:Es; try exact Hx.
    destruct (w_kind x); try exact Hx; (destruct (mem _ _); [now apply wok_done|exact Hx]).
  - (* Insert *) destruct (known tbl r && mem (kconn key) (dev s) && negb (has_reg r key (regs s))); exact H.
  - (* Resume, detached *) eapply winv_map_waiter; [reflexivity|auto|apply wok_resume|exact H].
  - (* Resume *) eapply winv_map_waiter; [reflexivity|auto|apply wok_resume|exact H].
  - (* Tick, detached *) eapply winv_map; [reflexivity|apply wok_tick|exact H].
  - (* Tick *) eapply winv_map; [reflexivity|apply wok_tick|exact H].
  - (* Cancel, detached *) eapply winv_map_waiter; [reflexivity|auto|apply wok_cancel|exact H].
  - (* Cancel *) eapply winv_map_waiter; [reflexivity|auto|apply wok_cancel|exact H].
Qed.

Lemma run_app : forall tbl a b s, run tbl (a ++ b) s = run tbl b (run tbl a s).
Proof. intros. unfold run. apply fold_left_app. Qed.

Lemma run_inv : forall (P : state -> Prop) tbl,
  (forall s o, P s -> P (step tbl s o)) -> forall ops s, P s -> P (run tbl ops s).
Proof.
  intros P tbl Hs. induction ops as [|o ops IH]; intros s H; [exact H|].
  cbn [run fold_left]. apply IH, Hs, H.
Qed.

Lemma run_tinv : forall tbl ops, tinv (run tbl ops init).
Proof. intros tbl ops. exact (run_inv tinv tbl (tinv_step tbl) ops init tinv_init). Qed.

Theorem layers_agree : forall tbl ops,
  let s := run tbl ops init in
  lost s = false -> c2h s = [] ->
  forall x, mem x (host s) = mem x (ctl s) /\ mem x (dev s) = mem x (ctl s).
Proof.
  intros tbl ops s L Hq x. destruct (run_tinv tbl ops) as (Hd & Hr & _). fold s in Hd, Hr.
  specialize (Hr L x). rewrite Hq in Hr. cbn in Hr. rewrite Hd. now split.
Qed.

Theorem layers_agree_lost : forall tbl ops,
  let s := run tbl ops init in lost s = true -> host s = [] /\ dev s = [].
Proof.
  intros tbl ops s L. destruct (run_tinv tbl ops) as (Hd & _ & Hl). fold s in Hd, Hl.
  destruct (Hl L) as (Hh & _). rewrite Hd. now split.
Qed.

Theorem no_stale_state : forall tbl ops,
  all_cleaned tbl = true ->
  let s := run tbl ops init in
  forall r k, In (r, k) (regs s) -> mem (kconn k) (dev s) = true.
Proof.
  intros tbl ops Ha s r k Hin.
  exact (proj2 (run_inv (rinv tbl) tbl (fun s o => rinv_step tbl s o Ha) ops init (rinv_init tbl) (r, k) Hin)).
Qed.

Lemma run_winv : forall tbl ops, winv (run tbl ops init).
Proof.
  intros tbl ops. apply (run_inv (fun s => tinv s /\ winv s) tbl); [|exact (conj tinv_init winv_init)].
  intros s o [T W]. split; [now apply tinv_step|now apply winv_step].
Qed.

Lemma tick_timer_only : forall tbl s x,
  In x (waiters (step tbl s Tick)) -> w_st x = Pending -> w_kind x = WTimerOnly ->
  mem (kconn (w_key x)) (dev (step tbl s Tick)) = true.
Proof.
  intros tbl s x Hin Es Ek.
  assert (Hw : waiters (step tbl s Tick) = map (on_tick (dev s)) (waiters s) /\ dev (step tbl s Tick) = dev s).
  { unfold step. destruct (lost s); split; reflexivity. }
  destruct Hw as [Hw Hd]. rewrite Hw in Hin. rewrite Hd.
  apply in_map_iff in Hin as (y & <- & _). revert Es Ek. unfold on_tick.
  destruct (w_st y) eqn:Es'; try (intros; congruence).
  destruct (w_kind y) eqn:Ek'; try (intros; congruence).
  destruct (mem (kconn (w_key y)) (dev s)) eqn:Em; [intros; exact Em|].
  cbn. intros; discriminate.
Qed.

Theorem no_waiter_left : forall tbl ops,
  let s := run tbl (ops ++ [Tick]) init in
  settled s = true ->
  Forall (fun x => live_waiter (dev s) x = true) (waiters s).
Proof.
  intros tbl ops s Hs.
  pose proof (run_winv tbl (ops ++ [Tick])) as Hw. fold s in Hw.
  unfold settled in Hs. apply andb_true_iff in Hs as [Hq Hnr].
  apply Forall_forall. intros x Hin.
  pose proof (proj1 (Forall_forall _ _) Hw x Hin) as Hx.
  pose proof (proj1 (forallb_forall _ _) Hnr x Hin) as Hr.
  unfold quiescent in Hq.
  destruct (c2h s) eqn:Ec; [|discriminate]. destruct (h2c s) eqn:Eh; [|discriminate].
  unfold live_waiter. unfold wok, disc_coming, resp_coming in Hx. rewrite ?Ec, ?Eh in Hx.
  unfold is_responded in Hr.
  destruct (w_st x) eqn:Es; cbn [is_done orb].
  - destruct (w_kind x) eqn:Ek.
    + apply Hx.
    + unfold s in *. rewrite run_app in *. cbn [run fold_left] in *.
      now apply (tick_timer_only tbl _ x).
    + destruct Hx as (_ & _ & [[w []]|[]]).
    + destruct Hx as (_ & [[]|[]]).
    + apply Hx.
  - destruct Hx as (_ & _ & [[]|[]]).
  - discriminate.
  - destruct Hx.
  - reflexivity.
Qed.

(* once the transport is lost, the loop is idle and the timers have fired, every call has ended *)
Corollary no_waiter_left_after_transport_loss : forall tbl ops,
  let s := run tbl (ops ++ [Tick]) init in
  lost s = true -> forallb (fun x => negb (is_responded x)) (waiters s) = true ->
  Forall (fun x => is_done (w_st x) = true) (waiters s).
Proof.
  intros tbl ops s L Hnr.
  destruct (run_tinv tbl (ops ++ [Tick])) as (Hd & _ & Hl). fold s in Hd, Hl.
  destruct (Hl L) as (Hh & Hc & Hh2).
  assert (Hq : settled s = true) by (unfold settled, quiescent; now rewrite Hc, Hh2, Hnr).
  pose proof (no_waiter_left tbl ops Hq) as H. fold s in H.
  eapply Forall_impl; [|exact H]. intros x Hx. unfold live_waiter in Hx.
  rewrite Hd, Hh in Hx. cbn in Hx. now rewrite orb_false_r in Hx.
Qed.

(* the HCI command gate is free once everything is quiet, whatever was cancelled when *)
Theorem gate_free_when_quiescent : forall tbl ops,
  let s := run tbl ops init in quiescent s = true -> gate_busy s = false.
Proof.
  intros tbl ops s Hq.
  pose proof (run_winv tbl ops) as Hw. fold s in Hw.
  unfold quiescent in Hq.
  destruct (c2h s) eqn:Ec; [|discriminate]. destruct (h2c s) eqn:Eh; [|discriminate].
  unfold gate_busy. destruct (existsb holds_gate (waiters s)) eqn:E; [|reflexivity].
  apply existsb_exists in E as (x & Hin & Hg).
  pose proof (proj1 (Forall_forall _ _) Hw x Hin) as Hx.
  unfold wok, resp_coming in Hx. rewrite ?Ec, ?Eh in Hx. unfold holds_gate in Hg.
  destruct (w_st x); try discriminate.
  - destruct (w_kind x); try discriminate. destruct Hx as (_ & [[]|[]]).
  - destruct Hx as (_ & _ & [[]|[]]).
Qed.

(* end to end: the property, in terms of what the controller holds *)
Theorem teardown_complete : forall tbl ops,
  all_cleaned tbl = true ->
  let s := run tbl (ops ++ [Tick]) init in
  lost s = false -> settled s = true ->
  (forall x, mem x (host s) = mem x (ctl s) /\ mem x (dev s) = mem x (ctl s)) /\
  (forall r k, In (r, k) (regs s) -> mem (kconn k) (ctl s) = true) /\
  Forall (fun x => is_done (w_st x) = true \/ mem (kconn (w_key x)) (ctl s) = true) (waiters s).
Proof.
  intros tbl ops Ha s L Hs.
  assert (Hq : c2h s = []).
  { unfold settled, quiescent in Hs. apply andb_true_iff in Hs as [Hq _].
    destruct (c2h s); [reflexivity|discriminate]. }
  pose proof (layers_agree tbl (ops ++ [Tick]) L Hq) as Hag. fold s in Hag.
  split; [exact Hag|]. split.
  - intros r k Hin. rewrite <- (proj2 (Hag (kconn k))).
    exact (no_stale_state tbl (ops ++ [Tick]) Ha r k Hin).
  - pose proof (no_waiter_left tbl ops Hs) as Hw. fold s in Hw.
    eapply Forall_impl; [|exact Hw]. intros x Hx. unfold live_waiter in Hx.
    apply orb_true_iff in Hx as [Hx|Hx]; [now left|right].
    now rewrite <- (proj2 (Hag (kconn (w_key x)))).
Qed.

(* links are independent: tearing one connection down leaves the others alone *)
Theorem links_independent : forall tbl h s,
  (forall p, In p (regs s) -> kconn (snd p) <> h -> In p (regs (fanout tbl h s))) /\
  (forall x, In x (waiters s) -> kconn (w_key x) <> h -> In x (waiters (fanout tbl h s))) /\
  (forall c, c <> h -> mem c (dev (fanout tbl h s)) = mem c (dev s) /\
                       mem c (host (fanout tbl h s)) = mem c (host s)) /\
  ctl (fanout tbl h s) = ctl s /\ c2h (fanout tbl h s) = c2h s /\ h2c (fanout tbl h s) = h2c s.
Proof.
  intros tbl h s. repeat split; try reflexivity.
  - intros p Hin Hne. apply fanout_regs_keep; [exact Hin|]. now apply Z.eqb_neq.
  - intros x Hin Hne. rewrite fanout_waiters. apply in_map_iff. exists x. split; [|exact Hin].
    apply release_other. now apply Z.eqb_neq.
  - rewrite fanout_dev, mem_remove. apply Z.eqb_neq in H. now rewrite H.
  - rewrite fanout_host, mem_remove. apply Z.eqb_neq in H. now rewrite H.
Qed.

(* a registry that no step of the chain empties: it keeps an entry for a closed connection
   (C16_unclean_registry_refuted in Props/C16.v) *)
Definition leaky_table : table :=
  [{| rd_name := "x.Leaky.registry"; rd_key := KHandle; rd_hook := HkNone |}].

(* a task that has not run yet keeps a call pending, so [settled] (not only [quiescent]) is needed
   (C16_unsettled_refuted in Props/C16.v) *)
Definition unsettled_history : list op :=
  [Establish 1; DeliverC2H; Start 7 (WLate HkConnListeners) (1, 0); DeliverH2C; PeerDisc 1;
   DeliverC2H; DeliverC2H].

Lemma fold_until_no_raise : forall raises f l s,
  (forall hk, In hk l -> raises hk = false) -> fold_until raises f l s = fold_left f l s.
Proof.
  induction l as [|hk l IH]; intros s H; [reflexivity|].
  cbn [fold_until fold_left]. rewrite (H hk (or_introl eq_refl)). apply IH.
  intros hk' Hin. apply H. now right.
Qed.

(* a listener of the Connection's 'disconnection' event raises (e.g. remove_listener of a
   listener that is no longer registered while the event still has others): the device has
   dropped the connection, but the GATT server, the L2CAP tables, the host's table and the data
   queue keep their entries, and the local disconnect() (code 0) is never resolved
   (C16_raising_listener_refuted in Props/C16.v) *)
Definition raising_prefix : list op :=
  [Establish 1; DeliverC2H;
   Insert "smp.Manager.sessions" (1, 0); Insert "gatt_server.Server.subscribers" (1, 0);
   Insert "l2cap.ChannelManager.channels" (1, 0); Insert "host.DataPacketQueue._connection_state" (1, 0);
   LocalDisc 4 1].
