(* The SDP parser with its nesting counter as state (Model/CodecsSdpState.v): the counter is restored by
   every successful parse, the stateful parser is exactly the functional one of Model/CodecsSdp.v, and
   parsing a serialised element succeeds iff its real nesting is within the limit, whatever its breadth. *)
From Coq Require Import ZArith List Bool Lia.
From BV Require Import Base.Bytes Proofs.Bytes Model.CodecsBase Proofs.CodecsBase Model.CodecsSdp Proofs.CodecsSdp
  Model.CodecsSdpState.
Import ListNotations.
Open Scope Z_scope.

(* the container case with the list loop as the top-level [slist] *)
Lemma sparse_next_unfold : forall leak k maxd depth b d1,
  sparse_next leak (S k) maxd depth (b :: d1) =
  if is_container b then
    let d := b :: d1 in
    let ty := Z.shiftr b 3 in
    let idx := Z.land b 7 in
    match size_of_header ty idx d1 with
    | None => SErr
    | Some (hs, vs) =>
        let body := skipn hs d1 in
        let consumed := 1 + Z.of_nat hs + Z.max 0 vs in
        let raw := takeZ consumed d in
        let whole := vs <=? lenZ body in
        if (maxd <=? depth)%nat then SErr
        else
          if leak && (vs <=? 0)
          then SOk (if ty =? 6 then ESeq [] else EAlt []) consumed raw (whole && var_canon idx vs && (0 =? vs)) (S depth)
          else
          match slist leak k maxd k (S depth) body vs with
          | SLOk l used cn dep' =>
              SOk (if ty =? 6 then ESeq l else EAlt l) consumed raw
                  (whole && var_canon idx vs && cn && (used =? vs)) (Nat.pred dep')
          | SLErr => SErr
          | SLFuel => SFuel
          end
    end
  else lift_leaf (parse_next 1 0 (b :: d1)) depth.
Proof.
  intros leak k maxd depth b d1. cbn [sparse_next]. cbv zeta.
  destruct (is_container b); [|reflexivity].
  destruct (size_of_header (Z.shiftr b 3) (Z.land b 7) d1) as [[hs vs]|]; [|reflexivity].
  destruct (maxd <=? depth)%nat; [reflexivity|].
  destruct (leak && (vs <=? 0)); [reflexivity|].
  match goal with
  | |- match ?F ?a1 ?a2 ?a3 ?a4 with _ => _ end = match slist leak k maxd k ?dp ?bd ?bg with _ => _ end =>
      assert (E : forall fuel dep body budget, F fuel dep body budget = slist leak k maxd fuel dep body budget)
  end.
  { induction fuel as [|k' IH]; intros dep body budget.
    - reflexivity.
    - cbn [slist]. destruct (budget <=? 0); [reflexivity|].
      destruct (sparse_next leak k maxd dep body) as [e c raw cn dep'| |]; try reflexivity.
      destruct (budget - c <? 0); [reflexivity|].
      rewrite IH. reflexivity. }
  rewrite E. reflexivity.
Qed.

(* leaves do not look at the nesting budget nor at the remaining fuel *)
Lemma leaf_indep : forall k D b d1, is_container b = false ->
  parse_next (S k) D (b :: d1) = parse_next 1 0 (b :: d1).
Proof.
  intros k D b d1 H. unfold is_container in H. rewrite !parse_next_unfold. cbv zeta.
  destruct (size_of_header (Z.shiftr b 3) (Z.land b 7) d1) as [[hs vs]|]; [|reflexivity].
  destruct (Z.shiftr b 3 =? 0); [reflexivity|]. destruct (Z.shiftr b 3 =? 1); [reflexivity|].
  destruct (Z.shiftr b 3 =? 2); [reflexivity|]. destruct (Z.shiftr b 3 =? 3); [reflexivity|].
  destruct (Z.shiftr b 3 =? 4); [reflexivity|]. destruct (Z.shiftr b 3 =? 5); [reflexivity|].
  rewrite H. reflexivity.
Qed.

Lemma container_types : forall b, is_container b = true ->
  (Z.shiftr b 3 =? 0) = false /\ (Z.shiftr b 3 =? 1) = false /\ (Z.shiftr b 3 =? 2) = false /\
  (Z.shiftr b 3 =? 3) = false /\ (Z.shiftr b 3 =? 4) = false /\ (Z.shiftr b 3 =? 5) = false.
Proof.
  intros b H. unfold is_container in H. apply orb_true_iff in H as [H|H]; apply Z.eqb_eq in H; rewrite H; repeat split; reflexivity.
Qed.

(* the stateful parser IS the functional parser with budget maxd - depth, and returns the counter
   it was called with *)
Lemma slist_refines : forall pn,
  (forall maxd depth d, (depth <= maxd)%nat ->
   sparse_next false pn maxd depth d = inject (parse_next pn (maxd - depth) d) depth) ->
  forall maxd fuel depth d budget, (depth <= maxd)%nat ->
  slist false pn maxd fuel depth d budget = injectl (parse_list pn (maxd - depth) fuel d budget) depth.
Proof.
  intros pn Hpn maxd fuel. induction fuel as [|k' IH]; intros depth d budget Hd.
  - cbn [slist parse_list]. destruct (budget <=? 0); reflexivity.
  - cbn [slist parse_list]. destruct (budget <=? 0); [reflexivity|].
    rewrite (Hpn maxd depth d Hd).
    destruct (parse_next pn (maxd - depth) d) as [e c raw cn| |]; cbn [inject lift_leaf]; try reflexivity.
    destruct (budget - c <? 0); [reflexivity|].
    rewrite (IH depth _ _ Hd).
    destruct (parse_list pn (maxd - depth) k' (dropZ c d) (budget - c)); reflexivity.
Qed.

Theorem sparse_refines_parse : forall fuel maxd depth d, (depth <= maxd)%nat ->
  sparse_next false fuel maxd depth d = inject (parse_next fuel (maxd - depth) d) depth.
Proof.
  induction fuel as [|k IH]; intros maxd depth d Hd; [reflexivity|].
  destruct d as [|b d1]; [reflexivity|].
  rewrite sparse_next_unfold. destruct (is_container b) eqn:Ec.
  - rewrite parse_next_unfold. cbv zeta.
    destruct (container_types b Ec) as [T0 [T1 [T2 [T3 [T4 T5]]]]].
    destruct (size_of_header (Z.shiftr b 3) (Z.land b 7) d1) as [[hs vs]|]; [|reflexivity].
    rewrite T0, T1, T2, T3, T4, T5. unfold is_container in Ec. rewrite Ec.
    cbn [andb]. rewrite takeZ_firstn, whole_nat, consumed_nat.
    destruct (maxd <=? depth)%nat eqn:El.
    + apply Nat.leb_le in El. replace (maxd - depth)%nat with 0%nat by lia. reflexivity.
    + apply Nat.leb_gt in El. replace (maxd - depth)%nat with (S (maxd - S depth)) by lia.
      rewrite (slist_refines k IH maxd k (S depth) _ _ ltac:(lia)).
      destruct (parse_list k (maxd - S depth) k (skipn hs d1) vs); reflexivity.
  - rewrite (leaf_indep k (maxd - depth)%nat b d1 Ec). reflexivity.
Qed.

(* the nesting counter after parsing one element equals the counter before, for all inputs *)
Theorem depth_restored : forall fuel maxd depth d e c raw cn dep',
  (depth <= maxd)%nat -> sparse_next false fuel maxd depth d = SOk e c raw cn dep' -> dep' = depth.
Proof.
  intros fuel maxd depth d e c raw cn dep' Hd H. rewrite sparse_refines_parse in H by exact Hd.
  destruct (parse_next fuel (maxd - depth) d); cbn in H; try discriminate. injection H as _ _ _ _ <-. reflexivity.
Qed.

Theorem sfrom_bytes_is_from_bytes : forall maxd d, erase (sfrom_bytes false maxd d) = from_bytes maxd d.
Proof.
  intros maxd d. unfold sfrom_bytes, from_bytes, sdp_fuel. rewrite sparse_refines_parse by lia.
  rewrite Nat.sub_0_r. destruct (parse_next (S (length d)) maxd d); reflexivity.
Qed.

(* parsing a serialised element succeeds iff its REAL nesting is within the budget; breadth (the
   number of containers met, empty or not) plays no part: elem_depth is a maximum over children *)
Theorem sdp_nesting_exact : forall e b tail fuel depth,
  encode e = Some b -> elem_bytes_ok e = true -> (length (b ++ tail) < fuel)%nat ->
  ((elem_depth e <= depth)%nat -> parse_next fuel depth (b ++ tail) = POk e (lenZ b) b true) /\
  ((depth < elem_depth e)%nat -> parse_next fuel depth (b ++ tail) = PErr).
Proof.
  intros e b tail fuel depth He Hok Hf. rewrite (encode_parse_exact e fuel depth tail b He Hok Hf).
  split; intro Hd; [apply Nat.leb_le in Hd|apply Nat.leb_gt in Hd]; rewrite Hd; reflexivity.
Qed.

(* the same through the parser that carries the counter: a fresh parser (counter 0, limit maxd) *)
Corollary sdp_stateful_nesting_exact : forall maxd e b,
  encode e = Some b -> elem_bytes_ok e = true ->
  ((elem_depth e <= maxd)%nat -> sfrom_bytes false maxd b = SOk e (lenZ b) b true 0) /\
  ((maxd < elem_depth e)%nat -> sfrom_bytes false maxd b = SErr).
Proof.
  intros maxd e b He Hok. unfold sfrom_bytes. rewrite sparse_refines_parse by lia. rewrite Nat.sub_0_r.
  destruct (sdp_nesting_exact e b [] (S (length b)) maxd He Hok ltac:(rewrite app_nil_r; lia)) as [H1 H2].
  rewrite app_nil_r in H1, H2. split; intro H; [rewrite (H1 H)|rewrite (H2 H)]; reflexivity.
Qed.

(* the rejected variant (early return for an empty container after the increment) leaks one level
   per empty container: a shallow element with 33 empty sequences is rejected at limit 32 *)
Lemma leak_refuted :
  let e := ESeq (repeat (ESeq []) 33) in
  exists b, encode e = Some b /\ elem_depth e = 2%nat /\
            erase (sfrom_bytes false 32 b) = POk e (lenZ b) b true /\ sfrom_bytes true 32 b = SErr.
Proof. cbv zeta. eexists. split; [vm_compute; reflexivity|]. split; [reflexivity|]. split; vm_compute; reflexivity. Qed.
