(* Proofs about Model/RfcommSm.v: set-up and teardown leave both ends in matching
   states.  The (finite) set of reachable states is enumerated once and certified inside
   the kernel: it holds the initial state, every successor of each member, and only
   states that are good and settle; certified_invariant (Proofs/RfcommSmExplore.v)
   carries that to every schedule.  [closed] / [closed_reach] state the closure argument
   for a plain list with [In]; they are the same fact in another form and the results
   below do not go through them. *)
From Coq Require Import ZArith List Bool.
From BV Require Import Model.RfcommSm Proofs.RfcommSmExplore.
Import ListNotations.

Definition st_eq_dec : forall a b : st, {a = b} + {a <> b}.
Proof. repeat decide equality. Defined.

Definition st_mem (s : st) (l : list st) : bool :=
  existsb (fun x => if st_eq_dec s x then true else false) l.

Lemma st_mem_In s l : st_mem s l = true <-> In s l.
Proof.
  unfold st_mem. rewrite existsb_exists. split.
  - intros (x & Hx & E). destruct (st_eq_dec s x); [subst; exact Hx|discriminate].
  - intros H. exists s. split; [exact H|]. destruct (st_eq_dec s s); [reflexivity|congruence].
Qed.

Definition closed (R : list st) : bool :=
  forallb (fun s => forallb (fun l => st_mem (sm_step s l) R) all_labels) R.

Lemma label_listed l : In l all_labels.
Proof. destruct l as [| | | | |[|]| | |]; cbn; tauto. Qed.

Lemma sm_run_fold ls : forall s, sm_run s ls = fold_left sm_step ls s.
Proof. induction ls as [|l ls IH]; intros s; [reflexivity|exact (IH _)]. Qed.

(* closure lemma: a set that contains the initial state and is closed under every
   label contains every state reachable under any schedule *)
Lemma closed_reach R :
  closed R = true -> forall ls s, In s R -> In (sm_run s ls) R.
Proof.
  intros Hc ls s. rewrite sm_run_fold. apply closed_run. intros x l Hx.
  unfold closed in Hc. rewrite forallb_forall in Hc. apply st_mem_In.
  exact (proj1 (forallb_forall _ _) (Hc x Hx) l (label_listed l)).
Qed.

Local Open Scope positive_scope.

Definition mst_bits (m : mst) (p : positive) : positive :=
  match m with
  | MInit => p~0~0~0 | MConnecting => p~0~0~1 | MConnected => p~0~1~0
  | MOpening => p~0~1~1 | MDisconnecting => p~1~0~0 | MDisconnected => p~1~0~1
  end.

Definition dst_bits (d : option dst) (p : positive) : positive :=
  match d with
  | None => p~0~0~0 | Some DConnecting => p~0~0~1 | Some DConnected => p~0~1~0
  | Some DDisconnecting => p~0~1~1 | Some DDisconnected => p~1~0~0 | Some DReset => p~1~0~1
  end.

Definition fr_bits (f : fr) (p : positive) : positive :=
  match f with
  | SABM0 => p~0~0~0~0 | UA0 => p~0~0~0~1 | DISC0 => p~0~0~1~0 | PNcmd => p~0~0~1~1
  | PNrsp => p~0~1~0~0 | MSCcmd => p~0~1~0~1 | MSCrsp => p~0~1~1~0 | DMd => p~0~1~1~1
  | SABMd => p~1~0~0~0 | UAd => p~1~0~0~1 | DISCd => p~1~0~1~0
  end.

Definition side_bits (s : side) (p : positive) : positive :=
  dst_bits (sd_dlc s) (mst_bits (sd_mux s) p).

Definition st_key (s : st) : positive :=
  list_bits fr_bits (st_ba s) (list_bits fr_bits (st_ab s)
    (bool_bits (st_closed s) (bool_bits (st_accept s) (side_bits (st_b s) (side_bits (st_a s) 1))))).

(* from every reachable state, delivering what is in flight settles within 16 rounds, in
   a state where both ends agree *)
Definition settles (s : st) : bool := let s' := drain 16 s in quiescent s' && agree s'.

Definition reachable : list st :=
  Eval vm_compute in search sm_step all_labels sm_init st_eq_dec st_key (Z.to_nat 20000).

Lemma reachable_certified :
  certified sm_step all_labels sm_init st_eq_dec st_key reachable
            (fun s => good s && settles s) = true.
Proof. vm_compute. reflexivity. Qed.

Lemma good_settles_reachable ls :
  good (sm_run sm_init ls) = true /\ settles (sm_run sm_init ls) = true.
Proof.
  rewrite sm_run_fold. apply andb_prop.
  exact (certified_invariant _ _ _ _ _ (fun _ l => or_introl (label_listed l)) _ _
           reachable_certified ls).
Qed.

(* whenever nothing is in flight, both ends are in matching, settled states *)
Lemma setup_teardown_agree ls :
  let s := sm_run sm_init ls in quiescent s = true -> agree s = true.
Proof.
  cbn zeta. intros Hq. pose proof (proj1 (good_settles_reachable ls)) as H.
  unfold good in H. rewrite Hq in H. exact H.
Qed.

(* the schedule "connect, open, initiator disconnects the data link", everything
   delivered: matching states with fix D20d, mismatch (A has closed the link, B still
   holds it CONNECTED) without it *)
Definition d20d_witness : list lbl :=
  [AConnect; DeliverAB; DeliverBA; AOpen; DeliverAB; DeliverBA; DeliverAB; DeliverBA; DeliverBA;
   DeliverAB; DeliverAB; DeliverBA; ADlcDisc; DeliverAB; DeliverBA].

Lemma d20d_fixed_witness :
  let s := sm_run sm_init d20d_witness in quiescent s = true /\ agree s = true.
Proof. vm_compute. split; reflexivity. Qed.
