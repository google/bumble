(* C17 - bumble/at.py: the tokenizer is structural on the buffer, so the work is bounded by
   accounting every byte to at most one token; the parameter parser never pops an empty
   accumulator stack because every branch keeps it non-empty. *)
From Coq Require Import ZArith List Bool Lia.
From BV Require Import Model.HostileAt.
Import ListNotations.
Open Scope Z_scope.

Definition size (toks : list (list Z)) : nat := fold_right (fun t n => (length t + n)%nat) 0%nat toks.

Lemma size_app : forall a b, size (a ++ b) = (size a + size b)%nat.
Proof. induction a; simpl; intros; [reflexivity | rewrite IHa; lia]. Qed.

Lemma size_rev : forall a, size (rev a) = size a.
Proof. induction a; simpl; [reflexivity | rewrite size_app, IHa; simpl; lia]. Qed.

Lemma size_filter : forall f a, (size (filter f a) <= size a)%nat.
Proof. induction a; simpl; [lia | destruct (f a); simpl; lia]. Qed.

Lemma length_filter_le : forall (f : list Z -> bool) a, (length (filter f a) <= length a)%nat.
Proof. induction a; simpl; [lia | destruct (f a); simpl; lia]. Qed.

Lemma removelast_length : forall (l : list Z), (length (removelast l) <= length l)%nat.
Proof. induction l; simpl; [lia | destruct l; simpl in *; lia]. Qed.

Lemma strip_ends_length : forall t, (length (strip_ends t) <= length t)%nat.
Proof.
  intros t. unfold strip_ends. pose proof (removelast_length (tl t)).
  destruct t; simpl in *; lia.
Qed.

(* The token list never holds more bytes than were read: every byte goes to at most one
   token, and there are at most two tokens per byte plus the final one. *)
Lemma tok_loop_bounded : forall buf tokens token inq toks,
  tok_loop buf tokens token inq = inr toks ->
  (size toks <= length buf + size tokens + length token)%nat /\
  (length toks <= 2 * length buf + length tokens + 1)%nat.
Proof.
  induction buf as [|b rest IH]; intros tokens token inq toks H; cbn [tok_loop] in H.
  - injection H as H. subst toks. split.
    + etransitivity; [apply size_filter|]. rewrite size_app, size_rev.
      cbn [size fold_right length]. lia.
    + etransitivity; [apply length_filter_le|]. rewrite app_length, rev_length. cbn [length]. lia.
  - destruct inq.
    + destruct (b =? c_quote).
      * apply IH in H. simpl in H. pose proof (strip_ends_length (token ++ [b])).
        rewrite app_length in H0. simpl in *. lia.
      * apply IH in H. rewrite app_length in H. simpl in *. lia.
    + destruct (b =? c_space).
      { apply IH in H. simpl. lia. }
      destruct ((b =? c_comma) || (b =? c_close)).
      { apply IH in H. simpl in *. lia. }
      destruct (b =? c_open).
      { destruct (nonempty token); [discriminate|]. apply IH in H. simpl in *. lia. }
      destruct (b =? c_quote).
      { destruct (nonempty token); [discriminate|]. apply IH in H. rewrite app_length in H. simpl in *. lia. }
      apply IH in H. rewrite app_length in H. simpl in *. lia.
Qed.

(* accumulator[-1] never indexes an empty stack *)
Lemma par_loop_no_empty_stack : forall tokens acc cur,
  acc <> [] -> par_loop tokens acc cur <> inl EmptyStack.
Proof.
  induction tokens as [|t rest IH]; intros acc cur Hne; simpl.
  - destruct acc as [|top [|n b]]; [congruence | discriminate | discriminate].
  - destruct (is_tok c_comma t).
    { destruct acc as [|top below]; [congruence|]. apply IH. discriminate. }
    destruct (is_tok c_open t).
    { apply IH. discriminate. }
    destruct (is_tok c_close t).
    { destruct acc as [|top [|next below]]; try discriminate. apply IH. discriminate. }
    apply IH. exact Hne.
Qed.

(* the tokenizer raises only its own two errors: every branch recurses or raises one *)
Lemma tok_loop_no_empty_stack : forall buf tokens token inq,
  tok_loop buf tokens token inq <> inl EmptyStack.
Proof.
  induction buf as [|b rest IH]; intros tokens token inq; cbn [tok_loop]; [discriminate|].
  repeat match goal with |- context [if ?c then _ else _] => destruct c end;
    apply IH || discriminate.
Qed.

(* A closing parenthesis without an opening one is always rejected, whatever follows. *)
Lemma par_loop_close_underflow : forall rest top cur,
  par_loop ([c_close] :: rest) [top] cur = inl CloseWithoutOpen.
Proof. intros. reflexivity. Qed.
