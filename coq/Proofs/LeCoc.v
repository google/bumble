(* Proofs about Model/LeCoc.v.  One direction of a channel (a sender half, the peer's
   receiver half, K-frames one way, credit packets the other way) is a [view] with the
   invariant [vinv].  The two-party system is two such directions, [dir_ok], coupled by
   the wires they share; channel k of n channels on a link projects to a two-party
   system, [proj]. *)
From Coq Require Import ZArith List Bool Lia.
From BV Require Import Model.LeCoc.
Import ListNotations.
Open Scope Z_scope.

Lemma zlen_nonneg {A} (l : list A) : 0 <= zlen l.
Proof. unfold zlen. lia. Qed.

Lemma zlen_app {A} (l1 l2 : list A) : zlen (l1 ++ l2) = zlen l1 + zlen l2.
Proof. unfold zlen. rewrite app_length. lia. Qed.

Lemma zlen_nil {A} : zlen (@nil A) = 0.
Proof. reflexivity. Qed.

Lemma zlen_cons {A} (x : A) l : zlen (x :: l) = 1 + zlen l.
Proof. unfold zlen. cbn [length]. lia. Qed.

Global Hint Rewrite @zlen_app @zlen_cons @zlen_nil : zlen.

(* linear arithmetic over lengths: the length of an append or a cons is pushed to
   the leaves, where [lia] knows that a [Z.of_nat] is not negative *)
Ltac zlia := autorewrite with zlen in *; unfold zlen in *; lia.

Lemma zlen_zero_nil {A} (l : list A) : zlen l = 0 -> l = [].
Proof. destruct l; [reflexivity|]. zlia. Qed.

Lemma zlen_pos {A} (l : list A) : l <> [] -> 1 <= zlen l.
Proof. destruct l; [congruence|]. zlia. Qed.

Lemma app_nonempty {A} (a b : list A) : b <> [] -> a ++ b <> [].
Proof. intros Hb E. apply app_eq_nil in E. tauto. Qed.

Lemma ztake_zdrop {A} n (l : list A) : ztake n l ++ zdrop n l = l.
Proof. apply firstn_skipn. Qed.

Lemma zlen_ztake_le {A} n (l : list A) : 0 <= n -> zlen (ztake n l) <= n.
Proof.
  intros Hn. unfold zlen, ztake. pose proof (firstn_le_length (Z.to_nat n) l). lia.
Qed.

Lemma ztake_nonempty {A} n (l : list A) : 1 <= n -> l <> [] -> ztake n l <> [].
Proof.
  intros Hn Hl. unfold ztake. destruct (Z.to_nat n) eqn:E; [lia|].
  destruct l; [congruence|discriminate].
Qed.

Definition nonempty (b : bytes) : Prop := b <> [].

Lemma concat_nonempty_nil (fs : list bytes) :
  Forall nonempty fs -> concat fs = [] -> fs = [].
Proof.
  destruct fs as [|f fs]; [reflexivity|]. intros HF Hc. inversion HF; subst.
  apply app_eq_nil in Hc. destruct Hc. contradiction.
Qed.

Lemma un16_le16 n tl : 0 <= n < 65536 -> un16 (le16 n ++ tl) = n.
Proof.
  intros Hn. unfold le16, un16. cbn [app].
  rewrite (Z.mod_small (n / 256) 256).
  - pose proof (Z.div_mod n 256). lia.
  - split; [apply Z.div_pos; lia|]. apply Z.div_lt_upper_bound; lia.
Qed.

Lemma zlen_enc p : zlen (enc_sdu p) = 2 + zlen p.
Proof. unfold enc_sdu, le16. rewrite zlen_app. reflexivity. Qed.

Lemma enc_nonempty p : enc_sdu p <> [].
Proof. discriminate. Qed.

Lemma gather_spec q : forall room, Forall nonempty q -> 0 <= room ->
  let '(p, q') := gather room q in
  p ++ concat q' = concat q /\ zlen p <= room /\ Forall nonempty q' /\
  (q <> [] -> 1 <= room -> p <> []).
Proof.
  induction q as [|d q IH]; intros room Hq Hr; cbn [gather]; [easy|].
  inversion Hq as [|? ? Hd Hq']; subst.
  destruct (Z.leb_spec room 0); [repeat split; auto; zlia|].
  pose proof (ztake_zdrop room d) as Hsplit.
  pose proof (zlen_ztake_le room d Hr).
  destruct (zdrop room d) as [|x rest].
  - (* the whole entry fits: go on with the next one *)
    rewrite app_nil_r in Hsplit.
    specialize (IH (room - zlen (ztake room d)) Hq' ltac:(lia)).
    destruct (gather _ q) as [p q'']. destruct IH as (Hc & Hl & Hne & _).
    repeat split; [|zlia|exact Hne|].
    + cbn [concat]. rewrite <- app_assoc, Hc, Hsplit. reflexivity.
    + intros _ _ E. apply app_eq_nil in E. rewrite Hsplit in E. apply Hd, E.
  - repeat split; [|assumption| |].
    + cbn [concat]. rewrite app_assoc, Hsplit. reflexivity.
    + constructor; [discriminate|assumption].
    + intros _ Hroom. apply ztake_nonempty; assumption.
Qed.

Definition rest_bytes (o : option bytes) : bytes := match o with Some s => s | None => [] end.
Definition sdu_ok (o : option bytes) : Prop := match o with Some s => s <> [] | None => True end.

Lemma emit_spec mps s :
  1 <= mps -> s <> [] ->
  let '(packet, sdu') := emit mps s in
  packet ++ rest_bytes sdu' = s /\ packet <> [] /\ zlen packet <= mps /\ sdu_ok sdu'.
Proof.
  intros Hm Hs. unfold emit.
  pose proof (ztake_zdrop mps s) as Hd.
  pose proof (zlen_ztake_le mps s ltac:(lia)) as Hl.
  pose proof (ztake_nonempty mps s Hm Hs) as Hne.
  assert (Hsk : skipn (length (ztake mps s)) s = zdrop mps s).
  { rewrite <- Hd at 2. rewrite skipn_app, skipn_all, Nat.sub_diag. reflexivity. }
  rewrite Hsk. destruct (Nat.eqb_spec (length (ztake mps s)) (length s)) as [E|E];
    cbn [rest_bytes sdu_ok]; rewrite <- Hd in E at 2; rewrite app_length in E.
  - destruct (zdrop mps s); [|cbn in E; lia]. auto.
  - repeat split; auto. intros Hz. rewrite Hz in E. cbn in E. lia.
Qed.

(* the reassembly part of r_on_pdu depends on (in_sdu, in_sdu_length) only *)
Definition asm_state := (option bytes * Z)%type.

Definition abuf (o : option bytes) (pdu : bytes) : bytes :=
  match o with None => pdu | Some s => s ++ pdu end.
Definition obuf (buf : bytes) : option bytes :=
  match buf with [] => None | _ => Some buf end.

Lemma abuf_obuf buf f : abuf (obuf buf) f = buf ++ f.
Proof. destruct buf; reflexivity. Qed.

Lemma obuf_some buf : buf <> [] -> obuf buf = Some buf.
Proof. destruct buf; [congruence|reflexivity]. Qed.

Definition asm_step (a : asm_state) (pdu : bytes) : asm_state * option bytes * bool :=
  let buf := abuf (fst a) pdu in
  let len := if snd a =? 0 then (if 2 <=? zlen buf then un16 buf else 0) else snd a in
  if len =? 0 then ((Some buf, 0), None, false)
  else if zlen buf <? 2 + len then ((Some buf, len), None, false)
  else if negb (zlen buf =? 2 + len) then ((None, 0), None, true)
  else ((None, 0), Some (skipn 2 buf), false).

Lemma r_on_pdu_asm r pdu :
  let rr := r_on_pdu r pdu in
  asm_step (r_sdu r, r_len r) pdu = ((r_sdu (rr_state rr), r_len (rr_state rr)), rr_sink rr, rr_overflow rr) /\
  r_credits (rr_state rr) = fst (r_account r) /\ rr_credit rr = snd (r_account r) /\
  r_max (rr_state rr) = r_max r.
Proof.
  unfold r_on_pdu, asm_step, abuf. cbn [fst snd].
  destruct (r_account r) as [c cr], (r_sdu r) as [s|]; cbv beta iota zeta;
    set (len := if r_len r =? 0 then _ else _);
    (destruct (len =? 0); [|destruct (_ <? 2 + len); [|destruct (negb _)]]);
    repeat split; reflexivity.
Qed.

(* the receiver state after it has absorbed the bytes [buf] of an SDU whose
   payload has n bytes *)
Definition st_of (n : Z) (buf : bytes) : asm_state :=
  (obuf buf, if 2 <=? zlen buf then n else 0).

Definition boundary : asm_state := (None, 0).

Definition valid_sdu (p : bytes) : Prop := 1 <= zlen p < 65536.

Lemma asm_step_partial p buf f rest :
  valid_sdu p -> f <> [] -> buf ++ f ++ rest = enc_sdu p ->
  asm_step (st_of (zlen p) buf) f =
    match rest with
    | [] => (boundary, Some p, false)
    | _ => (st_of (zlen p) (buf ++ f), None, false)
    end.
Proof.
  intros [Hp1 Hp2] Hf Heq. rewrite app_assoc in Heq.
  pose proof (f_equal zlen Heq) as Hlen. rewrite zlen_enc in Hlen.
  pose proof (zlen_pos f Hf).
  unfold asm_step, st_of. cbn [fst snd]. rewrite abuf_obuf, (obuf_some (buf ++ f) (app_nonempty _ _ Hf)).
  (* the length the receiver works with is that of the SDU as soon as it has two bytes *)
  assert (Hl : (if (if 2 <=? zlen buf then zlen p else 0) =? 0
                then if 2 <=? zlen (buf ++ f) then un16 (buf ++ f) else 0
                else if 2 <=? zlen buf then zlen p else 0)
               = if 2 <=? zlen (buf ++ f) then zlen p else 0).
  { destruct (Z.leb_spec 2 (zlen buf)), (Z.leb_spec 2 (zlen (buf ++ f))), (Z.eqb_spec (zlen p) 0);
      try reflexivity; try zlia.
    unfold enc_sdu, le16 in Heq.
    destruct (buf ++ f) as [|b0 [|b1 t]]; try zlia.
    injection Heq as -> -> _. apply (un16_le16 (zlen p) t). lia. }
  rewrite Hl. clear Hl.
  destruct rest; autorewrite with zlen in Hlen.
  - rewrite app_nil_r in Heq. rewrite Heq, zlen_enc.
    destruct (Z.leb_spec 2 (2 + zlen p)), (Z.eqb_spec (zlen p) 0); try lia.
    rewrite Z.ltb_irrefl, Z.eqb_refl. reflexivity.
  - destruct (Z.leb_spec 2 (zlen (buf ++ f))); [|reflexivity].
    destruct (Z.eqb_spec (zlen p) 0), (Z.ltb_spec (zlen (buf ++ f)) (2 + zlen p)); try zlia.
    reflexivity.
Qed.

(* [flight buf F tail P]: the receiver has absorbed [buf] of the SDU at the head of
   P; F are the frames on the wire (oldest first); [tail] is what the sender has
   still to send of the last SDU of P.  Every SDU boundary is a frame boundary. *)
Inductive flight : bytes -> list bytes -> bytes -> list bytes -> Prop :=
| fl_nil : flight [] [] [] []
| fl_sdu : forall buf fs p F tail P,
    valid_sdu p -> buf ++ concat fs = enc_sdu p -> fs <> [] -> Forall nonempty fs ->
    flight [] F tail P -> flight buf (fs ++ F) tail (p :: P)
| fl_last : forall buf fs tail p,
    valid_sdu p -> buf ++ concat fs ++ tail = enc_sdu p -> tail <> [] -> Forall nonempty fs ->
    flight buf fs tail [p].

Definition hd_len (P : list bytes) : Z := match P with p :: _ => zlen p | [] => 0 end.

Lemma st_of_nil n : st_of n [] = boundary.
Proof. reflexivity. Qed.

Lemma flight_empty buf F tail : flight buf F tail [] -> buf = [] /\ F = [] /\ tail = [].
Proof. intros H. inversion H; subst. auto. Qed.

Lemma flight_idle buf P : flight buf [] [] P -> buf = [] /\ P = [].
Proof.
  intros H. inversion H as [|? fs|]; subst; [auto| |contradiction].
  destruct fs; [congruence|discriminate].
Qed.

Lemma flight_deliver buf f F tail P :
  flight buf (f :: F) tail P ->
  (asm_step (st_of (hd_len P) buf) f = (st_of (hd_len P) (buf ++ f), None, false) /\
   flight (buf ++ f) F tail P) \/
  (exists p P', P = p :: P' /\ asm_step (st_of (hd_len P) buf) f = (boundary, Some p, false) /\
                flight [] F tail P').
Proof.
  intros H. inversion H as [|? fs p F0 ? P0 Hp Heq Hfs Hne Hfl|? ? ? p Hp Heq Ht Hne]; subst; cbn [hd_len].
  - destruct fs as [|f' fs]; [congruence|].
    match goal with E : _ ++ _ = _ :: _ |- _ => cbn in E; injection E as -> <- end.
    inversion Hne as [|? ? Hf Hne']; subst. cbn [concat] in Heq.
    pose proof (asm_step_partial p buf f (concat fs) Hp Hf Heq) as Hs.
    destruct (concat fs) eqn:Ec.
    + right. apply concat_nonempty_nil in Ec; [subst fs|exact Hne']. eauto.
    + left. split; [exact Hs|]. rewrite <- Ec, app_assoc in Heq.
      apply fl_sdu; auto. intros ->. discriminate.
  - left. inversion Hne as [|? ? Hf Hne']; subst. cbn [concat] in Heq. rewrite <- app_assoc in Heq.
    pose proof (asm_step_partial p buf f (concat F ++ tail) Hp Hf Heq) as Hs.
    destruct (concat F ++ tail) eqn:Ec; [apply app_eq_nil in Ec; destruct Ec; contradiction|].
    split; [exact Hs|]. rewrite <- Ec, app_assoc in Heq. apply fl_last; auto.
Qed.

Lemma flight_emit buf F t P : flight buf F t P ->
  forall x y, t = x ++ y -> x <> [] -> flight buf (F ++ [x]) y P.
Proof.
  induction 1 as [|? ? ? ? ? ? ? ? ? ? ? IH|buf fs tail p Hp Heq Ht Hne]; intros x y E Hx.
  - symmetry in E. apply app_eq_nil in E. destruct E. contradiction.
  - rewrite <- app_assoc. apply fl_sdu; auto.
  - subst tail.
    assert (Hne' : Forall nonempty (fs ++ [x])) by (apply Forall_app; auto).
    assert (Heq' : buf ++ concat (fs ++ [x]) ++ y = enc_sdu p).
    { rewrite concat_app. cbn [concat]. rewrite app_nil_r, <- app_assoc. exact Heq. }
    destruct y.
    + rewrite app_nil_r in Heq'. rewrite <- (app_nil_r (_ ++ [x])).
      apply fl_sdu; auto using fl_nil. apply app_nonempty. discriminate.
    + apply fl_last; auto. discriminate.
Qed.

Lemma flight_new buf F t P : flight buf F t P ->
  forall p, t = [] -> valid_sdu p -> flight buf F (enc_sdu p) (P ++ [p]).
Proof.
  induction 1; intros q Ht Hq; cbn [app].
  - apply fl_last; auto. apply enc_nonempty.
  - apply fl_sdu; auto.
  - contradiction.
Qed.

Lemma hd_len_app P Q buf F t : flight buf F t P ->
  st_of (hd_len (P ++ Q)) buf = st_of (hd_len P) buf.
Proof.
  intros H. destruct P; [|reflexivity].
  apply flight_empty in H. destruct H as (-> & _). reflexivity.
Qed.

(* case analysis on out_sdu that treats a pending SDU first: the other case leads to it *)
Lemma option_some_first {A} (Q : option A -> Prop) :
  (forall s, Q (Some s)) -> ((forall s, Q (Some s)) -> Q None) -> forall o, Q o.
Proof. intros HS HN [s|]; auto. Qed.

Lemma po_idle n mtu mps dr :
  po n mtu mps [] None dr = ([], [], None, match n with O => dr | S _ => true end).
Proof. destruct n; reflexivity. Qed.

(* assembling an SDU costs no credit: the iteration goes on with it as out_sdu *)
Lemma po_load n mtu mps d q dr :
  po (S n) mtu mps (d :: q) None dr =
  let '(payload, q') := gather mtu (d :: q) in po (S n) mtu mps q' (Some (enc_sdu payload)) dr.
Proof. cbn [po]. destruct (gather mtu (d :: q)). reflexivity. Qed.

Definition frame_ok (mps : Z) (f : bytes) : Prop := 1 <= zlen f <= mps.
Definition sdu_fits (mtu : Z) (p : bytes) : Prop := valid_sdu p /\ zlen p <= mtu.

Lemma po_spec n : forall mtu mps q sdu dr buf F P,
  1 <= mps -> 1 <= mtu < 65536 -> Forall nonempty q -> sdu_ok sdu ->
  flight buf F (rest_bytes sdu) P ->
  let '(fs, q', sdu', dr') := po n mtu mps q sdu dr in
  exists P',
    flight buf (F ++ fs) (rest_bytes sdu') (P ++ P') /\
    concat P' ++ concat q' = concat q /\
    Forall (sdu_fits mtu) P' /\
    Forall nonempty q' /\ sdu_ok sdu' /\
    Forall (frame_ok mps) fs /\
    (length fs <= n)%nat /\
    ((length fs < n)%nat -> q' = [] /\ sdu' = None /\ dr' = true) /\
    (dr = false -> dr' = true -> q' = [] /\ sdu' = None).
Proof.
  induction n as [|n IH]; intros mtu mps q sdu dr buf F P Hmps Hmtu Hq Hsdu Hfl.
  { exists []. rewrite !app_nil_r. repeat split; auto; try (cbn; lia); congruence. }
  revert q P Hq Hsdu Hfl. pattern sdu. revert sdu. apply option_some_first; cbv beta.
  - (* a frame of out_sdu goes out, then the rest of the loop *)
    intros s q P Hq Hs Hfl. cbn [po sdu_ok rest_bytes] in *.
    pose proof (emit_spec mps s Hmps Hs) as He.
    destruct (emit mps s) as [packet sdu1]. destruct He as (Hps & Hpne & Hpl & Hok1).
    pose proof (flight_emit _ _ _ _ Hfl packet (rest_bytes sdu1) (eq_sym Hps) Hpne) as Hfl1.
    specialize (IH mtu mps q sdu1 dr buf (F ++ [packet]) P Hmps Hmtu Hq Hok1 Hfl1).
    destruct (po n mtu mps q sdu1 dr) as [[[fs q2] sdu2] dr2].
    destruct IH as (P' & H1 & H2 & H3 & H4 & H5 & H6 & H7 & H8 & H9).
    exists P'. rewrite <- app_assoc in H1. cbn [length].
    split; [exact H1|]. do 4 (split; [assumption|]).
    split; [constructor; [split; [apply zlen_pos|]|]; assumption|].
    split; [lia|]. split; [intros; apply H8; lia|exact H9].
  - (* an SDU is assembled from the queue and becomes out_sdu *)
    intros Hsend q P Hq _ Hfl. destruct q as [|d q0].
    { exists []. rewrite !app_nil_r. repeat split; auto; cbn; try lia; constructor. }
    rewrite po_load.
    pose proof (gather_spec (d :: q0) mtu Hq ltac:(lia)) as Hg.
    destruct (gather mtu (d :: q0)) as [payload q1]. destruct Hg as (Hc & Hl & Hne & Hp).
    specialize (Hp ltac:(discriminate) ltac:(lia)).
    assert (Hv : valid_sdu payload) by (split; [apply zlen_pos; assumption|lia]).
    specialize (Hsend (enc_sdu payload) q1 (P ++ [payload]) Hne (enc_nonempty payload)
                      (flight_new _ _ _ _ Hfl payload eq_refl Hv)).
    destruct (po (S n) mtu mps q1 (Some (enc_sdu payload)) dr) as [[[fs q2] sdu2] dr2].
    destruct Hsend as (P' & H1 & H2 & H3 & Hrest).
    exists (payload :: P'). rewrite <- app_assoc in H1.
    split; [exact H1|]. split; [cbn [concat]; rewrite <- app_assoc, H2; exact Hc|].
    split; [constructor; [split|]; assumption|exact Hrest].
Qed.

(* every frame costs a credit; the negotiated sizes never change *)
Lemma process_output_static s : let '(s', fs) := process_output s in
  s_credits s' = s_credits s - zlen fs /\ s_mtu s' = s_mtu s /\ s_mps s' = s_mps s.
Proof. unfold process_output. destruct (po _ _ _ _ _ _) as [[[fs q] sdu] dr]. auto. Qed.

(* What the sender half keeps true of itself between calls.  These six fields, with
   [work_done] as the seventh, are word for word the first seven fields of [sinv] and the
   sender fields of [vinv] below ([vi_mps], [vi_mtu], [vi_cred], [vi_work], [vi_drained],
   [vi_queue], [vi_sdu]): the two invariants share this part and differ in what they add (a
   receiver and a ledger for [vinv], a stream from an empty buffer for [sinv]).  [vinv_snd]
   projects it out of [vinv], [sinv_step] rebuilds it inline from [sinv]; [s_step_spec]
   is proved about it once and serves both. *)
Record snd_ok (s : sndr) : Prop := {
  so_mps : 1 <= s_mps s;
  so_mtu : 1 <= s_mtu s < 65536;
  so_cred : 0 <= s_credits s;
  so_drained : s_drained s = true -> s_queue s = [] /\ s_sdu s = None;
  so_queue : Forall nonempty (s_queue s);
  so_sdu : sdu_ok (s_sdu s)
}.

(* credits left over mean that there was nothing more to send *)
Definition work_done (s : sndr) : Prop :=
  0 < s_credits s -> s_queue s = [] /\ s_sdu s = None /\ s_drained s = true.

Lemma process_output_spec s buf F P :
  snd_ok s -> flight buf F (rest_bytes (s_sdu s)) P ->
  let '(s', fs) := process_output s in
  snd_ok s' /\ work_done s' /\ Forall (frame_ok (s_mps s)) fs /\
  exists P', flight buf (F ++ fs) (rest_bytes (s_sdu s')) (P ++ P') /\
             Forall (sdu_fits (s_mtu s)) P' /\ concat P' ++ concat (s_queue s') = concat (s_queue s).
Proof.
  intros [Hmps Hmtu Hc Hdr Hq Hsdu] Hfl. unfold process_output.
  pose proof (po_spec (Z.to_nat (s_credits s)) _ _ _ _ (s_drained s) _ _ _ Hmps Hmtu Hq Hsdu Hfl) as Hs.
  destruct (po _ _ _ _ _ _) as [[[fs q'] sdu'] dr'] eqn:Epo.
  destruct Hs as (P' & H1 & H2 & H3 & H4 & H5 & H6 & H7 & H8 & H9).
  assert (Hfsl : zlen fs <= s_credits s) by (unfold zlen; lia).
  split; [|split; [|eauto]].
  - constructor; cbn [s_credits s_mtu s_mps s_queue s_sdu s_drained]; auto; [lia|].
    destruct (s_drained s); [|auto].
    destruct (Hdr eq_refl) as (Eq & Es). rewrite Eq, Es, po_idle in Epo. injection Epo as _ <- <- _. auto.
  - intros Hpos. apply H8. unfold zlen in *. cbn [s_credits] in Hpos. lia.
Qed.

Inductive sev := SWrite (d : bytes) | SCredits (n : Z).
Definition sev_ok (v : sev) : Prop := match v with SWrite d => d <> [] | SCredits n => 0 <= n end.
Definition s_step (s : sndr) (v : sev) : sndr * list bytes :=
  match v with SWrite d => s_write s d | SCredits n => s_on_credits s n end.
Fixpoint s_run (s : sndr) (vs : list sev) : sndr * list bytes :=
  match vs with
  | [] => (s, [])
  | v :: vs' => let '(s1, f1) := s_step s v in let '(s2, f2) := s_run s1 vs' in (s2, f1 ++ f2)
  end.
Definition s_written (vs : list sev) : bytes :=
  concat (map (fun v => match v with SWrite d => d | SCredits _ => [] end) vs).

Definition sev_bytes (v : sev) : bytes := match v with SWrite d => d | SCredits _ => [] end.
Definition sev_credits (v : sev) : Z := match v with SCredits n => n | SWrite _ => 0 end.

(* write and on_credits adjust the state and call process_output *)
Definition s_pre (s : sndr) (v : sev) : sndr :=
  match v with
  | SWrite d => mkSnd (s_credits s) (s_mtu s) (s_mps s) (s_queue s ++ [d]) (s_sdu s) false
  | SCredits n => mkSnd (s_credits s + n) (s_mtu s) (s_mps s) (s_queue s) (s_sdu s) (s_drained s)
  end.

Lemma s_step_pre s v : s_step s v = process_output (s_pre s v).
Proof. destruct v; reflexivity. Qed.

Lemma s_pre_fields s v :
  s_credits (s_pre s v) = s_credits s + sev_credits v /\ s_mtu (s_pre s v) = s_mtu s /\
  s_mps (s_pre s v) = s_mps s /\ s_sdu (s_pre s v) = s_sdu s /\
  concat (s_queue (s_pre s v)) = concat (s_queue s) ++ sev_bytes v.
Proof.
  destruct v; cbn; rewrite ?concat_app; cbn; rewrite ?app_nil_r; auto using Z.add_0_r.
Qed.

Lemma s_pre_ok s v : snd_ok s -> sev_ok v -> snd_ok (s_pre s v).
Proof.
  intros [] Hv. destruct v; cbn in Hv; constructor; cbn; auto; try lia; try discriminate.
  apply Forall_app. auto.
Qed.

Lemma s_step_static s v : let '(s', fs) := s_step s v in
  s_credits s' = s_credits s + sev_credits v - zlen fs /\ s_mtu s' = s_mtu s /\ s_mps s' = s_mps s.
Proof.
  rewrite s_step_pre. destruct (s_pre_fields s v) as (<- & <- & <- & _).
  apply process_output_static.
Qed.

Lemma s_step_spec s v buf F P :
  snd_ok s -> sev_ok v -> flight buf F (rest_bytes (s_sdu s)) P ->
  let '(s', fs) := s_step s v in
  snd_ok s' /\ work_done s' /\ Forall (frame_ok (s_mps s)) fs /\
  exists P', flight buf (F ++ fs) (rest_bytes (s_sdu s')) (P ++ P') /\
             Forall (sdu_fits (s_mtu s)) P' /\
             concat P' ++ concat (s_queue s') = concat (s_queue s) ++ sev_bytes v.
Proof.
  intros Hs Hv. rewrite s_step_pre. destruct (s_pre_fields s v) as (_ & <- & <- & <- & <-).
  apply process_output_spec, s_pre_ok; assumption.
Qed.

(* The sender half against an arbitrary peer: whatever credit packets arrive (any
   counts >= 0, also beyond 65535 in total: the code does not check the ceiling), what is
   put on the wire is a well-formed K-frame stream carrying a prefix of the bytes written *)
Record sinv (s : sndr) (F : list bytes) (W : bytes) : Prop := {
  si_mps : 1 <= s_mps s;
  si_mtu : 1 <= s_mtu s < 65536;
  si_cred : 0 <= s_credits s;
  si_work : 0 < s_credits s -> s_queue s = [] /\ s_sdu s = None /\ s_drained s = true;
  si_drained : s_drained s = true -> s_queue s = [] /\ s_sdu s = None;
  si_queue : Forall nonempty (s_queue s);
  si_sdu : sdu_ok (s_sdu s);
  si_frames : Forall (frame_ok (s_mps s)) F;
  si_stream : exists P, flight [] F (rest_bytes (s_sdu s)) P /\ Forall (sdu_fits (s_mtu s)) P /\
                        W = concat P ++ concat (s_queue s)
}.

Lemma sinv_init c mtu mps : 0 <= c -> 1 <= mtu < 65536 -> 1 <= mps -> sinv (snd_init c mtu mps) [] [].
Proof.
  intros Hc Hm Hp. constructor; cbn; auto; try lia.
  exists []. repeat split; constructor.
Qed.

Lemma sinv_step s F W v : sinv s F W -> sev_ok v ->
  let '(s', fs) := s_step s v in
  sinv s' (F ++ fs) (W ++ sev_bytes v) /\ zlen fs <= s_credits s + sev_credits v.
Proof.
  intros [Imps Imtu Icred _ Idr Iq Isdu Ifr (P & Hfl & HP & ->)] Hv.
  pose proof (s_step_spec s v [] F P (Build_snd_ok s Imps Imtu Icred Idr Iq Isdu) Hv Hfl) as H.
  pose proof (s_step_static s v) as Hst. destruct (s_step s v) as [s' fs].
  destruct Hst as (Ecr & Emtu & Emps). destruct H as ([] & Hwork & Hfs & P' & Hfl' & HP' & Eq).
  split; [|lia]. constructor; rewrite ?Emtu, ?Emps; auto.
  - apply Forall_app. auto.
  - exists (P ++ P'). rewrite Forall_app, concat_app, <- !app_assoc, Eq. auto.
Qed.

Lemma sender_robust vs : forall s F W, sinv s F W -> Forall sev_ok vs ->
  let '(s', fs) := s_run s vs in sinv s' (F ++ fs) (W ++ s_written vs).
Proof.
  induction vs as [|v vs IH]; intros s F W Hi Hok; cbn [s_run].
  - unfold s_written. cbn. rewrite !app_nil_r. exact Hi.
  - inversion Hok as [|? ? Hv Hok']; subst.
    pose proof (sinv_step s F W v Hi Hv) as Hs. destruct (s_step s v) as [s1 f1]. destruct Hs as (Hs & _).
    specialize (IH s1 _ _ Hs Hok'). destruct (s_run s1 vs) as [s2 f2].
    unfold s_written in *. cbn [map concat]. rewrite !app_assoc in *. exact IH.
Qed.

(* The receiver half: whatever frames arrive (any number, any content), its count
   of the credits the peer holds stays in (max/2, max], so the "peer out of credits"
   branch of on_pdu is never taken and every credit packet returns 1..max credits *)
Definition rinv (r : rcvr) : Prop := 1 <= r_max r /\ r_max r / 2 < r_credits r <= r_max r.

Definition opt_list {A} (o : option A) : list A := match o with Some x => [x] | None => [] end.
Definition opt_bytes (o : option bytes) : bytes := match o with Some x => x | None => [] end.

Fixpoint zsum (l : list Z) : Z := match l with [] => 0 | x :: l' => x + zsum l' end.

Lemma zsum_app a b : zsum (a ++ b) = zsum a + zsum b.
Proof. induction a; cbn [app zsum]; lia. Qed.

Lemma half_lt m : 1 <= m -> 0 <= m / 2 < m.
Proof. intros. split; [apply Z.div_pos|apply Z.div_lt]; lia. Qed.

Lemma rinv_init m : 1 <= m -> rinv (rcv_init m).
Proof. intros H. pose proof (half_lt m H). unfold rinv. cbn. lia. Qed.

(* one frame: the count goes down by one and up by what is returned *)
Lemma rinv_step r pdu : rinv r ->
  let rr := r_on_pdu r pdu in
  rinv (rr_state rr) /\ r_max (rr_state rr) = r_max r /\
  Forall (fun n => 1 <= n <= r_max r) (opt_list (rr_credit rr)) /\
  r_credits (rr_state rr) = r_credits r - 1 + zsum (opt_list (rr_credit rr)).
Proof.
  intros (Hm & Hc). pose proof (half_lt _ Hm).
  destruct (r_on_pdu_asm r pdu) as (_ & Hcr & Hp & Hmax). cbv zeta. unfold rinv.
  rewrite Hcr, Hp, Hmax. unfold r_account, r_thresh.
  destruct (Z.eqb_spec (r_credits r) 0); [lia|].
  destruct (Z.leb_spec (r_credits r - 1) (r_max r / 2)); cbn [fst snd opt_list zsum];
    repeat split; try lia; repeat constructor; lia.
Qed.

Fixpoint r_run (r : rcvr) (fs : list bytes) : rcvr * list Z :=
  match fs with
  | [] => (r, [])
  | f :: fs' => let rr := r_on_pdu r f in let '(r', cs) := r_run (rr_state rr) fs' in (r', opt_list (rr_credit rr) ++ cs)
  end.

Lemma receiver_robust fs : forall r, rinv r ->
  let '(r', cs) := r_run r fs in
  rinv r' /\ Forall (fun n => 1 <= n <= r_max r) cs /\
  (* credits out after the run = credits out before - frames + credits returned *)
  r_credits r' = r_credits r - zlen fs + zsum cs.
Proof.
  induction fs as [|f fs IH]; intros r Hi; cbn [r_run].
  - repeat split; [apply Hi..|constructor|cbn; lia].
  - destruct (rinv_step r f Hi) as (Hi' & Hmax & Hcr & Hbal).
    specialize (IH _ Hi'). destruct (r_run _ fs) as [r' cs]. destruct IH as (I1 & I2 & I3).
    rewrite Hmax in I2. rewrite Forall_app, zsum_app. repeat split; [apply I1..|assumption|assumption|zlia].
Qed.

(* sender half at one end, receiver half at the other, K-frames in flight one
   way, credit packets in flight the other way; W / S are ghost histories: all
   bytes written so far, all bytes handed to the sink so far. *)
Record view := mkV {
  v_s : sndr; v_r : rcvr; v_F : list bytes; v_K : list Z; v_W : bytes; v_S : bytes
}.

Inductive vlabel := VWrite (d : bytes) | VFrame | VCredit.

Definition v_step (v : view) (l : vlabel) : view :=
  match l with
  | VWrite d =>
      let '(s, fs) := s_write (v_s v) d in
      mkV s (v_r v) (v_F v ++ fs) (v_K v) (v_W v ++ d) (v_S v)
  | VFrame =>
      match v_F v with
      | [] => v
      | f :: F =>
          let rr := r_on_pdu (v_r v) f in
          mkV (v_s v) (rr_state rr) F (v_K v ++ opt_list (rr_credit rr)) (v_W v)
              (v_S v ++ opt_bytes (rr_sink rr))
      end
  | VCredit =>
      match v_K v with
      | [] => v
      | n :: K =>
          let '(s, fs) := s_on_credits (v_s v) n in
          mkV s (v_r v) (v_F v ++ fs) K (v_W v) (v_S v)
      end
  end.

Definition vlabel_ok (l : vlabel) : Prop := match l with VWrite d => d <> [] | _ => True end.

Record vinv (v : view) : Prop := {
  vi_mps : 1 <= s_mps (v_s v);
  vi_mtu : 1 <= s_mtu (v_s v) < 65536;
  vi_max : 1 <= r_max (v_r v);
  (* the credit ledger *)
  vi_ledger : s_credits (v_s v) + zlen (v_F v) + zsum (v_K v) = r_credits (v_r v);
  vi_cred : 0 <= s_credits (v_s v);
  vi_K : Forall (fun n => 1 <= n) (v_K v);
  vi_rc : r_max (v_r v) / 2 < r_credits (v_r v) <= r_max (v_r v);
  (* work conservation and the meaning of drained *)
  vi_work : 0 < s_credits (v_s v) ->
            s_queue (v_s v) = [] /\ s_sdu (v_s v) = None /\ s_drained (v_s v) = true;
  vi_drained : s_drained (v_s v) = true -> s_queue (v_s v) = [] /\ s_sdu (v_s v) = None;
  vi_queue : Forall nonempty (s_queue (v_s v));
  vi_sdu : sdu_ok (s_sdu (v_s v));
  vi_frames : Forall (frame_ok (s_mps (v_s v))) (v_F v);
  (* the byte stream *)
  vi_flight : exists buf P,
      (r_sdu (v_r v), r_len (v_r v)) = st_of (hd_len P) buf /\
      flight buf (v_F v) (rest_bytes (s_sdu (v_s v))) P /\
      Forall (sdu_fits (s_mtu (v_s v))) P /\
      v_W v = v_S v ++ concat P ++ concat (s_queue (v_s v))
}.

Definition v_init (credits mtu mps : Z) : view :=
  mkV (snd_init credits mtu mps) (rcv_init credits) [] [] [] [].

Lemma vinv_init credits mtu mps :
  1 <= credits -> 1 <= mtu < 65536 -> 1 <= mps -> vinv (v_init credits mtu mps).
Proof.
  intros Hc Hm Hp. constructor; cbn; auto; try lia.
  - apply (rinv_init credits Hc).
  - exists [], []. repeat split; auto; constructor.
Qed.

Lemma vinv_snd v : vinv v -> snd_ok (v_s v).
Proof. intros []. constructor; assumption. Qed.

(* a write or the arrival of credits, where [K'] are the credits still under way *)
Lemma vinv_sender v ev K' :
  vinv v -> sev_ok ev -> Forall (fun n => 1 <= n) K' -> zsum K' + sev_credits ev = zsum (v_K v) ->
  let '(s', fs) := s_step (v_s v) ev in
  vinv (mkV s' (v_r v) (v_F v ++ fs) K' (v_W v ++ sev_bytes ev) (v_S v)).
Proof.
  intros Hi Hev HK' Hsum. pose proof (vinv_snd v Hi) as Hs.
  destruct Hi as [_ _ Imax Iled _ _ Irc _ _ _ _ Ifr (buf & P & Hst & Hfl & HP & HW)].
  pose proof (s_step_spec _ ev buf (v_F v) P Hs Hev Hfl) as H.
  pose proof (s_step_static (v_s v) ev) as Hsame. destruct (s_step (v_s v) ev) as [s' fs].
  destruct Hsame as (Ecr & Emtu & Emps). destruct H as ([] & Hwork & Hfs & P' & Hfl' & HP' & Eq).
  rewrite Emtu, Emps in *. constructor; cbn [v_s v_r v_F v_K v_W v_S]; rewrite ?Emtu, ?Emps; auto.
  - zlia.
  - apply Forall_app. auto.
  - exists buf, (P ++ P').
    rewrite (hd_len_app P P' buf _ _ Hfl), Forall_app, HW, concat_app, <- !app_assoc, Eq. auto.
Qed.

(* a K-frame reaches the receiver: it completes an SDU that fits or is absorbed *)
Lemma vinv_frame v f F : vinv v -> v_F v = f :: F ->
  let rr := r_on_pdu (v_r v) f in
  vinv (v_step v VFrame) /\ rr_overflow rr = false /\
  (forall d, rr_sink rr = Some d -> sdu_fits (s_mtu (v_s v)) d).
Proof.
  intros [Imps Imtu Imax Iled Icred IK Irc Iwork Idr Iq Isdu Ifr (buf & P & Hst & Hfl & HP & HW)] EF rr.
  cbn [v_step]. rewrite EF in *.
  destruct (rinv_step (v_r v) f (conj Imax Irc)) as ((Imax' & Irc') & _ & Hcr & Hbal).
  destruct (r_on_pdu_asm (v_r v) f) as (Hasm & _). rewrite Hst in Hasm.
  inversion Ifr as [|? ? _ Ifr']; subst. fold rr in Imax', Irc', Hcr, Hbal, Hasm |- *.
  assert (Hled : s_credits (v_s v) + zlen F + zsum (v_K v ++ opt_list (rr_credit rr))
                 = r_credits (rr_state rr)) by (rewrite zsum_app; zlia).
  assert (HK : Forall (fun n => 1 <= n) (v_K v ++ opt_list (rr_credit rr))).
  { apply Forall_app. split; [assumption|]. eapply Forall_impl; [|exact Hcr]. cbn. lia. }
  destruct (flight_deliver _ _ _ _ _ Hfl) as [(Hx & Hfl') | (p & P' & -> & Hx & Hfl')];
    rewrite Hx in Hasm; injection Hasm as E1 E2 <- <-; cbn [opt_bytes].
  - split; [|split; [reflexivity|discriminate]].
    constructor; cbn [v_s v_r v_F v_K v_W v_S]; auto.
    exists (buf ++ f), P. rewrite <- E1, <- E2, app_nil_r. auto.
  - inversion HP; subst. split; [|split; [reflexivity|intros d [= <-]; assumption]].
    constructor; cbn [v_s v_r v_F v_K v_W v_S]; auto.
    exists [], P'. rewrite <- E1, <- E2, HW. cbn [concat]. rewrite <- !app_assoc. auto.
Qed.

Lemma vinv_step v l : vinv v -> vlabel_ok l -> vinv (v_step v l).
Proof.
  intros Hi Hl. destruct l as [d| |]; cbn [v_step].
  - pose proof (vinv_sender v (SWrite d) (v_K v) Hi Hl (vi_K v Hi) (Z.add_0_r _)) as H.
    cbn [s_step] in H. destruct (s_write (v_s v) d). exact H.
  - destruct (v_F v) as [|f F] eqn:EF; [exact Hi|].
    pose proof (vinv_frame v f F Hi EF) as (H & _). cbn [v_step] in H. rewrite EF in H. exact H.
  - destruct (v_K v) as [|n K] eqn:EK; [exact Hi|].
    pose proof (vi_K v Hi) as HK. rewrite EK in HK. inversion HK as [|? ? Hn HK']; subst.
    pose proof (vinv_sender v (SCredits n) K Hi ltac:(cbn; lia) HK') as H.
    rewrite EK, app_nil_r in H. cbn [s_step] in H. destruct (s_on_credits (v_s v) n).
    apply H. cbn. lia.
Qed.

Fixpoint v_run (v : view) (ls : list vlabel) : view :=
  match ls with [] => v | l :: ls' => v_run (v_step v l) ls' end.

Lemma vinv_run ls : forall v, vinv v -> Forall vlabel_ok ls -> vinv (v_run v ls).
Proof.
  induction ls as [|l ls IH]; intros v Hi Hok; cbn [v_run]; [exact Hi|].
  inversion Hok; subst. apply IH; [apply vinv_step; assumption|assumption].
Qed.

(* quiescent: nothing in flight either way *)
Definition v_quiet (v : view) : Prop := v_F v = [] /\ v_K v = [].
(* final: everything written has reached the sink and drain() has completed *)
Definition v_final (v : view) : Prop :=
  v_W v = v_S v /\ s_queue (v_s v) = [] /\ s_sdu (v_s v) = None /\ s_drained (v_s v) = true.

Lemma vinv_prefix v : vinv v -> exists X, v_W v = v_S v ++ X.
Proof. intros Hi. destruct (vi_flight v Hi) as (buf & P & _ & _ & _ & HW). eauto. Qed.

Lemma vinv_ledger v : vinv v ->
  s_credits (v_s v) + zlen (v_F v) + zsum (v_K v) = r_credits (v_r v) /\
  0 <= s_credits (v_s v) /\ 0 < r_credits (v_r v) <= r_max (v_r v).
Proof.
  intros Hi. pose proof (vi_rc v Hi). pose proof (half_lt _ (vi_max v Hi)).
  split; [apply (vi_ledger v Hi)|]. split; [apply (vi_cred v Hi)|lia].
Qed.

(* with nothing in flight the sender holds all the credits, so it has nothing left to send *)
Lemma vinv_quiet_final v : vinv v -> v_quiet v -> v_final v.
Proof.
  intros Hi (HF & HK).
  destruct (vinv_ledger v Hi) as (Hled & _ & Hpos & _). rewrite HF, HK in Hled. cbn in Hled.
  destruct (vi_work v Hi ltac:(lia)) as (Hq & Hs & Hd).
  destruct (vi_flight v Hi) as (buf & P & _ & Hfl & _ & HW).
  rewrite HF, Hs in Hfl. destruct (flight_idle _ _ Hfl) as (_ & ->).
  rewrite Hq, app_nil_r in HW. repeat split; assumption.
Qed.

(* Progress: with no further writes every delivery strictly decreases
   [measure], and as long as the state is not final a delivery is enabled. *)
Definition pending_bytes (s : sndr) : Z :=
  zlen (rest_bytes (s_sdu s)) + 3 * zlen (concat (s_queue s)).
Definition measure (v : view) : Z :=
  3 * pending_bytes (v_s v) + 2 * zlen (v_F v) + zlen (v_K v).

(* a frame carries at least one byte of out_sdu; an SDU taken from the queue has at
   least one byte of payload and two of header *)
Lemma po_measure n : forall mtu mps q sdu dr,
  1 <= mps -> 1 <= mtu -> Forall nonempty q -> sdu_ok sdu ->
  let '(fs, q', sdu', dr') := po n mtu mps q sdu dr in
  zlen (rest_bytes sdu') + 3 * zlen (concat q') + zlen fs <= zlen (rest_bytes sdu) + 3 * zlen (concat q).
Proof.
  induction n as [|n IH]; intros mtu mps q sdu dr Hmps Hmtu Hq Hsdu; [cbn; lia|].
  revert q Hq Hsdu. pattern sdu. revert sdu. apply option_some_first; cbv beta.
  - intros s q Hq Hs. cbn [po sdu_ok rest_bytes] in *.
    pose proof (emit_spec mps s Hmps Hs) as He.
    destruct (emit mps s) as [packet sdu1]. destruct He as (Hps & Hpne & _ & Hok1).
    specialize (IH mtu mps q sdu1 dr Hmps Hmtu Hq Hok1).
    destruct (po n mtu mps q sdu1 dr) as [[[fs q2] sdu2] dr2].
    pose proof (zlen_pos _ Hpne). subst s. zlia.
  - intros Hsend q Hq _. destruct q as [|d q0]; [cbn; lia|]. rewrite po_load.
    pose proof (gather_spec (d :: q0) mtu Hq ltac:(lia)) as Hg.
    destruct (gather mtu (d :: q0)) as [payload q1]. destruct Hg as (Hc & _ & Hne & Hp).
    specialize (Hsend _ q1 Hne (enc_nonempty payload)).
    destruct (po (S n) mtu mps q1 _ dr) as [[[fs q2] sdu2] dr2].
    pose proof (zlen_pos _ (Hp ltac:(discriminate) ltac:(lia))).
    cbn [rest_bytes] in *. rewrite zlen_enc in Hsend. rewrite <- Hc. zlia.
Qed.

Definition enabled (v : view) (l : vlabel) : Prop :=
  match l with VFrame => v_F v <> [] | VCredit => v_K v <> [] | VWrite _ => False end.

Lemma measure_nonneg v : 0 <= measure v.
Proof. unfold measure, pending_bytes. zlia. Qed.

Lemma measure_decreases v l : vinv v -> enabled v l -> measure (v_step v l) < measure v.
Proof.
  intros Hi He. unfold measure.
  destruct l as [d| |]; cbn [enabled] in He; [contradiction| |]; cbn [v_step].
  - destruct (v_F v) as [|f F]; [congruence|].
    cbn [v_s v_F v_K]. destruct (rr_credit _); cbn [opt_list]; zlia.
  - destruct (v_K v) as [|n K]; [congruence|].
    unfold s_on_credits, process_output.
    cbn [s_credits s_mtu s_mps s_queue s_sdu s_drained].
    pose proof (po_measure (Z.to_nat (s_credits (v_s v) + n)) _ _ _ _ (s_drained (v_s v))
                  (vi_mps v Hi) (proj1 (vi_mtu v Hi)) (vi_queue v Hi) (vi_sdu v Hi)) as Hm.
    destruct (po _ _ _ _ _ _) as [[[fs q'] sdu'] dr'].
    unfold pending_bytes. cbn [v_s v_F v_K s_queue s_sdu]. zlia.
Qed.

Fixpoint all_enabled (v : view) (ls : list vlabel) : Prop :=
  match ls with [] => True | l :: ls' => enabled v l /\ all_enabled (v_step v l) ls' end.

Lemma enabled_ok v l : enabled v l -> vlabel_ok l.
Proof. destruct l; cbn; auto. Qed.

Lemma deliveries_bounded ls : forall v,
  vinv v -> all_enabled v ls -> zlen ls <= measure v.
Proof.
  induction ls as [|l ls IH]; intros v Hi Hen; [apply measure_nonneg|].
  destruct Hen as (He & Hen).
  pose proof (measure_decreases v l Hi He).
  specialize (IH _ (vinv_step v l Hi (enabled_ok v l He)) Hen). zlia.
Qed.

(* some delivery schedule completes the transfer; by [deliveries_bounded] every
   delivery schedule is finite, so every maximal one ends in a final state *)
Lemma completes v : vinv v -> exists ls, all_enabled v ls /\ v_quiet (v_run v ls).
Proof.
  intros Hi. remember (Z.to_nat (measure v)) as k eqn:Hk.
  revert v Hi Hk. induction k as [k IH] using lt_wf_ind. intros v Hi ->.
  assert (Hstep : forall l, enabled v l -> exists ls, all_enabled v ls /\ v_quiet (v_run v ls)).
  { intros l He. pose proof (measure_decreases v l Hi He). pose proof (measure_nonneg (v_step v l)).
    destruct (IH (Z.to_nat (measure (v_step v l))) ltac:(lia) _ (vinv_step v l Hi (enabled_ok v l He)) eq_refl) as (ls & Hen & Hq).
    exists (l :: ls). split; [split|]; assumption. }
  destruct (v_F v) eqn:EF; [|apply (Hstep VFrame); cbn; congruence].
  destruct (v_K v) eqn:EK; [|apply (Hstep VCredit); cbn; congruence].
  exists []. repeat split; assumption.
Qed.

Definition frame_of (p : pkt) : list bytes := match p with PFrame _ d => [d] | PCredit _ _ => [] end.
Definition credit_of (p : pkt) : list Z := match p with PCredit _ n => [n] | PFrame _ _ => [] end.
Definition frames_of (w : list pkt) : list bytes := flat_map frame_of w.
Definition credits_of (w : list pkt) : list Z := flat_map credit_of w.

Lemma frames_of_app a b : frames_of (a ++ b) = frames_of a ++ frames_of b.
Proof. apply flat_map_app. Qed.
Lemma credits_of_app a b : credits_of (a ++ b) = credits_of a ++ credits_of b.
Proof. apply flat_map_app. Qed.
Lemma frames_of_frames e fs : frames_of (frames_out e fs) = fs.
Proof. induction fs; cbn; [reflexivity|]. f_equal. exact IHfs. Qed.
Lemma credits_of_frames e fs : credits_of (frames_out e fs) = [].
Proof. induction fs; cbn; auto. Qed.
Lemma frames_of_credit c o : frames_of (match o with Some n => [PCredit c n] | None => [] end) = [].
Proof. destruct o; reflexivity. Qed.
Lemma credits_of_credit c o : credits_of (match o with Some n => [PCredit c n] | None => [] end) = opt_list o.
Proof. destruct o; reflexivity. Qed.

Global Hint Rewrite frames_of_app credits_of_app frames_of_frames credits_of_frames
  frames_of_credit credits_of_credit @app_nil_r : wire.

(* what an endpoint puts on the wire names the channel the way the peer's
   tables expect: frames carry our destination CID, credits our source CID *)
Definition addressed (e : ep) (p : pkt) : Prop :=
  match p with PFrame cid _ => cid = e_dst e | PCredit cid _ => cid = e_src e end.

Record wired (st : lsys) : Prop := {
  w_ab : e_dst (l_a st) = e_src (l_b st);
  w_ba : e_dst (l_b st) = e_src (l_a st);
  w_ka : e_key (l_a st) = e_dst (l_a st);
  w_kb : e_key (l_b st) = e_dst (l_b st);
  w_wab : Forall (addressed (l_a st)) (l_ab st);
  w_wba : Forall (addressed (l_b st)) (l_ba st)
}.

(* ghost histories: bytes written at A / B, bytes sunk at A / B *)
Record ghost := mkG { g_wa : bytes; g_wb : bytes; g_sa : bytes; g_sb : bytes }.

Definition view_ab (st : lsys) (g : ghost) : view :=
  mkV (e_snd (l_a st)) (e_rcv (l_b st)) (frames_of (l_ab st)) (credits_of (l_ba st)) (g_wa g) (g_sb g).
Definition view_ba (st : lsys) (g : ghost) : view :=
  mkV (e_snd (l_b st)) (e_rcv (l_a st)) (frames_of (l_ba st)) (credits_of (l_ab st)) (g_wb g) (g_sa g).

Definition g_step (g : ghost) (l : label) (r : lres) : ghost :=
  mkG (g_wa g ++ match l with WriteA d => d | _ => [] end)
      (g_wb g ++ match l with WriteB d => d | _ => [] end)
      (g_sa g ++ opt_bytes (lr_sink_a r))
      (g_sb g ++ opt_bytes (lr_sink_b r)).

Definition label_ok (l : label) : Prop :=
  match l with WriteA d | WriteB d => d <> [] | _ => True end.

Record linv (st : lsys) (g : ghost) : Prop := {
  li_wired : wired st;
  li_ab : vinv (view_ab st g);
  li_ba : vinv (view_ba st g)
}.

Lemma view_eq v s r F K W S :
  v_s v = s -> v_r v = r -> v_F v = F -> v_K v = K -> v_W v = W -> v_S v = S -> v = mkV s r F K W S.
Proof. destruct v; cbn; intros; subst; reflexivity. Qed.

(* [wired], [view_ab] / [view_ba] and [linv] above are what the theorems are stated with;
   the proofs work with [dview] / [dir_ok] below, one direction at a time, and pass from
   one to the other by [linv_dirs].
   The two directions of a channel are treated alike.  [dview x y out back]: the
   sender half of x and the receiver half of y, the frames on x's outgoing wire and the
   credits on the wire back.  [dir_ok]: that direction is in order and x names y's
   channel as y's tables expect. *)
Definition dview (x y : ep) (out back : list pkt) (W S : bytes) : view :=
  mkV (e_snd x) (e_rcv y) (frames_of out) (credits_of back) W S.

Definition dir_ok (x y : ep) (out back : list pkt) (W S : bytes) : Prop :=
  e_dst x = e_src y /\ e_key x = e_dst x /\ Forall (addressed x) out /\
  vinv (dview x y out back W S).

Lemma linv_dirs st g : linv st g <->
  dir_ok (l_a st) (l_b st) (l_ab st) (l_ba st) (g_wa g) (g_sb g) /\
  dir_ok (l_b st) (l_a st) (l_ba st) (l_ab st) (g_wb g) (g_sa g).
Proof.
  unfold dir_ok. split.
  - intros [[] ? ?]. auto 10.
  - intros ((? & ? & ? & ?) & (? & ? & ? & ?)). constructor; [constructor|..]; assumption.
Qed.

Lemma addressed_frames e fs : Forall (addressed e) (frames_out e fs).
Proof. unfold frames_out. induction fs; cbn; constructor; auto. reflexivity. Qed.

(* a write at x is a write step of the direction x -> y and does not show in y -> x *)
Lemma write_dirs x y out back W S W' S' d :
  d <> [] -> dir_ok x y out back W S -> dir_ok y x back out W' S' ->
  let r := ep_step x (EWrite d) in
  dir_ok (er_state r) y (out ++ er_out r) back (W ++ d) S /\
  dir_ok y (er_state r) back (out ++ er_out r) W' S'.
Proof.
  intros Hd (I1 & I2 & I3 & I4) (J1 & J2 & J3 & J4).
  pose proof (vinv_step _ (VWrite d) I4 Hd) as Hv. cbn [ep_step v_step dview v_s v_r v_F v_K v_W v_S] in *.
  destruct (s_write (e_snd x) d) as [s fs].
  unfold dir_ok, dview. cbn [er_state er_out with_snd e_src e_dst e_key e_snd e_rcv].
  autorewrite with wire. repeat apply conj; auto.
  apply Forall_app. split; [assumption|apply (addressed_frames x)].
Qed.

(* the delivery of the head of x's outgoing wire to y: a frame is a step of the direction
   x -> y and leaves y -> x alone (but for the credits y returns, which travel with it);
   a credit packet is a step of y -> x and leaves x -> y alone *)
Lemma recv_dirs x y p out back W S W' S' :
  dir_ok x y (p :: out) back W S -> dir_ok y x back (p :: out) W' S' ->
  let r := ep_step y (ERecv p) in
  let vxy := dview x (er_state r) out (back ++ er_out r) W (S ++ opt_bytes (er_sink r)) in
  let vyx := dview (er_state r) x (back ++ er_out r) out W' S' in
  dir_ok x (er_state r) out (back ++ er_out r) W (S ++ opt_bytes (er_sink r)) /\
  dir_ok (er_state r) x (back ++ er_out r) out W' S' /\
  er_dropped r = false /\ er_overflow r = false /\
  (forall d, er_sink r = Some d -> sdu_fits (s_mtu (e_snd x)) d) /\
  measure vxy + measure vyx < measure (dview x y (p :: out) back W S) + measure (dview y x back (p :: out) W' S').
Proof.
  intros (I1 & I2 & I3 & I4) (J1 & J2 & J3 & J4). inversion I3 as [|? ? Hp I3']; subst.
  destruct p as [cid f|cid n]; cbn [addressed] in Hp; subst cid; cbn [ep_step].
  - rewrite I1, Z.eqb_refl.
    destruct (vinv_frame _ f (frames_of out) I4 eq_refl) as (Hv & Hov & Hfit).
    pose proof (measure_decreases _ VFrame I4 ltac:(discriminate)) as Hm.
    unfold dir_ok, dview in *.
    cbn [v_step v_s v_r v_F v_K v_W v_S frames_of credits_of flat_map frame_of credit_of app] in *.
    fold (frames_of out) (credits_of out) in *.
    cbn [er_state er_out er_sink er_dropped er_overflow with_rcv e_src e_dst e_key e_snd e_rcv].
    autorewrite with wire. repeat apply conj; auto; [|lia].
    apply Forall_app. split; [assumption|]. destruct (rr_credit _); repeat constructor.
  - rewrite J2, J1, Z.eqb_refl.
    pose proof (vinv_step _ VCredit J4 I) as Hv.
    pose proof (measure_decreases _ VCredit J4 ltac:(discriminate)) as Hm.
    unfold dir_ok, dview in *.
    cbn [v_step v_s v_r v_F v_K v_W v_S frames_of credits_of flat_map frame_of credit_of app] in *.
    fold (frames_of out) (credits_of out) in *.
    destruct (s_on_credits (e_snd y) n) as [s fs].
    cbn [er_state er_out er_sink er_dropped er_overflow with_snd e_src e_dst e_key e_snd e_rcv opt_bytes].
    autorewrite with wire. repeat apply conj; auto; [|discriminate|lia].
    apply Forall_app. split; [assumption|apply (addressed_frames y)].
Qed.

Lemma l_step_inv st g l :
  linv st g -> label_ok l ->
  let r := l_step st l in
  linv (lr_state r) (g_step g l r) /\ lr_dropped r = false /\ lr_overflow r = false.
Proof.
  intros Hi Hl. apply linv_dirs in Hi. destruct Hi as (Hab & Hba).
  destruct l as [d|d| |]; cbn [l_step].
  1: destruct (write_dirs _ _ _ _ _ _ (g_wb g) (g_sa g) d Hl Hab Hba).
  2: destruct (write_dirs _ _ _ _ _ _ (g_wa g) (g_sb g) d Hl Hba Hab).
  3: destruct (l_ab st) as [|p w] eqn:E;
       [rewrite <- E in Hab, Hba|destruct (recv_dirs _ _ p w _ _ _ _ _ Hab Hba) as (? & ? & ? & ? & _)].
  5: destruct (l_ba st) as [|p w] eqn:E;
       [rewrite <- E in Hab, Hba|destruct (recv_dirs _ _ p w _ _ _ _ _ Hba Hab) as (? & ? & ? & ? & _)].
  all: cbv zeta; split; [apply linv_dirs|auto];
    cbn [lr_state lr_sink_a lr_sink_b l_a l_b l_ab l_ba g_step g_wa g_wb g_sa g_sb opt_bytes];
    rewrite !app_nil_r; auto.
Qed.

Definition written_a (ls : list label) : bytes :=
  concat (map (fun l => match l with WriteA d => d | _ => [] end) ls).
Definition written_b (ls : list label) : bytes :=
  concat (map (fun l => match l with WriteB d => d | _ => [] end) ls).
Definition sunk_a (rs : list lres) : bytes := concat (map (fun r => opt_bytes (lr_sink_a r)) rs).
Definition sunk_b (rs : list lres) : bytes := concat (map (fun r => opt_bytes (lr_sink_b r)) rs).

Definition clean (r : lres) : Prop := lr_dropped r = false /\ lr_overflow r = false.

Lemma l_run_inv ls : forall st g,
  linv st g -> Forall label_ok ls ->
  let '(st', rs) := l_run st ls in
  linv st' (mkG (g_wa g ++ written_a ls) (g_wb g ++ written_b ls)
                (g_sa g ++ sunk_a rs) (g_sb g ++ sunk_b rs)) /\
  Forall clean rs.
Proof.
  induction ls as [|l ls IH]; intros st g Hi Hok; cbn [l_run].
  - unfold written_a, written_b, sunk_a, sunk_b. cbn. rewrite !app_nil_r. destruct g. split; [exact Hi|constructor].
  - inversion Hok as [|? ? Hl Hok']; subst.
    destruct (l_step_inv st g l Hi Hl) as (Hi' & Hclean).
    specialize (IH _ _ Hi' Hok'). destruct (l_run _ ls) as [st' rs].
    destruct IH as (IH1 & IH2). split; [|constructor; assumption].
    unfold g_step in IH1. cbn [g_wa g_wb g_sa g_sb] in IH1.
    unfold written_a, written_b, sunk_a, sunk_b in *. cbn [map concat].
    rewrite <- !app_assoc in IH1. exact IH1.
Qed.

Record params_ok (mtu mps cr : Z) : Prop := {
  p_mtu : 1 <= mtu < 65536; p_mps : 1 <= mps; p_cr : 1 <= cr
}.

Lemma linv_init ka kb cid_a cid_b mtu_a mps_a cr_a mtu_b mps_b cr_b :
  params_ok mtu_a mps_a cr_a -> params_ok mtu_b mps_b cr_b ->
  linv (l_init (lecoc_keysel ka) (lecoc_keysel kb) cid_a cid_b mtu_a mps_a cr_a mtu_b mps_b cr_b)
       (mkG [] [] [] []).
Proof.
  intros [] []. constructor; [constructor; cbn; auto|..]; apply vinv_init; assumption.
Qed.

(* every K-frame on the wire is non-empty and within the MPS its receiver advertised *)
Definition frames_within (mps : Z) (w : list pkt) : Prop := Forall (frame_ok mps) (frames_of w).

(* identifiers and negotiated values never change *)
Definition ep_static (e : ep) :=
  (e_src e, e_dst e, e_key e, s_mtu (e_snd e), s_mps (e_snd e), r_max (e_rcv e)).

Lemma ep_step_static e v : ep_static (er_state (ep_step e v)) = ep_static e.
Proof.
  assert (Hs : forall ev, let '(s, fs) := s_step (e_snd e) ev in
               ep_static (with_snd e s) = ep_static e).
  { intros ev. pose proof (s_step_static (e_snd e) ev) as H. destruct (s_step _ ev).
    destruct H as (_ & Hmtu & Hmps). unfold ep_static. cbn. rewrite Hmtu, Hmps. reflexivity. }
  destruct v as [d|[cid d|cid n]]; cbn [ep_step].
  - specialize (Hs (SWrite d)). cbn [s_step] in Hs. destruct (s_write _ d). exact Hs.
  - destruct (cid =? e_src e); [|reflexivity]. unfold ep_static. cbn.
    destruct (r_on_pdu_asm (e_rcv e) d) as (_ & _ & _ & ->). reflexivity.
  - destruct (cid =? e_key e); [|reflexivity].
    specialize (Hs (SCredits n)). cbn [s_step] in Hs. destruct (s_on_credits _ n). exact Hs.
Qed.

Definition statics (st : lsys) := (ep_static (l_a st), ep_static (l_b st)).

Lemma l_run_static ls : forall st, statics (fst (l_run st ls)) = statics st.
Proof.
  induction ls as [|l ls IH]; intros st; cbn [l_run]; [reflexivity|].
  specialize (IH (lr_state (l_step st l))). destruct (l_run _ ls) as [st' rs].
  cbn [fst] in *. rewrite IH. unfold statics.
  destruct l; cbn [l_step]; try destruct (l_ab st); try destruct (l_ba st);
    cbn [lr_state l_a l_b]; rewrite ?ep_step_static; reflexivity.
Qed.

Definition g0 : ghost := mkG [] [] [] [].
Definition lmeasure (st : lsys) : Z := measure (view_ab st g0) + measure (view_ba st g0).

Definition l_enabled (st : lsys) (l : label) : Prop :=
  match l with DeliverAB => l_ab st <> [] | DeliverBA => l_ba st <> [] | _ => False end.

Lemma l_deliver_decreases st g l :
  linv st g -> l_enabled st l -> lmeasure (lr_state (l_step st l)) < lmeasure st.
Proof.
  intros Hi He. apply linv_dirs in Hi. destruct Hi as (Hab & Hba).
  unfold lmeasure, view_ab, view_ba.
  destruct l as [d|d| |]; cbn [l_enabled] in He; try contradiction; cbn [l_step].
  - destruct (l_ab st) as [|p w]; [congruence|].
    destruct (recv_dirs _ _ p w _ _ _ _ _ Hab Hba) as (_ & _ & _ & _ & _ & Hm). exact Hm.
  - destruct (l_ba st) as [|p w]; [congruence|].
    destruct (recv_dirs _ _ p w _ _ _ _ _ Hba Hab) as (_ & _ & _ & _ & _ & Hm).
    assert (Hc : forall a b c d, a + b < c + d -> b + a < d + c) by (intros; lia).
    apply Hc, Hm.
Qed.

Fixpoint l_all_enabled (st : lsys) (ls : list label) : Prop :=
  match ls with
  | [] => True
  | l :: ls' => l_enabled st l /\ l_all_enabled (lr_state (l_step st l)) ls'
  end.

Lemma l_enabled_ok st l : l_enabled st l -> label_ok l.
Proof. destruct l; cbn; auto. Qed.

Lemma lmeasure_nonneg st : 0 <= lmeasure st.
Proof. pose proof (measure_nonneg (view_ab st g0)). pose proof (measure_nonneg (view_ba st g0)). unfold lmeasure. lia. Qed.

Lemma l_deliveries_bounded ls : forall st g,
  linv st g -> l_all_enabled st ls -> zlen ls <= lmeasure st.
Proof.
  induction ls as [|l ls IH]; intros st g Hi Hen; [apply lmeasure_nonneg|].
  destruct Hen as (He & Hen).
  pose proof (l_deliver_decreases st g l Hi He) as Hd.
  destruct (l_step_inv st g l Hi (l_enabled_ok st l He)) as (Hi' & _).
  specialize (IH _ _ Hi' Hen). zlia.
Qed.

Lemma l_completes st g : linv st g ->
  exists ds, l_all_enabled st ds /\ l_ab (fst (l_run st ds)) = [] /\ l_ba (fst (l_run st ds)) = [].
Proof.
  intros Hi. remember (Z.to_nat (lmeasure st)) as k eqn:Hk.
  revert st g Hi Hk. induction k as [k IH] using lt_wf_ind. intros st g Hi ->.
  assert (Hstep : forall l, l_enabled st l ->
            exists ds, l_all_enabled st ds /\ l_ab (fst (l_run st ds)) = [] /\ l_ba (fst (l_run st ds)) = []).
  { intros l He.
    pose proof (l_deliver_decreases st g l Hi He) as Hd.
    pose proof (lmeasure_nonneg (lr_state (l_step st l))) as H0.
    destruct (l_step_inv st g l Hi (l_enabled_ok st l He)) as (Hi' & _).
    destruct (IH (Z.to_nat (lmeasure (lr_state (l_step st l)))) ltac:(lia) _ _ Hi' eq_refl)
      as (ds & Hen & Hq).
    exists (l :: ds). split; [split; assumption|].
    cbn [l_run]. destruct (l_run (lr_state (l_step st l)) ds) as [st' rs]. exact Hq. }
  destruct (l_ab st) eqn:E1; [|apply (Hstep DeliverAB); cbn; congruence].
  destruct (l_ba st) eqn:E2; [|apply (Hstep DeliverBA); cbn; congruence].
  exists []. cbn. auto.
Qed.

Section Top.
  Variables (ka kb : kind) (cid_a cid_b mtu_a mps_a cr_a mtu_b mps_b cr_b : Z).
  Hypothesis (Ha : params_ok mtu_a mps_a cr_a) (Hb : params_ok mtu_b mps_b cr_b).

  Definition sys0 : lsys :=
    l_init (lecoc_keysel ka) (lecoc_keysel kb) cid_a cid_b mtu_a mps_a cr_a mtu_b mps_b cr_b.

  (* every reachable state: the invariant with the histories of the run as ghosts, no
     packet dropped, no SDU overflow, and the negotiated values still in place *)
  Lemma reach ls : Forall label_ok ls ->
    let '(st, rs) := l_run sys0 ls in
    linv st (mkG (written_a ls) (written_b ls) (sunk_a rs) (sunk_b rs)) /\ Forall clean rs /\
    (s_mtu (e_snd (l_a st)) = mtu_b /\ s_mps (e_snd (l_a st)) = mps_b /\ r_max (e_rcv (l_b st)) = cr_b) /\
    (s_mtu (e_snd (l_b st)) = mtu_a /\ s_mps (e_snd (l_b st)) = mps_a /\ r_max (e_rcv (l_a st)) = cr_a).
  Proof.
    intros Hok. pose proof (l_run_inv ls sys0 (mkG [] [] [] []) (linv_init ka kb _ _ _ _ _ _ _ _ Ha Hb) Hok) as H.
    pose proof (l_run_static ls sys0) as Hs.
    destruct (l_run sys0 ls) as [st rs]. destruct H.
    injection Hs as _ _ _ Amtu Amps Amax _ _ _ Bmtu Bmps Bmax. auto 8.
  Qed.

  Theorem stream_exact ls : Forall label_ok ls ->
    let '(st, rs) := l_run sys0 ls in
    (exists X, written_a ls = sunk_b rs ++ X) /\
    (exists Y, written_b ls = sunk_a rs ++ Y) /\
    (l_ab st = [] -> l_ba st = [] ->
       written_a ls = sunk_b rs /\ written_b ls = sunk_a rs /\
       s_drained (e_snd (l_a st)) = true /\ s_drained (e_snd (l_b st)) = true).
  Proof.
    intros Hok. pose proof (reach ls Hok) as H. destruct (l_run sys0 ls) as [st rs].
    destruct H as ([Hw Hab Hba] & _).
    split; [apply (vinv_prefix _ Hab)|]. split; [apply (vinv_prefix _ Hba)|].
    intros E1 E2.
    destruct (vinv_quiet_final _ Hab) as (F1 & _ & _ & D1); [split; cbn; rewrite ?E1, ?E2; reflexivity|].
    destruct (vinv_quiet_final _ Hba) as (F2 & _ & _ & D2); [split; cbn; rewrite ?E1, ?E2; reflexivity|].
    auto.
  Qed.

  (* the credit ledger, in every reachable state, in both directions *)
  Definition ledger (s : sndr) (r : rcvr) (frames credits : list pkt) (granted : Z) : Prop :=
    s_credits s + zlen (frames_of frames) + zsum (credits_of credits) = r_credits r /\
    0 <= s_credits s /\ 0 < r_credits r <= granted.

  Theorem credit_safe ls : Forall label_ok ls ->
    let st := fst (l_run sys0 ls) in
    ledger (e_snd (l_a st)) (e_rcv (l_b st)) (l_ab st) (l_ba st) cr_b /\
    ledger (e_snd (l_b st)) (e_rcv (l_a st)) (l_ba st) (l_ab st) cr_a.
  Proof.
    intros Hok. pose proof (reach ls Hok) as H.
    destruct (l_run sys0 ls) as [st rs]. destruct H as ([Hw Hab Hba] & _ & (_ & _ & <-) & (_ & _ & <-)).
    split; [apply (vinv_ledger _ Hab)|apply (vinv_ledger _ Hba)].
  Qed.

  Theorem frame_le_mps ls : Forall label_ok ls ->
    let st := fst (l_run sys0 ls) in
    frames_within mps_b (l_ab st) /\ frames_within mps_a (l_ba st).
  Proof.
    intros Hok. pose proof (reach ls Hok) as H.
    destruct (l_run sys0 ls) as [st rs]. destruct H as ([Hw Hab Hba] & _ & (_ & <- & _) & (_ & <- & _)).
    cbn [fst].
    split; [apply (vi_frames _ Hab)|apply (vi_frames _ Hba)].
  Qed.

  Theorem sdu_le_mtu ls : Forall label_ok ls ->
    let st := fst (l_run sys0 ls) in
    (forall d, lr_sink_b (l_step st DeliverAB) = Some d -> 1 <= zlen d <= mtu_b) /\
    (forall d, lr_sink_a (l_step st DeliverBA) = Some d -> 1 <= zlen d <= mtu_a).
  Proof.
    intros Hok. pose proof (reach ls Hok) as H.
    destruct (l_run sys0 ls) as [st rs]. destruct H as (Hi & _ & (<- & _) & (<- & _)).
    cbn [fst].
    apply linv_dirs in Hi. destruct Hi as (Hab & Hba).
    split; intros d; cbn [l_step].
    - destruct (l_ab st) as [|p w]; [discriminate|]. intros Hd.
      destruct (recv_dirs _ _ p w _ _ _ _ _ Hab Hba) as (_ & _ & _ & _ & Hfit & _).
      destruct (Hfit d Hd) as ((? & _) & ?). auto.
    - destruct (l_ba st) as [|p w]; [discriminate|]. intros Hd.
      destruct (recv_dirs _ _ p w _ _ _ _ _ Hba Hab) as (_ & _ & _ & _ & Hfit & _).
      destruct (Hfit d Hd) as ((? & _) & ?). auto.
  Qed.

  (* no packet is ever dropped by the routing and no SDU overflows, whatever the
     two sides' channel identifiers are *)
  Theorem credits_routed ls : Forall label_ok ls -> Forall clean (snd (l_run sys0 ls)).
  Proof.
    intros Hok. pose proof (reach ls Hok) as H. destruct (l_run sys0 ls) as [st rs]. apply H.
  Qed.

  (* not stuck: while anything written is undelivered, or a drain() has not
     completed, a delivery is enabled *)
  Theorem progress ls : Forall label_ok ls ->
    let '(st, rs) := l_run sys0 ls in
    (written_a ls <> sunk_b rs \/ written_b ls <> sunk_a rs \/
     s_drained (e_snd (l_a st)) = false \/ s_drained (e_snd (l_b st)) = false) ->
    l_ab st <> [] \/ l_ba st <> [].
  Proof.
    intros Hok. pose proof (stream_exact ls Hok) as H. destruct (l_run sys0 ls) as [st rs].
    destruct H as (_ & _ & Hq). intros Hnf.
    destruct (l_ab st) eqn:E1; [|left; discriminate].
    destruct (l_ba st) eqn:E2; [|right; discriminate].
    exfalso. destruct (Hq eq_refl eq_refl) as (Q1 & Q2 & Q3 & Q4).
    destruct Hnf as [N|[N|[N|N]]]; try contradiction; congruence.
  Qed.

End Top.

(* the manager's two tables with any number of channels filed *)
Definition srcs (cs : list chan_desc) : list Z := map cd_src cs.
Definition dsts (cs : list chan_desc) : list Z := map cd_dst cs.

(* a table filled from a list, the head filed last: distinct keys are all found *)
Lemma t_get_map {A} (key val : A -> Z) l c :
  NoDup (map key l) -> In c l -> t_get (map (fun x => (key x, val x)) l) (key c) = Some (val c).
Proof.
  induction l as [|x l IH]; cbn [In map t_get]; intros Hnd Hin; [contradiction|].
  inversion Hnd as [|? ? Hx Hnd']; subst. destruct Hin as [->|Hin]; [now rewrite Z.eqb_refl|].
  destruct (Z.eqb_spec (key x) (key c)) as [E|_]; [|auto].
  exfalso. apply Hx. rewrite E. apply in_map. exact Hin.
Qed.

Lemma file_all_channels sel cs :
  m_channels (file_all sel cs) = map (fun c => (cd_src c, cd_id c)) cs.
Proof. induction cs; cbn; [|rewrite <- IHcs]; reflexivity. Qed.

Lemma file_all_lecoc sel cs :
  m_lecoc (file_all sel cs) = map (fun c => (key_of (sel (cd_kind c)) (cd_src c) (cd_dst c), cd_id c)) cs.
Proof. induction cs; cbn; [|rewrite <- IHcs]; reflexivity. Qed.

Lemma t_get_fresh_channels sel cs k :
  ~ In k (srcs cs) -> t_get (m_channels (file_all sel cs)) k = None.
Proof.
  induction cs as [|c cs IH]; cbn; intros Hn; [reflexivity|].
  destruct (cd_src c =? k) eqn:E; [apply Z.eqb_eq in E; tauto|]. apply IH. tauto.
Qed.

Lemma route_frame_ok sel cs c d :
  NoDup (srcs cs) -> In c cs -> route (file_all sel cs) (PFrame (cd_src c) d) = Some (cd_id c).
Proof. cbn [route]. rewrite file_all_channels. apply t_get_map. Qed.

Lemma route_credit_ok sel cs c n :
  (forall k, sel k = KDst) ->
  NoDup (dsts cs) -> In c cs -> route (file_all sel cs) (PCredit (cd_dst c) n) = Some (cd_id c).
Proof.
  intros Hsel. cbn [route]. rewrite file_all_lecoc.
  rewrite (map_ext _ (fun c => (cd_dst c, cd_id c))) by (intros; rewrite Hsel; reflexivity).
  apply t_get_map.
Qed.

(* D07 as it was (enhanced acceptor filed under the source CID): a credit packet
   for one channel is handed to another one, or to none *)
Definition sel_d07 (k : kind) : keysel := match k with EnhAcceptor => KSrc | _ => KDst end.

(* n channels on one link.  A packet is accepted by the peer of the channel that sent it
   and by no other, so what channel k sees of a run is a run of the two-party system. *)
Fixpoint set_nth {A} (l : list A) (j : nat) (x : A) : list A :=
  match l, j with
  | [], _ => []
  | _ :: l', O => x :: l'
  | y :: l', S j' => y :: set_nth l' j' x
  end.

Lemma length_set_nth {A} (l : list A) j x : length (set_nth l j x) = length l.
Proof. revert j. induction l; intros [|j]; cbn; auto. Qed.

Lemma nth_set_nth {A} (l : list A) j x k d : (j < length l)%nat ->
  nth k (set_nth l j x) d = if Nat.eqb k j then x else nth k l d.
Proof.
  revert j k. induction l as [|y l IH]; intros j k Hj; [cbn in Hj; lia|].
  destruct j as [|j]; destruct k as [|k]; cbn; auto.
  apply IH. cbn in Hj. lia.
Qed.

Lemma map_set_nth {A B} (f : A -> B) (l : list A) j x d : (j < length l)%nat ->
  f x = f (nth j l d) -> map f (set_nth l j x) = map f l.
Proof.
  revert j. induction l as [|y l IH]; intros j Hj Hf; [reflexivity|].
  destruct j as [|j]; cbn in *; [now rewrite Hf|]. f_equal. apply IH; [lia|assumption].
Qed.

Lemma filter_all {A} (f : A -> bool) l : Forall (fun x => f x = true) l -> filter f l = l.
Proof. induction 1; cbn; [reflexivity|]. rewrite H. f_equal. assumption. Qed.

Lemma filter_none {A} (f : A -> bool) l : Forall (fun x => f x = false) l -> filter f l = [].
Proof. induction 1; cbn; [reflexivity|]. rewrite H. assumption. Qed.

Lemma NoDup_map_nth {A} (f : A -> Z) (l : list A) d i j :
  NoDup (map f l) -> (i < length l)%nat -> (j < length l)%nat ->
  f (nth i l d) = f (nth j l d) -> i = j.
Proof.
  intros Hnd Hi Hj Heq.
  apply (proj1 (NoDup_nth (map f l) (f d)) Hnd i j); rewrite ?map_length; auto.
  rewrite !map_nth. exact Heq.
Qed.

Definition dflt_ep : ep := mkEp 0 0 0 (snd_init 0 0 0) (rcv_init 0).

Definition sent_by (e : ep) (p : pkt) : bool :=
  match p with PFrame cid _ => cid =? e_dst e | PCredit cid _ => cid =? e_src e end.

Lemma sent_by_addressed e p : sent_by e p = true <-> addressed e p.
Proof. destruct p; cbn; apply Z.eqb_eq. Qed.

Definition same_ids (e e' : ep) : Prop :=
  e_src e' = e_src e /\ e_dst e' = e_dst e /\ e_key e' = e_key e.

Lemma ep_step_ids e v : same_ids e (er_state (ep_step e v)).
Proof. injection (ep_step_static e v) as ? ? ?. unfold same_ids. auto. Qed.

Lemma sent_by_ids e e' p : same_ids e e' -> sent_by e' p = sent_by e p.
Proof. intros (H1 & H2 & _). destruct p; cbn; rewrite ?H1, ?H2; reflexivity. Qed.

(* everything an endpoint emits names the channel by its own identifiers *)
Lemma ep_step_out_sent e v : Forall (fun p => sent_by e p = true) (er_out (ep_step e v)).
Proof.
  assert (Hf : forall fs, Forall (fun p => sent_by e p = true) (frames_out e fs)).
  { intros fs. eapply Forall_impl; [|apply (addressed_frames e fs)]. intros p. apply sent_by_addressed. }
  destruct v as [d|[cid d|cid n]]; cbn [ep_step].
  - destruct (s_write _ _). apply Hf.
  - destruct (cid =? e_src e); cbn; [|constructor].
    destruct (rr_credit _); constructor; [cbn; apply Z.eqb_refl|constructor].
  - destruct (cid =? e_key e); [|constructor]. destruct (s_on_credits _ _). apply Hf.
Qed.

Lemma accepts_not_dropped e p : accepts e p = true -> er_dropped (ep_step e (ERecv p)) = false.
Proof.
  destruct p as [cid d|cid n]; cbn [accepts ep_step]; intros ->; [reflexivity|].
  destruct (s_on_credits _ _). reflexivity.
Qed.

Lemma m_write_spec es : forall i d, (i < length es)%nat ->
  m_write es i d = (set_nth es i (er_state (ep_step (nth i es dflt_ep) (EWrite d))),
                    er_out (ep_step (nth i es dflt_ep) (EWrite d))).
Proof.
  induction es as [|e es IH]; intros i d Hi; [cbn in Hi; lia|].
  destruct i as [|i]; cbn [m_write set_nth nth]; [reflexivity|].
  rewrite IH by (cbn in Hi; lia). reflexivity.
Qed.

Lemma m_write_out es : forall i d, (length es <= i)%nat -> m_write es i d = (es, []).
Proof.
  induction es as [|e es IH]; intros i d Hi; [destruct i; reflexivity|].
  destruct i as [|i]; [cbn in Hi; lia|]. cbn [m_write]. rewrite IH by (cbn in Hi; lia). reflexivity.
Qed.

Lemma m_recv_spec es : forall p j, (j < length es)%nat ->
  accepts (nth j es dflt_ep) p = true ->
  (forall k, (k < j)%nat -> accepts (nth k es dflt_ep) p = false) ->
  m_recv es p = (set_nth es j (er_state (ep_step (nth j es dflt_ep) (ERecv p))),
                 Some (j, ep_step (nth j es dflt_ep) (ERecv p))).
Proof.
  induction es as [|e es IH]; intros p j Hj Ha Hb; [cbn in Hj; lia|].
  destruct j as [|j]; cbn [m_recv set_nth nth length] in *.
  - rewrite Ha. reflexivity.
  - rewrite (Hb O ltac:(lia)).
    rewrite (IH p j ltac:(lia) Ha); [reflexivity|].
    intros k Hk. apply (Hb (S k)). lia.
Qed.

(* position k of [xs] is the peer of position k of [ys] *)
Record pairs_ok (xs ys : list ep) : Prop := {
  po_len : length xs = length ys;
  po_pair : forall k, (k < length xs)%nat ->
      e_dst (nth k xs dflt_ep) = e_src (nth k ys dflt_ep) /\
      e_dst (nth k ys dflt_ep) = e_src (nth k xs dflt_ep) /\
      e_key (nth k xs dflt_ep) = e_dst (nth k xs dflt_ep) /\
      e_key (nth k ys dflt_ep) = e_dst (nth k ys dflt_ep);
  po_ndx : NoDup (map e_src xs);
  po_ndy : NoDup (map e_src ys)
}.

Lemma pairs_ok_sym xs ys : pairs_ok xs ys -> pairs_ok ys xs.
Proof.
  intros [Hl Hp Hx Hy]. constructor; auto.
  intros k Hk. rewrite <- Hl in Hk. destruct (Hp k Hk) as (A & B & C & D). auto.
Qed.

Lemma sent_unique xs ys p j k : pairs_ok xs ys -> (j < length xs)%nat -> (k < length xs)%nat ->
  sent_by (nth j xs dflt_ep) p = true -> sent_by (nth k xs dflt_ep) p = true -> j = k.
Proof.
  intros [Hl Hp Hx Hy] Hj Hk Sj Sk. destruct p as [cid d|cid n]; cbn [sent_by] in *;
    apply Z.eqb_eq in Sj; apply Z.eqb_eq in Sk.
  - destruct (Hp j Hj) as (Aj & _). destruct (Hp k Hk) as (Ak & _).
    apply (NoDup_map_nth e_src ys dflt_ep j k Hy); first [lia|congruence].
  - apply (NoDup_map_nth e_src xs dflt_ep j k Hx); first [assumption|lia|congruence].
Qed.

(* under the pairing the lookup on the receiving side picks the peer of the sender *)
Lemma accepts_sent xs ys p k : pairs_ok xs ys -> (k < length xs)%nat ->
  accepts (nth k ys dflt_ep) p = sent_by (nth k xs dflt_ep) p.
Proof.
  intros [_ Hp _ _] Hk. destruct (Hp k Hk) as (A & B & _ & D).
  destruct p; cbn [accepts sent_by]; congruence.
Qed.

Definition covered (xs : list ep) (w : list pkt) : Prop :=
  Forall (fun p => exists j, (j < length xs)%nat /\ sent_by (nth j xs dflt_ep) p = true) w.

Lemma covered_out xs j (out : list pkt) : (j < length xs)%nat ->
  Forall (fun p => sent_by (nth j xs dflt_ep) p = true) out -> covered xs out.
Proof. intros Hj Ho. eapply Forall_impl; [|exact Ho]. intros p Hp. exists j. auto. Qed.

(* channel j of the side [xs] takes a step to [e'] and emits [out] on its wire [w]:
   the pairing stands, and channel k sees its own endpoint and its own packets only *)
Lemma side_update xs ys j e' out k w :
  pairs_ok xs ys -> (j < length xs)%nat -> (k < length xs)%nat ->
  same_ids (nth j xs dflt_ep) e' -> Forall (fun p => sent_by (nth j xs dflt_ep) p = true) out ->
  let xs' := set_nth xs j e' in
  pairs_ok xs' ys /\ (covered xs w -> covered xs' (w ++ out)) /\
  nth k xs' dflt_ep = (if Nat.eqb j k then e' else nth k xs dflt_ep) /\
  filter (sent_by (nth k xs' dflt_ep)) (w ++ out) =
    filter (sent_by (nth k xs dflt_ep)) w ++ (if Nat.eqb j k then out else []).
Proof.
  intros Hp Hj Hk Hids Hout xs'.
  assert (Hlen : length xs' = length xs) by apply length_set_nth.
  assert (Hnth : forall i, nth i xs' dflt_ep = if Nat.eqb j i then e' else nth i xs dflt_ep)
    by (intros i; rewrite Nat.eqb_sym; apply nth_set_nth; exact Hj).
  assert (Hsent : forall i p, sent_by (nth i xs' dflt_ep) p = sent_by (nth i xs dflt_ep) p).
  { intros i p. rewrite Hnth. destruct (Nat.eqb_spec j i) as [<-|]; [apply sent_by_ids; exact Hids|reflexivity]. }
  split; [|split; [|split; [apply Hnth|]]].
  - destruct Hp as [Hl Hpair Hx Hy]. destruct Hids as (I1 & I2 & I3). constructor.
    + rewrite Hlen. exact Hl.
    + intros i Hi. rewrite Hlen in Hi. rewrite Hnth.
      destruct (Nat.eqb_spec j i) as [<-|]; [rewrite I1, I2, I3|]; apply Hpair; assumption.
    + unfold xs'. rewrite (map_set_nth e_src xs j e' dflt_ep Hj I1). exact Hx.
    + exact Hy.
  - intros Hw. apply Forall_app. split.
    + eapply Forall_impl; [|exact Hw]. intros p (i & Hi & Si).
      exists i. rewrite Hlen, Hsent. auto.
    + apply (covered_out xs' j); [rewrite Hlen; exact Hj|].
      eapply Forall_impl; [|exact Hout]. intros p Sp. rewrite Hsent. exact Sp.
  - rewrite filter_app, !(filter_ext _ _ (Hsent k)). f_equal.
    destruct (Nat.eqb_spec j k) as [<-|Hne]; [apply filter_all; exact Hout|].
    apply filter_none. eapply Forall_impl; [|exact Hout]. intros q Hq.
    destruct (sent_by (nth k xs dflt_ep) q) eqn:E; [|reflexivity].
    elim Hne. exact (sent_unique xs ys q j k Hp Hj Hk Hq E).
Qed.

Record mwf (st : msys) : Prop := {
  mw_pairs : pairs_ok (m_a st) (m_b st);
  mw_wab : covered (m_a st) (m_ab st);
  mw_wba : covered (m_b st) (m_ba st)
}.

Definition proj (k : nat) (st : msys) : lsys :=
  mkL (nth k (m_a st) dflt_ep) (nth k (m_b st) dflt_ep)
      (filter (sent_by (nth k (m_a st) dflt_ep)) (m_ab st))
      (filter (sent_by (nth k (m_b st) dflt_ep)) (m_ba st)).

Definition psink (k : nat) (o : option (nat * bytes)) : option bytes :=
  match o with Some (j, d) => if Nat.eqb j k then Some d else None | None => None end.

Lemma psink_sink_of k j r :
  psink k (sink_of (Some (j, r))) = if Nat.eqb j k then er_sink r else None.
Proof. unfold sink_of, psink. destruct (er_sink r), (Nat.eqb j k); reflexivity. Qed.

(* a write on channel i of the side [xs], seen from channel k *)
Lemma write_side xs ys i d k w :
  pairs_ok xs ys -> (k < length xs)%nat ->
  let r := ep_step (nth k xs dflt_ep) (EWrite d) in
  let '(xs', out) := m_write xs i d in
  pairs_ok xs' ys /\ length xs' = length xs /\ (covered xs w -> covered xs' (w ++ out)) /\
  nth k xs' dflt_ep = (if Nat.eqb i k then er_state r else nth k xs dflt_ep) /\
  filter (sent_by (nth k xs' dflt_ep)) (w ++ out) =
    filter (sent_by (nth k xs dflt_ep)) w ++ (if Nat.eqb i k then er_out r else []).
Proof.
  intros Hp Hk r. destruct (Nat.lt_ge_cases i (length xs)) as [Hi|Hi].
  - rewrite (m_write_spec xs i d Hi), length_set_nth.
    destruct (side_update xs ys i _ _ k w Hp Hi Hk (ep_step_ids _ (EWrite d)) (ep_step_out_sent _ (EWrite d)))
      as (P & C & N & F).
    destruct (Nat.eqb_spec i k) as [->|]; auto.
  - rewrite (m_write_out xs i d Hi). destruct (Nat.eqb_spec i k); [lia|].
    rewrite !app_nil_r. repeat apply conj; auto.
Qed.

(* the delivery of the head of the wire from [xs] to the side [ys], seen from channel k,
   whose own packet it is or is not *)
Lemma deliver_side xs ys p w k wy :
  pairs_ok xs ys -> covered xs (p :: w) -> (k < length xs)%nat ->
  let r := ep_step (nth k ys dflt_ep) (ERecv p) in
  let mine := sent_by (nth k xs dflt_ep) p in
  let '(ys', o) := m_recv ys p in
  pairs_ok xs ys' /\ length ys' = length ys /\ dropped_of o = false /\
  (covered ys wy -> covered ys' (wy ++ out_of o)) /\
  nth k ys' dflt_ep = (if mine then er_state r else nth k ys dflt_ep) /\
  filter (sent_by (nth k ys' dflt_ep)) (wy ++ out_of o) =
    filter (sent_by (nth k ys dflt_ep)) wy ++ (if mine then er_out r else []) /\
  psink k (sink_of o) = (if mine then er_sink r else None).
Proof.
  intros Hp Hc Hk r mine. pose proof (po_len _ _ Hp) as Hl.
  inversion Hc as [|? ? (j & Hj & Sj) _]; subst.
  (* channel j of [ys], and no channel before it, accepts the packet *)
  rewrite (m_recv_spec ys p j); [|lia|rewrite (accepts_sent xs ys) by assumption; exact Sj|].
  2: { intros i Hi. rewrite (accepts_sent xs ys) by (assumption || lia).
       destruct (sent_by (nth i xs dflt_ep) p) eqn:Si; [|reflexivity].
       pose proof (sent_unique xs ys p i j Hp ltac:(lia) Hj Si Sj). lia. }
  assert (Hmine : mine = Nat.eqb j k).
  { destruct (Nat.eqb_spec j k) as [<-|Hne]; [exact Sj|]. unfold mine.
    destruct (sent_by (nth k xs dflt_ep) p) eqn:Sk; [|reflexivity].
    elim Hne. exact (sent_unique xs ys p j k Hp Hj Hk Sj Sk). }
  destruct (side_update ys xs j _ _ k wy (pairs_ok_sym _ _ Hp) ltac:(lia) ltac:(lia)
              (ep_step_ids _ (ERecv p)) (ep_step_out_sent _ (ERecv p))) as (P & C & N & F).
  rewrite length_set_nth, Hmine, psink_sink_of. cbn [dropped_of out_of].
  split; [apply pairs_ok_sym, P|]. split; [reflexivity|].
  split; [apply accepts_not_dropped; rewrite (accepts_sent xs ys) by assumption; exact Sj|].
  destruct (Nat.eqb_spec j k) as [->|]; auto.
Qed.

Definition plabel (k : nat) (st : msys) (l : mlabel) : option label :=
  match l with
  | MWriteA i d => if Nat.eqb i k then Some (WriteA d) else None
  | MWriteB i d => if Nat.eqb i k then Some (WriteB d) else None
  | MDeliverAB =>
      match m_ab st with
      | p :: _ => if sent_by (nth k (m_a st) dflt_ep) p then Some DeliverAB else None
      | [] => None
      end
  | MDeliverBA =>
      match m_ba st with
      | p :: _ => if sent_by (nth k (m_b st) dflt_ep) p then Some DeliverBA else None
      | [] => None
      end
  end.

Definition step_rel (k : nat) (st : msys) (l : mlabel) (r : mres) : Prop :=
  match plabel k st l with
  | Some l' =>
      let r' := l_step (proj k st) l' in
      proj k (mr_state r) = lr_state r' /\
      psink k (mr_sink_a r) = lr_sink_a r' /\ psink k (mr_sink_b r) = lr_sink_b r'
  | None =>
      proj k (mr_state r) = proj k st /\ psink k (mr_sink_a r) = None /\ psink k (mr_sink_b r) = None
  end.

Lemma m_step_proj st l k : mwf st -> (k < length (m_a st))%nat ->
  let r := m_step st l in
  mwf (mr_state r) /\ length (m_a (mr_state r)) = length (m_a st) /\ mr_dropped r = false /\
  step_rel k st l r.
Proof.
  intros Hw Hk. pose proof Hw as [Hp Hwab Hwba]. pose proof (po_len _ _ Hp) as Hl.
  pose proof (pairs_ok_sym _ _ Hp) as Hp'.
  destruct l as [i d|i d| |]; cbn [m_step]; unfold step_rel, proj; cbn [plabel].
  (* a write, on the one side or on the other *)
  1: pose proof (write_side (m_a st) (m_b st) i d k (m_ab st) Hp Hk) as H.
  2: pose proof (write_side (m_b st) (m_a st) i d k (m_ba st) Hp' ltac:(lia)) as H.
  1,2: destruct (m_write _ i d) as [xs' out]; destruct H as (P1 & L1 & C1 & N1 & F1);
    cbn; rewrite F1, N1; (split; [constructor; auto using pairs_ok_sym|]);
    do 2 (split; [assumption || reflexivity|]);
    destruct (Nat.eqb i k); cbn; rewrite ?app_nil_r; auto.
  (* a delivery, to the one side or to the other: from an empty wire nothing happens *)
  1: destruct (m_ab st) as [|p w] eqn:Ew;
       [|pose proof (deliver_side (m_a st) (m_b st) p w k (m_ba st) Hp Hwab Hk) as H;
         pose proof (Forall_inv_tail Hwab : covered _ w)].
  3: destruct (m_ba st) as [|p w] eqn:Ew;
       [|pose proof (deliver_side (m_b st) (m_a st) p w k (m_ab st) Hp' Hwba ltac:(lia)) as H;
         pose proof (Forall_inv_tail Hwba : covered _ w)].
  1,3: cbn [mr_state mr_dropped mr_sink_a mr_sink_b]; rewrite Ew;
    (split; [exact Hw|repeat apply conj; reflexivity]).
  all: destruct (m_recv _ p) as [ys' o]; destruct H as (P1 & L1 & D & C1 & N1 & F1 & S1);
    cbn; rewrite F1, N1, S1; (split; [constructor; auto using pairs_ok_sym|]);
    do 2 (split; [assumption || reflexivity|]);
    destruct (sent_by _ p); cbn; rewrite ?app_nil_r; auto.
Qed.

Definition mlabel_ok (l : mlabel) : Prop :=
  match l with MWriteA _ d | MWriteB _ d => d <> [] | _ => True end.

Definition m_written_a (k : nat) (ls : list mlabel) : bytes :=
  concat (map (fun l => match l with MWriteA i d => if Nat.eqb i k then d else [] | _ => [] end) ls).
Definition m_written_b (k : nat) (ls : list mlabel) : bytes :=
  concat (map (fun l => match l with MWriteB i d => if Nat.eqb i k then d else [] | _ => [] end) ls).
Definition m_sunk_a (k : nat) (rs : list mres) : bytes :=
  concat (map (fun r => opt_bytes (psink k (mr_sink_a r))) rs).
Definition m_sunk_b (k : nat) (rs : list mres) : bytes :=
  concat (map (fun r => opt_bytes (psink k (mr_sink_b r))) rs).

(* what channel k sees of a label writes what the label writes on channel k *)
Lemma plabel_written k st l : mlabel_ok l ->
  let wa := match l with MWriteA i d => if Nat.eqb i k then d else [] | _ => [] end in
  let wb := match l with MWriteB i d => if Nat.eqb i k then d else [] | _ => [] end in
  match plabel k st l with
  | Some l' => label_ok l' /\ match l' with WriteA d => d | _ => [] end = wa /\
               match l' with WriteB d => d | _ => [] end = wb
  | None => wa = [] /\ wb = []
  end.
Proof.
  destruct l as [i d|i d| |]; cbn; [destruct (Nat.eqb i k)..|destruct (m_ab st)|destruct (m_ba st)];
    try destruct (sent_by _ _); cbn; auto.
Qed.

(* channel k of the n-channel system behaves as the one-channel system run under a
   schedule of its own: same writes, same sink calls, same final state *)
Lemma m_run_proj ls : forall st k, mwf st -> (k < length (m_a st))%nat -> Forall mlabel_ok ls ->
  let '(st', rs) := m_run st ls in
  mwf st' /\ length (m_a st') = length (m_a st) /\ Forall (fun r => mr_dropped r = false) rs /\
  exists ls', Forall label_ok ls' /\
    let '(lst, lrs) := l_run (proj k st) ls' in
    proj k st' = lst /\ written_a ls' = m_written_a k ls /\ written_b ls' = m_written_b k ls /\
    sunk_a lrs = m_sunk_a k rs /\ sunk_b lrs = m_sunk_b k rs.
Proof.
  induction ls as [|l ls IH]; intros st k Hw Hk Hok; cbn [m_run].
  - split; [exact Hw|]. split; [reflexivity|]. split; [constructor|].
    exists []. split; [constructor|]. cbn. repeat split; reflexivity.
  - inversion Hok as [|? ? Hl Hok']; subst.
    destruct (m_step_proj st l k Hw Hk) as (Hw1 & Hlen1 & Hd1 & Hrel).
    specialize (IH (mr_state (m_step st l)) k Hw1 ltac:(lia) Hok').
    destruct (m_run (mr_state (m_step st l)) ls) as [st' rs].
    destruct IH as (Hw2 & Hlen2 & Hd2 & ls' & Hok2 & IH).
    split; [exact Hw2|]. split; [lia|]. split; [constructor; assumption|].
    pose proof (plabel_written k st l Hl) as Hpl. cbv zeta in Hpl. unfold step_rel in Hrel.
    unfold m_written_a, m_written_b, m_sunk_a, m_sunk_b in *. cbn [map concat].
    destruct (plabel k st l) as [l'|].
    + destruct Hrel as (Hpr & -> & ->). destruct Hpl as (Hl' & <- & <-). rewrite Hpr in IH.
      exists (l' :: ls'). split; [constructor; assumption|]. cbn [l_run].
      destruct (l_run (lr_state (l_step (proj k st) l')) ls') as [lst lrs].
      destruct IH as (I1 & I2 & I3 & I4 & I5).
      unfold written_a, written_b, sunk_a, sunk_b in *. cbn [map concat].
      rewrite I2, I3, I4, I5. auto.
    + destruct Hrel as (Hpr & -> & ->). destruct Hpl as (-> & ->). rewrite Hpr in IH.
      exists ls'. split; [exact Hok2|]. destruct (l_run (proj k st) ls') as [lst lrs]. exact IH.
Qed.

Record chan_cfg := mkCfg {
  cc_ka : kind; cc_kb : kind; cc_cid_a : Z; cc_cid_b : Z;
  cc_mtu_a : Z; cc_mps_a : Z; cc_cr_a : Z; cc_mtu_b : Z; cc_mps_b : Z; cc_cr_b : Z
}.
Definition cfg_ok (c : chan_cfg) : Prop :=
  params_ok (cc_mtu_a c) (cc_mps_a c) (cc_cr_a c) /\ params_ok (cc_mtu_b c) (cc_mps_b c) (cc_cr_b c).
Definition cfg_sys (c : chan_cfg) : lsys :=
  sys0 (cc_ka c) (cc_kb c) (cc_cid_a c) (cc_cid_b c) (cc_mtu_a c) (cc_mps_a c) (cc_cr_a c)
       (cc_mtu_b c) (cc_mps_b c) (cc_cr_b c).
Definition dflt_cfg : chan_cfg := mkCfg LeInitiator LeAcceptor 0 0 0 0 0 0 0 0.
Definition m_init (cs : list chan_cfg) : msys :=
  mkM (map (fun c => l_a (cfg_sys c)) cs) (map (fun c => l_b (cfg_sys c)) cs) [] [].

Lemma nth_map_dflt {A B} (f : A -> B) (l : list A) k d d' : (k < length l)%nat ->
  nth k (map f l) d' = f (nth k l d).
Proof. intros Hk. rewrite (nth_indep (map f l) d' (f d)) by (rewrite map_length; exact Hk). apply map_nth. Qed.

Lemma mwf_init cs : NoDup (map cc_cid_a cs) -> NoDup (map cc_cid_b cs) -> mwf (m_init cs).
Proof.
  intros Ha Hb. constructor; cbn [m_init m_a m_b m_ab m_ba]; [|constructor|constructor].
  constructor; rewrite ?map_map, ?map_length; auto.
  intros k Hk. rewrite !(nth_map_dflt _ cs k dflt_cfg dflt_ep Hk). cbn. auto.
Qed.

Lemma proj_init cs k : (k < length cs)%nat -> proj k (m_init cs) = cfg_sys (nth k cs dflt_cfg).
Proof.
  intros Hk. unfold proj, m_init. cbn [m_a m_b m_ab m_ba filter].
  rewrite !(nth_map_dflt _ cs k dflt_cfg dflt_ep Hk). reflexivity.
Qed.


(* The property speaks of a receiver that "keeps consuming", so the theorems assume a sink
   ([ep_step]); [ep_step_s] is the endpoint whose sink may not be set yet. *)
Lemma ep_step_s_sink e v : ep_step_s true e v = ep_step e v.
Proof. destruct v as [d|[cid d|cid n]]; cbn; rewrite ?andb_false_r; reflexivity. Qed.


(* The model's receiver and sender are the generic ones of Model/LeCoc.v, written over the
   operators and constants of the source, at [model_shape]. *)
Lemma r_account_shape r : r_account r = r_account_g model_shape r.
Proof.
  unfold r_account, r_account_g, r_thresh. cbn [model_shape sh_nocredit_cmp sh_nocredit_const sh_rx_dec
    sh_replenish_cmp sh_thresh_div cmp_eval].
  destruct (Z.eqb_spec (r_credits r) 0) as [->|]; reflexivity.
Qed.

Lemma r_on_pdu_shape r pdu : r_on_pdu r pdu = r_on_pdu_g model_shape r pdu.
Proof.
  unfold r_on_pdu, r_on_pdu_g. rewrite <- r_account_shape.
  destruct (r_account r) as [c cr].
  cbn [model_shape sh_unknown1_cmp sh_unknown1 sh_hdr_cmp sh_hdr_len sh_unknown2_cmp sh_unknown2
       sh_incomplete_cmp sh_incomplete_hdr sh_overflow_cmp sh_overflow_hdr sh_sink_skip cmp_eval].
  set (buf := match r_sdu r with Some s => s ++ pdu | None => pdu end).
  (* the generic receiver stores the length it computed, the model 0, where that length is 0 *)
  destruct (r_len r =? 0) eqn:E; [apply Z.eqb_eq in E; rewrite E|rewrite E; reflexivity].
  destruct (2 <=? zlen buf); [|reflexivity].
  destruct (Z.eqb_spec (un16 buf) 0) as [->|]; reflexivity.
Qed.

Lemma emit_shape mps s : emit mps s = emit_g model_shape mps s.
Proof.
  unfold emit, emit_g. cbn [model_shape sh_whole_cmp cmp_eval]. f_equal. unfold zlen.
  destruct (Nat.eqb_spec (length (ztake mps s)) (length s)) as [->|];
    [rewrite Z.eqb_refl; reflexivity|].
  destruct (Z.eqb_spec (Z.of_nat (length (ztake mps s))) (Z.of_nat (length s))); [lia|reflexivity].
Qed.

Lemma gather_shape mtu q : forall room, gather room q = gather_g model_shape mtu room q.
Proof.
  induction q as [|d q IH]; intros room; cbn [gather gather_g]; [reflexivity|].
  cbn [model_shape sh_gather_cmp sh_empty_cmp sh_empty_const cmp_eval].
  destruct (Z.leb_spec room 0), (Z.ltb_spec (mtu - room) mtu); try lia; [reflexivity|].
  destruct (zdrop room d) as [|x rest]; [rewrite <- IH; reflexivity|].
  destruct (Z.eqb_spec (zlen (x :: rest)) 0); [zlia|reflexivity].
Qed.

Lemma po_shape n : forall c mtu mps q sdu dr, n = Z.to_nat c ->
  po_g model_shape n c mtu mps q sdu dr =
  (let '(fs, q', sdu', dr') := po n mtu mps q sdu dr in (fs, c - zlen fs, q', sdu', dr')).
Proof.
  induction n as [|n IH]; intros c mtu mps q sdu dr Hn; cbn [po po_g].
  - rewrite zlen_nil, Z.sub_0_r. reflexivity.
  - cbn [model_shape sh_loop_cmp sh_loop_const sh_tx_dec cmp_eval].
    destruct (Z.ltb_spec 0 c); [|lia].
    assert (Hn' : n = Z.to_nat (c - 1)) by lia.
    (* either way a frame of an SDU goes out and the loop goes on with a credit less *)
    destruct sdu as [s|]; [|destruct q as [|d q0]].
    2: { rewrite zlen_nil, Z.sub_0_r. reflexivity. }
    2: rewrite <- (gather_shape mtu (d :: q0) mtu); destruct (gather mtu (d :: q0)) as [payload q1].
    all: rewrite <- emit_shape; destruct (emit mps _) as [packet sdu1].
    all: rewrite (IH (c - 1) mtu mps _ sdu1 dr Hn'); destruct (po n mtu mps _ sdu1 dr) as [[[fs q2] sdu2] dr2].
    all: rewrite zlen_cons, Z.sub_add_distr; reflexivity.
Qed.

Lemma process_output_shape s : process_output s = process_output_g model_shape s.
Proof.
  unfold process_output, process_output_g.
  rewrite (po_shape (Z.to_nat (s_credits s)) (s_credits s) _ _ _ _ _ eq_refl).
  destruct (po _ _ _ _ _ _) as [[[fs q] sdu] dr]. reflexivity.
Qed.
