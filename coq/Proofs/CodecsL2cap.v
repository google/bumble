(* Round trips of the L2CAP codecs: a control-field octet is the sum of its fields, a PSM is its octets
   read little-endian, and the option loop is an induction on the record list. *)
From Coq Require Import ZArith List Bool Lia.
From BV Require Import Base.Bytes Proofs.Bytes Proofs.BitFields Model.CodecsBase Proofs.CodecsBase Model.CodecsL2cap.
Import ListNotations.
Open Scope Z_scope.

(* Each control-field octet is the sum of its fields at their bit offsets, and the parsers take the
   octets apart by division; the round trips are then linear arithmetic. *)
Lemma iframe_ok_iff : forall f, iframe_ok f = true <->
  0 <= i_tx_seq f < 64 /\ 0 <= i_sar f < 4 /\ 0 <= i_req_seq f < 64 /\ 0 <= i_final f < 2.
Proof. intro f. unfold iframe_ok. rewrite !andb_true_iff, !zlt_iff. tauto. Qed.

Lemma sframe_ok_iff : forall f, sframe_ok f = true <->
  0 <= s_function f < 4 /\ 0 <= s_poll f < 2 /\ 0 <= s_req_seq f < 128 /\ 0 <= s_final f < 2.
Proof. intro f. unfold sframe_ok. rewrite !andb_true_iff, !zlt_iff. tauto. Qed.

Lemma iframe_octets : forall f, iframe_ok f = true ->
  iframe_bytes f = [i_tx_seq f * 2 + i_final f * 128; i_req_seq f + i_sar f * 64].
Proof.
  intros f H. apply iframe_ok_iff in H. unfold iframe_bytes.
  rewrite (lor_shiftl_add 0), !lor_shiftl_add by lia. reflexivity.
Qed.

Lemma sframe_octets : forall f, sframe_ok f = true ->
  sframe_bytes f = [1 + s_function f * 4 + s_poll f * 16 + s_final f * 128; s_req_seq f].
Proof.
  intros f H. apply sframe_ok_iff in H. unfold sframe_bytes.
  rewrite (lor_shiftl_add 1), (lor_shiftl_add (1 + _)), lor_shiftl_add by lia. reflexivity.
Qed.

Lemma iframe_parse_fields : forall b0 b1, iframe_parse b0 b1 =
  {| i_tx_seq := (b0 / 2) mod 64; i_sar := (b1 / 64) mod 4; i_req_seq := b1 mod 64; i_final := (b0 / 128) mod 2 |}.
Proof.
  intros. unfold iframe_parse.
  rewrite !(Z.land_ones _ 6), (Z.land_ones _ 2), (Z.land_ones _ 1), !Z.shiftr_div_pow2 by lia. reflexivity.
Qed.

Lemma sframe_parse_fields : forall b0 b1, sframe_parse b0 b1 =
  {| s_function := (b0 / 4) mod 4; s_poll := (b0 / 16) mod 2; s_req_seq := b1 mod 128; s_final := (b0 / 128) mod 2 |}.
Proof.
  intros. unfold sframe_parse.
  rewrite (Z.land_ones _ 7), (Z.land_ones _ 2), !(Z.land_ones _ 1), !Z.shiftr_div_pow2 by lia. reflexivity.
Qed.

Lemma iframe_parse_ok : forall b0 b1, iframe_ok (iframe_parse b0 b1) = true.
Proof. intros. rewrite iframe_parse_fields. apply iframe_ok_iff. cbn. Z.div_mod_to_equations; lia. Qed.

Lemma sframe_parse_ok : forall b0 b1, sframe_ok (sframe_parse b0 b1) = true.
Proof. intros. rewrite sframe_parse_fields. apply sframe_ok_iff. cbn. Z.div_mod_to_equations; lia. Qed.

Theorem ecf_value_roundtrip : forall c tail,
  ecf_ok c = true -> ecf_parse (ecf_bytes c ++ tail) = Some c.
Proof.
  intros [f|f] tail H; cbn [ecf_ok ecf_bytes] in *.
  - rewrite iframe_octets by exact H. apply iframe_ok_iff in H. destruct f as [tx sar req fin].
    cbn [i_tx_seq i_sar i_req_seq i_final app ecf_parse] in *. rewrite iframe_parse_fields, (Z.land_ones _ 1) by lia.
    replace (_ =? 0) with true by (symmetry; apply Z.eqb_eq; bits_lia). do 2 f_equal. f_equal; bits_lia.
  - rewrite sframe_octets by exact H. apply sframe_ok_iff in H. destruct f as [fn poll req fin].
    cbn [s_function s_poll s_req_seq s_final app ecf_parse] in *. rewrite sframe_parse_fields, (Z.land_ones _ 1) by lia.
    replace (_ =? 0) with false by (symmetry; apply Z.eqb_neq; bits_lia). do 2 f_equal. f_equal; bits_lia.
Qed.

Lemma ecf_bytes_ok : forall c, ecf_ok c = true -> bytes_ok (ecf_bytes c) = true /\ length (ecf_bytes c) = 2%nat.
Proof.
  intros [f|f] H; cbn [ecf_ok ecf_bytes] in *;
    [rewrite iframe_octets by exact H; apply iframe_ok_iff in H|rewrite sframe_octets by exact H; apply sframe_ok_iff in H];
    (split; [|reflexivity]); cbn [bytes_ok forallb]; rewrite !andb_true_iff, !byte_ok_iff; lia.
Qed.

Theorem ecf_bytes_roundtrip : forall b0 b1 tail c,
  byte_ok b0 = true -> byte_ok b1 = true ->
  ecf_parse (b0 :: b1 :: tail) = Some c ->
  ecf_ok c = true /\ (ecf_reserved_zero b0 b1 = true -> ecf_bytes c = [b0; b1]).
Proof.
  intros b0 b1 tail c H0 H1 Hp. apply byte_ok_iff in H0, H1.
  cbn [ecf_parse] in Hp. unfold ecf_reserved_zero.
  destruct (_ =? 0) eqn:E; apply some_inv in Hp; subst c; rewrite (Z.land_ones _ 1) in E by lia.
  - apply Z.eqb_eq in E. split; [apply iframe_parse_ok|]. intros _.
    cbn [ecf_bytes]. rewrite iframe_octets, iframe_parse_fields by apply iframe_parse_ok.
    cbn [i_tx_seq i_sar i_req_seq i_final]. f_equal; [|f_equal]; bits_lia.
  - apply Z.eqb_neq in E. split; [apply sframe_parse_ok|]. rewrite andb_true_iff, !Z.eqb_eq. intros [R0 R1].
    (* bits 1, 5, 6 of the first octet and bit 7 of the second are reserved *)
    pose proof (land_bit_zero b0 98 1 ltac:(lia) R0 eq_refl). pose proof (land_bit_zero b0 98 5 ltac:(lia) R0 eq_refl).
    pose proof (land_bit_zero b0 98 6 ltac:(lia) R0 eq_refl). pose proof (land_bit_zero b1 128 7 ltac:(lia) R1 eq_refl).
    cbn [ecf_bytes]. rewrite sframe_octets, sframe_parse_fields by apply sframe_parse_ok.
    cbn [s_function s_poll s_req_seq s_final]. f_equal; [|f_equal]; bits_lia.
Qed.

(* the unfixed serializer (poll << 7) does not round-trip: D18a *)
Lemma sframe_unfixed_refuted :
  exists f, sframe_ok f = true /\ ecf_parse (sframe_bytes_unfixed f) <> Some (SFrame f).
Proof.
  exists {| s_function := 0; s_poll := 1; s_req_seq := 5; s_final := 0 |}.
  split; [reflexivity|]. vm_compute. discriminate.
Qed.

Lemma ecf_short : forall d, (length d < 2)%nat -> ecf_parse d = None.
Proof. intros [|a [|b r]] H; cbn in *; try reflexivity; lia. Qed.

(* the '<H' fields of the PDU and signalling headers *)
Lemma le16_value : forall v, u_range 2 v = true -> le_decode [v mod 256; (v / 256) mod 256] = v.
Proof. intros v H. exact (le_decode_encode 2 v (proj1 (u_range_iff 2 v) H)). Qed.

Lemma le16_bytes : forall x y, byte_ok x = true -> byte_ok y = true ->
  u_range 2 (le_decode [x; y]) = true /\ le_encode 2 (le_decode [x; y]) = [x; y].
Proof.
  intros x y Hx Hy. assert (Hb : bytes_ok [x; y] = true) by (cbn; rewrite Hx, Hy; reflexivity).
  split; [apply u_range_iff; exact (le_decode_range _ Hb)|exact (le_encode_decode_n 2 [x; y] eq_refl Hb)].
Qed.

Theorem pdu_value_roundtrip : forall cid payload b tail,
  pdu_bytes cid payload = Some b ->
  pdu_parse (b ++ tail) = Some (cid, payload).
Proof.
  intros cid payload b tail H. unfold pdu_bytes in H.
  destruct (u_range 2 (lenZ payload) && u_range 2 cid) eqn:E; [|discriminate].
  apply some_inv in H. subst b. apply andb_true_iff in E as [Hl Hc].
  cbn [le_encode app pdu_parse]. rewrite (le16_value _ Hl), (le16_value _ Hc).
  unfold lenZ. rewrite Nat2Z.id, firstn_app_exact. reflexivity.
Qed.

(* a received PDU whose length field is exact re-serialises to the same bytes *)
Theorem pdu_bytes_roundtrip : forall d cid payload,
  bytes_ok d = true -> pdu_parse d = Some (cid, payload) ->
  lenZ d = 4 + le_decode (firstn 2 d) ->
  pdu_bytes cid payload = Some d.
Proof.
  intros d cid payload Hok Hp Hlen.
  destruct d as [|l0 [|l1 [|c0 [|c1 r]]]]; try discriminate.
  cbn [pdu_parse] in Hp. apply some_pair_inv in Hp as [<- <-].
  rewrite !bytes_ok_cons, !andb_true_iff in Hok. destruct Hok as [Hl0 [Hl1 [Hc0 [Hc1 Hr]]]].
  destruct (le16_bytes l0 l1 Hl0 Hl1) as [R1 E1]. destruct (le16_bytes c0 c1 Hc0 Hc1) as [R2 E2].
  assert (Hlr : le_decode [l0; l1] = lenZ r) by (unfold lenZ in *; cbn [length firstn] in Hlen; lia).
  rewrite Hlr in *. replace (firstn (Z.to_nat (lenZ r)) r) with r by (unfold lenZ; rewrite Nat2Z.id, firstn_all; reflexivity).
  unfold pdu_bytes. rewrite R1, R2, E1, E2. reflexivity.
Qed.

Lemma psm_tail_decode : forall fuel v,
  0 <= v < 2 ^ (8 * Z.of_nat fuel) -> le_decode (psm_tail fuel v) = v.
Proof.
  induction fuel as [|k IH]; intros v Hv.
  - cbn in Hv. cbn. lia.
  - cbn [psm_tail]. destruct (v =? 0) eqn:E.
    + apply Z.eqb_eq in E. subst. reflexivity.
    + cbn [le_decode]. rewrite (Z.land_ones _ 8) by lia. change (2 ^ 8) with 256. rewrite Z.shiftr_div_pow2 by lia.
      change (2 ^ 8) with 256. rewrite IH.
      * pose proof (Z.div_mod v 256). lia.
      * split; [apply Z.div_pos; lia|].
        apply Z.div_lt_upper_bound; [lia|].
        replace (8 * Z.of_nat (S k)) with (8 + 8 * Z.of_nat k) in Hv by lia.
        rewrite Z.pow_add_r in Hv by lia. change (2 ^ 8) with 256 in Hv. lia.
Qed.

Lemma psm_tail_ok : forall fuel v, 0 <= v -> bytes_ok (psm_tail fuel v) = true.
Proof.
  induction fuel as [|k IH]; intros v Hv; [reflexivity|].
  cbn [psm_tail]. destruct (v =? 0); [reflexivity|].
  rewrite bytes_ok_cons. rewrite IH.
  - rewrite andb_true_r. apply byte_ok_iff. rewrite (Z.land_ones _ 8) by lia. change (2 ^ 8) with 256. apply Z.mod_pos_bound. lia.
  - rewrite Z.shiftr_div_pow2 by lia. apply Z.div_pos; lia.
Qed.

Lemma log2_fuel_bound : forall v, 0 <= v -> v < 2 ^ (8 * Z.of_nat (psm_fuel v)).
Proof.
  intros v Hv. unfold psm_fuel.
  destruct (Z.eq_dec v 0) as [->|Hz]; [cbn; lia|].
  assert (0 < v) by lia.
  pose proof (Z.log2_spec v H) as [_ Hu].
  eapply Z.lt_le_trans; [exact Hu|].
  apply Z.pow_le_mono_r; [lia|].
  rewrite Nat2Z.inj_succ. rewrite Z2Nat.id by apply Z.log2_nonneg. pose proof (Z.log2_nonneg v). lia.
Qed.

Lemma psm_bytes_decode : forall v, 0 <= v -> le_decode (psm_bytes v) = v.
Proof.
  intros v Hv. unfold psm_bytes. rewrite (Z.land_ones _ 16) by lia. change (2 ^ 16) with 65536.
  cbn [le_encode app le_decode].
  rewrite psm_tail_decode.
  - bits_lia.
  - rewrite Z.shiftr_div_pow2 by lia. split; [apply Z.div_pos; lia|].
    pose proof (log2_fuel_bound v Hv).
    apply Z.div_lt_upper_bound; [lia|].
    eapply Z.lt_le_trans; [exact H|].
    assert (0 < 2 ^ 16) by lia.
    assert (0 < 2 ^ (8 * Z.of_nat (psm_fuel v))) by (apply Z.pow_pos_nonneg; lia). lia.
Qed.

Lemma psm_bytes_ok : forall v, 0 <= v -> bytes_ok (psm_bytes v) = true.
Proof.
  intros v Hv. unfold psm_bytes. rewrite bytes_ok_app, le_encode_ok. cbn [andb].
  apply psm_tail_ok. rewrite Z.shiftr_div_pow2 by lia. apply Z.div_pos; lia.
Qed.

Lemma psm_more_octets : forall e prev tail,
  psm_octets_ok (prev :: e) = true -> psm_more prev (e ++ tail) = Some (e, tail).
Proof.
  induction e as [|b e IH]; intros prev tail H.
  - cbn in H. cbn [app]. destruct tail; cbn [psm_more];
      rewrite <- Z.negb_even, H; reflexivity.
  - cbn [psm_octets_ok] in H. apply andb_true_iff in H as [Ho Hr].
    cbn [app psm_more]. rewrite Ho. rewrite (IH b tail Hr). reflexivity.
Qed.

Theorem psm_value_roundtrip : forall v tail,
  psm_ok v = true -> psm_parse (psm_bytes v ++ tail) = Some (v, tail).
Proof.
  intros v tail H. unfold psm_ok in H. apply andb_true_iff in H as [Hv Ho].
  apply Z.leb_le in Hv.
  pose proof (psm_bytes_decode v Hv) as Hd.
  unfold psm_bytes in *. cbn [le_encode app] in *.
  set (b0 := Z.land v 65535 mod 256) in *.
  set (b1 := (Z.land v 65535 / 256) mod 256) in *.
  set (e := psm_tail (psm_fuel v) (Z.shiftr v 16)) in *.
  cbn [tl] in Ho. cbn [psm_parse].
  rewrite (psm_more_octets e b1 tail Ho). rewrite Hd. reflexivity.
Qed.

Lemma psm_more_split : forall d prev e rest,
  psm_more prev d = Some (e, rest) -> d = e ++ rest /\ psm_octets_ok (prev :: e) = true.
Proof.
  induction d as [|b r IH]; intros prev e rest H.
  - cbn in H. destruct (Z.odd prev) eqn:Eo; [discriminate|]. inversion H; subst.
    split; [reflexivity|]. cbn. rewrite <- Z.negb_odd, Eo. reflexivity.
  - cbn [psm_more] in H. destruct (Z.odd prev) eqn:Eo.
    + destruct (psm_more b r) as [[e' rest']|] eqn:Em; [|discriminate].
      inversion H; subst. apply IH in Em as [-> Hok]. split; [reflexivity|].
      cbn [psm_octets_ok]. cbn [psm_octets_ok] in Hok. rewrite Eo. exact Hok.
    + inversion H; subst. split; [reflexivity|]. cbn. rewrite <- Z.negb_odd, Eo. reflexivity.
Qed.

Lemma le_decode_zero_last : forall e, bytes_ok e = true -> le_decode e = 0 -> last e 0 = 0.
Proof.
  induction e as [|b e IH]; intros Hok Hz; [reflexivity|].
  rewrite bytes_ok_cons in Hok. apply andb_true_iff in Hok as [Hb He].
  apply byte_ok_iff in Hb. pose proof (le_decode_range e He) as Hr.
  cbn [le_decode] in Hz.
  destruct e as [|b' e']; [cbn; lia|].
  change (last (b :: b' :: e') 0) with (last (b' :: e') 0).
  apply IH; [exact He|lia].
Qed.

Lemma psm_tail_canonical : forall e fuel,
  bytes_ok e = true -> (length e <= fuel)%nat ->
  (e = [] \/ last e 0 <> 0) -> psm_tail fuel (le_decode e) = e.
Proof.
  induction e as [|b e IH]; intros fuel Hok Hlen Hc.
  - destruct fuel; reflexivity.
  - destruct fuel as [|k]; [cbn in Hlen; lia|].
    pose proof Hok as Hok0.
    rewrite bytes_ok_cons in Hok. apply andb_true_iff in Hok as [Hb He].
    apply byte_ok_iff in Hb. pose proof (le_decode_range e He) as Hr.
    assert (Hnz : le_decode (b :: e) <> 0).
    { intro Hz. destruct Hc as [Hc|Hc]; [discriminate|].
      apply Hc. apply le_decode_zero_last; assumption. }
    cbn [le_decode psm_tail] in *.
    apply Z.eqb_neq in Hnz. rewrite Hnz.
    rewrite (Z.land_ones _ 8) by lia. change (2 ^ 8) with 256. replace ((b + 256 * le_decode e) mod 256) with b by bits_lia.
    replace (Z.shiftr (b + 256 * le_decode e) 8) with (le_decode e) by bits_lia.
    f_equal. apply IH; [exact He | cbn in Hlen; lia |].
    destruct e as [|b' e']; [left; reflexivity|right].
    destruct Hc as [Hc|Hc]; [discriminate|]. exact Hc.
Qed.

(* octets whose most significant one is not zero decode to at least 2^(length - 1): the loop of
   serialize_psm, whose fuel is the bit length of the value, does not stop early *)
Lemma le_decode_lower : forall e, bytes_ok e = true -> e <> [] -> last e 0 <> 0 ->
  2 ^ (Z.of_nat (length e) - 1) <= le_decode e.
Proof.
  induction e as [|b e IH]; intros Hok Hne Hl; [congruence|].
  rewrite bytes_ok_cons in Hok. apply andb_true_iff in Hok as [Hb He]. apply byte_ok_iff in Hb.
  destruct e as [|b' e']; [cbn in *; lia|].
  specialize (IH He ltac:(discriminate) Hl). cbn [le_decode length] in *.
  replace (Z.of_nat (S (S (length e'))) - 1) with (Z.succ (Z.of_nat (S (length e')) - 1)) by lia.
  rewrite Z.pow_succ_r by lia. lia.
Qed.

Theorem psm_bytes_roundtrip : forall d v rest,
  bytes_ok d = true -> psm_parse d = Some (v, rest) ->
  exists enc, d = enc ++ rest /\ psm_octets_ok (tl enc) = true /\ 0 <= v /\
              (psm_canonical enc = true -> psm_bytes v = enc).
Proof.
  intros d v rest Hok Hp.
  destruct d as [|b0 [|b1 r]]; try discriminate.
  cbn [psm_parse] in Hp. destruct (psm_more b1 r) as [[e rest']|] eqn:Em; [|discriminate].
  apply some_pair_inv in Hp as [Hv0 Hr0]. subst rest' v.
  apply psm_more_split in Em as [-> Hoct].
  exists (b0 :: b1 :: e). split; [reflexivity|]. split; [exact Hoct|].
  assert (Hok' : bytes_ok (b0 :: b1 :: e) = true).
  { change (b0 :: b1 :: e ++ rest) with ((b0 :: b1 :: e) ++ rest) in Hok.
    rewrite bytes_ok_app in Hok. apply andb_true_iff in Hok as [H _]. exact H. }
  pose proof (le_decode_range _ Hok') as Hr. split; [lia|].
  intro Hc. unfold psm_canonical in Hc.
  rewrite !bytes_ok_cons in Hok'. rewrite !andb_true_iff in Hok'. destruct Hok' as [H0 [H1 He]].
  apply byte_ok_iff in H0. apply byte_ok_iff in H1. pose proof (le_decode_range e He) as Hre.
  set (v := le_decode (b0 :: b1 :: e)) in *.
  assert (Hv : v = b0 + 256 * b1 + 65536 * le_decode e) by (subst v; cbn [le_decode]; lia).
  unfold psm_bytes. rewrite (Z.land_ones _ 16) by lia. change (2 ^ 16) with 65536.
  assert (Hm : v mod 65536 = b0 + 256 * b1) by bits_lia.
  assert (Hd : Z.shiftr v 16 = le_decode e) by bits_lia.
  rewrite Hm, Hd. cbn [le_encode app].
  replace ((b0 + 256 * b1) mod 256) with b0 by bits_lia.
  replace (((b0 + 256 * b1) / 256) mod 256) with b1 by bits_lia.
  f_equal. f_equal.
  destruct e as [|x e'].
  - unfold psm_fuel. reflexivity.
  - cbn [length] in Hc. cbn in Hc.
    assert (Hl : last (x :: e') 0 <> 0).
    { apply negb_true_iff in Hc. apply Z.eqb_neq in Hc.
      change (last (b0 :: b1 :: x :: e') 0) with (last (x :: e') 0) in Hc. exact Hc. }
    apply psm_tail_canonical; [exact He| |right; exact Hl].
    pose proof (le_decode_lower (x :: e') He ltac:(discriminate) Hl) as Hlow.
    assert (Hpos : 0 < 2 ^ (Z.of_nat (length (x :: e')) - 1)) by (apply Z.pow_pos_nonneg; cbn [length]; lia).
    assert (Hlog : Z.of_nat (length (x :: e')) - 1 <= Z.log2 v) by (apply Z.log2_le_pow2; lia).
    unfold psm_fuel. lia.
Qed.

(* encoded records decode to themselves and are exact, with any fuel above their length *)
Lemma tlv_encoded : forall opts strict b,
  tlv_ok opts = true -> tlv_encode opts = Some b ->
  forall fuel, (length b < fuel)%nat -> tlv_decode fuel strict b = Some opts /\ tlv_exact fuel b = true.
Proof.
  induction opts as [|[t v] r IH]; intros strict b Hok He fuel Hf.
  - cbn in He. inversion He; subst. destruct fuel; [lia|]. split; reflexivity.
  - cbn [tlv_encode] in He. cbn [tlv_ok forallb] in Hok. apply andb_true_iff in Hok as [Hi Hr].
    unfold tlv_item_ok in Hi. cbn [fst snd] in Hi. rewrite !andb_true_iff in Hi. destruct Hi as [[Ht Hl] Hv].
    rewrite Ht, Hl in He. cbn [andb] in He.
    destruct (tlv_encode r) as [rb|] eqn:Er; [|discriminate]. inversion He; subst b; clear He.
    destruct fuel as [|k]; [lia|]. cbn [tlv_decode tlv_exact].
    unfold lenZ. rewrite Nat2Z.id, skipn_app_exact, firstn_app_exact.
    destruct (IH strict rb Hr eq_refl k) as [-> ->]; [cbn [length] in Hf; rewrite app_length in Hf; lia|].
    split; [reflexivity|]. rewrite andb_true_r. apply Nat.leb_le. rewrite app_length. lia.
Qed.

Theorem tlv_value_roundtrip : forall opts strict b,
  tlv_ok opts = true -> tlv_encode opts = Some b -> tlv_decode_all strict b = Some opts.
Proof.
  intros opts strict b Hok He. exact (proj1 (tlv_encoded opts strict b Hok He _ (Nat.lt_succ_diag_r _))).
Qed.

Lemma tlv_ok_encodes : forall opts, tlv_ok opts = true -> exists b, tlv_encode opts = Some b.
Proof.
  induction opts as [|[t v] r IH]; intro H; [eexists; reflexivity|].
  cbn [tlv_ok forallb] in H. apply andb_true_iff in H as [Hi Hr].
  unfold tlv_item_ok in Hi. cbn [fst snd] in Hi. rewrite !andb_true_iff in Hi. destruct Hi as [[Ht Hl] Hv].
  destruct (IH Hr) as [rb Hrb]. exists (t :: lenZ v :: v ++ rb).
  cbn [tlv_encode]. rewrite Ht, Hl, Hrb. reflexivity.
Qed.

(* the lenient loop (configuration options) never fails and never runs out of fuel *)
Lemma tlv_lenient_total : forall fuel d, (length d < fuel)%nat -> tlv_decode fuel false d <> None.
Proof.
  induction fuel as [|k IH]; intros d H; [lia|].
  destruct d as [|t [|l r]]; cbn [tlv_decode]; try discriminate.
  destruct (tlv_decode k false (skipn (Z.to_nat l) r)) eqn:E; [discriminate|].
  exfalso. apply (IH (skipn (Z.to_nat l) r)); [|exact E].
  rewrite skipn_length. cbn [length] in H. lia.
Qed.

Lemma tlv_decode_bytes : forall fuel strict d opts,
  bytes_ok d = true -> tlv_exact fuel d = true ->
  tlv_decode fuel strict d = Some opts ->
  tlv_encode opts = Some d /\ tlv_ok opts = true.
Proof.
  induction fuel as [|k IH]; intros strict d opts Hok Hex Hd; [discriminate|].
  destruct d as [|t [|l r]].
  - cbn in Hd. inversion Hd; subst. split; reflexivity.
  - cbn in Hex. discriminate.
  - cbn [tlv_exact] in Hex. apply andb_true_iff in Hex as [Hle Hex].
    apply Nat.leb_le in Hle.
    cbn [tlv_decode] in Hd.
    destruct (tlv_decode k strict (skipn (Z.to_nat l) r)) as [rest|] eqn:E; [|discriminate].
    inversion Hd; subst opts; clear Hd.
    rewrite !bytes_ok_cons in Hok. rewrite !andb_true_iff in Hok. destruct Hok as [Ht [Hl Hr]].
    destruct (IH strict _ rest (bytes_ok_skipn _ _ Hr) Hex E) as [He Hk].
    assert (Hlen : lenZ (firstn (Z.to_nat l) r) = l).
    { unfold lenZ. rewrite firstn_length_le by exact Hle. apply byte_ok_iff in Hl. lia. }
    split.
    + cbn [tlv_encode]. rewrite Hlen, Ht, Hl, He. cbn [andb].
      rewrite firstn_skipn. reflexivity.
    + cbn [tlv_ok forallb]. fold (tlv_ok rest). rewrite Hk, andb_true_r.
      unfold tlv_item_ok. cbn [fst snd]. rewrite Hlen, Ht, Hl. cbn [andb].
      apply bytes_ok_firstn. exact Hr.
Qed.

Lemma tlv_encode_exact : forall opts b, tlv_ok opts = true -> tlv_encode opts = Some b ->
  forall fuel, (length b < fuel)%nat -> tlv_exact fuel b = true.
Proof. intros opts b Hok He fuel Hf. exact (proj2 (tlv_encoded opts false b Hok He fuel Hf)). Qed.

Theorem sig_value_roundtrip : forall code ident payload b,
  sig_bytes code ident payload = Some b ->
  sig_parse b = Some (code, ident, lenZ payload, payload).
Proof.
  intros code ident payload b H. unfold sig_bytes in H.
  destruct (u_range 1 code && u_range 1 ident && u_range 2 (lenZ payload)) eqn:E; [|discriminate].
  apply some_inv in H. subst b. apply andb_true_iff in E as [_ Hl].
  cbn [le_encode app sig_parse]. rewrite (le16_value _ Hl). reflexivity.
Qed.

Theorem sig_bytes_roundtrip : forall d code ident len payload,
  bytes_ok d = true -> sig_parse d = Some (code, ident, len, payload) ->
  len = lenZ payload -> sig_bytes code ident payload = Some d.
Proof.
  intros d code ident len payload Hok Hp Hlen.
  destruct d as [|c [|i [|l0 [|l1 r]]]]; try discriminate.
  cbn [sig_parse] in Hp. apply some_quad_inv in Hp as [<- [<- [<- <-]]].
  rewrite !bytes_ok_cons, !andb_true_iff in Hok. destruct Hok as [Hc [Hi [H0 [H1 Hr]]]].
  destruct (le16_bytes l0 l1 H0 H1) as [R E].
  unfold sig_bytes. rewrite <- Hlen, R, E. change (u_range 1) with byte_ok. rewrite Hc, Hi. reflexivity.
Qed.

