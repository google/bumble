(* AVCTP MessageAssembler: fragments in the layout the implementation accepts (PID in every
   packet) are reassembled byte-identically for ANY cut of the payload, from ANY assembler
   state.  What follows for fragments laid out per the AVCTP specification (PID in the START
   packet only: reassembled when not fragmented, and not in general, finding D19d) and for
   resynchronisation after junk is drawn in Props/C19.v. *)
From Coq Require Import ZArith List Bool Lia.
From BV Require Import Model.C19Chunks Model.AvctpAsm Proofs.C19Chunks.
Import ListNotations.
Open Scope Z_scope.

(* a PDU whose header byte was built by [c_hdr] is handled with the fields it was built from *)
Lemma cpdu_hdr : forall s label pt cr ipid rest,
  0 <= label -> 0 <= pt < 4 -> 0 <= cr < 2 -> 0 <= ipid < 2 ->
  c_on_pdu s (c_hdr label pt cr ipid :: rest) =
  c_on_frame (c_set_received s (c_received s + 1)) label pt cr ipid rest.
Proof.
  intros. unfold c_on_pdu, c_hdr. f_equal; Z.div_mod_to_equations; lia.
Qed.

Lemma pid_join : forall pid, pid_hi pid * 256 + pid_lo pid = pid.
Proof. intros. unfold pid_hi, pid_lo. pose proof (Z.div_mod pid 256). lia. Qed.

(* a header a peer may send: IPID only in responses *)
Definition chdr_ok (label cr ipid : Z) : bool :=
  (0 <=? label) && (label <? 16) && (0 <=? cr) && (cr <? 2) && (0 <=? ipid) && (ipid <? 2) &&
  negb ((cr =? 0) && negb (ipid =? 0)).

Lemma chdr_ok_inv : forall label cr ipid, chdr_ok label cr ipid = true ->
  0 <= label /\ 0 <= cr < 2 /\ 0 <= ipid < 2 /\ ((cr =? 0) && negb (ipid =? 0)) = false.
Proof.
  intros label cr ipid H. unfold chdr_ok in H. repeat rewrite andb_true_iff in H.
  destruct H as ((((((H1 & H2) & H3) & H4) & H5) & H6) & H7).
  apply Z.leb_le in H1, H3, H5. apply Z.ltb_lt in H2, H4, H6.
  apply negb_true_iff in H7. repeat split; try lia; try exact H7.
Qed.

Lemma cframe_single : forall s label cr ipid ph pl body,
  ((cr =? 0) && negb (ipid =? 0)) = false ->
  c_on_frame s label CT_SINGLE cr ipid (ph :: pl :: body) =
  (c_reset, [c_deliver label cr ipid (ph * 256 + pl) body]).
Proof. intros. unfold c_on_frame. rewrite H. reflexivity. Qed.

Lemma cframe_start : forall s label cr ipid n ph pl body,
  ((cr =? 0) && negb (ipid =? 0)) = false ->
  c_on_frame s label CT_START cr ipid (n :: ph :: pl :: body) =
  (mkC 1 label (ph * 256 + pl) cr ipid body n, []).
Proof. intros. unfold c_on_frame. rewrite H. reflexivity. Qed.

(* a CONTINUE / END packet of the message being assembled: only the count tests are left *)
Lemma cframe_tail : forall label pid cr ipid ipid' acc n k ph pl body,
  ((cr =? 0) && negb (ipid' =? 0)) = false -> ph * 256 + pl = pid ->
  c_on_frame (mkC k label pid cr ipid acc n) label CT_END cr ipid' (ph :: pl :: body) =
    (if (n <? k) || negb (k =? n) then (c_reset, [])
     else (c_reset, [c_deliver label cr ipid pid (acc ++ body)])) /\
  c_on_frame (mkC k label pid cr ipid acc n) label CT_CONTINUE cr ipid' (ph :: pl :: body) =
    (if n <? k then (c_reset, []) else (mkC k label pid cr ipid (acc ++ body) n, [])).
Proof.
  intros label pid cr ipid ipid' acc n k ph pl body Hv Hp. unfold c_on_frame. rewrite Hv.
  change (CT_END =? CT_SINGLE) with false. change (CT_END =? CT_START) with false.
  change (CT_CONTINUE =? CT_SINGLE) with false. change (CT_CONTINUE =? CT_START) with false.
  cbv iota. cbn [c_payload c_label c_pid c_cr c_nop c_received c_ipid].
  rewrite Hp, !Z.eqb_refl. cbn [negb].
  change (CT_END =? CT_END) with true. change (CT_CONTINUE =? CT_END) with false.
  split; destruct (n <? k); cbn [orb]; reflexivity.
Qed.

Lemma c_run_app : forall p1 p2 s,
  c_run s (p1 ++ p2) =
  (fst (c_run (fst (c_run s p1)) p2), snd (c_run s p1) ++ snd (c_run (fst (c_run s p1)) p2)).
Proof.
  induction p1 as [|p p1 IH]; intros p2 s; simpl.
  - destruct (c_run s p2); reflexivity.
  - destruct (c_on_pdu s p) as [s1 o1]. rewrite IH.
    destruct (c_run s1 p1) as [s2 o2]. simpl.
    destruct (c_run s2 p2) as [s3 o3]. simpl. rewrite app_assoc. reflexivity.
Qed.

Lemma ctail_pid_run : forall cs label cr ipid pid acc n k,
  cs <> [] -> chdr_ok label cr ipid = true -> 0 <= k -> k + zlen cs = n ->
  c_run (mkC k label pid cr ipid acc n) (c_tail_pid label cr ipid pid cs) =
  (c_reset, [c_deliver label cr ipid pid (acc ++ concat cs)]).
Proof.
  induction cs as [|c cs IH]; intros label cr ipid pid acc n k Hne Hok Hk Hn; [congruence|].
  destruct (chdr_ok_inv _ _ _ Hok) as (Hl & Hc & Hi & Hv).
  destruct cs as [|c2 cs'].
  - cbn [c_tail_pid c_run]. rewrite zlen_cons, zlen_nil in Hn.
    rewrite cpdu_hdr by (unfold CT_END; lia). unfold c_set_received.
    cbn [c_payload c_label c_pid c_cr c_nop c_received c_ipid].
    replace (k + 1) with n by lia.
    rewrite (proj1 (cframe_tail label pid cr ipid ipid acc n n _ _ c Hv (pid_join pid))), Z.ltb_irrefl, Z.eqb_refl.
    cbn [concat app]. rewrite !app_nil_r. reflexivity.
  - change (c_tail_pid label cr ipid pid (c :: c2 :: cs'))
      with ((c_hdr label CT_CONTINUE cr ipid :: pid_hi pid :: pid_lo pid :: c)
            :: c_tail_pid label cr ipid pid (c2 :: cs')).
    rewrite zlen_cons in Hn.
    assert (1 <= zlen (c2 :: cs')) by (rewrite zlen_cons; pose proof (zlen_nonneg _ cs'); lia).
    cbn [c_run].
    rewrite cpdu_hdr by (unfold CT_CONTINUE; lia). unfold c_set_received.
    cbn [c_payload c_label c_pid c_cr c_nop c_received c_ipid].
    rewrite (proj2 (cframe_tail label pid cr ipid ipid acc n (k + 1) _ _ c Hv (pid_join pid))),
      (proj2 (Z.ltb_ge n (k + 1))) by lia.
    rewrite (IH label cr ipid pid (acc ++ c) n (k + 1) ltac:(discriminate) Hok ltac:(lia) ltac:(lia)).
    cbn [concat app]. rewrite <- !app_assoc. reflexivity.
Qed.

(* Main theorem, layout with the PID in every packet: any cut of the payload (first piece c0,
   further pieces cs), any header a peer may send, any 16-bit PID, from ANY assembler state. *)
Theorem pid_layout_reassembles : forall label cr ipid pid c0 cs s,
  chdr_ok label cr ipid = true ->
  c_run s (c_frag_pid label cr ipid pid c0 cs) =
  (c_reset, [CMsg label (cr =? 0) (negb (ipid =? 0)) pid (c0 ++ concat cs)]).
Proof.
  intros label cr ipid pid c0 cs s Hok.
  destruct (chdr_ok_inv _ _ _ Hok) as (Hl & Hc & Hi & Hv).
  unfold c_frag_pid. destruct cs as [|c cs'].
  - cbn [c_run].
    rewrite cpdu_hdr by (unfold CT_SINGLE; lia). rewrite (cframe_single _ _ _ _ _ _ _ Hv), pid_join.
    cbn [concat app]. rewrite app_nil_r. reflexivity.
  - cbn [c_run].
    rewrite cpdu_hdr by (unfold CT_START; lia). rewrite (cframe_start _ _ _ _ _ _ _ _ Hv), pid_join.
    rewrite (ctail_pid_run (c :: cs') label cr ipid pid c0 (1 + zlen (c :: cs')) 1
               ltac:(discriminate) Hok ltac:(lia) eq_refl).
    reflexivity.
Qed.
