(* Proofs about Model/HfpSlc.v: the service-level-connection initialisation completes
   for every pair of feature masks, indicator / codec lists and call-hold sets, and
   leaves both ends holding the same negotiated values. *)
From Coq Require Import ZArith List Bool Lia.
From BV Require Import Gen.C20Consts Model.HfpSlc.
Import ListNotations.
Open Scope Z_scope.

Lemma list_min_le d l : list_min d l <= d /\ forall x, In x l -> list_min d l <= x.
Proof.
  revert d. induction l as [|y l IH]; intros d; cbn; [split; [lia|contradiction]|].
  destruct (IH (Z.min d y)) as [H1 H2]. split; [lia|].
  intros x [->|Hx]; [lia|auto].
Qed.

Lemma list_max_ge d l : d <= list_max d l /\ forall x, In x l -> x <= list_max d l.
Proof.
  revert d. induction l as [|y l IH]; intros d; cbn; [split; [lia|contradiction]|].
  destruct (IH (Z.max d y)) as [H1 H2]. split; [lia|].
  intros x [->|Hx]; [lia|auto].
Qed.

Lemma zrange_In lo n v : In v (zrange lo n) <-> lo <= v < lo + Z.of_nat n.
Proof.
  revert lo. induction n as [|n IH]; intros lo; cbn [zrange In].
  - lia.
  - rewrite IH. lia.
Qed.

Lemma zrange_length lo n : length (zrange lo n) = n.
Proof. revert lo. induction n; intros; cbn; auto. Qed.

Lemma expand_singles vs : expand_values (map VSingle vs) = vs.
Proof. induction vs; cbn; [reflexivity|]. now f_equal. Qed.

(* the HF ends up with exactly the AG's value set *)
Lemma render_expand vs :
  NoDup vs -> forall v, In v (expand_values (render_values vs)) <-> In v vs.
Proof.
  intros Hnd v. destruct vs as [|x r]; [reflexivity|]. unfold render_values.
  set (lo := list_min x r). set (hi := list_max x r).
  destruct (Z.of_nat (length (x :: r)) =? hi - lo + 1) eqn:E.
  - apply Z.eqb_eq in E. cbn [expand_values flat_map expand_item]. rewrite app_nil_r.
    assert (Hin : forall y, In y (x :: r) -> lo <= y <= hi).
    { destruct (list_min_le x r) as [A1 A2], (list_max_ge x r) as [B1 B2].
      intros y [<-|Hy]; unfold lo, hi; [lia|split; auto]. }
    split.
    + intros Hv.
      assert (Hincl : incl (zrange lo (Z.to_nat (hi - lo + 1))) (x :: r)).
      { apply NoDup_length_incl; [exact Hnd| |].
        - rewrite zrange_length. lia.
        - intros y Hy. apply zrange_In. specialize (Hin y Hy). lia. }
      apply Hincl. exact Hv.
    + intros Hv. apply zrange_In. specialize (Hin v Hv). lia.
  - rewrite expand_singles. reflexivity.
Qed.

Fixpoint nodup_b (l : list Z) : bool :=
  match l with [] => true | x :: r => negb (zmem x r) && nodup_b r end.

Lemma zmem_In x l : zmem x l = true <-> In x l.
Proof.
  unfold zmem. rewrite existsb_exists. split.
  - intros (y & Hy & E). apply Z.eqb_eq in E. now subst.
  - intros H. exists x. split; [exact H|apply Z.eqb_refl].
Qed.

Lemma nodup_b_ok l : nodup_b l = true -> NoDup l.
Proof.
  induction l as [|x r IH]; cbn; intros H; [constructor|].
  apply andb_prop in H as [H1 H2]. constructor; [|auto].
  intros Hi. apply zmem_In in Hi. rewrite Hi in H1. discriminate.
Qed.

(* the AG has at least one indicator; every indicator's value set is a non-empty set *)
Definition wf_ag_ind_b (i : ag_ind) : bool :=
  match ai_values i with [] => false | _ => nodup_b (ai_values i) end.

Definition wf_cfg_b (C : ag_cfg) : bool :=
  match ac_indicators C with [] => false | l => forallb wf_ag_ind_b l end.

Fixpoint expected_inds (k : Z) (inds : list ag_ind) : list hf_ag_ind :=
  match inds with
  | [] => []
  | i :: r => mkHfAgInd (ai_name i) (expand_values (render_values (ai_values i))) (ai_status i) k
              :: expected_inds (k + 1) r
  end.

Lemma set_status_index inds : forall k,
  set_status (index_from k (map (fun i => (ai_name i, render_values (ai_values i))) inds))
             (map ai_status inds) = Some (expected_inds k inds).
Proof.
  induction inds as [|i r IH]; intros k; cbn; [reflexivity|]. rewrite IH. reflexivity.
Qed.

Definition bind_states (l : list (Z * bool)) : list rsp :=
  map (fun ie : Z * bool => R_BIND_STATE (fst ie) (if snd ie then 1 else 0)) l.

Lemma apply_states_some l : forall ind, exists ind', apply_states (bind_states l) ind = Some ind'.
Proof. induction l as [|[i e] r IH]; intros ind; cbn; [eauto|apply IH]. Qed.

(* one +BIND: i,e line sets the enabled flag of indicator i and nothing else *)
Definition set_enabled (ind : Z) (e : bool) (l : list (Z * bool * bool)) :=
  map (fun x : Z * bool * bool => let '(i, s, en) := x in if i =? ind then (i, s, e) else x) l.

Lemma apply_states_step i e r ind :
  apply_states (bind_states ((i, e) :: r)) ind = apply_states (bind_states r) (set_enabled i e ind).
Proof.
  cbn. f_equal. unfold set_enabled. apply map_ext. intros [[j s] en].
  destruct (j =? i); [|reflexivity]. destruct e; reflexivity.
Qed.

(* after all lines: an indicator listed (with flag f i) is enabled iff f i; one that is
   not listed keeps its flag *)
Lemma apply_states_spec (f : Z -> bool) : forall (L : list Z) ind ind',
  apply_states (bind_states (map (fun i => (i, f i)) L)) ind = Some ind' ->
  map (fun x : Z * bool * bool => fst (fst x)) ind' = map (fun x : Z * bool * bool => fst (fst x)) ind /\
  forall i s e, In (i, s, e) ind' ->
    exists e0, In (i, s, e0) ind /\ e = if zmem i L then f i else e0.
Proof.
  induction L as [|j L IH]; intros ind ind' H.
  - cbn in H. inversion H; subst. split; [reflexivity|]. intros i s e Hi. exists e. auto.
  - cbn [map] in H. rewrite apply_states_step in H. destruct (IH _ _ H) as [Hk Hspec].
    split.
    + rewrite Hk. unfold set_enabled. rewrite map_map. apply map_ext.
      intros [[a b] c]. destruct (a =? j); reflexivity.
    + intros i s e Hi. destruct (Hspec i s e Hi) as (e0 & Hin & He).
      unfold set_enabled in Hin. apply in_map_iff in Hin as ([[a b] c] & Hx & Hin).
      destruct (a =? j) eqn:Ea.
      * inversion Hx; subst i s e0. apply Z.eqb_eq in Ea. subst a.
        exists c. split; [exact Hin|]. unfold zmem in *. cbn [existsb]. rewrite Z.eqb_refl. cbn [orb].
        destruct (existsb (Z.eqb j) L); exact He.
      * inversion Hx; subst a b c. exists e0. split; [exact Hin|].
        unfold zmem in *. cbn [existsb]. rewrite Ea. cbn [orb]. exact He.
Qed.

Lemma mark_supported_spec ag_list l i s e :
  In (i, s, e) (mark_supported ag_list l) ->
  exists s0, In (i, s0, e) l /\ s = s0 || zmem i ag_list.
Proof.
  unfold mark_supported. intros H. apply in_map_iff in H as ([[a b] c] & Hx & Hin).
  inversion Hx; subst. eauto.
Qed.

Lemma parse_render l : parse_list (render_list l) = l.
Proof.
  destruct l as [|x r]; [reflexivity|]. unfold render_list.
  induction (x :: r) as [|y t IH]; cbn; [reflexivity|]. now rewrite IH.
Qed.

Arguments has : simpl never.

Definition both_cn (H : hf_cfg) (C : ag_cfg) :=
  has (hc_features H) hf_codec_negotiation && has (ac_features C) ag_codec_negotiation.
Definition both_3w (H : hf_cfg) (C : ag_cfg) :=
  has (hc_features H) hf_three_way_calling && has (ac_features C) ag_three_way_calling.
Definition both_hi (H : hf_cfg) (C : ag_cfg) :=
  has (hc_features H) hf_hf_indicators && has (ac_features C) ag_hf_indicators.

(* what each side holds once the procedure is over *)
Definition expected_hf (H : hf_cfg) (C : ag_cfg) : hf_state :=
  mkHf (ac_features C)
       (expected_inds 0 (ac_indicators C))
       (if both_3w H C then ac_chld C else [])
       (if both_hi H C
        then map (fun i => (i, zmem i (ac_hf_indicators C),
                            zmem i (ac_hf_indicators C) && negb (zmem i (ac_disabled C)))) (hc_indicators H)
        else map (fun i => (i, false, false)) (hc_indicators H)).

Definition expected_ag_ind (H : hf_cfg) (C : ag_cfg) : list (Z * bool) :=
  if both_hi H C
  then map (fun i => (i, negb (zmem i (ac_disabled C))))
           (filter (fun i => zmem i (hc_indicators H)) (ac_hf_indicators C))
  else [].

Definition expected_sent (H : hf_cfg) (C : ag_cfg) : list Z :=
  (if both_cn H C then [0; 1] else [0]) ++ [2; 3; 4] ++ (if both_3w H C then [5] else [])
  ++ (if both_hi H C then [6; 7; 8] else []).

(* the HF's indicator table before AT+BIND? *)
Lemma ind0_keys (l : list Z) :
  map (fun x : Z * bool * bool => fst (fst x)) (map (fun i => (i, false, false)) l) = l.
Proof. rewrite map_map. apply map_id. Qed.

Lemma ind0_flags (l : list Z) i s e :
  In (i, s, e) (map (fun i => (i, false, false)) l) -> s = false /\ e = false.
Proof. intros Hx. apply in_map_iff in Hx as (j & [= _ <- <-] & _). auto. Qed.

(* and after it: the same indicators, supported iff the AG lists them, enabled iff the AG
   lists them and has not disabled them *)
Lemma hf_ind_final (H : hf_cfg) (C : ag_cfg) :
  exists ind2,
    apply_states
      (bind_states (map (fun i => (i, negb (zmem i (ac_disabled C))))
                        (filter (fun i => zmem i (hc_indicators H)) (ac_hf_indicators C))))
      (mark_supported (ac_hf_indicators C) (map (fun i => (i, false, false)) (hc_indicators H)))
    = Some ind2 /\
    map (fun x : Z * bool * bool => fst (fst x)) ind2 = hc_indicators H /\
    forall i s e, In (i, s, e) ind2 ->
      s = zmem i (ac_hf_indicators C) /\
      e = zmem i (ac_hf_indicators C) && negb (zmem i (ac_disabled C)).
Proof.
  destruct (apply_states_some
              (map (fun i => (i, negb (zmem i (ac_disabled C))))
                   (filter (fun i => zmem i (hc_indicators H)) (ac_hf_indicators C)))
              (mark_supported (ac_hf_indicators C) (map (fun i => (i, false, false)) (hc_indicators H))))
    as [ind2 Ha].
  exists ind2. split; [exact Ha|].
  destruct (apply_states_spec (fun i => negb (zmem i (ac_disabled C))) _ _ _ Ha) as [Hk Hspec].
  split.
  - rewrite Hk. unfold mark_supported. rewrite !map_map. apply map_id.
  - intros i s e Hi. destruct (Hspec i s e Hi) as (e0 & Hin & He).
    apply mark_supported_spec in Hin as (s0 & Hin & Hs).
    apply in_map_iff in Hin as (j & Hj & Hjin). inversion Hj; subst j s0 e0.
    split; [exact Hs|].
    assert (Hm : zmem i (filter (fun i0 => zmem i0 (hc_indicators H)) (ac_hf_indicators C))
                 = zmem i (ac_hf_indicators C)).
    { destruct (zmem i (ac_hf_indicators C)) eqn:E.
      - apply zmem_In, filter_In. split; apply zmem_In; assumption.
      - destruct (zmem i (filter _ _)) eqn:E2; [|reflexivity].
        apply zmem_In, filter_In in E2 as [E2 _]. apply zmem_In in E2. congruence. }
    rewrite Hm in He. rewrite He. destruct (zmem i (ac_hf_indicators C)); reflexivity.
Qed.

(* slc_completes + the exact final states.  The procedure branches on the three features
   that both ends must support; where it sends AT+CHLD=? or the AT+BIND commands, the AG's
   own feature test is therefore passed *)
Theorem slc_result (H : hf_cfg) (C : ag_cfg) :
  wf_cfg_b C = true ->
  exists h a,
    slc H C = Done h a (expected_sent H C) /\
    hf_ag_features h = ac_features C /\
    hf_ag_indicators h = expected_inds 0 (ac_indicators C) /\
    hf_chld h = (if both_3w H C then ac_chld C else []) /\
    map (fun x : Z * bool * bool => fst (fst x)) (hf_ind h) = hc_indicators H /\
    (forall i s e, In (i, s, e) (hf_ind h) ->
       if both_hi H C
       then s = zmem i (ac_hf_indicators C) /\
            e = zmem i (ac_hf_indicators C) && negb (zmem i (ac_disabled C))
       else s = false /\ e = false) /\
    ag_hf_features a = hc_features H /\
    ag_codecs a = (if both_cn H C then hc_codecs H else []) /\
    ag_hf_ind a = expected_ag_ind H C /\
    ag_report a = true /\
    ag_slc_events a = 1.
Proof.
  intros Hwf. unfold wf_cfg_b in Hwf.
  destruct (ac_indicators C) as [|i0 irest] eqn:Einds; [discriminate|].
  unfold slc, execute, expected_sent, expected_ag_ind. cbn [ag_handle].
  fold (both_cn H C) (both_3w H C) (both_hi H C).
  destruct (both_cn H C) eqn:Ecn, (both_3w H C) eqn:E3w, (both_hi H C) eqn:Ehi.
  all: try (apply andb_prop in E3w as [_ A3w]); try (apply andb_prop in Ehi as [_ Ahi]).
  (* run the procedure *)
  all: cbn [andb orb negb ag_handle ag_init check_remained
            ag_hf_features ag_codecs ag_hf_ind ag_report ag_rem_hf_ind ag_rem_three_way ag_slc_events];
    rewrite ?Einds; try rewrite A3w; try rewrite Ahi;
    cbn [andb orb negb ag_handle check_remained
         ag_hf_features ag_codecs ag_hf_ind ag_report ag_rem_hf_ind ag_rem_three_way ag_slc_events];
    rewrite <- ?Einds; rewrite ?(set_status_index (ac_indicators C) 0);
    cbn [andb orb negb ag_handle check_remained
         ag_hf_features ag_codecs ag_hf_ind ag_report ag_rem_hf_ind ag_rem_three_way ag_slc_events];
    try rewrite A3w; try rewrite Ahi; rewrite ?parse_render.
  (* with the HF-indicator exchange *)
  1, 3, 5, 7: destruct (hf_ind_final H C) as (ind2 & E & Hk & Hin);
    unfold bind_states in E; rewrite E.
  all: do 2 eexists; (split; [reflexivity|]);
    cbn [hf_ag_features hf_ag_indicators hf_chld hf_ind
         ag_hf_features ag_codecs ag_hf_ind ag_report ag_slc_events];
    repeat apply conj; try reflexivity; try assumption.
  all: first [apply ind0_keys|exact (ind0_flags _)].
Qed.

(* the AG indicators the HF holds are the AG's own: same names, same status, the same
   value SETS, and the index is the position in the AG's list *)
Definition same_indicator (h : hf_ag_ind) (a : ag_ind) : Prop :=
  hi_name h = ai_name a /\ hi_status h = ai_status a /\
  forall v, In v (hi_values h) <-> In v (ai_values a).

Lemma expected_inds_spec inds : forall k,
  forallb wf_ag_ind_b inds = true ->
  Forall2 same_indicator (expected_inds k inds) inds /\
  map hi_index (expected_inds k inds) = zrange k (length inds).
Proof.
  induction inds as [|i r IH]; intros k Hwf; cbn; [split; [constructor|reflexivity]|].
  cbn in Hwf. apply andb_prop in Hwf as [Hi Hr]. destruct (IH (k + 1) Hr) as [IH1 IH2].
  split; [|now rewrite IH2].
  constructor; [|exact IH1]. split; [reflexivity|]. split; [reflexivity|].
  apply render_expand. unfold wf_ag_ind_b in Hi. destruct (ai_values i); [discriminate|].
  apply nodup_b_ok. exact Hi.
Qed.

Lemma wf_cfg_inds C : wf_cfg_b C = true -> forallb wf_ag_ind_b (ac_indicators C) = true.
Proof. unfold wf_cfg_b. destruct (ac_indicators C); [discriminate|auto]. Qed.

Lemma expected_inds_status inds : forall k, map hi_status (expected_inds k inds) = map ai_status inds.
Proof. induction inds as [|i r IH]; intros k; cbn; [reflexivity|]. now rewrite IH. Qed.

(* whatever the AG reports with +CIEV and whatever codec it proposes with +BCS, in any
   order and number: the HF's copy of the AG indicator values stays equal to the AG's own,
   and both ends hold the same active codec *)
Lemma live_agree (H : hf_cfg) (C : ag_cfg) :
  wf_cfg_b C = true ->
  forall ops, exists s,
    live_run H C ops = Some s /\
    lv_hf_status s = lv_ag_status s /\ lv_hf_codec s = lv_ag_codec s.
Proof.
  intros Hwf ops. unfold live_run, live_init.
  destruct (slc_result H C Hwf) as (h & a & Hs & _ & Hi & _). rewrite Hs.
  eexists. split; [reflexivity|].
  set (s0 := mkLive _ _ _ _ _).
  assert (Hinit : lv_hf_status s0 = lv_ag_status s0 /\ lv_hf_codec s0 = lv_ag_codec s0).
  { cbn. rewrite Hi, expected_inds_status. split; reflexivity. }
  clearbody s0. revert s0 Hinit.
  induction ops as [|o ops IH]; intros s [E1 E2]; cbn [fold_left]; [split; assumption|].
  apply IH. destruct o as [name value|codec]; cbn [live_step].
  - destruct (first_index name (ac_indicators C) 0) as [k|]; [|split; assumption].
    cbn. replace (Z.to_nat (Z.of_nat k + 1 - 1)) with k by lia. rewrite E1. split; [reflexivity|exact E2].
  - destruct (zmem codec (hc_codecs H)); cbn; split; auto.
Qed.
