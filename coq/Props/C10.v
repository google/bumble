(* Property C10: the ATT server answers each request exactly once and within ATT_MTU;
   nothing it transmits is longer than the bearer's ATT_MTU; at most one indication per
   bearer awaits its confirmation.
   The comparisons with the source are evaluated; the other proofs are a few lines from the
   lemmas of Proofs/AttServer.v.
   The model (Model/AttServer.v) is of the code after fixes/D10a..D10f.patch. *)
From Coq Require Import ZArith List Bool.
From BV Require Import Gen.C10Tables Gen.C10Skeleton Model.AttServer Model.AttSkeleton Proofs.AttServer.
Import ListNotations.
Open Scope Z_scope.

(* The tables the model is written against are those of the current source: ATT_REQUESTS is
   the specification's request set; Server has exactly the handlers the model dispatches to,
   sync / task-wrapped as modelled; every awaited read_value / write_value in a task-wrapped
   handler is guarded by a try that catches ATT_Error, and every task-wrapped request handler
   is wrapped by the decorator that answers any other escaping exception with UNLIKELY_ERROR
   (D10e); malformed and handler-less requests are answered; PDU field layouts, opcodes, permission bits, error codes and size constants
   are the modelled ones.  Re-checked against the regenerated Gen/C10Tables.v on every run. *)
Theorem C10_tables_match_source : tables_match = true.
Proof. vm_compute. reflexivity. Qed.
Print Assumptions C10_tables_match_source.

(* ..._matches_source: every function the model renders reads today, after normalisation
   (docstrings, logging, annotations, comments, layout removed), exactly as in the frozen
   reading Model/AttSkeleton.v the model was written from -- every size constant
   (att_mtu - 1/2/3/4/6, min(..., 251/253)), comparison operator, loop exit, await of
   read_value / write_value, error code and response constructor, in program order.  An edit
   to the shape of this code breaks the obligation of that function whether or not a generated
   input exercises it.  Regenerated into Gen/C10Skeleton.v and re-checked on every run. *)
Theorem C10_src_Device_on_gatt_pdu : src_matches k_Device_on_gatt_pdu = true.
Proof. vm_compute. reflexivity. Qed.
Print Assumptions C10_src_Device_on_gatt_pdu.

Theorem C10_src_att_request_handler : src_matches k_att_request_handler = true.
Proof. vm_compute. reflexivity. Qed.
Print Assumptions C10_src_att_request_handler.

Theorem C10_src_Server_register_eatt : src_matches k_Server_register_eatt = true.
Proof. vm_compute. reflexivity. Qed.
Print Assumptions C10_src_Server_register_eatt.

Theorem C10_src_Server_send_gatt_pdu : src_matches k_Server_send_gatt_pdu = true.
Proof. vm_compute. reflexivity. Qed.
Print Assumptions C10_src_Server_send_gatt_pdu.

Theorem C10_src_Server_get_attribute : src_matches k_Server_get_attribute = true.
Proof. vm_compute. reflexivity. Qed.
Print Assumptions C10_src_Server_get_attribute.

Theorem C10_src_Server_read_cccd : src_matches k_Server_read_cccd = true.
Proof. vm_compute. reflexivity. Qed.
Print Assumptions C10_src_Server_read_cccd.

Theorem C10_src_Server_write_cccd : src_matches k_Server_write_cccd = true.
Proof. vm_compute. reflexivity. Qed.
Print Assumptions C10_src_Server_write_cccd.

Theorem C10_src_Server_send_response : src_matches k_Server_send_response = true.
Proof. vm_compute. reflexivity. Qed.
Print Assumptions C10_src_Server_send_response.

Theorem C10_src_Server_notify_single_subscriber : src_matches k_Server_notify_single_subscriber = true.
Proof. vm_compute. reflexivity. Qed.
Print Assumptions C10_src_Server_notify_single_subscriber.

Theorem C10_src_Server_indicate_single_bearer : src_matches k_Server_indicate_single_bearer = true.
Proof. vm_compute. reflexivity. Qed.
Print Assumptions C10_src_Server_indicate_single_bearer.

Theorem C10_src_Server_on_invalid_gatt_pdu : src_matches k_Server_on_invalid_gatt_pdu = true.
Proof. vm_compute. reflexivity. Qed.
Print Assumptions C10_src_Server_on_invalid_gatt_pdu.

Theorem C10_src_Server_on_gatt_pdu : src_matches k_Server_on_gatt_pdu = true.
Proof. vm_compute. reflexivity. Qed.
Print Assumptions C10_src_Server_on_gatt_pdu.

Theorem C10_src_Server_on_att_request : src_matches k_Server_on_att_request = true.
Proof. vm_compute. reflexivity. Qed.
Print Assumptions C10_src_Server_on_att_request.

Theorem C10_src_Server_on_att_exchange_mtu_request : src_matches k_Server_on_att_exchange_mtu_request = true.
Proof. vm_compute. reflexivity. Qed.
Print Assumptions C10_src_Server_on_att_exchange_mtu_request.

Theorem C10_src_Server_on_att_find_information_request : src_matches k_Server_on_att_find_information_request = true.
Proof. vm_compute. reflexivity. Qed.
Print Assumptions C10_src_Server_on_att_find_information_request.

Theorem C10_src_Server_on_att_find_by_type_value_request : src_matches k_Server_on_att_find_by_type_value_request = true.
Proof. vm_compute. reflexivity. Qed.
Print Assumptions C10_src_Server_on_att_find_by_type_value_request.

Theorem C10_src_Server_on_att_read_by_type_request : src_matches k_Server_on_att_read_by_type_request = true.
Proof. vm_compute. reflexivity. Qed.
Print Assumptions C10_src_Server_on_att_read_by_type_request.

Theorem C10_src_Server_on_att_read_request : src_matches k_Server_on_att_read_request = true.
Proof. vm_compute. reflexivity. Qed.
Print Assumptions C10_src_Server_on_att_read_request.

Theorem C10_src_Server_on_att_read_blob_request : src_matches k_Server_on_att_read_blob_request = true.
Proof. vm_compute. reflexivity. Qed.
Print Assumptions C10_src_Server_on_att_read_blob_request.

Theorem C10_src_Server_on_att_read_by_group_type_request : src_matches k_Server_on_att_read_by_group_type_request = true.
Proof. vm_compute. reflexivity. Qed.
Print Assumptions C10_src_Server_on_att_read_by_group_type_request.

Theorem C10_src_Server_on_att_read_multiple_request : src_matches k_Server_on_att_read_multiple_request = true.
Proof. vm_compute. reflexivity. Qed.
Print Assumptions C10_src_Server_on_att_read_multiple_request.

Theorem C10_src_Server_on_att_read_multiple_variable_request : src_matches k_Server_on_att_read_multiple_variable_request = true.
Proof. vm_compute. reflexivity. Qed.
Print Assumptions C10_src_Server_on_att_read_multiple_variable_request.

Theorem C10_src_Server_on_att_write_request : src_matches k_Server_on_att_write_request = true.
Proof. vm_compute. reflexivity. Qed.
Print Assumptions C10_src_Server_on_att_write_request.

Theorem C10_src_Server_on_att_write_command : src_matches k_Server_on_att_write_command = true.
Proof. vm_compute. reflexivity. Qed.
Print Assumptions C10_src_Server_on_att_write_command.

Theorem C10_src_Server_on_att_handle_value_confirmation : src_matches k_Server_on_att_handle_value_confirmation = true.
Proof. vm_compute. reflexivity. Qed.
Print Assumptions C10_src_Server_on_att_handle_value_confirmation.

Theorem C10_src_ATT_PDU_from_bytes : src_matches k_ATT_PDU_from_bytes = true.
Proof. vm_compute. reflexivity. Qed.
Print Assumptions C10_src_ATT_PDU_from_bytes.

(* where a bearer's ATT_MTU comes from: the L2CAP accept path and the channel constructor
   (att_mtu = min(mtu, peer_mtu)), the response handlers, the update hooks, and the list of
   ALL statements of l2cap.py / device.py / gatt_server.py / att.py that assign an `att_mtu`
   attribute or call on_att_mtu_update -- moving that computation breaks an obligation *)
Theorem C10_src_LeCreditBasedChannel__init : src_matches k_LeCreditBasedChannel__init = true.
Proof. vm_compute. reflexivity. Qed.
Print Assumptions C10_src_LeCreditBasedChannel__init.

Theorem C10_src_LeCreditBasedChannel_on_connection_response : src_matches k_LeCreditBasedChannel_on_connection_response = true.
Proof. vm_compute. reflexivity. Qed.
Print Assumptions C10_src_LeCreditBasedChannel_on_connection_response.

Theorem C10_src_LeCreditBasedChannel_on_enhanced_connection_response : src_matches k_LeCreditBasedChannel_on_enhanced_connection_response = true.
Proof. vm_compute. reflexivity. Qed.
Print Assumptions C10_src_LeCreditBasedChannel_on_enhanced_connection_response.

Theorem C10_src_LeCreditBasedChannel_on_att_mtu_update : src_matches k_LeCreditBasedChannel_on_att_mtu_update = true.
Proof. vm_compute. reflexivity. Qed.
Print Assumptions C10_src_LeCreditBasedChannel_on_att_mtu_update.

Theorem C10_src_LeCreditBasedChannel_write : src_matches k_LeCreditBasedChannel_write = true.
Proof. vm_compute. reflexivity. Qed.
Print Assumptions C10_src_LeCreditBasedChannel_write.

Theorem C10_src_LeCreditBasedChannel_process_output : src_matches k_LeCreditBasedChannel_process_output = true.
Proof. vm_compute. reflexivity. Qed.
Print Assumptions C10_src_LeCreditBasedChannel_process_output.

Theorem C10_src_ChannelManager_on_l2cap_le_credit_based_connection_request : src_matches k_ChannelManager_on_l2cap_le_credit_based_connection_request = true.
Proof. vm_compute. reflexivity. Qed.
Print Assumptions C10_src_ChannelManager_on_l2cap_le_credit_based_connection_request.

Theorem C10_src_ChannelManager_on_l2cap_credit_based_connection_request : src_matches k_ChannelManager_on_l2cap_credit_based_connection_request = true.
Proof. vm_compute. reflexivity. Qed.
Print Assumptions C10_src_ChannelManager_on_l2cap_credit_based_connection_request.

Theorem C10_src_Connection_on_att_mtu_update : src_matches k_Connection_on_att_mtu_update = true.
Proof. vm_compute. reflexivity. Qed.
Print Assumptions C10_src_Connection_on_att_mtu_update.

Theorem C10_src_att_mtu_sites : src_matches k_att_mtu_sites = true.
Proof. vm_compute. reflexivity. Qed.
Print Assumptions C10_src_att_mtu_sites.

(* request_one_reply: for every server state (any database, any bearer, any subscription and
   indication state; [st] includes, per attribute, what its value object does on read and on
   write: returns / stores bytes, raises ATT_Error with any code, raises any other exception
   or has no such function, or is a server-made CCCD), every request opcode and every
   parameter bytes -- well-formed or not, valid handles or not -- the server sends exactly
   one PDU: the matching response
   (opcode + 1) or an Error Response naming that request. *)
Theorem C10_request_one_reply : forall st opc ps,
  In opc spec_requests ->
  exists st' p, rx st opc ps = Some (st', [p]) /\ reply_for opc p = true /\
                (23 <= mtu_of st -> len p <= mtu_of st).
Proof. exact rx_request_one. Qed.
Print Assumptions C10_request_one_reply.

(* non_request_no_reply: any other opcode (commands, unknown opcodes, responses) is answered
   with nothing, whatever its parameters... *)
Theorem C10_non_request_no_reply : forall st opc ps,
  memz opc spec_requests = false -> opc <> 30 ->
  exists st', rx st opc ps = Some (st', []).
Proof.
  intros st opc ps Hm Hn. destruct (rx_total st opc ps) as (st' & out & E).
  destruct (rx_spec _ _ _ _ _ E Hn) as ([(Ht & _)|(_ & ->)] & _); [congruence|eauto].
Qed.
Print Assumptions C10_non_request_no_reply.

(* ... and a Handle Value Confirmation is never answered either: at most it lets the oldest
   indication that was waiting for the bearer go. *)
Theorem C10_confirmation_no_reply : forall st ps,
  rx st 30 ps = Some (h_confirm st) /\
  (snd (h_confirm st) = [] \/
   exists p w, s_pending st = true /\ s_waiting st = p :: w /\ snd (h_confirm st) = [p]).
Proof.
  intros st ps.
  split; [reflexivity|].
  destruct (confirm_cases st) as [->|(Hp & [(_ & ->)|(p & w & Hw & ->)])]; eauto 6.
Qed.
Print Assumptions C10_confirmation_no_reply.

(* reply_le_mtu: the reply to a request never exceeds the bearer's ATT_MTU (>= 23). *)
Theorem C10_reply_le_mtu : forall st opc ps,
  In opc spec_requests -> 23 <= mtu_of st ->
  exists st' p, rx st opc ps = Some (st', [p]) /\ len p <= mtu_of st.
Proof.
  intros st opc ps Hin Hm. destruct (rx_request_one st opc ps Hin) as (st' & p & H1 & _ & H3).
  exists st', p. split; [exact H1|exact (H3 Hm)].
Qed.
Print Assumptions C10_reply_le_mtu.

(* The ATT_MTU the property means is the one negotiated on the wire.  Enhanced bearer: the
   minimum of the two L2CAP MTU fields ([negotiated_mtu local peer], what
   LeCreditBasedChannel.__init__ computes); a reply exceeds neither side's MTU, and no PDU --
   in particular no Exchange MTU Request, refused there (D10f) -- ever changes it.  Fixed
   bearer: an Exchange MTU Request with client_rx_mtu >= 23 is answered with server_rx_mtu =
   max_mtu and the ATT_MTU becomes the minimum of the two values seen on the wire. *)
Theorem C10_reply_le_negotiated_mtu : forall st opc ps local peer,
  In opc spec_requests -> 23 <= local -> 23 <= peer -> mtu_of st = negotiated_mtu local peer ->
  exists st' p, rx st opc ps = Some (st', [p]) /\ len p <= local /\ len p <= peer.
Proof. exact reply_le_negotiated. Qed.
Print Assumptions C10_reply_le_negotiated_mtu.

Theorem C10_enhanced_bearer_mtu_fixed : forall st opc ps st' out,
  b_enh (s_b st) = true -> rx st opc ps = Some (st', out) -> mtu_of st' = mtu_of st.
Proof.
  intros st opc ps st' out He H.
  destruct (step_shape st (Rx opc ps) _ _ H) as [->|[(m & Hf & _)|[(ds & ->)|(p & w & ->)]]];
    [reflexivity|congruence|reflexivity|reflexivity].
Qed.
Print Assumptions C10_enhanced_bearer_mtu_fixed.

Theorem C10_fixed_bearer_mtu_exchange : forall st x y,
  b_enh (s_b st) = false -> 23 <= x + 256 * y ->
  rx st 2 [x; y] = Some (set_mtu st (negotiated_mtu (s_max_mtu st) (x + 256 * y)),
                         [[OP_MTU_RSP] ++ le16 (s_max_mtu st)]).
Proof. exact fixed_mtu_exchange. Qed.
Print Assumptions C10_fixed_bearer_mtu_exchange.

(* server_initiated_le_mtu: a notification / indication is truncated so that the PDU fits
   the ATT_MTU in force when it is issued... *)
Theorem C10_notification_le_mtu : forall st h v f,
  23 <= mtu_of st ->
  fst (notify st h v f) = st /\
  (snd (notify st h v f) = [] \/
   exists x, snd (notify st h v f) = [hv_pdu OP_NOTIFY (mtu_of st) h x] /\
             len (hv_pdu OP_NOTIFY (mtu_of st) h x) <= mtu_of st).
Proof. exact notify_spec. Qed.
Print Assumptions C10_notification_le_mtu.

Theorem C10_indication_le_mtu : forall st h v f,
  23 <= mtu_of st ->
  let st' := fst (indicate st h v f) in
  let out := snd (indicate st h v f) in
  mtu_of st' = mtu_of st /\ s_max_mtu st' = s_max_mtu st /\ s_db st' = s_db st /\
  ((st' = st /\ out = []) \/
   exists x, let p := hv_pdu OP_INDICATE (mtu_of st) h x in
     len p <= mtu_of st /\
     ((s_pending st = true /\ out = [] /\ s_pending st' = true /\ s_waiting st' = s_waiting st ++ [p]) \/
      (s_pending st = false /\ out = [p] /\ s_pending st' = true /\ s_waiting st' = s_waiting st))).
Proof. exact indicate_spec. Qed.
Print Assumptions C10_indication_le_mtu.

(* ... and over every history of received PDUs (all 256 opcodes, any parameters), notify /
   indicate calls, CCCD writes and confirmations, starting from any database with
   ATT_MTU >= 23: every PDU the server transmits (response, notification, indication sent at
   once or released later) is no longer than the ATT_MTU in force at that moment, provided
   no Exchange MTU Request lowers the MTU while an indication is waiting ([mtu_kept]). *)
Theorem C10_history_le_mtu : forall db b max_mtu ops st' outs,
  23 <= b_mtu b -> 23 <= max_mtu ->
  mtu_kept (init db b max_mtu) ops = true ->
  run (init db b max_mtu) ops = Some (st', outs) ->
  outs_le_mtu outs = true.
Proof.
  intros db b max_mtu ops st' outs Hb Hx Hk Hr.
  exact (proj1 (run_le_mtu ops _ st' outs (inv_init db b max_mtu Hb Hx) Hk Hr)).
Qed.
Print Assumptions C10_history_le_mtu.

(* the hypothesis [mtu_kept] is needed (open question in docs/C10.md) *)
Theorem C10_lowered_mtu_refuted :
  exists db b ops st' outs,
    23 <= b_mtu b /\ run (init db b 517) ops = Some (st', outs) /\ outs_le_mtu outs = false.
Proof.
  exists [mkAttr 1 [0; 40] 1 [15; 24] 3 0 0 0; mkAttr 2 [3; 40] 1 [32; 3; 0; 25; 42] 3 0 0 0;
          mkAttr 3 [25; 42] 1 (mkb 200 0 1) 3 0 0 0].
  exists (mkBearer 100 false false false).
  exists [Indicate 3 None true; Indicate 3 None true; Rx 2 [23; 0]; Rx 30 []].
  eexists _, _. split; [cbn; discriminate|]. split; [vm_compute; reflexivity|vm_compute; reflexivity].
Qed.
Print Assumptions C10_lowered_mtu_refuted.

(* one_indication_outstanding: over every history, an indication is transmitted only when
   no earlier indication on the bearer still awaits its confirmation. *)
Theorem C10_one_indication_outstanding : forall db b max_mtu ops st' outs,
  23 <= b_mtu b -> 23 <= max_mtu ->
  run (init db b max_mtu) ops = Some (st', outs) ->
  ind_ok false ops outs = true.
Proof.
  intros db b max_mtu ops st' outs Hb Hx Hr.
  exact (run_ind_ok ops (init db b max_mtu) st' outs ind_inv_init Hr).
Qed.
Print Assumptions C10_one_indication_outstanding.

(* Several bearers on one server ([msrv]: the database plus one record per bearer; see
   Props/C11.v for locality).  Over every history of stimuli on any bearers, on EACH bearer
   an indication is transmitted only when no earlier indication on that bearer awaits its
   confirmation; a confirmation received on one bearer releases nothing on another. *)
Theorem C10_one_indication_outstanding_per_bearer : forall db max_mtu bs ops n outs,
  23 <= max_mtu -> Forall (fun b => 23 <= b_mtu b) bs ->
  mrun (minit db max_mtu bs) ops = Some (n, outs) ->
  mind_ok (map bs_pending (m_bs (minit db max_mtu bs))) ops outs = true.
Proof.
  intros db max_mtu bs ops n outs Hx Hb Hr.
  exact (mrun_ind_ok ops _ n outs (minit_ok db max_mtu bs) Hr).
Qed.
Print Assumptions C10_one_indication_outstanding_per_bearer.

(* what a stimulus on bearer i makes the server send fits bearer i's ATT_MTU, whatever the
   other bearers' ATT_MTUs and states are, and every bearer keeps its invariant *)
Theorem C10_several_bearers_le_mtu : forall m i o n out x,
  Forall (bst_inv m) (m_bs m) -> mstep m i o = Some (n, out) -> nth_error (m_bs m) i = Some x ->
  (forall y, nth_error (m_bs n) i = Some y -> b_mtu (bs_b x) <= b_mtu (bs_b y) \/ bs_waiting y = []) ->
  all_le (b_mtu (bs_b x)) out /\ Forall (bst_inv n) (m_bs n).
Proof. exact mstep_le_mtu. Qed.
Print Assumptions C10_several_bearers_le_mtu.

(* An enhanced bearer closes while the ACL link and the other bearers of the connection stay up
   (register_eatt hooks Server.on_disconnection(channel) on the channel's EVENT_CLOSE).
   Pinned to the source: on_disconnection pops exactly the entries of `bearer` from
   subscribers / indication_semaphores / pending_confirmations. *)
Theorem C10_src_Server_on_disconnection : src_matches k_Server_on_disconnection = true.
Proof. vm_compute. reflexivity. Qed.
Print Assumptions C10_src_Server_on_disconnection.

(* frame: any step on bearer k -- a stimulus or its close -- leaves the record (ATT_MTU,
   subscriptions, pending indication, waiting indications) of every other bearer untouched,
   and a close does not touch the database *)
Theorem C10_close_frame : forall m x n k out i,
  mstep2 m x = Some (n, k, out) -> i <> k -> nth_error (m_bs n) i = nth_error (m_bs m) i.
Proof.
  intros m x n k out i H Hik. destruct x as [j o|j]; cbn [mstep2] in H.
  - destruct (mstep m j o) as [[n' out']|] eqn:E; [|discriminate]. injection H as <- <- <-.
    eapply mstep_frame; eassumption.
  - injection H as <- <- <-. apply mclose_frame. exact Hik.
Qed.
Print Assumptions C10_close_frame.

Theorem C10_close_keeps_database : forall m j,
  m_db (mclose m j) = m_db m /\ m_max_mtu (mclose m j) = m_max_mtu m.
Proof.
  intros m j.
 unfold mclose. destruct (nth_error (m_bs m) j); split; reflexivity. 
Qed.
Print Assumptions C10_close_keeps_database.

(* one indication outstanding per bearer over EVERY history in which enhanced bearers also
   close: the close of a bearer clears that bearer's outstanding indication only, so an
   indication on a live bearer is never transmitted while an earlier one on it is unconfirmed *)
Theorem C10_one_indication_outstanding_with_closes : forall db max_mtu bs ops n outs,
  23 <= max_mtu -> Forall (fun b => 23 <= b_mtu b) bs ->
  mrun2 (minit db max_mtu bs) ops = Some (n, outs) ->
  mind_ok2 (map bs_pending (m_bs (minit db max_mtu bs))) ops outs = true.
Proof.
  intros db max_mtu bs ops n outs Hx Hb Hr.
  exact (mrun2_ind_ok ops _ n outs (minit_ok db max_mtu bs) Hr).
Qed.
Print Assumptions C10_one_indication_outstanding_with_closes.

(* Bursts: several PDUs handed to the bearer before the event loop runs again (plain handlers
   and the malformed / handler-less branches act at once, task-wrapped handlers afterwards in
   arrival order, an indication released by a confirmation last -- Model: [burst]).  Every
   request of the burst is answered exactly once and nothing else is: as many PDUs as there
   are requests, none of them an indication, each no longer than the ATT_MTU in force when it
   was sent (an Exchange MTU Request inside the burst changes it for the handlers that run
   later); besides, at most the oldest waiting indication is released. *)
Theorem C10_burst_one_reply_each : forall st l st' out rel,
  23 <= mtu_of st -> 23 <= s_max_mtu st -> burst st l = Some (st', out, rel) ->
  len out = count_requests l /\ Forall burst_out_ok out /\
  (rel = [] \/ exists p w, rel = [p] /\ s_waiting st = p :: w).
Proof. exact burst_spec. Qed.
Print Assumptions C10_burst_one_reply_each.

Theorem C10_burst_total : forall st l, exists r, burst st l = Some r.
Proof. exact burst_total. Qed.
Print Assumptions C10_burst_total.

(* the model has a defined outcome for every history: no PDU falls outside it *)
Theorem C10_model_total : forall st ops, exists st' outs, run st ops = Some (st', outs).
Proof. intros st ops. exact (run_total ops st). Qed.
Print Assumptions C10_model_total.

(* Non-vacuity: D10b's witness on the repaired model -- three 10-byte values read with Read
   Multiple Variable at ATT_MTU 23 give a 23-byte response whose last value is truncated;
   D10a's witness -- a protected attribute inside a Read Multiple -- gives an Error Response. *)
Example C10_nonvacuous :
  let db := [mkAttr 1 [0; 40] 1 [170; 170] 5 0 0 0;
             mkAttr 2 [3; 40] 1 [10; 3; 0; 17; 17] 3 0 0 0; mkAttr 3 [17; 17] 1 (mkb 10 65 1) 3 0 0 0;
             mkAttr 4 [3; 40] 1 [10; 5; 0; 34; 34] 5 0 0 0; mkAttr 5 [34; 34] 5 (mkb 10 97 1) 5 0 0 0] in
  let st := init db (mkBearer 23 false false false) 517 in
  option_map (fun r => map (@length Z) (snd r)) (rx st 32 [3; 0; 3; 0; 3; 0]) = Some [23%nat] /\
  option_map snd (rx st 14 [3; 0; 5; 0]) = Some [[1; 14; 5; 0; 15]] /\
  option_map snd (rx st 10 [1]) = Some [[1; 10; 0; 0; 4]] /\
  (* D10e: a value whose read function raises (or is missing) / whose write function raises *)
  (let st' := init [mkAttr 1 [17; 17] 3 [] 1 (-1) (-1) 0; mkAttr 2 [2; 41] 3 [] 2 0 0 1]
                   (mkBearer 23 false false false) 517 in
   option_map snd (rx st' 10 [1; 0]) = Some [[1; 10; 0; 0; 14]] /\
   option_map snd (rx st' 32 [1; 0]) = Some [[1; 32; 0; 0; 14]] /\
   option_map snd (rx st' 6 [1; 0; 255; 255; 17; 17; 9]) = Some [[1; 6; 0; 0; 14]] /\
   option_map snd (rx st' 18 [1; 0; 5]) = Some [[1; 18; 0; 0; 14]] /\
   option_map snd (rx st' 82 [1; 0; 5]) = Some [] /\
   (* a CCCD accepts a write of any length <= 512 and stores only 2-byte values *)
   option_map snd (rx st' 18 [2; 0; 1]) = Some [[19]] /\
   option_map snd (run st' [Rx 18 [2; 0; 1; 0]; Rx 10 [2; 0]; Rx 18 [2; 0; 7]; Rx 10 [2; 0]]) =
     Some [(23, [[19]]); (23, [[11; 1; 0]]); (23, [[19]]); (23, [[11; 1; 0]])]) /\
  mtu_kept st [Indicate 3 None true; Rx 2 [100; 0]; Rx 30 []] = true /\
  (* a burst: Read Request, Exchange MTU 100, Read Multiple Variable, malformed Read Blob: the MTU
     response and the INVALID_PDU error go at once, the two reads follow and already use ATT_MTU 100 *)
  option_map (fun r => map (fun mp => (fst mp, firstn 2 (snd mp), List.length (snd mp))) (snd (fst r)))
    (burst st [(10, [3; 0]); (2, [100; 0]); (32, [3; 0; 3; 0; 3; 0]); (12, [3])]) =
  Some [(23, [3; 5], 3%nat); (100, [1; 12], 5%nat); (100, [11; 65], 11%nat); (100, [33; 10], 37%nat)].
Proof. vm_compute. repeat split. Qed.
