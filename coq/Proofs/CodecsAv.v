(* Proofs/CodecsAv.v — lemmas for Model/CodecsAv.v. *)
From Coq Require Import ZArith List Bool Lia.
From BV Require Import Base.Bytes Proofs.Bytes Model.CodecsBase Proofs.CodecsBase Proofs.BitFields Model.CodecsAv.
Import ListNotations.
Open Scope Z_scope.

(* what a parser reads by shift and mask from an integer of known size is in range *)
Lemma zlt_land : forall w n x, 0 <= w -> 2 ^ w <= n -> zlt n (Z.land x (Z.ones w)) = true.
Proof. intros w n x Hw Hn. apply zlt_iff. pose proof (land_range w x Hw). lia. Qed.

Lemma zlt_shiftr : forall k w n x, 0 <= k -> 0 <= w -> 0 <= x < 2 ^ (w + k) -> 2 ^ w <= n ->
  zlt n (Z.shiftr x k) = true.
Proof. intros k w n x Hk Hw Hx Hn. apply zlt_iff. pose proof (shiftr_range k w x Hk Hw Hx). lia. Qed.

(* a big-endian field in front of [rest], as the octets a parser matches on and decodes *)
Lemma be_encode_2_cons : forall n rest, 0 <= n < pow256 2 ->
  exists b0 b1, be_encode 2 n ++ rest = b0 :: b1 :: rest /\ be_decode [b0; b1] = n.
Proof.
  intros n rest H. pose proof (be_encode_length 2 n) as L. pose proof (be_decode_encode 2 n H) as D.
  destruct (be_encode 2 n) as [|b0 [|b1 [|? ?]]]; try discriminate. do 2 eexists. split; [reflexivity | exact D].
Qed.
Lemma be_encode_4_cons : forall n rest, 0 <= n < pow256 4 ->
  exists b0 b1 b2 b3, be_encode 4 n ++ rest = b0 :: b1 :: b2 :: b3 :: rest /\ be_decode [b0; b1; b2; b3] = n.
Proof.
  intros n rest H. pose proof (be_encode_length 4 n) as L. pose proof (be_decode_encode 4 n H) as D.
  destruct (be_encode 4 n) as [|b0 [|b1 [|b2 [|b3 [|? ?]]]]]; try discriminate.
  do 4 eexists. split; [reflexivity | exact D].
Qed.

Lemma be_decode_u_range : forall n bs, length bs = n -> bytes_ok bs = true -> u_range n (be_decode bs) = true.
Proof. intros n bs <- H. apply u_range_iff, be_decode_range, H. Qed.

Lemma ad_ok_cons : forall t v r, ad_ok ((t, v) :: r) = true ->
  byte_ok t = true /\ byte_ok (lenZ v + 1) = true /\ ad_ok r = true.
Proof.
  intros t v r H. cbn [ad_ok forallb] in H. unfold ad_item_ok in H. cbn [fst snd] in H.
  rewrite !andb_true_iff in H. tauto.
Qed.

Lemma ad_ok_encodes : forall items, ad_ok items = true -> exists b, ad_bytes items = Some b.
Proof.
  induction items as [|[t v] r IH]; intro H; [eexists; reflexivity|].
  apply ad_ok_cons in H as (Ht & Hl & Hr).
  destruct (IH Hr) as [rb Hrb]. eexists. cbn [ad_bytes]. rewrite Hl, Ht, Hrb. reflexivity.
Qed.

Lemma ad_bytes_parse : forall items b fuel,
  ad_ok items = true -> ad_bytes items = Some b -> (length b < fuel)%nat -> ad_parse fuel b = Some items.
Proof.
  induction items as [|[t v] r IH]; intros b fuel Hok Hb Hf; (destruct fuel as [|k]; [lia|]).
  - apply some_inv in Hb. subst b. reflexivity.
  - apply ad_ok_cons in Hok as (Ht & Hl & Hr). cbn [ad_bytes] in Hb. rewrite Hl, Ht in Hb. cbn [andb] in Hb.
    destruct (ad_bytes r) as [rb|]; [|discriminate]. apply some_inv in Hb. subst b.
    cbn [length] in Hf. rewrite app_length in Hf.
    assert (Hnat : Z.to_nat (lenZ v + 1) = S (length v)) by (unfold lenZ; lia).
    cbn [ad_parse]. replace (0 <? lenZ v + 1) with true by (symmetry; apply Z.ltb_lt; unfold lenZ; lia).
    rewrite Hnat. cbn [skipn Nat.sub]. rewrite Nat.sub_0_r, skipn_app_exact, firstn_app_exact.
    rewrite (IH rb k Hr eq_refl) by lia. reflexivity.
Qed.

Lemma ad_parse_never_fails : forall fuel d, (length d < fuel)%nat -> ad_parse fuel d <> None.
Proof.
  induction fuel as [|k IH]; intros d H; [lia|].
  destruct d as [|l [|t v]]; cbn [ad_parse]; try discriminate.
  destruct (0 <? l).
  - destruct (ad_parse k (skipn (Z.to_nat l) (t :: v))) eqn:E; [discriminate|].
    exfalso. apply (IH (skipn (Z.to_nat l) (t :: v))); [|exact E].
    rewrite skipn_length. cbn [length] in *. lia.
  - apply IH. cbn [length] in *. lia.
Qed.

Lemma ad_parse_bytes : forall fuel d items,
  bytes_ok d = true -> ad_exact fuel d = true -> ad_parse fuel d = Some items ->
  ad_bytes items = Some d /\ ad_ok items = true.
Proof.
  induction fuel as [|k IH]; intros d items Hok Hex Hp; [discriminate|].
  destruct d as [|l rest].
  - cbn in Hp. apply some_inv in Hp. subst. split; reflexivity.
  - cbn [ad_exact] in Hex. rewrite !andb_true_iff in Hex. destruct Hex as [[Hl Hle] Hex].
    apply Z.ltb_lt in Hl. apply Nat.leb_le in Hle.
    rewrite bytes_ok_cons in Hok. apply andb_true_iff in Hok as [Hlb Hrest].
    destruct rest as [|t v]; [cbn [length] in Hle; lia|].
    cbn [ad_parse] in Hp. replace (0 <? l) with true in Hp by (symmetry; apply Z.ltb_lt; lia).
    destruct (ad_parse k (skipn (Z.to_nat l) (t :: v))) as [r|] eqn:E; [|discriminate].
    apply some_inv in Hp. subst items.
    destruct (IH _ r (bytes_ok_skipn _ _ Hrest) Hex E) as [Hb Hk].
    rewrite bytes_ok_cons in Hrest. apply andb_true_iff in Hrest as [Ht Hv].
    assert (Hn : Z.to_nat l = S (Z.to_nat l - 1)) by lia.
    assert (Hlv : (Z.to_nat l - 1 <= length v)%nat) by (cbn [length] in Hle; lia).
    assert (Hlen : lenZ (firstn (Z.to_nat l - 1) v) + 1 = l).
    { unfold lenZ. rewrite firstn_length_le by exact Hlv. lia. }
    split.
    + cbn [ad_bytes]. rewrite Hlen, Hlb, Ht. cbn [andb].
      rewrite Hn in Hb. cbn [skipn] in Hb. rewrite Hb. rewrite firstn_skipn. reflexivity.
    + cbn [ad_ok forallb]. fold (ad_ok r). rewrite Hk, andb_true_r.
      unfold ad_item_ok. cbn [fst snd]. rewrite Hlen, Hlb, Ht. cbn [andb].
      apply bytes_ok_firstn. exact Hv.
Qed.

Lemma avdtp_hdr_ok_iff : forall tl mt sig,
  avdtp_hdr_ok tl mt sig = true <-> 0 <= tl < 16 /\ 0 <= mt < 4 /\ 0 <= sig < 64.
Proof. intros. unfold avdtp_hdr_ok. rewrite !andb_true_iff, !zlt_iff. tauto. Qed.

Theorem avdtp_single_roundtrip : forall tl mt sig payload,
  avdtp_hdr_ok tl mt sig = true ->
  avdtp_header_parse (avdtp_single_bytes tl mt sig payload) = Some ([tl; 0; mt; sig], payload).
Proof.
  intros tl mt sig payload H. apply avdtp_hdr_ok_iff in H as (_ & Hmt & Hs).
  unfold avdtp_single_bytes, avdtp_b0. cbn [avdtp_header_parse].
  rewrite (pack3_a 2 2), (pack3_b 2 2), (pack3_c 2 2), (land_small 6) by lia. reflexivity.
Qed.

Theorem avdtp_start_roundtrip : forall tl mt sig count frag,
  avdtp_hdr_ok tl mt sig = true ->
  avdtp_header_parse (avdtp_start_bytes tl mt sig count frag) = Some ([tl; 1; mt; sig; count], frag).
Proof.
  intros tl mt sig count frag H. apply avdtp_hdr_ok_iff in H as (_ & Hmt & Hs).
  unfold avdtp_start_bytes, avdtp_b0. cbn [avdtp_header_parse].
  rewrite (pack3_a 2 2), (pack3_b 2 2), (pack3_c 2 2), (land_small 6) by lia. reflexivity.
Qed.

(* received single-packet header -> the same octets, when the two RFA bits of the signal
   octet are zero *)
Theorem avdtp_single_bytes_roundtrip : forall b0 b1 p tl pt mt sig payload,
  byte_ok b0 = true -> byte_ok b1 = true ->
  avdtp_header_parse (b0 :: b1 :: p) = Some ([tl; pt; mt; sig], payload) ->
  b1 < 64 ->
  avdtp_single_bytes tl mt sig payload = b0 :: b1 :: p /\ avdtp_hdr_ok tl mt sig = true.
Proof.
  intros b0 b1 p tl pt mt sig payload H0 H1 Hp Hb1. apply byte_ok_iff in H0, H1.
  cbn [avdtp_header_parse] in Hp.
  destruct (Z.land (Z.shiftr b0 2) 3 =? 0) eqn:E0.
  - apply some_pair_inv in Hp as [Hl <-]. injection Hl as <- <- <- <-. apply Z.eqb_eq in E0.
    rewrite (land_small 6) by lia. split.
    + unfold avdtp_single_bytes. rewrite <- E0. f_equal. exact (unpack3 2 2 b0 ltac:(lia) ltac:(lia)).
    + unfold avdtp_hdr_ok. rewrite (zlt_shiftr 4 4), (zlt_land 2) by lia. apply zlt_iff. lia.
  - destruct (Z.land (Z.shiftr b0 2) 3 =? 1); [destruct p; discriminate|].
    apply some_pair_inv in Hp as [Hl _]. discriminate.
Qed.

(* EndPointInfo: each octet holds two fields above its reserved low bits *)
Theorem epi_value_roundtrip : forall p tail, epi_ok p = true -> epi_parse (epi_bytes p ++ tail) = Some p.
Proof.
  intros p tail H.
  destruct p as [|seid [|in_use [|mt [|tsep [|? ?]]]]]; try discriminate.
  cbn [epi_ok] in H. rewrite !andb_true_iff, !zlt_iff in H. destruct H as [[[_ Hi] _] Ht].
  cbn [epi_bytes app epi_parse].
  rewrite (pack2s_a 1 1), (pack2s_b 1 1), (pack2s_a 1 3), (pack2s_b 1 3) by lia. reflexivity.
Qed.

Theorem epi_bytes_roundtrip : forall b0 b1 tail p,
  byte_ok b0 = true -> byte_ok b1 = true -> epi_parse (b0 :: b1 :: tail) = Some p ->
  epi_ok p = true /\ (epi_canonical b0 b1 = true -> epi_bytes p = [b0; b1]).
Proof.
  intros b0 b1 tail p H0 H1 Hp. apply byte_ok_iff in H0, H1.
  cbn [epi_parse] in Hp. apply some_inv in Hp. subst p. split.
  - cbn [epi_ok]. rewrite (zlt_shiftr 2 6), (zlt_shiftr 4 4), !(zlt_land 1) by lia. reflexivity.
  - unfold epi_canonical. rewrite andb_true_iff, !Z.eqb_eq. intros [C0 C1].
    cbn [epi_bytes]. f_equal; [|f_equal].
    + rewrite <- (Z.lor_0_r (Z.lor _ _)), <- C0. exact (unpack3 1 1 b0 ltac:(lia) ltac:(lia)).
    + rewrite <- (Z.lor_0_r (Z.lor _ _)), <- C1. exact (unpack3 1 3 b1 ltac:(lia) ltac:(lia)).
Qed.

Lemma avctp_parse_bytes : forall tl is_command ipid pid payload b,
  avctp_bytes tl is_command ipid pid payload = Some b ->
  avctp_parse b = if is_command && ipid then Some None
                  else Some (Some (tl, is_command, ipid, pid, payload)).
Proof.
  intros tl c i pid payload b Hb. unfold avctp_bytes in Hb.
  destruct (u_range 1 _ && u_range 2 pid) eqn:E; [|discriminate]. apply some_inv in Hb. subst b.
  apply andb_true_iff in E as [_ Ep]. apply u_range_iff in Ep.
  destruct (be_encode_2_cons pid payload Ep) as (p0 & p1 & -> & D). cbn [avctp_parse].
  rewrite (pack4_a 2 1 1), (pack4_b 2 1 1), (pack4_c 2 1 1), (pack4_d 2 1 1) by (destruct c, i; cbn; lia).
  rewrite D. destruct c, i; reflexivity.
Qed.

Theorem avctp_value_roundtrip : forall tl is_command ipid pid payload b,
  0 <= tl < 16 -> (is_command && ipid) = false ->
  avctp_bytes tl is_command ipid pid payload = Some b ->
  avctp_parse b = Some (Some (tl, is_command, ipid, pid, payload)).
Proof. intros tl c i pid payload b _ Hci Hb. rewrite (avctp_parse_bytes _ _ _ _ _ _ Hb), Hci. reflexivity. Qed.

Theorem avctp_ipid_command_dropped : forall tl pid payload b,
  0 <= tl < 16 -> avctp_bytes tl true true pid payload = Some b -> avctp_parse b = Some None.
Proof. intros tl pid payload b _ Hb. exact (avctp_parse_bytes _ _ _ _ _ _ Hb). Qed.

Lemma rtp_words_encode : forall ws tail,
  forallb (u_range 4) ws = true ->
  rtp_words (length ws) (flat_map (be_encode 4) ws ++ tail) = Some (ws, tail).
Proof.
  induction ws as [|w ws IH]; intros tail H; [reflexivity|].
  cbn [forallb] in H. apply andb_true_iff in H as [Hw Hr]. apply u_range_iff in Hw.
  cbn [flat_map length]. rewrite <- app_assoc.
  destruct (be_encode_4_cons w (flat_map (be_encode 4) ws ++ tail) Hw) as (a & b & c & e & -> & <-).
  cbn [rtp_words]. rewrite IH by exact Hr. reflexivity.
Qed.

Theorem rtp_value_roundtrip : forall p, rtp_ok p = true -> rtp_parse (rtp_bytes p) = Some p.
Proof.
  intros [v pd x m sq ts ssrc cs pt pl] H. unfold rtp_ok in H.
  cbn [r_version r_padding r_extension r_marker r_seq r_ts r_ssrc r_csrc r_pt r_payload] in H.
  rewrite !andb_true_iff, !zlt_iff, !u_range_iff in H.
  destruct H as [[[[[[[[[[Hv Hp] Hx] Hm] Hsq] Hts] Hss] Hcs] Hcc] Hpt] _].
  unfold rtp_bytes. cbn [r_version r_padding r_extension r_marker r_seq r_ts r_ssrc r_csrc r_pt r_payload].
  destruct (be_encode_2_cons sq (be_encode 4 ts ++ be_encode 4 ssrc ++ flat_map (be_encode 4) cs ++ pl) Hsq)
    as (s0 & s1 & -> & <-).
  destruct (be_encode_4_cons ts (be_encode 4 ssrc ++ flat_map (be_encode 4) cs ++ pl) Hts) as (t0 & t1 & t2 & t3 & -> & <-).
  destruct (be_encode_4_cons ssrc (flat_map (be_encode 4) cs ++ pl) Hss) as (c0 & c1 & c2 & c3 & -> & <-).
  cbn [app rtp_parse].
  rewrite (pack4_d 1 1 4) by lia. change (Z.to_nat (lenZ cs)) with (Z.to_nat (Z.of_nat (length cs))).
  rewrite Nat2Z.id, rtp_words_encode by exact Hcs.
  rewrite (pack4_a 1 1 4), (pack4_b 1 1 4), (pack4_c 1 1 4), (pack_shiftr 7), (pack_land 7) by lia.
  rewrite (land_small 2), (land_small 1) by lia. reflexivity.
Qed.

Lemma rtp_words_bytes : forall n d ws rest,
  bytes_ok d = true -> rtp_words n d = Some (ws, rest) ->
  flat_map (be_encode 4) ws ++ rest = d /\ length ws = n /\ forallb (u_range 4) ws = true /\ bytes_ok rest = true.
Proof.
  induction n as [|k IH]; intros d ws rest Hok H.
  - cbn in H. apply some_pair_inv in H as [<- <-]. repeat split; try reflexivity. exact Hok.
  - cbn [rtp_words] in H. destruct d as [|a [|b [|c [|e r]]]]; try discriminate.
    destruct (rtp_words k r) as [[ws' rest']|] eqn:E; [|discriminate].
    apply some_pair_inv in H as [<- <-].
    rewrite !bytes_ok_cons in Hok. rewrite !andb_true_iff in Hok. destruct Hok as [Ha [Hb [Hc [He Hr]]]].
    destruct (IH r ws' rest' Hr E) as [H1 [H2 [H3 H4]]].
    assert (Hw : bytes_ok [a; b; c; e] = true) by (cbn; rewrite Ha, Hb, Hc, He; reflexivity).
    repeat split.
    + cbn [flat_map]. rewrite (be_encode_decode_n 4 [a; b; c; e] eq_refl Hw). cbn [app]. rewrite H1. reflexivity.
    + cbn [length]. rewrite H2. reflexivity.
    + cbn [forallb]. rewrite H3, (be_decode_u_range 4 [a; b; c; e] eq_refl Hw). reflexivity.
    + exact H4.
Qed.

(* every received packet long enough to parse re-serialises to the same octets *)
Theorem rtp_bytes_roundtrip : forall d p,
  bytes_ok d = true -> rtp_parse d = Some p -> rtp_bytes p = d /\ rtp_ok p = true.
Proof.
  intros d p Hok Hp.
  destruct d as [|b0 [|b1 [|s0 [|s1 [|t0 [|t1 [|t2 [|t3 [|c0 [|c1 [|c2 [|c3 r]]]]]]]]]]]]; try discriminate.
  cbn [rtp_parse] in Hp.
  destruct (rtp_words (Z.to_nat (Z.land b0 15)) r) as [[ws payload]|] eqn:Ew; [|discriminate].
  apply some_inv in Hp. subst p.
  change (bytes_ok ([b0; b1] ++ [s0; s1] ++ [t0; t1; t2; t3] ++ [c0; c1; c2; c3] ++ r) = true) in Hok.
  rewrite !bytes_ok_app, !andb_true_iff in Hok. destruct Hok as (H01 & Hs & Ht & Hc & Hr).
  cbn [bytes_ok forallb] in H01. rewrite !andb_true_iff, !byte_ok_iff in H01. destruct H01 as (H0 & H1 & _).
  destruct (rtp_words_bytes _ _ _ _ Hr Ew) as [W1 [W2 [W3 W4]]].
  assert (B0 : Z.lor (Z.lor (Z.lor (Z.shiftl (Z.land (Z.shiftr b0 6) 3) 6) (Z.shiftl (Z.land (Z.shiftr b0 5) 1) 5))
                            (Z.shiftl (Z.land (Z.shiftr b0 4) 1) 4)) (Z.land b0 15) = b0).
  { rewrite (land_small 2 (Z.shiftr _ 6)) by (try apply (shiftr_range 6 2); lia).
    exact (unpack4 1 1 4 b0 ltac:(lia) ltac:(lia) ltac:(lia)). }
  assert (B1 : Z.lor (Z.shiftl (Z.land (Z.shiftr b1 7) 1) 7) (Z.land b1 127) = b1).
  { rewrite (land_small 1 (Z.shiftr _ 7)) by (try apply (shiftr_range 7 1); lia).
    exact (unpack 7 b1 ltac:(lia)). }
  assert (Hcc : lenZ ws = Z.land b0 15).
  { assert (0 <= Z.land b0 15 < 16) by (apply (land_range 4); lia). unfold lenZ. rewrite W2. lia. }
  split.
  - unfold rtp_bytes. cbn [r_version r_padding r_extension r_marker r_seq r_ts r_ssrc r_csrc r_pt r_payload].
    rewrite Hcc, B0, B1.
    rewrite (be_encode_decode_n 2 [s0; s1] eq_refl Hs).
    rewrite (be_encode_decode_n 4 [t0; t1; t2; t3] eq_refl Ht).
    rewrite (be_encode_decode_n 4 [c0; c1; c2; c3] eq_refl Hc).
    cbn [app]. rewrite W1. reflexivity.
  - unfold rtp_ok. cbn [r_version r_padding r_extension r_marker r_seq r_ts r_ssrc r_csrc r_pt r_payload].
    rewrite Hcc, (zlt_land 2), !(zlt_land 1), (zlt_land 4), (zlt_land 7), W3, W4 by lia.
    rewrite (be_decode_u_range 2 [s0; s1]), !(be_decode_u_range 4) by (reflexivity || assumption). reflexivity.
Qed.
