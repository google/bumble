(* Proofs about Model/AtSkeleton.v: the outcome analysis [run] is sound for the path
   semantics [exec], which is defined here; hence line_ok s = true means that EVERY path
   through s writes exactly one final result code and ends normally or by continue. *)
From Coq Require Import List Bool Arith Lia.
From BV Require Import Model.AtSkeleton.
Import ListNotations.

(* path semantics: exec s n n' st  — started with n final result codes written, some
   path through s ends with n' written and status st *)
Inductive exec : sk -> nat -> nat -> status -> Prop :=
| E_skip n : exec Skip n n Norm
| E_final n : exec Final n (S n) Norm
| E_may_ok n : exec May n n Norm
| E_may_exc n : exec May n n Exc
| E_ret n : exec Ret n n Retd
| E_cont n : exec Cont n n Contd
| E_seq a b n m k st : exec a n m Norm -> exec b m k st -> exec (Seq a b) n k st
| E_seq_stop a b n m st : exec a n m st -> st <> Norm -> exec (Seq a b) n m st
| E_alt_l a b n m st : exec a n m st -> exec (Alt a b) n m st
| E_alt_r a b n m st : exec b n m st -> exec (Alt a b) n m st
| E_loop_done a n : exec (Loop a) n n Norm
| E_loop_next a n m k st : exec a n m Norm -> exec (Loop a) m k st -> exec (Loop a) n k st
| E_loop_cont a n m k st : exec a n m Contd -> exec (Loop a) m k st -> exec (Loop a) n k st
| E_loop_stop a n m st : exec a n m st -> st <> Norm -> st <> Contd -> exec (Loop a) n m st
| E_try_ok a h n m st : exec a n m st -> st <> Exc -> exec (Try a h) n m st
| E_try_exc a h n m k st : exec a n m Exc -> exec h m k st -> exec (Try a h) n k st
| E_fn a n m st : exec a n m st -> st <> Retd -> st <> Contd -> exec (Fn a) n m st
| E_fn_ret a n m : exec a n m Retd -> exec (Fn a) n m Norm
| E_reset : exec Reset 0 0 Norm      (* only meaningful before any final result code *)
| E_guard_none : exec FinalIfNone 0 1 Norm
| E_guard_some n : exec FinalIfNone (S n) (S n) Norm.

Lemma exec_not_unk s n m st : exec s n m st -> st <> Unk.
Proof. induction 1; congruence. Qed.

Lemma no_unk_In l o : no_unk l = true -> In o l -> snd o <> Unk.
Proof.
  unfold no_unk. rewrite forallb_forall. intros H Hi E. specialize (H o Hi).
  rewrite E in H. discriminate.
Qed.

Lemma no_unk_app a b : no_unk (a ++ b) = no_unk a && no_unk b.
Proof. unfold no_unk. apply forallb_app. Qed.

Lemma no_unk_flat_map {f : nat * status -> list (nat * status)} l :
  no_unk (flat_map f l) = true -> forall o, In o l -> no_unk (f o) = true.
Proof.
  induction l as [|x l IH]; cbn; intros H o Hi; [contradiction|].
  rewrite no_unk_app in H. apply andb_prop in H as [H1 H2].
  destruct Hi as [->|Hi]; auto.
Qed.

(* a list that passes a test no Unk outcome passes holds no Unk *)
Lemma no_unk_weaken (p : nat * status -> bool) l :
  (forall o, p o = true -> snd o <> Unk) -> forallb p l = true -> no_unk l = true.
Proof.
  intros Hp H. unfold no_unk. rewrite forallb_forall in *. intros o Ho.
  specialize (Hp o (H o Ho)). destruct (snd o); try reflexivity. congruence.
Qed.

(* Seq and Try pass an Unk outcome of their first part on unchanged *)
Lemma no_unk_bind (k : nat * status -> list (nat * status)) l :
  (forall o, snd o = Unk -> k o = [o]) -> no_unk (flat_map k l) = true -> no_unk l = true.
Proof.
  intros Hk H. unfold no_unk. apply forallb_forall. intros o Ho.
  destruct (snd o) eqn:E; try reflexivity.
  pose proof (no_unk_flat_map l H o Ho) as H1. rewrite (Hk o E) in H1. cbn in H1.
  rewrite E in H1. discriminate.
Qed.

Definition fn_map (o : nat * status) : nat * status :=
  match snd o with Retd => (fst o, Norm) | Contd => (fst o, Unk) | _ => o end.

Lemma no_unk_fn l : no_unk (map fn_map l) = true -> no_unk l = true.
Proof.
  unfold no_unk. induction l as [|[k st] l IH]; cbn [map forallb]; [reflexivity|]. intros H.
  apply andb_prop in H as [H1 H2]. rewrite (IH H2), andb_true_r.
  destruct st; cbn in *; try reflexivity; discriminate.
Qed.

(* soundness of the analysis *)
Lemma run_sound : forall s n m st,
  exec s n m st -> no_unk (run s n) = true -> In (m, st) (run s n).
Proof.
  intros s n m st H. induction H; intros Hu; cbn [run] in *;
    (* the body of a loop: no Unk, and the paths that go round leave the count alone *)
    try (destruct (forallb _ (run a n)) eqn:Ef; [|discriminate];
         pose proof Ef as Ef0; pose proof Ef as Hua;
         (apply no_unk_weaken in Hua; [|intros o Ho E; rewrite E in Ho; discriminate]);
         rewrite forallb_forall in Ef);
    (* the first part of a Seq or Try: no Unk *)
    try (pose proof Hu as Hua; apply no_unk_bind in Hua; [|intros o E; rewrite E; reflexivity]);
    try (left; reflexivity).
  - right; left; reflexivity.
  - (* seq *)
    specialize (IHexec1 Hua). apply in_flat_map. exists (m, Norm). split; [exact IHexec1|].
    cbn. apply IHexec2. exact (no_unk_flat_map _ Hu (m, Norm) IHexec1).
  - specialize (IHexec Hua). apply in_flat_map. exists (m, st). split; [exact IHexec|].
    cbn. destruct st; try congruence; left; reflexivity.
  - rewrite no_unk_app in Hu. apply andb_prop in Hu as [H1 H2]. apply in_or_app. left; auto.
  - rewrite no_unk_app in Hu. apply andb_prop in Hu as [H1 H2]. apply in_or_app. right; auto.
  - (* loop next *)
    pose proof (Ef _ (IHexec1 Hua)) as Em. apply Nat.eqb_eq in Em. cbn in Em. subst m.
    rewrite Ef0 in IHexec2. apply IHexec2. exact Hu.
  - (* loop continue *)
    pose proof (Ef _ (IHexec1 Hua)) as Em. apply Nat.eqb_eq in Em. cbn in Em. subst m.
    rewrite Ef0 in IHexec2. apply IHexec2. exact Hu.
  - (* loop stop *)
    right. apply filter_In. split; [exact (IHexec Hua)|]. cbn. destruct st; congruence.
  - (* try, no exception *)
    specialize (IHexec Hua). apply in_flat_map. exists (m, st). split; [exact IHexec|].
    cbn. destruct st; try congruence; left; reflexivity.
  - specialize (IHexec1 Hua). apply in_flat_map. exists (m, Exc). split; [exact IHexec1|].
    cbn. apply IHexec2. exact (no_unk_flat_map _ Hu (m, Exc) IHexec1).
  - (* fn *)
    specialize (IHexec (no_unk_fn _ Hu)). apply in_map_iff. exists (m, st).
    split; [|exact IHexec]. cbn. destruct st; congruence.
  - specialize (IHexec (no_unk_fn _ Hu)). apply in_map_iff. exists (m, Retd).
    split; [reflexivity|exact IHexec].
Qed.

Lemma line_ok_no_unk s : line_ok s = true -> no_unk (run s 0) = true.
Proof.
  apply no_unk_weaken. intros o Ho E. rewrite E, andb_false_r in Ho. discriminate.
Qed.

(* every path through a skeleton that passes line_ok writes exactly one final result
   code and ends normally (or with continue) *)
Lemma line_exactly_one s :
  line_ok s = true -> forall n st, exec s 0 n st -> n = 1 /\ (st = Norm \/ st = Contd).
Proof.
  intros Hok n st He.
  pose proof (run_sound s 0 n st He (line_ok_no_unk s Hok)) as Hi.
  unfold line_ok in Hok. rewrite forallb_forall in Hok. specialize (Hok _ Hi). cbn in Hok.
  apply andb_prop in Hok as [H1 H2]. apply Nat.eqb_eq in H1.
  split; [exact H1|]. destruct st; try discriminate; auto.
Qed.

Lemma table_exactly_one (line : sk -> sk) (hs : list handler) :
  forallb (fun h => line_ok (line (h_body h))) hs = true ->
  forall h, In h hs -> forall n st, exec (line (h_body h)) 0 n st -> n = 1 /\ (st = Norm \/ st = Contd).
Proof.
  intros H h Hh. rewrite forallb_forall in H. apply line_exactly_one. apply H. exact Hh.
Qed.
