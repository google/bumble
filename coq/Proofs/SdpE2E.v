(* End to end: what Client.get_attributes / search_attributes hand to the caller is exactly the selected
   attributes (id, value) of the record table -- chunking (Proofs/Sdp.v) composed with the DataElement
   round trip of property C18 (Proofs/CodecsSdp.v, used read-only). *)
From Coq Require Import ZArith List Bool Lia.
From BV Require Import Base.Bytes Model.CodecsBase Model.CodecsSdp Model.C19Chunks Model.Sdp Model.SdpE2E.
From BV Require Import Proofs.CodecsBase Proofs.CodecsSdp Proofs.C19Chunks Proofs.Sdp.
Import ListNotations.
Open Scope Z_scope.

Lemma zlen_lenZ : forall A (l : list A), zlen l = lenZ l.
Proof. reflexivity. Qed.

Lemma be16_be_encode : forall n, 0 <= n <= 65535 -> be_encode 2 n = be16 n.
Proof.
  intros n H. unfold be_encode, be16. cbn [le_encode rev app].
  rewrite (Z.mod_small (n / 256) 256); [reflexivity|].
  split; [apply Z.div_pos; lia|apply Z.div_lt_upper_bound; lia].
Qed.

Lemma be32_be_encode : forall n, 0 <= n <= 4294967295 -> be_encode 4 n = be32 n.
Proof.
  intros n H. unfold be_encode, be32. cbn [le_encode rev app].
  assert (E3 : n / 256 / 256 / 256 = n / 16777216) by (rewrite !Z.div_div by lia; reflexivity).
  assert (E2 : n / 256 / 256 = n / 65536) by (rewrite Z.div_div by lia; reflexivity).
  rewrite E3, E2.
  rewrite (Z.mod_small (n / 16777216) 256); [reflexivity|].
  split; [apply Z.div_pos; lia|apply Z.div_lt_upper_bound; lia].
Qed.

Lemma seq_bytes_var_header : forall data,
  zlen data <= 4294967295 -> var_header 6 data = Some (seq_bytes data).
Proof.
  intros data H. unfold var_header, seq_bytes. rewrite <- zlen_lenZ.
  pose proof (zlen_nonneg _ data) as Hn.
  destruct (zlen data <=? 255) eqn:E1; [reflexivity|].
  destruct (zlen data <=? 65535) eqn:E2.
  - apply Z.leb_le in E2. rewrite be16_be_encode by lia. reflexivity.
  - apply Z.leb_le in H. rewrite H. apply Z.leb_le in H. rewrite be32_be_encode by lia. reflexivity.
Qed.

Lemma encode_id_elem : forall id, 0 <= id <= 65535 -> encode (id_elem id) = Some (uint16_bytes id).
Proof.
  intros id H. unfold id_elem, uint16_bytes. cbn [encode].
  assert (E : ((0 <=? id) && int_size_ok 2 && u_range (Z.to_nat 2) id) = true).
  { unfold u_range, pow256. change (256 ^ Z.of_nat (Z.to_nat 2)) with 65536.
    repeat rewrite andb_true_iff. repeat split; try reflexivity; try (apply Z.leb_le; lia). apply Z.ltb_lt. lia. }
  rewrite E. change (fixed_index 2) with (Some 1). change (hdr 1 1) with 9.
  change (Z.to_nat 2) with 2%nat. rewrite be16_be_encode by lia. reflexivity.
Qed.

Lemma zlen_seq_bytes_ge : forall d, zlen d <= zlen (seq_bytes d).
Proof.
  intro d. unfold seq_bytes. destruct (zlen d <=? 255); [rewrite !zlen_cons; lia|].
  destruct (zlen d <=? 65535); rewrite zlen_cons, zlen_app;
    [pose proof (zlen_nonneg _ (be16 (zlen d)))|pose proof (zlen_nonneg _ (be32 (zlen d)))]; lia.
Qed.

Lemma encode_seq_bytes : forall l d,
  encode_list l = Some d -> zlen (seq_bytes d) <= 4294967295 -> encode (ESeq l) = Some (seq_bytes d).
Proof.
  intros l d He Hsz. rewrite encode_seq, He. apply seq_bytes_var_header.
  pose proof (zlen_seq_bytes_ge d). lia.
Qed.

(* the C18 round trip for a SEQUENCE whose serialisation is known *)
Lemma seq_roundtrip : forall max_depth l d,
  encode_list l = Some d -> zlen (seq_bytes d) <= 4294967295 -> list_bytes_ok l = true ->
  (S (list_depth l) <= max_depth)%nat ->
  from_bytes max_depth (seq_bytes d) = POk (ESeq l) (lenZ (seq_bytes d)) (seq_bytes d) true.
Proof.
  intros max_depth l d He Hsz Hb Hd. pose proof (encode_seq_bytes l d He Hsz) as Henc.
  apply sdp_value_roundtrip; [|exact Henc].
  unfold elem_ok. rewrite elem_bytes_ok_seq, elem_depth_seq, Hb, Henc. apply Nat.leb_le in Hd. now rewrite Hd.
Qed.

Section Typed.
Variable max_depth : nat.
Variable tv : attr -> elem.

Lemma encode_attr_elems : forall l,
  (forall a, In a l -> attr_typed max_depth tv a) ->
  encode_list (attr_elems tv l) = Some (flat_map (fun a => uint16_bytes (at_id a) ++ at_bytes a) l).
Proof.
  induction l as [|a l IH]; intro H; [reflexivity|].
  destruct (H a (or_introl eq_refl)) as (He & _ & _ & Hid).
  cbn [attr_elems encode_list flat_map].
  rewrite (encode_id_elem _ Hid), He, (IH (fun x Hx => H x (or_intror Hx))).
  rewrite <- app_assoc. reflexivity.
Qed.

Lemma attr_elems_ok : forall l,
  (forall a, In a l -> attr_typed max_depth tv a) ->
  list_bytes_ok (attr_elems tv l) = true /\ (S (S (list_depth (attr_elems tv l))) <= max_depth \/ l = [])%nat.
Proof.
  induction l as [|a l IH]; intro H; [split; [reflexivity|right; reflexivity]|].
  destruct (H a (or_introl eq_refl)) as (_ & Hb & Hd & _).
  destruct (IH (fun x Hx => H x (or_intror Hx))) as [Hb' Hd'].
  cbn [attr_elems list_bytes_ok list_depth]. split.
  - change (elem_bytes_ok (id_elem (at_id a))) with true. rewrite Hb, Hb'. reflexivity.
  - left. change (elem_depth (id_elem (at_id a))) with 0%nat. destruct Hd' as [Hd' | ->]; cbn [attr_elems list_depth]; lia.
Qed.

Lemma list_from_attr_elems : forall l, list_from_data_elements (attr_elems tv l) = typed tv l.
Proof. induction l as [|a l IH]; [reflexivity|]. cbn [attr_elems list_from_data_elements id_elem typed map]. rewrite IH. reflexivity. Qed.

(* one attribute list: the server's bytes are the encoding of SEQUENCE [UINT16 id, value, ...] *)
Lemma encode_attr_list : forall l,
  (forall a, In a l -> attr_typed max_depth tv a) -> zlen (attr_list_bytes l) <= 4294967295 ->
  encode (attr_list_elem tv l) = Some (attr_list_bytes l).
Proof.
  intros l H Hsz. apply encode_seq_bytes; [now apply encode_attr_elems|exact Hsz].
Qed.

(* Client.get_attributes, end to end *)
Theorem get_attributes_end_to_end : forall recs mtu cur h ids svc,
  lookup_record h recs = Some svc -> 10 <= mtu -> (1 <= max_depth)%nat ->
  (forall a, In a svc -> attr_typed max_depth tv a) ->
  zlen (attr_list_bytes (get_service_attributes svc ids)) <= 64 * capacity mtu ->
  exists acc,
    client_get_attributes recs mtu cur h ids = (RNone, CDoneBytes acc) /\
    client_parse_attributes max_depth acc = PValue (typed tv (get_service_attributes svc ids)).
Proof.
  intros recs mtu cur h ids svc Hl Hmtu Hm Ht Hsz.
  set (sel := get_service_attributes svc ids) in *.
  exists (attr_list_bytes sel). split; [apply get_attributes_exact; assumption|].
  assert (Hsel : forall a, In a sel -> attr_typed max_depth tv a).
  { intros a Ha. apply Ht. apply (proj1 (get_service_attributes_spec svc ids)) in Ha. tauto. }
  destruct (attr_elems_ok sel Hsel) as [Hb Hd].
  unfold client_parse_attributes, attr_list_bytes.
  rewrite (seq_roundtrip max_depth (attr_elems tv sel)), list_from_attr_elems; try reflexivity.
  - now apply encode_attr_elems.
  - fold (attr_list_bytes sel). unfold capacity in Hsz. lia.
  - exact Hb.
  - destruct Hd as [Hd| ->]; [lia|exact Hm].
Qed.

Lemma encode_attr_lists : forall ls,
  (forall l, In l ls -> (forall a, In a l -> attr_typed max_depth tv a) /\ zlen (attr_list_bytes l) <= 4294967295) ->
  encode_list (map (attr_list_elem tv) ls) = Some (flat_map attr_list_bytes ls).
Proof.
  induction ls as [|l ls IH]; intro H; [reflexivity|].
  destruct (H l (or_introl eq_refl)) as [Ht Hs]. cbn [map encode_list flat_map].
  rewrite (encode_attr_list l Ht Hs), (IH (fun x Hx => H x (or_intror Hx))). reflexivity.
Qed.

Lemma attr_lists_ok : forall ls,
  (forall l, In l ls -> l <> [] /\ forall a, In a l -> attr_typed max_depth tv a) ->
  list_bytes_ok (map (attr_list_elem tv) ls) = true /\
  (S (list_depth (map (attr_list_elem tv) ls)) <= max_depth \/ ls = [])%nat.
Proof.
  induction ls as [|l ls IH]; intro H; [split; [reflexivity|right; reflexivity]|].
  destruct (H l (or_introl eq_refl)) as [Hne Ht].
  destruct (IH (fun x Hx => H x (or_intror Hx))) as [Hb' Hd'].
  destruct (attr_elems_ok l Ht) as [Hb Hd]. destruct Hd as [Hd|Hd]; [|congruence].
  cbn [map list_bytes_ok list_depth]. unfold attr_list_elem at 1 3. rewrite elem_bytes_ok_seq, elem_depth_seq.
  split; [rewrite Hb, Hb'; reflexivity|]. left. destruct Hd' as [Hd' | ->]; cbn [map list_depth]; lia.
Qed.

Lemma lists_from_attr_lists : forall ls,
  flat_map (fun s => match s with ESeq x => [list_from_data_elements x] | _ => [] end) (map (attr_list_elem tv) ls)
  = map (typed tv) ls.
Proof.
  induction ls as [|l ls IH]; [reflexivity|]. cbn [map flat_map]. unfold attr_list_elem at 1.
  rewrite list_from_attr_elems, IH. reflexivity.
Qed.

Lemma zlen_flat_map_le : forall (ls : list (list attr)) l,
  In l ls -> zlen (attr_list_bytes l) <= zlen (flat_map attr_list_bytes ls).
Proof.
  induction ls as [|x ls IH]; intros l H; [destruct H|]. cbn [flat_map]. rewrite zlen_app.
  destruct H as [->|H].
  - pose proof (zlen_nonneg _ (flat_map attr_list_bytes ls)). lia.
  - pose proof (IH l H). pose proof (zlen_nonneg _ (attr_list_bytes x)). lia.
Qed.

(* Client.search_attributes, end to end: one list per matching record that has a requested attribute *)
Theorem search_attributes_end_to_end : forall recs mtu cur pat ids,
  10 <= mtu -> (1 <= max_depth)%nat ->
  (forall h svc a, In (h, svc) recs -> In a svc -> attr_typed max_depth tv a) ->
  zlen (search_attr_bytes recs pat ids) <= 64 * capacity mtu ->
  exists acc,
    client_search_attributes recs mtu cur pat ids = (RNone, CDoneBytes acc) /\
    client_parse_attribute_lists max_depth acc = PValue (map (typed tv) (search_attr_lists recs pat ids)).
Proof.
  intros recs mtu cur pat ids Hmtu Hm Ht Hsz.
  exists (search_attr_bytes recs pat ids). split; [apply search_attributes_exact; assumption|].
  set (ls := search_attr_lists recs pat ids).
  assert (Hbytes : search_attr_bytes recs pat ids = seq_bytes (flat_map attr_list_bytes ls)) by reflexivity.
  assert (Hls : forall l, In l ls -> l <> [] /\ forall a, In a l -> attr_typed max_depth tv a).
  { intros l Hl. unfold ls, search_attr_lists in Hl. apply filter_In in Hl. destruct Hl as [Hl Hne].
    split; [destruct l; [discriminate|discriminate]|].
    apply in_map_iff in Hl. destruct Hl as ([h svc] & <- & Hin). cbn [snd].
    intros a Ha. apply (proj1 (get_service_attributes_spec svc ids)) in Ha.
    apply (proj1 (match_iff_all_uuids recs pat h svc)) in Hin. exact (Ht h svc a (proj1 Hin) (proj1 Ha)). }
  assert (H32 : zlen (seq_bytes (flat_map attr_list_bytes ls)) <= 4294967295).
  { rewrite <- Hbytes. unfold capacity in Hsz. lia. }
  destruct (attr_lists_ok ls Hls) as [Hb Hd].
  unfold client_parse_attribute_lists. rewrite Hbytes.
  rewrite (seq_roundtrip max_depth (map (attr_list_elem tv) ls)), lists_from_attr_lists; try reflexivity; try assumption.
  - apply encode_attr_lists. intros l Hl. split; [exact (proj2 (Hls l Hl))|].
    pose proof (zlen_flat_map_le ls l Hl). pose proof (zlen_seq_bytes_ge (flat_map attr_list_bytes ls)). lia.
  - destruct Hd as [Hd| ->]; [exact Hd|exact Hm].
Qed.

End Typed.
