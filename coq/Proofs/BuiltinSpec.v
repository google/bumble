(* C14 - end-to-end statements for the built-in back end: ah, c1, s1 computed with the
   built-in e equal the Core Vol 3 Part H formulas over FIPS-197 AES-128 (e_spec), for all
   arguments of the Security Manager sizes. *)
From Coq Require Import ZArith List Bool Lia ZifyBool.
From BV Require Import Gen.C14Tables Model.CryptoBytes Model.Aes Model.Cmac Model.SmToolbox Model.CryptoBuiltin.
From BV Require Import Proofs.CryptoBytes Proofs.Cmac Proofs.Aes Proofs.AesSpec Proofs.SmToolbox.
Import ListNotations.
Open Scope Z_scope.

(* the built-in e on 16-byte operands: total, 16 bytes, equal to FIPS-197 AES-128 *)
Lemma e_total_spec : forall k d,
  length k = 16%nat -> bytes_ok k = true -> length d = 16%nat -> bytes_ok d = true ->
  e_total k d = e_spec k d /\ length (e_total k d) = 16%nat /\ bytes_ok (e_total k d) = true.
Proof.
  intros k d Hk Hko Hd Hdo.
  assert (He : e_total k d = e_spec k d).
  { unfold e_total. rewrite e_builtin_is_aes128 by assumption. reflexivity. }
  split; [exact He|].
  unfold e_total, e_builtin.
  destruct (aes128_key_schedule_is_fips197 (rev k)) as (ke & Hi & _ & Hlen);
    [rewrite rev_length; assumption|rewrite bytes_ok_rev; assumption|].
  rewrite Hi. cbn [unopt]. change (ecb_encrypt ke (rev d)) with (ecb (aes_block ke) (rev d)).
  rewrite ecb_block, rev_length, bytes_ok_rev by (rewrite rev_length; assumption).
  apply aes_block_shape; [lia|rewrite rev_length; assumption].
Qed.

(* 2.2.2 *)
Theorem builtin_ah_is_core_spec : forall k r,
  length k = 16%nat -> bytes_ok k = true -> length r = 3%nat -> bytes_ok r = true ->
  rev (b_ah k r) = spec_ah e_spec (rev k) (rev r).
Proof.
  intros k r Hk Hko Hr Hro. rewrite <- ah_spec. f_equal. unfold b_ah, ah.
  destruct (e_total_spec k (r ++ zeros 13)) as (He & _); auto.
  - rewrite app_length, length_zeros. lia.
  - rewrite bytes_ok_app, Hro, bytes_ok_zeros. reflexivity.
  - rewrite He. reflexivity.
Qed.

(* 2.2.4 *)
Theorem builtin_s1_is_core_spec : forall k r1 r2,
  length k = 16%nat -> bytes_ok k = true ->
  (8 <= length r1)%nat -> bytes_ok r1 = true -> (8 <= length r2)%nat -> bytes_ok r2 = true ->
  rev (b_s1 k r1 r2) = spec_s1 e_spec (rev k) (rev r1) (rev r2).
Proof.
  intros k r1 r2 Hk Hko H1 H1o H2 H2o. rewrite <- s1_spec. f_equal. unfold b_s1, s1.
  destruct (e_total_spec k (py_slice r2 0 8 ++ py_slice r1 0 8)) as (He & _); auto.
  - rewrite !py_slice_0 by lia. rewrite app_length, !firstn_length. change (Z.to_nat 8) with 8%nat. lia.
  - rewrite !py_slice_0 by lia. rewrite bytes_ok_app, !bytes_ok_firstn by assumption. reflexivity.
Qed.

(* 2.2.3: defined and equal to the formula *)
Theorem builtin_c1_is_core_spec : forall k r preq pres iat rat ia ra,
  length k = 16%nat -> bytes_ok k = true -> length r = 16%nat -> bytes_ok r = true ->
  length preq = 7%nat -> bytes_ok preq = true -> length pres = 7%nat -> bytes_ok pres = true ->
  length ia = 6%nat -> bytes_ok ia = true -> length ra = 6%nat -> bytes_ok ra = true ->
  bytes_ok [iat; rat] = true ->
  exists out, b_c1 k r preq pres iat rat ia ra = Some out /\
    rev out = spec_c1 e_spec (rev k) (rev r) (rev preq) (rev pres) iat rat (rev ia) (rev ra).
Proof.
  intros k r preq pres iat rat ia ra Hk Hko Hr Hro Hq Hqo Hs Hso Hia Hiao Hra Hrao Hb.
  set (p1 := [iat; rat] ++ preq ++ pres). set (p2 := ra ++ ia ++ [0; 0; 0; 0]).
  assert (Hp1 : length p1 = 16%nat) by (unfold p1; rewrite !app_length; cbn [length]; lia).
  assert (Hp2 : length p2 = 16%nat) by (unfold p2; rewrite !app_length; cbn [length]; lia).
  assert (Hp1o : bytes_ok p1 = true) by (unfold p1; rewrite !bytes_ok_app, Hb, Hqo, Hso; reflexivity).
  assert (Hp2o : bytes_ok p2 = true) by (unfold p2; rewrite !bytes_ok_app, Hrao, Hiao; reflexivity).
  destruct (e_total_spec k (xor_zip r p1)) as (He1 & Hl1 & Ho1);
    auto using xor_zip_length_eq, xor_zip_ok.
  destruct (e_total_spec k (xor_zip (e_total k (xor_zip r p1)) p2)) as (He2 & _);
    auto using xor_zip_length_eq, xor_zip_ok.
  eexists. split.
  - apply c1_eq; assumption.
  - apply c1_spec. fold p1 p2. rewrite He2, He1. apply c1_eq; auto. fold p1. rewrite <- He1. exact Hl1.
Qed.
