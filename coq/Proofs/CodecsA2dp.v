(* Proofs/CodecsA2dp.v — round trips of the A2DP codec information elements. *)
From Coq Require Import ZArith List Bool Lia.
From BV Require Import Base.Bytes Proofs.Bytes Model.CodecsBase Proofs.CodecsBase Proofs.BitFields Model.CodecsAv Proofs.CodecsAv Model.CodecsA2dp.
Import ListNotations.
Open Scope Z_scope.

Theorem sbc_value_roundtrip : forall p tail, sbc_ok p = true -> sbc_parse (sbc_bytes p ++ tail) = Some p /\ bytes_ok (sbc_bytes p) = true.
Proof.
  intros p tail H. destruct p as [|sf [|cm [|bl [|sb [|am [|mn [|mx [|? ?]]]]]]]]; try discriminate.
  cbn [sbc_ok] in H. rewrite !andb_true_iff, !zlt_iff in H. destruct H as [[[[[[Hsf Hcm] Hbl] Hsb] Ham] Hmn] Hmx].
  split.
  - cbn [sbc_bytes app sbc_parse]. rewrite !Z.shiftr_0_r.
    rewrite (pack_shiftr 4), (pack_land 4), (pack3_a 2 2), (pack3_b 2 2), (pack3_c 2 2) by lia.
    rewrite !(land_small 4), !(land_small 8) by lia. reflexivity.
  - cbn [sbc_bytes bytes_ok forallb]. rewrite !andb_true_iff.
    repeat split; apply byte_ok_iff; [apply (pack_range 4 sf cm) with (n := 4) | apply (pack3_range 2 2) with (i := 4) | |]; lia.
Qed.

(* every four received octets re-serialise identically: SBC has no reserved bits *)
Theorem sbc_bytes_roundtrip : forall d0 d1 d2 d3 tail p,
  bytes_ok [d0; d1; d2; d3] = true -> sbc_parse (d0 :: d1 :: d2 :: d3 :: tail) = Some p ->
  sbc_bytes p = [d0; d1; d2; d3] /\ sbc_ok p = true.
Proof.
  intros d0 d1 d2 d3 tail p Hok Hp. cbn [sbc_parse] in Hp. apply some_inv in Hp. subst p.
  cbn [bytes_ok forallb] in Hok. rewrite !andb_true_iff, !byte_ok_iff in Hok. destruct Hok as [H0 [H1 [H2 [H3 _]]]].
  rewrite !Z.shiftr_0_r. split.
  - cbn [sbc_bytes]. rewrite !(land_small 4 (Z.shiftr _ 4)) by (try apply (shiftr_range 4 4); lia).
    rewrite !(land_small 8) by lia. f_equal; [|f_equal].
    + exact (unpack 4 d0 ltac:(lia)).
    + exact (unpack3 2 2 d1 ltac:(lia) ltac:(lia)).
  - cbn [sbc_ok]. rewrite !(zlt_land 4), !(zlt_land 2), !(zlt_land 8) by lia. reflexivity.
Qed.

Lemma land_255 : forall x, 0 <= x < 2 ^ 8 -> Z.land x 255 = x.
Proof. intros x H. exact (land_small 8 x ltac:(lia) H). Qed.

(* sampling frequency (12 bits) and bit rate (23 bits) straddle octets: written as the fields
   [x >> k] and [x & mask] of the value, they come back by [unpack] *)
Theorem aac_value_roundtrip : forall p tail, aac_ok p = true -> aac_parse (aac_bytes p ++ tail) = Some p /\ bytes_ok (aac_bytes p) = true.
Proof.
  intros p tail H. destruct p as [|ot [|sf [|ch [|vbr [|br [|? ?]]]]]]; try discriminate.
  cbn [aac_ok] in H. rewrite !andb_true_iff, !zlt_iff in H. destruct H as [[[[Hot Hsf] Hch] Hvbr] Hbr].
  assert (R1 : 0 <= Z.shiftr sf 4 < 2 ^ 8) by (apply (shiftr_range 4 8); lia).
  assert (R2 : 0 <= Z.lor (Z.shiftl (Z.land sf 15) 4) (Z.shiftl ch 2) < 2 ^ 8)
    by (apply (pack2s_range 2 2) with (i := 4); try apply (land_range 4); lia).
  assert (R3 : 0 <= Z.lor (Z.shiftl vbr 7) (Z.land (Z.shiftr br 16) 127) < 2 ^ 8)
    by (apply (pack_range 7) with (n := 1); try apply (land_range 7); lia).
  assert (R4 : 0 <= Z.land (Z.shiftr br 8) 255 < 2 ^ 8) by (apply (land_range 8); lia).
  assert (R5 : 0 <= Z.land br 255 < 2 ^ 8) by (apply (land_range 8); lia).
  cbn [aac_bytes].
  rewrite (land_255 ot), (land_255 (Z.shiftr sf 4)), (land_255 (Z.lor _ (Z.shiftl ch 2))),
    (land_255 (Z.lor (Z.shiftl vbr 7) _)), (land_255 (Z.land _ 255)) by (assumption || lia).
  split.
  - cbn [app aac_parse].
    rewrite (pack2s_a 2 2), (pack2s_b 2 2), (pack_shiftr 7), (pack_land 7) by (try apply (land_range 7); lia).
    rewrite (land_small 4 (Z.land _ 15)), (land_small 1), (land_small 7)
      by (try apply (land_range 4); try apply (shiftr_range 16 7); lia).
    repeat f_equal; [exact (unpack 4 sf ltac:(lia)) | exact (unpack3 8 8 br ltac:(lia) ltac:(lia))].
  - cbn [bytes_ok forallb]. rewrite !andb_true_iff. repeat split; apply byte_ok_iff; assumption || lia.
Qed.
