(* Property C06: the virtual link connects the right peers and delivers only between them.
   The statements; a proof is a lemma of the Proofs/Link*.v files, a few lines from such lemmas, or
   (examples and refutations) a witness schedule that is evaluated.

   The system (Model/Link.v) is any number of controllers on one link; a schedule is any
   list of labels (host commands, advertising timer ticks, deliveries of messages in
   flight, FIFO per ordered pair of controllers).  Hypotheses are boolean:
     cfg_ok cfg              the addresses of the configuration are pairwise distinct
     run_ok guard_static     no controller changes its addresses after power-on
   and, for the symmetry of the tables,
     run_ok guard_sym        additionally, LE connections between two controllers are made
                             and torn down one at a time (nothing in flight between them when
                             one is created or disconnected) and the addressee of a ConnectInd
                             has a free handle (see docs/C06.md). *)
From Coq Require Import ZArith List Bool.
From BV Require Import Model.Link Proofs.Link Proofs.LinkDyn Proofs.LinkSym Proofs.LinkSymCl Proofs.LinkSymCl2 Gen.C06Handles Proofs.LinkHandles Gen.C06Shape Proofs.LinkShape.
Import ListNotations.
Open Scope Z_scope.

(* ---------------------------------------------------------------- invariant of all reachable states *)
(* per controller: table keys unique, LE handles >= 1, no two live connections (LE or
   BR/EDR) share a handle; self addresses of LE connections are addresses of the
   controller; every message in flight carries an address of its sender; no two
   controllers own the same address *)
Theorem C06_reachable_invariant : forall cfg ls, cfg_ok cfg = true ->
  run_ok guard_static (init cfg) ls = true -> ginv (run_state (init cfg) ls).
Proof. intros cfg ls H. apply (run_invariant ginv guard_static ginv_step). now apply ginv_init. Qed.
Print Assumptions C06_reachable_invariant.

(* The routing invariant [rinv] (per-controller table invariants, own addresses of LE connections
   and public addresses unique across controllers) is all the routing theorems below need.  It
   holds in every state reachable under the static hypotheses, and also under the weaker
   [guard_fresh]: a controller may change its random address at any time, also while connected,
   and advertising sets may have random addresses of their own, as long as no other controller
   uses the new address.  Routing keeps working because it goes by the own address the connection
   was made with, not by the controller's current address. *)
Theorem C06_reachable_routing_invariant : forall cfg ls, cfg_ok cfg = true ->
  run_ok guard_fresh (init cfg) ls = true -> rinv (run_state (init cfg) ls).
Proof.
  intros cfg ls H G. apply dinv_rinv, (run_invariant dinv guard_fresh dinv_step); [now apply dinv_init | exact G].
Qed.
Print Assumptions C06_reachable_routing_invariant.

Theorem C06_static_invariant_gives_routing_invariant : forall s, ginv s -> rinv s.
Proof. exact ginv_rinv. Qed.
Print Assumptions C06_static_invariant_gives_routing_invariant.

(* handle allocation: the smallest handle in 1..0xEFF not used by a live link of any kind;
   [handles c] ranges over the LE and BR/EDR connections, the SCO / eSCO links and the CIS
   links of the controller *)
Theorem C06_handles_cover_every_link_table : forall c,
  handles c = map k_handle (c_le c) ++ map k_handle (c_cl c) ++ map k_handle (c_sco c) ++ map cis_handle (c_cis c).
Proof. intro c. exact eq_refl. Qed.
Print Assumptions C06_handles_cover_every_link_table.

(* regenerated from bumble/controller.py on every run: allocate_connection_handle consults
   every table in which a connection handle can be resolved (find_*_by_handle), and the model
   knows exactly those tables (peripheral_cis_links stays empty under the modelled labels) *)
Theorem C06_alloc_consults_every_handle_table :
  forallb (fun t => smem t code_alloc_tables) code_handle_tables = true.
Proof. vm_compute. reflexivity. Qed.
Print Assumptions C06_alloc_consults_every_handle_table.

Theorem C06_model_knows_every_handle_table :
  forallb (fun t => smem t (model_handle_tables ++ model_always_empty)) code_handle_tables = true
  /\ forallb (fun t => smem t code_handle_tables) (model_handle_tables ++ model_always_empty) = true.
Proof. vm_compute. split; reflexivity. Qed.
Print Assumptions C06_model_knows_every_handle_table.

(* the smallest free handle *)
Theorem C06_handle_allocation : forall c h, alloc c = Some h ->
  ~ In h (handles c) /\ 1 <= h <= max_handle /\ (forall x, 1 <= x < h -> In x (handles c)).
Proof. exact alloc_spec. Qed.
Print Assumptions C06_handle_allocation.

(* handles live and distinct per controller, in every reachable state *)
Theorem C06_handles_distinct : forall cfg ls i c, cfg_ok cfg = true ->
  run_ok guard_static (init cfg) ls = true ->
  nth_error (st_cs (run_state (init cfg) ls)) i = Some c ->
  (forall k, In k (c_le c) -> 1 <= k_handle k) /\
  (forall h, h <> 0 -> (count h (handles c) <= 1)%nat).
Proof.
  intros cfg ls i c H1 H2 H3.
  exact (conj (ci_le_pos c (proj1 (g_c _ (C06_reachable_invariant cfg ls H1 H2) i c H3)))
              (ci_distinct c (proj1 (g_c _ (C06_reachable_invariant cfg ls H1 H2) i c H3)))).
Qed.
Print Assumptions C06_handles_distinct.

(* ---------------------------------------------------------------- tables symmetric *)
(* In every state reachable under the symmetry guard, for two controllers i, j with no
   ConnectInd / TerminateInd in flight between them: either neither holds an LE connection
   towards the other, or each holds exactly one, and they mirror each other: i's entry
   (peer b, own a, role r) faces j's entry (peer a, own b, role not r).
   (The BR/EDR tables: C06_tables_symmetric_classic below.) *)
Theorem C06_tables_symmetric_le : forall cfg ls i j ci cj, cfg_ok cfg = true ->
  run_ok guard_sym (init cfg) ls = true ->
  let s := run_state (init cfg) ls in
  i <> j -> nth_error (st_cs s) i = Some ci -> nth_error (st_cs s) j = Some cj ->
  pair_quiet s i j = true ->
  (towards cj ci = [] /\ towards ci cj = []) \/
  (exists e e', towards cj ci = [e] /\ towards ci cj = [e'] /\ mirror e e').
Proof. exact tables_symmetric. Qed.
Print Assumptions C06_tables_symmetric_le.

(* ... and every LE connection is towards an address of some other controller, so the
   statement above covers every entry of every table *)
Theorem C06_every_connection_has_a_peer_controller : forall cfg ls i ci e, cfg_ok cfg = true ->
  run_ok guard_sym (init cfg) ls = true ->
  let s := run_state (init cfg) ls in
  nth_error (st_cs s) i = Some ci -> In e (c_le ci) ->
  exists j cj, j <> i /\ nth_error (st_cs s) j = Some cj /\ In e (towards cj ci).
Proof.
  intros cfg ls i ci e Hc Hr s Hi He.
  destruct (si_peer s (reachable_sinv cfg ls Hc Hr) _ _ _ Hi He) as [j [cj [H1 [H2 H3]]]].
  exists j, cj. repeat split; auto. now apply towards_in.
Qed.
Print Assumptions C06_every_connection_has_a_peer_controller.

(* BR/EDR: in every state reachable under guard_cl (a connection is requested only between
   controllers that have nothing BR/EDR going on, the host accepts waiting requests only,
   established connections are torn down by one side at a time, a handle is left when a
   connection completes), for two controllers with no LMP connection-management message in
   flight between them: neither holds an entry for the other, or both hold an established one
   (non-zero handles) in opposite roles, or a request is waiting for the host's accept (both
   entries still carry handle 0). *)
Theorem C06_tables_symmetric_classic : forall cfg ls i j ci cj, cfg_ok cfg = true ->
  run_ok guard_cl (init cfg) ls = true ->
  let s := run_state (init cfg) ls in
  i <> j -> nth_error (st_cs s) i = Some ci -> nth_error (st_cs s) j = Some cj ->
  cquiet s i j = true ->
  (ent ci cj = None /\ ent cj ci = None)
  \/ (exists k k', ent ci cj = Some k /\ ent cj ci = Some k' /\ k_handle k <> 0 /\ k_handle k' <> 0 /\
        k_central k' = negb (k_central k))
  \/ (exists k k', ent ci cj = Some k /\ ent cj ci = Some k' /\ k_handle k = 0 /\ k_handle k' = 0 /\
        k_central k' = negb (k_central k)).
Proof. exact classic_tables_symmetric. Qed.
Print Assumptions C06_tables_symmetric_classic.

Theorem C06_tables_symmetric_classic_guard_example :
  let cfg := [(10, 11, false); (20, 21, false); (30, 31, false)] in
  let ls := [LClConnect 0 20; LDeliver 0; LClAccept 1 10; LDeliver 0; LClConnect 2 20; LDeliver 0; LClAccept 1 30;
             LDeliver 0; LDisconnect 1 1 19; LDeliver 0] in
  cfg_ok cfg = true /\ run_ok guard_cl (init cfg) ls = true /\
  map (fun c => map conn_obs (c_cl c)) (st_cs (run_state (init cfg) ls)) = [[]; [(30, 20, 2, false)]; [(20, 30, 1, true)]].
Proof. vm_compute. repeat split. Qed.
Print Assumptions C06_tables_symmetric_classic_guard_example.

Theorem C06_tables_symmetric_classic_refuted_without_guard : exists cfg ls,
  cfg_ok cfg = true /\ run_ok guard_static (init cfg) ls = true /\ run_ok guard_cl (init cfg) ls = false /\
  let s := run_state (init cfg) ls in
  cquiet s 0 1 = true /\
  match nth_error (st_cs s) 0, nth_error (st_cs s) 1 with
  | Some c0, Some c1 =>
      match tbl_get (c_cl c0) (c_public c1), tbl_get (c_cl c1) (c_public c0) with
      | Some k, Some k' => andb (negb (k_handle k =? 0)) (Bool.eqb (k_central k) (k_central k'))
      | _, _ => false
      end
  | _, _ => false
  end = true.
Proof.
  (* both controllers request a connection to each other at the same time; each request overwrites
     the other side's outgoing placeholder, the hosts accept, and when the acceptances arrive the
     (already finished) set-up raises: nothing is in flight and two peripheral entries face each other *)
  exists [(10, 11, false); (20, 21, false)].
  exists [LClConnect 0 20; LClConnect 1 10; LDeliver 0; LDeliver 0; LClAccept 0 20; LClAccept 1 10; LDeliver 0; LDeliver 0].
  vm_compute. repeat split.
Qed.
Print Assumptions C06_tables_symmetric_classic_refuted_without_guard.

(* the guard is necessary: simultaneous connections in both directions between two controllers
   that use their advertised address as own address overwrite each other (tables are keyed by
   peer address only) *)
Theorem C06_tables_symmetric_refuted_without_guard : exists cfg ls,
  cfg_ok cfg = true /\ run_ok guard_static (init cfg) ls = true /\ run_ok guard_sym (init cfg) ls = false /\
  let s := run_state (init cfg) ls in
  pair_quiet s 0 1 = true /\
  match nth_error (st_cs s) 0, nth_error (st_cs s) 1 with
  | Some c0, Some c1 =>
      match towards c1 c0, towards c0 c1 with
      | [e], [e'] => Bool.eqb (k_central e) (k_central e')
      | _, _ => false
      end
  | _, _ => false
  end = true.
Proof.
  (* two controllers advertise and connect to each other at the same time, each using the address it
     advertises as its own address.  The second creation happens while the first ConnectInd is in
     flight (pair not idle); each accepted ConnectInd overwrites the central connection, and the
     schedule ends, with nothing in flight, with two peripheral entries facing each other *)
  exists [(10, 11, false); (20, 21, false)].
  exists [LAdvParams 0 false true; LAdvEnable 0 true; LAdvParams 1 false true; LAdvEnable 1 true;
          LConnect 0 21 false; LConnect 1 11 false; LTick 0; LTick 1;
          LDeliver 0; LDeliver 0; LDeliver 0; LDeliver 0].
  vm_compute. repeat split.
Qed.
Print Assumptions C06_tables_symmetric_refuted_without_guard.

(* D06d (two centrals, one advertiser) lies inside the guard since D06d.patch: the loser is
   refused with a TerminateInd 0x3E, reports the disconnection, and the tables are symmetric *)
Theorem C06_race_for_one_advertiser_is_symmetric :
  let cfg := [(10, 11, false); (20, 21, false); (30, 31, false)] in
  let ls := [LConnect 0 31 false; LConnect 1 31 false; LAdvParams 2 false true; LAdvEnable 2 true; LTick 2;
             LDeliver 0; LDeliver 0; LDeliver 0; LDeliver 0; LDeliver 0; LDeliver 0; LDeliver 0] in
  cfg_ok cfg = true /\ run_ok guard_sym (init cfg) ls = true /\
  let '(s, tr) := run (init cfg) ls in
  st_net s = [] /\ map (fun c => map conn_obs (c_le c)) (st_cs s) = [[(31, 11, 1, true)]; []; [(11, 31, 1, false)]] /\
  In [(1%nat, EDisc 1 62)] (map fst tr).
Proof.
  vm_compute. repeat split.
  (* the disjunct of the last, twelfth step of the schedule: the refusal reaches the loser *)
  do 11 right. left. reflexivity.
Qed.
Print Assumptions C06_race_for_one_advertiser_is_symmetric.

(* ---------------------------------------------------------------- connect reaches the target only *)
(* a ConnectInd(a, b) is ignored by every controller that does not own b; the owner either files
   the connection (peer a, own b, fresh handle, peripheral) or, when it no longer advertises b,
   changes nothing and answers the initiator with a TerminateInd 0x3E (D06d) *)
Theorem C06_connect_reaches_target_only : forall cs n j c a b c' e o, ainv c ->
  on_message cs n j c (MConnInd a b) = (c', e, o) ->
  (~ owns c b -> c' = c /\ e = [] /\ o = []) /\
  (forall h ce p, In (ELeConn h ce p) e ->
     ce = false /\ p = a /\ owns c b /\ alloc c = Some h /\ o = [] /\
     tbl_get (c_le c') a = Some (mkConn a b h false)) /\
  (o = [] \/ (c' = c /\ e = [] /\ owns c b /\ exists i, find_le cs a = Some i /\ o = [(j, i, MTerm b 62)])).
Proof. exact connect_ind_effect. Qed.
Print Assumptions C06_connect_reaches_target_only.

(* the initiator reports exactly the connection its host asked for, and scanners are given
   the advertising data and (active scanning) the scan-response data byte for byte *)
Theorem C06_scan_reports_exact_and_connect_handed : forall cs n i c b data srsp c' e o,
  on_message cs n i c (MAdv b data srsp) = (c', e, o) ->
  filter is_report e =
    (if c_scan c then EAdvReport (c_extrep c) false b data ::
                      (if c_active c then [EAdvReport (c_extrep c) true b srsp] else []) else []) /\
  (forall h ce p, In (ELeConn h ce p) e ->
     ce = true /\ p = b /\ exists own, c_pending c = Some (b, own) /\ tbl_get (c_le c) b = None /\
       alloc c = Some h /\
       tbl_get (c_le c') b = Some (mkConn b (if own then c_public c else c_random c) h true) /\
       o = broadcast n i (MConnInd (if own then c_public c else c_random c) b) /\ c_pending c' = None) /\
  ((forall h ce p, ~ In (ELeConn h ce p) e) -> o = [] /\ c_le c' = c_le c).
Proof. exact adv_effect. Qed.
Print Assumptions C06_scan_reports_exact_and_connect_handed.

Theorem C06_advertising_event_legacy : forall n i c, c_leg_enabled c = true -> c_leg_advind c = true ->
  tick n i c = (c, [], broadcast n i (MAdv (leg_address c) (c_leg_data c) (c_leg_srsp c))).
Proof. intros n i c H1 H2. unfold tick. now rewrite H1, H2. Qed.
Print Assumptions C06_advertising_event_legacy.

Theorem C06_advertising_event_set : forall n i c h s a, set_get (c_sets c) h = Some s -> a_enabled s = true ->
  set_address c s = Some a -> ext_tick n i c h = (c, [], broadcast n i (MAdv a (a_data s) (a_srsp s))).
Proof. intros n i c h s a H1 H2 H3. unfold ext_tick. now rewrite H1, H2, H3. Qed.
Print Assumptions C06_advertising_event_set.

(* an advertising PDU reaches every other controller, each exactly once *)
Theorem C06_broadcast : forall n i m,
  NoDup (broadcast n i m) /\
  forall s d x, In (s, d, x) (broadcast n i m) <-> s = i /\ (d < n)%nat /\ d <> i /\ x = m.
Proof. intros n i m. exact (conj (broadcast_nodup n i m) (broadcast_spec n i m)). Qed.
Print Assumptions C06_broadcast.

(* ---------------------------------------------------------------- a caller is handed that connection and no other *)
(* [completes_le] / [completes_classic] are the matching rules of Device.connect_le and
   Device.connect_classic (tied to bumble/device.py by C06_shape_matches_source).  Whatever
   event completes a pending LE connect() is the central connection to the address asked for
   (reported only while that connection is pending in the controller, filed under that address,
   and it clears the pending state so nothing else can complete the call); an incoming connection
   accepted meanwhile never matches (D06c). *)
Theorem C06_connect_le_handed_that_connection : forall s l s' evs out i e, step s l = (s', evs, out) ->
  In (i, e) evs -> completes_le e = true ->
  exists h t own c c', e = ELeConn h true t /\
    nth_error (st_cs s) i = Some c /\ c_pending c = Some (t, own) /\
    nth_error (st_cs s') i = Some c' /\ c_pending c' = None /\
    tbl_get (c_le c') t = Some (mkConn t (if own then c_public c else c_random c) h true).
Proof. exact connect_le_handed. Qed.
Print Assumptions C06_connect_le_handed_that_connection.

Theorem C06_incoming_connection_never_completes_connect : forall h p, completes_le (ELeConn h false p) = false.
Proof. reflexivity. Qed.
Print Assumptions C06_incoming_connection_never_completes_connect.

Theorem C06_connect_classic_handed_that_connection : forall s l s' evs out i e t, step s l = (s', evs, out) ->
  In (i, e) evs -> completes_classic t e = true ->
  exists h c' k, e = EClConn h t /\ nth_error (st_cs s') i = Some c' /\
    tbl_get (c_cl c') t = Some k /\ k_handle k = h.
Proof. exact connect_classic_handed. Qed.
Print Assumptions C06_connect_classic_handed_that_connection.

(* BR/EDR establishment keeps one response slot per request: a Create Connection that sends its
   request leaves a fresh unresolved future for that peer and reports no connection itself; an
   LMP_accepted reports a connection only when the slot of its sender is unresolved, and resolves
   it.  So a response concludes only the request issued after the previous response (reconnecting
   to a peer cannot be completed by the previous session's response). *)
Theorem C06_request_gets_fresh_response_slot : forall cs i c peer c' e o,
  cl_connect cs i c peer = (c', e, o) -> o <> [] ->
  lmp_get (c_lmp c') peer = Some false /\ (forall h p, ~ In (EClConn h p) e).
Proof.
  intros cs i c peer c' e o H Ho.
  destruct (cl_connect_cases _ _ _ _ _ _ _ H) as [[_ [-> _]]|[[_ [-> _]]|[j [_ [_ [-> ->]]]]]]; try congruence.
  split; [apply lmp_get_set_same|]. intros h p [Hin|[]]. discriminate.
Qed.
Print Assumptions C06_request_gets_fresh_response_slot.

Theorem C06_response_resolves_pending_request_only : forall cs n j c a c' e o h p,
  on_message cs n j c (MLmpAccepted a) = (c', e, o) -> In (EClConn h p) e ->
  lmp_get (c_lmp c) a = Some false /\ lmp_get (c_lmp c') a = Some true /\ p = a.
Proof. exact response_resolves_pending_request_only. Qed.
Print Assumptions C06_response_resolves_pending_request_only.

Theorem C06_create_connection_reports_no_connection : forall cs i c peer c' e o h p,
  cl_connect cs i c peer = (c', e, o) -> ~ In (EClConn h p) e.
Proof.
  intros cs i c peer c' e o h p H Hin.
  destruct (cl_connect_cases _ _ _ _ _ _ _ H) as [[_ [_ [st ->]]]|[[_ [_ [-> _]]]|[j [_ [_ [-> _]]]]]];
    simpl in Hin; intuition discriminate.
Qed.
Print Assumptions C06_create_connection_reports_no_connection.

(* regenerated from the source on every run: the shape (comparisons, tests, table stores and
   deletes, calls in order, constructor arguments, returns) of every anchored function of
   link.py / controller.py and of the two matching rules of device.py is the one the model was
   written from *)
Theorem C06_shape_matches_source : shape_diff code_shape model_shape = [].
Proof. exact shape_matches_source. Qed.
Print Assumptions C06_shape_matches_source.

(* ---------------------------------------------------------------- ACL data *)
Theorem C06_acl_le_sent_to_peer_only : forall s i j ci cj e e' d, rinv s ->
  nth_error (st_cs s) i = Some ci -> In e (c_le ci) ->
  nth_error (st_cs s) j = Some cj -> In e' (c_le cj) -> k_self e' = k_peer e ->
  step s (LAcl i (k_handle e) d) =
    (mkState (st_cs s) (st_net s ++ [(i, j, MAcl (k_self e) true d)]),
     [(i, ECompleted (k_handle e))], [(i, j, MAcl (k_self e) true d)]).
Proof.
  exact (fun s i j ci cj e e' d R Hi He Hj He' Hm =>
    step_local s (LAcl _ _ _) i ci _ _ _ _ eq_refl Hi
      (send_acl_le _ i j ci e _ d (r_c s R _ _ Hi) He (find_le_holder_r s j cj e' R Hj He') Hm) (upd_id _ _ _ Hi)).
Qed.
Print Assumptions C06_acl_le_sent_to_peer_only.

Theorem C06_acl_le_delivered : forall s k i j cj a d e', nth_error (st_net s) k = Some (i, j, MAcl a true d) ->
  existsb (same_pair i j) (firstn k (st_net s)) = false ->
  nth_error (st_cs s) j = Some cj -> tbl_get (c_le cj) a = Some e' ->
  step s (LDeliver k) = (mkState (st_cs s) (remove_nth k (st_net s)), [(j, EAcl (k_handle e') d)], []).
Proof.
  exact (fun s k i j cj a d e' Hk Hf Hj He =>
    step_deliver s k i j cj _ _ _ _ Hk Hf Hj (on_acl_found cj a true d e' He) (upd_id _ _ _ Hj)).
Qed.
Print Assumptions C06_acl_le_delivered.

Theorem C06_acl_classic_sent_to_peer_only : forall s i j ci cj e d, rinv s ->
  nth_error (st_cs s) i = Some ci -> In e (c_cl ci) -> k_handle e <> 0 ->
  nth_error (st_cs s) j = Some cj -> c_public cj = k_peer e ->
  step s (LAcl i (k_handle e) d) =
    (mkState (st_cs s) (st_net s ++ [(i, j, MAcl (c_public ci) false d)]),
     [(i, ECompleted (k_handle e))], [(i, j, MAcl (c_public ci) false d)]).
Proof.
  exact (fun s i j ci cj e d R Hi He Hnz Hj Hm =>
    step_local s (LAcl _ _ _) i ci _ _ _ _ eq_refl Hi
      (send_acl_classic _ i j ci e _ d (r_c s R _ _ Hi) He Hnz (find_classic_owner_r s j cj R Hj) Hm) (upd_id _ _ _ Hi)).
Qed.
Print Assumptions C06_acl_classic_sent_to_peer_only.

Theorem C06_acl_classic_delivered : forall s k i j cj a d e', nth_error (st_net s) k = Some (i, j, MAcl a false d) ->
  existsb (same_pair i j) (firstn k (st_net s)) = false ->
  nth_error (st_cs s) j = Some cj -> tbl_get (c_cl cj) a = Some e' ->
  step s (LDeliver k) = (mkState (st_cs s) (remove_nth k (st_net s)), [(j, EAcl (k_handle e') d)], []).
Proof.
  exact (fun s k i j cj a d e' Hk Hf Hj He =>
    step_deliver s k i j cj _ _ _ _ Hk Hf Hj (on_acl_found cj a false d e' He) (upd_id _ _ _ Hj)).
Qed.
Print Assumptions C06_acl_classic_delivered.

(* a host is handed ACL data only by the delivery of an ACL message addressed to its controller *)
Theorem C06_acl_to_nobody_else : forall s l s' evs out j h d, step s l = (s', evs, out) ->
  In (j, EAcl h d) evs ->
  exists k i a le, l = LDeliver k /\ nth_error (st_net s) k = Some (i, j, MAcl a le d).
Proof. exact acl_only_from_delivery. Qed.
Print Assumptions C06_acl_to_nobody_else.

(* exactly once, in order: per ordered pair of controllers and over any run, delivered ++
   still in flight = in flight at the start ++ sent *)
Theorem C06_link_once_in_order : forall ls s a b,
  chan a b (run_taken s ls) ++ chan a b (st_net (run_state s ls)) =
  chan a b (st_net s) ++ chan a b (run_sent s ls).
Proof. exact link_fifo_run. Qed.
Print Assumptions C06_link_once_in_order.

(* ---------------------------------------------------------------- disconnection seen by both *)
Theorem C06_disconnect_le_local_and_sent : forall s i j ci cj e e' r, rinv s ->
  nth_error (st_cs s) i = Some ci -> In e (c_le ci) ->
  nth_error (st_cs s) j = Some cj -> In e' (c_le cj) -> k_self e' = k_peer e ->
  step s (LDisconnect i (k_handle e) r) =
    (mkState (upd (st_cs s) i (set_le ci (tbl_del (c_le ci) (k_peer e))))
             (st_net s ++ [(i, j, MTerm (k_self e) r)]),
     [(i, EStatus 0); (i, EDisc (k_handle e) r)], [(i, j, MTerm (k_self e) r)]).
Proof.
  exact (fun s i j ci cj e e' r R Hi He Hj He' Hm =>
    step_local s (LDisconnect _ _ _) i ci _ _ _ _ eq_refl Hi
      (disconnect_le_entry _ i j ci e _ r (r_c s R _ _ Hi) He (find_le_holder_r s j cj e' R Hj He') Hm) eq_refl).
Qed.
Print Assumptions C06_disconnect_le_local_and_sent.

Theorem C06_disconnect_le_remote : forall s k i j cj a r e', nth_error (st_net s) k = Some (i, j, MTerm a r) ->
  existsb (same_pair i j) (firstn k (st_net s)) = false ->
  nth_error (st_cs s) j = Some cj -> tbl_get (c_le cj) a = Some e' ->
  step s (LDeliver k) =
    (mkState (upd (st_cs s) j (set_le cj (tbl_del (c_le cj) a))) (remove_nth k (st_net s)),
     [(j, EDisc (k_handle e') r)], []).
Proof.
  exact (fun s k i j cj a r e' Hk Hf Hj He =>
    step_deliver s k i j cj _ _ _ _ Hk Hf Hj (on_terminate_found cj a r e' He) eq_refl).
Qed.
Print Assumptions C06_disconnect_le_remote.

Theorem C06_disconnect_classic_local_and_sent : forall s i j ci cj e r, rinv s ->
  nth_error (st_cs s) i = Some ci -> In e (c_cl ci) -> k_handle e <> 0 ->
  nth_error (st_cs s) j = Some cj -> c_public cj = k_peer e ->
  step s (LDisconnect i (k_handle e) r) =
    (mkState (upd (st_cs s) i (set_cl ci (tbl_del (c_cl ci) (k_peer e))))
             (st_net s ++ [(i, j, MLmpDetach (c_public ci) r)]),
     [(i, EStatus 0); (i, EDisc (k_handle e) r)], [(i, j, MLmpDetach (c_public ci) r)]).
Proof.
  exact (fun s i j ci cj e r R Hi He Hnz Hj Hm =>
    step_local s (LDisconnect _ _ _) i ci _ _ _ _ eq_refl Hi
      (disconnect_classic_entry _ i j ci e _ r (r_c s R _ _ Hi) He Hnz (find_classic_owner_r s j cj R Hj) Hm) eq_refl).
Qed.
Print Assumptions C06_disconnect_classic_local_and_sent.

Theorem C06_disconnect_classic_remote : forall s k i j cj a r e', nth_error (st_net s) k = Some (i, j, MLmpDetach a r) ->
  existsb (same_pair i j) (firstn k (st_net s)) = false ->
  nth_error (st_cs s) j = Some cj -> tbl_get (c_cl cj) a = Some e' ->
  step s (LDeliver k) =
    (mkState (upd (st_cs s) j (set_cl cj (tbl_del (c_cl cj) a))) (remove_nth k (st_net s)),
     [(j, EDisc (k_handle e') 19)], []).
Proof.
  exact (fun s k i j cj a r e' Hk Hf Hj He =>
    step_deliver s k i j cj (MLmpDetach a r) _ _ _ Hk Hf Hj (on_lmp_detach_found cj a e' He) eq_refl).
Qed.
Print Assumptions C06_disconnect_classic_remote.

(* SCO / eSCO: a Disconnect on the handle of a synchronous link concludes that link and no
   other (the new state differs from the old one in sco_links of controller i only) *)
Theorem C06_disconnect_sco_local_and_sent : forall s i j ci cj e r, rinv s ->
  nth_error (st_cs s) i = Some ci -> In e (c_sco ci) -> k_handle e <> 0 ->
  nth_error (st_cs s) j = Some cj -> c_public cj = k_peer e ->
  step s (LDisconnect i (k_handle e) r) =
    (mkState (upd (st_cs s) i (set_sco ci (tbl_del (c_sco ci) (k_peer e))))
             (st_net s ++ [(i, j, MLmpRemoveSco (c_public ci) r)]),
     [(i, EStatus 0); (i, EDisc (k_handle e) r)], [(i, j, MLmpRemoveSco (c_public ci) r)]).
Proof.
  exact (fun s i j ci cj e r R Hi He Hnz Hj Hm =>
    step_local s (LDisconnect _ _ _) i ci _ _ _ _ eq_refl Hi
      (disconnect_sco_entry _ i j ci e _ r (r_c s R _ _ Hi) He Hnz (find_classic_owner_r s j cj R Hj) Hm) eq_refl).
Qed.
Print Assumptions C06_disconnect_sco_local_and_sent.

Theorem C06_disconnect_sco_remote : forall s k i j cj a r e', nth_error (st_net s) k = Some (i, j, MLmpRemoveSco a r) ->
  existsb (same_pair i j) (firstn k (st_net s)) = false ->
  nth_error (st_cs s) j = Some cj -> tbl_get (c_sco cj) a = Some e' ->
  step s (LDeliver k) =
    (mkState (upd (st_cs s) j (set_sco cj (tbl_del (c_sco cj) a))) (remove_nth k (st_net s)),
     [(j, EDisc (k_handle e') r)], []).
Proof.
  exact (fun s k i j cj a r e' Hk Hf Hj He =>
    step_deliver s k i j cj _ _ _ _ Hk Hf Hj (on_lmp_remove_sco_found cj a r e' He) eq_refl).
Qed.
Print Assumptions C06_disconnect_sco_remote.

(* in all the disconnect theorems the table of the link loses exactly the entry that owns the
   handle: deleting the entry of k removes k and nothing else *)
Theorem C06_disconnect_removes_only_the_owner : forall t k x, keys_nodup t -> In k t ->
  (In x (tbl_del t (k_peer k)) <-> In x t /\ x <> k).
Proof. exact tbl_del_only. Qed.
Print Assumptions C06_disconnect_removes_only_the_owner.

(* a non-zero handle of a synchronous link is used by no LE or BR/EDR connection of the
   controller and by no other synchronous link *)
Theorem C06_sco_handle_owner : forall c k, cinv c -> In k (c_sco c) -> k_handle k <> 0 ->
  by_handle (c_le c) (k_handle k) = None /\ by_handle (c_cl c) (k_handle k) = None /\
  by_handle (c_sco c) (k_handle k) = Some k.
Proof. exact sco_handle_owner. Qed.
Print Assumptions C06_sco_handle_owner.

(* ---------------------------------------------------------------- non-vacuity *)
(* three controllers; 1 advertises with its public address, 0 connects with its public own
   address (the D06a configuration), data flows both ways, 0 disconnects; controller 2 sees
   advertisements only *)
Example C06_nonvacuous :
  let cfg := [(10, 11, false); (20, 21, false); (30, 31, false)] in
  let ls := [LAdvParams 1 true true; LAdvData 1 [2; 1; 6]; LScanRsp 1 [3; 9; 66; 66]; LAdvEnable 1 true;
             LScanParams 2 true; LScanEnable 2 true;
             LConnect 0 20 true; LTick 1; LDeliver 0; LDeliver 0; LDeliver 0; LDeliver 0;
             LAcl 0 1 [1; 2; 3]; LAcl 1 1 [4; 5]; LDeliver 0; LDeliver 0;
             LDisconnect 0 1 19; LDeliver 0] in
  cfg_ok cfg = true /\ run_ok guard_static (init cfg) ls = true /\ run_ok guard_sym (init cfg) ls = true /\
  let '(s, tr) := run (init cfg) ls in
  map fst tr =
    [[]; []; []; []; []; []; [(0%nat, EStatus 0)]; [];
     [(0%nat, ELeConn 1 true 20)];
     [(2%nat, EAdvReport false false 20 [2; 1; 6]); (2%nat, EAdvReport false true 20 [3; 9; 66; 66])];
     [(1%nat, ELeConn 1 false 10)]; [];
     [(0%nat, ECompleted 1)]; [(1%nat, ECompleted 1)];
     [(1%nat, EAcl 1 [1; 2; 3])]; [(0%nat, EAcl 1 [4; 5])];
     [(0%nat, EStatus 0); (0%nat, EDisc 1 19)]; [(1%nat, EDisc 1 19)]] /\
  st_net s = [] /\ map c_le (st_cs s) = [[]; []; []].
Proof. vm_compute. repeat split. Qed.

(* controller 0 holds an ACL to 1 (handle 1), an eSCO link on it (handle 2), two CIS (3, 4), then an
   ACL to 2 (handle 5); disconnecting handle 2 concludes the eSCO link only *)
Example C06_nonvacuous_all_link_kinds :
  let cfg := [(10, 11, false); (20, 21, false); (30, 31, false)] in
  let ls := [LClConnect 0 20; LDeliver 0; LClAccept 1 10; LDeliver 0;
             LScoSetup 0 1; LDeliver 0; LScoAccept 1 10; LDeliver 0;
             LSetCig 0 7 [0; 1];
             LClConnect 0 30; LDeliver 0; LClAccept 2 10; LDeliver 0;
             LDisconnect 0 2 19; LDeliver 0] in
  cfg_ok cfg = true /\ run_ok guard_sym (init cfg) ls = true /\
  let '(s, tr) := run (init cfg) ls in
  map fst (skipn 8 tr) =
    [[(0%nat, ECig [3; 4])]; [(0%nat, EStatus 0)]; [(2%nat, EClReq 10)]; [(2%nat, EStatus 0); (2%nat, EClConn 1 10)];
     [(0%nat, EClConn 5 30)]; [(0%nat, EStatus 0); (0%nat, EDisc 2 19)]; [(1%nat, EDisc 2 19)]] /\
  map handles (st_cs s) = [[1; 5; 3; 4]; [1]; [1]].
Proof. vm_compute. repeat split. Qed.

(* address change while connected: controller 0 connects with its random address 11, then takes the
   new random address 12; data still flows both ways and the disconnect still reaches the peer *)
Example C06_nonvacuous_address_change :
  let cfg := [(10, 11, false); (20, 21, false)] in
  let ls := [LAdvParams 1 false true; LAdvEnable 1 true; LConnect 0 21 false; LTick 1; LDeliver 0; LDeliver 0;
             LSetRandom 0 12;
             LAcl 0 1 [1; 2]; LAcl 1 1 [3]; LDeliver 0; LDeliver 0; LDisconnect 1 1 19; LDeliver 0] in
  cfg_ok cfg = true /\ run_ok guard_fresh (init cfg) ls = true /\ run_ok guard_static (init cfg) ls = false /\
  let '(s, tr) := run (init cfg) ls in
  map fst (skipn 7 tr) =
    [[(0%nat, ECompleted 1)]; [(1%nat, ECompleted 1)]; [(1%nat, EAcl 1 [1; 2])]; [(0%nat, EAcl 1 [3])];
     [(1%nat, EStatus 0); (1%nat, EDisc 1 19)]; [(0%nat, EDisc 1 19)]] /\
  st_net s = [] /\ map c_le (st_cs s) = [[]; []].
Proof. vm_compute. repeat split. Qed.
