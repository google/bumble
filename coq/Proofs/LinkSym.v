(* Symmetry of the connection tables (property C06).  Two controllers run a small protocol
   per pair; that every pair is in one of the protocol's states is an inductive invariant over
   the n-controller system of Model/Link.v.  This file has what is common to the LE and the
   BR/EDR protocol (pairwise invariants, what a step does to the tables) and the LE protocol
   (tables_symmetric); LinkSymCl.v and LinkSymCl2.v have the BR/EDR one. *)
From Coq Require Import ZArith List Bool Lia Arith.
From BV Require Import Model.Link Proofs.Link.
Import ListNotations.
Open Scope Z_scope.

Lemma owns_b_iff : forall c a, owns_b c a = true <-> owns c a.
Proof. unfold owns_b, owns. intros c a. rewrite orb_true_iff, !Z.eqb_eq. tauto. Qed.

Lemma owns_b_false : forall c a, owns_b c a = false <-> ~ owns c a.
Proof.
  intros c a. rewrite <- owns_b_iff. destruct (owns_b c a); split; intros H; congruence.
Qed.

Lemma nil_b_iff : forall {A} (l : list A), nil_b l = true <-> l = [].
Proof. intros A [|x l]; simpl; split; intros; try reflexivity; discriminate. Qed.

Lemma owns_b_same : forall c c' a, addr_same c c' -> owns_b c' a = owns_b c a.
Proof. unfold addr_same, owns_b. intros c c' a [-> ->]. reflexivity. Qed.

Lemma owns_own_address : forall c a, owns c a -> own_address c a = true.
Proof.
  unfold owns, own_address. intros c a [->| ->]; rewrite Z.eqb_refl; [reflexivity | now rewrite orb_true_r].
Qed.

Lemma tbl_set_app : forall t k, tbl_get t (k_peer k) = None -> tbl_set t k = t ++ [k].
Proof.
  induction t as [|k0 t IH]; simpl; intros k H; [reflexivity|].
  destruct (k_peer k0 =? k_peer k); [discriminate|]. now rewrite IH.
Qed.

Lemma filter_filter : forall {A} (f g : A -> bool) l,
  filter (fun x => andb (f x) (g x)) l = filter g (filter f l).
Proof.
  induction l as [|x l IH]; simpl; [reflexivity|].
  destruct (f x); simpl; [destruct (g x); now rewrite IH | assumption].
Qed.

Lemma filter_none : forall {A} (g : A -> bool) l, (forall x, In x l -> g x = false) -> filter g l = [].
Proof.
  induction l as [|x l IH]; simpl; intros H; [reflexivity|].
  rewrite (H x (or_introl eq_refl)). apply IH. intros; apply H; now right.
Qed.

Lemma filter_one : forall {A} (g : A -> bool) p, filter g [p] = if g p then [p] else [].
Proof. reflexivity. Qed.

Lemma filter_del : forall (f : conn -> bool) t p, keys_nodup t ->
  filter f (tbl_del t p) = filter (fun e => andb (f e) (negb (k_peer e =? p))) t.
Proof.
  unfold keys_nodup. induction t as [|k0 t IH]; simpl; intros p H; [reflexivity|].
  inversion H as [|? ? Hni Hnd]; subst.
  destruct (k_peer k0 =? p) eqn:E.
  - simpl. rewrite andb_false_r. apply Z.eqb_eq in E. subst p.
    apply filter_ext_in. intros x Hx.
    destruct (k_peer x =? k_peer k0) eqn:E2; [|now rewrite andb_true_r].
    apply Z.eqb_eq in E2. exfalso. apply Hni. rewrite <- E2. now apply in_map.
  - simpl. rewrite andb_true_r. destruct (f k0); [f_equal|]; now apply IH.
Qed.

Lemma filter_single_remove : forall {A} (g : A -> bool) k l p,
  nth_error l k = Some p -> g p = true -> filter g l = [p] -> filter g (remove_nth k l) = [].
Proof.
  induction k as [|k IH]; destruct l as [|x l]; simpl; intros p Hn Hg Hf; try discriminate.
  - inversion Hn; subst. rewrite Hg in Hf. now inversion Hf.
  - destruct (g x) eqn:E.
    + (* x is the single element, so p = x occurs later too: impossible *)
      inversion Hf; subst. exfalso.
      assert (In p (filter g l)) by (apply filter_In; split; [eapply nth_error_In; eauto | assumption]).
      rewrite H1 in H. contradiction.
    + eapply IH; eauto.
Qed.

(* a list with no duplicates filtered by a predicate that singles out x *)
Lemma filter_unique : forall {A} (g : A -> bool) l x, NoDup l -> In x l -> g x = true ->
  (forall y, In y l -> g y = true -> y = x) -> filter g l = [x].
Proof.
  induction l as [|y l IH]; simpl; intros x Hnd Hin Hg Hu; [contradiction|].
  inversion Hnd as [|? ? Hni Hnd']; subst.
  destruct (g y) eqn:E.
  - assert (y = x) by (apply Hu; auto). subst y. f_equal.
    apply filter_none. intros z Hz. destruct (g z) eqn:Ez; [|reflexivity].
    assert (z = x) by (apply Hu; auto). subst z. contradiction.
  - destruct Hin as [->|Hin]; [congruence|]. apply IH; auto.
Qed.

Lemma nth_upd_cases : forall cs i c c' y cy, nth_error cs i = Some c -> nth_error (upd cs i c') y = Some cy ->
  (y = i /\ cy = c') \/ (y <> i /\ nth_error cs y = Some cy).
Proof.
  intros cs i c c' y cy Hi Hy. rewrite (nth_upd _ _ _ _ _ Hi) in Hy. destruct (Nat.eqb i y) eqn:E.
  - apply Nat.eqb_eq in E. inversion Hy; subst. now left.
  - apply Nat.eqb_neq in E. right. split; [congruence | assumption].
Qed.

Definition none_of (f : msg -> bool) (o : list packet) : Prop := forall s d m, In (s, d, m) o -> f m = false.

(* messages of kind f are never sent to oneself *)
Definition noself (f : msg -> bool) (o : list packet) : Prop :=
  forall s d m, In (s, d, m) o -> f m = true -> s <> d.

Lemma none_of_nil : forall f, none_of f [].
Proof. intros f s d m []. Qed.

Lemma none_of_one : forall f s d m, f m = false -> none_of f [(s, d, m)].
Proof. intros f s d m H s' d' m' [E|[]]. now inversion E; subst. Qed.

Lemma none_of_broadcast : forall f n i m, f m = false -> none_of f (broadcast n i m).
Proof. intros f n i m H s d x Hin. apply broadcast_src in Hin. now destruct Hin as [_ ->]. Qed.

Lemma none_of_noself : forall f o, none_of f o -> noself f o.
Proof. intros f o H s d m Hin E. rewrite (H _ _ _ Hin) in E. discriminate. Qed.

Lemma noself_one : forall f s d m, s <> d -> noself f [(s, d, m)].
Proof. intros f s d m H s' d' m' [E|[]] _. now inversion E; subst. Qed.

Lemma noself_broadcast : forall f n i m, noself f (broadcast n i m).
Proof. intros f n i m s d x Hin _. apply broadcast_spec in Hin. destruct Hin as [-> [_ [Hne _]]]. auto. Qed.

Lemma noself_app : forall f o o', noself f o -> noself f o' -> noself f (o ++ o').
Proof. intros f o o' H H' s d m Hin. apply in_app_or in Hin. destruct Hin; eauto. Qed.

Lemma noself_remove : forall f k o, noself f o -> noself f (remove_nth k o).
Proof. intros f k o H s d m Hin. apply remove_nth_in in Hin. eauto. Qed.

Lemma noself_orb : forall f g o, noself f o -> none_of g o -> noself (fun m => f m || g m) o.
Proof.
  intros f g o Hf Hg s d m Hin E. rewrite (Hg _ _ _ Hin), orb_false_r in E. eauto.
Qed.

Create HintDb outs.
#[export] Hint Resolve none_of_nil none_of_one none_of_broadcast none_of_noself noself_one noself_broadcast
  noself_app noself_remove : outs.

(* [sel cs i j] picks the packets of a protocol that travel from controller i to controller j;
   [ok i j ci cj rij rji] says that the tables of ci and cj and the packets rij, rji in flight
   between them fit together.  The invariants of this development say [ok] of every pair. *)
Section Pairwise.
  Variable sel : list ctrl -> nat -> nat -> packet -> bool.
  Variable ok : nat -> nat -> ctrl -> ctrl -> list packet -> list packet -> Prop.
  Hypothesis sel_ends : forall cs x y s d m, sel cs x y (s, d, m) = true -> s = x /\ d = y.
  Hypothesis ok_sym : forall i j ci cj rij rji, ok i j ci cj rij rji -> ok j i cj ci rji rij.

  Lemma sel_other : forall cs x y s d m, x <> s \/ y <> d -> sel cs x y (s, d, m) = false.
  Proof.
    intros cs x y s d m H. destruct (sel cs x y (s, d, m)) eqn:E; [|reflexivity].
    apply sel_ends in E. destruct E, H; congruence.
  Qed.

  Lemma sel_remove : forall cs x y k (net : list packet) s d m, nth_error net k = Some (s, d, m) -> x <> s \/ y <> d ->
    filter (sel cs x y) (remove_nth k net) = filter (sel cs x y) net.
  Proof. intros. eapply filter_remove_other; eauto using sel_other. Qed.

  Lemma sel_send : forall cs x y (net : list packet) s d m, x <> s \/ y <> d ->
    filter (sel cs x y) (net ++ [(s, d, m)]) = filter (sel cs x y) net.
  Proof. intros. rewrite filter_app, filter_one, sel_other by assumption. apply app_nil_r. Qed.

  Definition pairwise (s : state) : Prop :=
    forall i j ci cj, i <> j -> nth_error (st_cs s) i = Some ci -> nth_error (st_cs s) j = Some cj ->
    ok i j ci cj (filter (sel (st_cs s) i j) (st_net s)) (filter (sel (st_cs s) j i) (st_net s)).

  (* after a step of controller i0: the pairs with i0 are shown anew, the others see the same packets *)
  Lemma pairwise_update : forall s i0 c c' net',
    pairwise s -> nth_error (st_cs s) i0 = Some c ->
    (forall x y p, sel (upd (st_cs s) i0 c') x y p = sel (st_cs s) x y p) ->
    (forall y cy, y <> i0 -> nth_error (st_cs s) y = Some cy ->
       ok i0 y c' cy (filter (sel (st_cs s) i0 y) net') (filter (sel (st_cs s) y i0) net')) ->
    (forall x y, x <> i0 -> y <> i0 -> filter (sel (st_cs s) x y) net' = filter (sel (st_cs s) x y) (st_net s)) ->
    pairwise (mkState (upd (st_cs s) i0 c') net').
  Proof.
    intros s i0 c c' net' P Hi Hsel H0 Hframe i j ci cj Hij Hci Hcj. simpl in *.
    rewrite !(filter_ext_in _ _ _ (fun p _ => Hsel _ _ p)).
    destruct (nth_upd_cases _ _ _ _ _ _ Hi Hci) as [[-> ->]|[Hni Hci0]];
      destruct (nth_upd_cases _ _ _ _ _ _ Hi Hcj) as [[-> ->]|[Hnj Hcj0]].
    - congruence.
    - now apply H0.
    - now apply ok_sym, H0.
    - rewrite !Hframe by assumption. now apply P.
  Qed.

  (* a message to a controller that does not exist is dropped *)
  Lemma pairwise_lost : forall s k src dst m, pairwise s -> nth_error (st_net s) k = Some (src, dst, m) ->
    nth_error (st_cs s) dst = None -> pairwise (mkState (st_cs s) (remove_nth k (st_net s))).
  Proof.
    intros s k src dst m P Hk Hd i j ci cj Hij Hi Hj. simpl in *.
    rewrite !(sel_remove _ _ _ _ _ _ _ _ Hk) by (right; congruence). now apply P.
  Qed.
End Pairwise.

Arguments sel_other {sel} sel_ends {cs x y s d m}.
Arguments sel_remove {sel} sel_ends {cs x y k net s d m}.
Arguments sel_send {sel} sel_ends {cs x y net s d m}.

Definition is_bcast (m : msg) : bool :=
  match m with MAdv _ _ _ | MConnInd _ _ => true | _ => false end.

Definition is_ctl (m : msg) : bool :=
  match m with MConnInd _ _ | MTerm _ _ => true | _ => false end.

(* advertisements and ConnectInd, the messages that are broadcast, are never sent to oneself:
   [noself is_bcast] *)
Definition not_self (o : list packet) : Prop :=
  forall s d m, In (s, d, m) o -> is_bcast m = true -> s <> d.

Lemma add_cis_tables : forall cis c cig c' hs ok, add_cis c cig cis = (c', hs, ok) ->
  c_le c' = c_le c /\ c_cl c' = c_cl c /\ c_lmp c' = c_lmp c.
Proof.
  induction cis as [|x cis IH]; simpl; intros c cig c' hs ok H.
  - inversion H; subst. auto.
  - destruct (alloc c) as [h|]; [|inversion H; subst; auto].
    destruct (add_cis (set_cis c (c_cis c ++ [(h, cig, x)])) cig cis) as [[c1 hs1] ok1] eqn:Hr.
    inversion H; subst. exact (IH _ _ _ _ _ Hr).
Qed.

(* Proved by going through the branches of every handler, which are finitely many.
   Disconnect, Create Connection and Accept Connection Request aside, a host command or timer
   leaves the LE and BR/EDR tables alone and sends no connection-management message *)
Lemma local_cases : forall cs n i c l c' e o, local cs n i c l = (c', e, o) ->
  (c_le c' = c_le c /\ c_cl c' = c_cl c /\ c_lmp c' = c_lmp c /\
   none_of is_ctl o /\ none_of is_cctl o /\ noself is_bcast o)
  \/ (exists j h r, l = LDisconnect j h r /\ disconnect cs i c h r = (c', e, o))
  \/ (exists j p, l = LClConnect j p /\ cl_connect cs i c p = (c', e, o))
  \/ (exists j p, l = LClAccept j p /\ cl_accept cs i c p = (c', e, o)).
Proof.
  intros cs n i c l c' e o H. destruct l; simpl in H;
  lazymatch type of H with
  | disconnect _ _ _ _ _ = _ => right; left; eauto
  | cl_connect _ _ _ _ = _ => right; right; left; eauto
  | cl_accept _ _ _ _ = _ => right; right; right; eauto
  | set_cig _ _ _ = _ =>
      unfold set_cig in H;
      destruct (add_cis (set_cis c (filter (not_cig cig) (c_cis c))) cig cis) as [[c1 hs] ok] eqn:Ha;
      inversion H; subst; apply add_cis_tables in Ha; left; intuition auto with outs
  | _ => left; unfold_handlers H; break_all; inv_pairs; repeat split; auto with outs
  end.
Qed.

Lemma disconnect_effect : forall cs i c h r c' e o, disconnect cs i c h r = (c', e, o) ->
  match by_handle (c_cl c) h, by_handle (c_le c) h with
  | Some k, _ =>
      c_cl c' = tbl_del (c_cl c) (k_peer k) /\ c_le c' = c_le c /\ c_lmp c' = c_lmp c /\
      o = match find_classic cs (k_peer k) with None => [] | Some j => [(i, j, MLmpDetach (c_public c) r)] end
  | None, Some k =>
      c_le c' = tbl_del (c_le c) (k_peer k) /\ c_cl c' = c_cl c /\ c_lmp c' = c_lmp c /\
      o = match find_le cs (k_peer k) with None => [] | Some j => [(i, j, MTerm (k_self k) r)] end
  | None, None =>
      c_le c' = c_le c /\ c_cl c' = c_cl c /\ c_lmp c' = c_lmp c /\
      none_of is_ctl o /\ none_of is_cctl o /\ noself is_bcast o
  end.
Proof.
  intros cs i c h r c' e o H. unfold disconnect, conn_by_handle in H.
  destruct (by_handle (c_cl c) h), (by_handle (c_le c) h), (by_handle (c_sco c) h) as [k2|];
    try destruct (find_classic cs (k_peer k2)); inversion H; subst; repeat split; auto with outs.
Qed.

Lemma cl_connect_cases : forall cs i c peer c' e o, cl_connect cs i c peer = (c', e, o) ->
  (c' = c /\ o = [] /\ exists st, e = [EStatus st])
  \/ (find_classic cs peer = None /\ o = [] /\ e = [EStatus 0; EClFail 4 peer] /\
      c' = set_cl c (tbl_del (tbl_set (c_cl c) (mkConn peer (c_public c) 0 true)) peer))
  \/ (exists j, find_classic cs peer = Some j /\ o = [(i, j, MLmpConnReq (c_public c))] /\ e = [EStatus 0] /\
      c' = set_lmp (set_cl c (tbl_set (c_cl c) (mkConn peer (c_public c) 0 true))) (lmp_set (c_lmp c) peer false)).
Proof.
  intros cs i c peer c' e o H. unfold cl_connect in H.
  destruct (c_pending c); [inversion H; subst; eauto|].
  match type of H with (if ?b then _ else _) = _ => destruct b end; [inversion H; subst; eauto|].
  destruct (find_classic cs peer); inversion H; subst; eauto 8.
Qed.

Lemma cl_accept_effect : forall cs i c peer c' e o, cl_accept cs i c peer = (c', e, o) ->
  match tbl_get (c_cl c) peer with
  | None => c' = c /\ o = []
  | Some k =>
      o = match find_classic cs peer with None => [] | Some j => [(i, j, MLmpAccepted (c_public c))] end /\
      c' = match alloc c with
           | None => c
           | Some h => set_cl c (tbl_set (c_cl c) (mkConn peer (k_self k) h (k_central k)))
           end
  end.
Proof.
  intros cs i c peer c' e o H. unfold cl_accept, classic_complete in H.
  destruct (tbl_get (c_cl c) peer); [destruct (alloc c)|]; inversion H; subst; auto.
Qed.

Definition ctl_le (m : msg) : bool := is_bcast m || is_ctl m.

(* what a delivery sends, and which messages leave the LE and the BR/EDR tables alone
   (again by going through the branches of the handlers) *)
Lemma message_effect : forall cs n j c m c' e o, on_message cs n j c m = (c', e, o) ->
  noself is_bcast o /\
  (ctl_le m = false -> c_le c' = c_le c /\ o = []) /\
  (is_cctl m = false -> c_cl c' = c_cl c /\ c_lmp c' = c_lmp c /\ none_of is_cctl o).
Proof.
  intros cs n j c m c' e o H.
  destruct m; simpl in H; unfold_handlers H;
    (* the advertising reports play no part *)
    try (set (reports := if c_scan c then _ else _) in H; clearbody reports);
    break_all; inv_pairs;
    (split; [auto with outs | split; intros E; try discriminate E; repeat split; auto with outs]).
Qed.

Lemma message_not_self : forall cs n j c m c' e o, on_message cs n j c m = (c', e, o) -> not_self o.
Proof. intros cs n j c m c' e o H. exact (proj1 (message_effect _ _ _ _ _ _ _ _ H)). Qed.

Definition mirror (e e' : conn) : Prop :=
  k_peer e' = k_self e /\ k_self e' = k_peer e /\ k_central e' = negb (k_central e).

(* i has begun something towards j that j has not seen yet: a connection being made
   (ConnectInd in flight) or torn down (TerminateInd in flight) *)
Definition half (tij tji : list conn) (rij rji : list packet) (i j : nat) : Prop :=
  (exists e, tij = [e] /\ k_central e = true /\ tji = [] /\
             rij = [(i, j, MConnInd (k_self e) (k_peer e))] /\ rji = [])
  \/ (exists e' r, tij = [] /\ tji = [e'] /\ rij = [(i, j, MTerm (k_peer e') r)] /\ rji = []).

Definition pair_state (tij tji : list conn) (rij rji : list packet) (i j : nat) : Prop :=
  (tij = [] /\ tji = [] /\ rij = [] /\ rji = [])
  \/ (exists e e', tij = [e] /\ tji = [e'] /\ mirror e e' /\ rij = [] /\ rji = [])
  \/ half tij tji rij rji i j \/ half tji tij rji rij j i.

Definition le_ok (i j : nat) (ci cj : ctrl) (rij rji : list packet) : Prop :=
  pair_state (towards cj ci) (towards ci cj) rij rji i j.

Record sinv (s : state) : Prop := mkSinv {
  si_g : ginv s;
  si_bc : noself ctl_le (st_net s);
  si_peer : forall i ci e, nth_error (st_cs s) i = Some ci -> In e (c_le ci) ->
            exists j cj, j <> i /\ nth_error (st_cs s) j = Some cj /\ owns cj (k_peer e);
  si_pair : pairwise rel_pkt le_ok s
}.

Lemma le_ok_sym : forall i j ci cj rij rji, le_ok i j ci cj rij rji -> le_ok j i cj ci rji rij.
Proof.
  unfold le_ok, pair_state. intros i j ci cj rij rji [H|[H|[H|H]]].
  - left. tauto.
  - right. left. destruct H as [e [e' [H1 [H2 [[M1 [M2 M3]] [H3 H4]]]]]]. exists e', e.
    repeat split; auto. rewrite M3. now rewrite negb_involutive.
  - right. right. now right.
  - right. right. now left.
Qed.

(* the state of a pair with a message in flight from i to j, read off the message *)
Lemma pair_state_in_flight : forall tij tji rij rji i j m,
  pair_state tij tji rij rji i j -> In (i, j, m) rij ->
  rij = [(i, j, m)] /\ rji = [] /\
  match m with
  | MConnInd a b => exists e, tij = [e] /\ tji = [] /\ k_central e = true /\ k_self e = a /\ k_peer e = b
  | MTerm a r => exists e', tij = [] /\ tji = [e'] /\ k_peer e' = a
  | _ => False
  end.
Proof.
  unfold pair_state, half. intros tij tji rij rji i j m H Hin.
  decompose [or ex and] H;
    match goal with R : rij = _ |- _ => rewrite R in Hin |- * end;
    simpl in Hin; decompose [or] Hin; try contradiction;
    match goal with E : _ = (i, j, m) |- _ => injection E as <- end; simpl; eauto 12.
Qed.

(* with nothing in flight a pair is idle or connected *)
Lemma pair_state_quiet : forall tij tji i j, pair_state tij tji [] [] i j ->
  (tij = [] /\ tji = []) \/ (exists e e', tij = [e] /\ tji = [e'] /\ mirror e e').
Proof.
  unfold pair_state, half. intros tij tji i j H. decompose [or ex and] H; try discriminate; eauto 6.
Qed.

Lemma pair_quiet_nil : forall s i j, pair_quiet s i j = true -> rel s i j = [] /\ rel s j i = [].
Proof.
  unfold pair_quiet. intros s i j H. apply andb_true_iff in H. now rewrite !nil_b_iff in H.
Qed.

Lemma pair_idle_lists : forall s i j ci cj, nth_error (st_cs s) i = Some ci -> nth_error (st_cs s) j = Some cj ->
  pair_idle s i j = true ->
  towards cj ci = [] /\ towards ci cj = [] /\ rel s i j = [] /\ rel s j i = [].
Proof.
  unfold pair_idle. intros s i j ci cj Hi Hj H. rewrite Hi, Hj in H.
  rewrite !andb_true_iff, !nil_b_iff in H. tauto.
Qed.

Lemma rel_pkt_true : forall cs x y s d m, rel_pkt cs x y (s, d, m) = true ->
  s = x /\ d = y /\ exists cy, nth_error cs y = Some cy /\ rel_msg cy m = true.
Proof.
  intros cs x y s d m H. unfold rel_pkt in H. apply andb_true_iff in H. destruct H as [H1 H2].
  apply andb_true_iff in H1. destruct H1 as [H0 H1]. apply Nat.eqb_eq in H0, H1. subst.
  destruct (nth_error cs y) as [cy|]; [|discriminate]. eauto.
Qed.

Lemma rel_ends : forall cs x y s d m, rel_pkt cs x y (s, d, m) = true -> s = x /\ d = y.
Proof. intros cs x y s d m H. apply rel_pkt_true in H. tauto. Qed.

Lemma rel_pkt_self : forall cs s d cd m, nth_error cs d = Some cd -> rel_msg cd m = true ->
  rel_pkt cs s d (s, d, m) = true.
Proof. intros cs s d cd m Hd Hm. unfold rel_pkt. now rewrite !Nat.eqb_refl, Hd. Qed.

(* controllers keep their addresses *)
Definition same_addrs (cs cs' : list ctrl) : Prop :=
  forall y, match nth_error cs y, nth_error cs' y with
            | Some c, Some c' => addr_same c c'
            | None, None => True
            | _, _ => False
            end.

Lemma same_addrs_upd : forall cs i c c', nth_error cs i = Some c -> addr_same c c' -> same_addrs cs (upd cs i c').
Proof.
  intros cs i c c' Hi Hs y. rewrite (nth_upd _ _ _ _ _ Hi). destruct (Nat.eqb i y) eqn:E.
  - apply Nat.eqb_eq in E. subst y. now rewrite Hi.
  - destruct (nth_error cs y); [apply addr_same_refl | exact I].
Qed.

Lemma same_addrs_owner : forall cs cs' j cj a, same_addrs cs cs' -> nth_error cs j = Some cj -> owns cj a ->
  exists cj', nth_error cs' j = Some cj' /\ owns cj' a.
Proof.
  intros cs cs' j cj a H Hj Ho. specialize (H j). rewrite Hj in H.
  destruct (nth_error cs' j) as [cj'|]; [|contradiction].
  exists cj'. split; [reflexivity | now apply (owns_same cj cj' a H)].
Qed.

Lemma rel_pkt_same : forall cs cs' x y p, same_addrs cs cs' -> rel_pkt cs' x y p = rel_pkt cs x y p.
Proof.
  intros cs cs' x y [[s d] m] H. unfold rel_pkt. f_equal. specialize (H y).
  destruct (nth_error cs y) as [c|], (nth_error cs' y) as [c'|]; try contradiction; [|reflexivity].
  unfold rel_msg. destruct m; try reflexivity. now apply owns_b_same.
Qed.

Lemma rel_msg_ctl : forall c m, rel_msg c m = true -> is_ctl m = true.
Proof. intros c m. destruct m; simpl; intros; try discriminate; reflexivity. Qed.

Lemma rel_pkt_unselected : forall cs src dst m c, nth_error cs dst = Some c -> rel_msg c m = false ->
  forall x y, rel_pkt cs x y (src, dst, m) = false.
Proof.
  intros cs src dst m c Hc Hm x y. destruct (rel_pkt cs x y (src, dst, m)) eqn:E; [|reflexivity].
  apply rel_pkt_true in E. destruct E as [_ [-> [cy [Hcy Hr]]]]. congruence.
Qed.

Lemma no_ctl_rel : forall cs x y out, none_of is_ctl out -> forall q, In q out -> rel_pkt cs x y q = false.
Proof.
  intros cs x y out H [[s d] m] Hin. destruct (rel_pkt cs x y (s, d, m)) eqn:E; [|reflexivity].
  apply rel_pkt_true in E. destruct E as [_ [_ [cy [_ Hm]]]]. apply rel_msg_ctl in Hm.
  rewrite (H _ _ _ Hin) in Hm. discriminate.
Qed.

(* the part of the net a pair (x,y) sees is unchanged by taking a packet that is not theirs
   and adding packets that are not theirs *)
Lemma rel_frame_remove : forall cs x y k net out p,
  nth_error net k = Some p -> rel_pkt cs x y p = false ->
  (forall q, In q out -> rel_pkt cs x y q = false) ->
  filter (rel_pkt cs x y) (remove_nth k net ++ out) = filter (rel_pkt cs x y) net.
Proof.
  intros cs x y k net out p Hk Hp Hout. rewrite filter_app, (filter_remove_other _ _ _ _ Hk Hp).
  rewrite (filter_none _ out Hout). apply app_nil_r.
Qed.

Lemma rel_broadcast_target : forall cs n i j m, rel_pkt cs i j (i, j, m) = true -> (j < n)%nat -> j <> i ->
  filter (rel_pkt cs i j) (broadcast n i m) = [(i, j, m)].
Proof.
  intros cs n i j m Hr Hj Hne. apply filter_unique.
  - apply broadcast_nodup.
  - apply broadcast_spec. auto.
  - assumption.
  - intros [[s d] x] Hin Hg. apply broadcast_spec in Hin. destruct Hin as [-> [_ [_ ->]]].
    apply rel_ends in Hg. destruct Hg as [_ ->]. reflexivity.
Qed.

Lemma rel_broadcast_other : forall cs n i x y m,
  (x <> i \/ (forall cy, nth_error cs y = Some cy -> rel_msg cy m = false)) ->
  filter (rel_pkt cs x y) (broadcast n i m) = [].
Proof.
  intros cs n i x y m H. apply filter_none. intros [[s d] z] Hin.
  apply broadcast_spec in Hin. destruct Hin as [-> [_ [_ ->]]].
  destruct (rel_pkt cs x y (i, d, m)) eqn:E; [|reflexivity]. exfalso.
  apply rel_pkt_true in E. destruct E as [-> [-> [cy [Hy Hm]]]].
  destruct H as [H|H]; [congruence|]. rewrite (H _ Hy) in Hm. discriminate.
Qed.

Lemma owner_unique : forall s i j ci cj a, ginv s -> nth_error (st_cs s) i = Some ci ->
  nth_error (st_cs s) j = Some cj -> owns ci a -> owns cj a -> i = j.
Proof. intros s i j ci cj a I. exact (g_uniq s I i j ci cj a). Qed.

Lemma owner_of_unique : forall s j cj a, ginv s -> nth_error (st_cs s) j = Some cj -> owns cj a ->
  owner_of (st_cs s) a = Some j.
Proof.
  intros s j cj a G Hj Ho. unfold owner_of.
  rewrite (find_index_unique _ _ j cj 0%nat Hj); [reflexivity | now apply owns_b_iff |].
  intros i ci Hi Hf. apply owns_b_iff in Hf. eapply (g_uniq s G); eauto.
Qed.

Lemma towards_in : forall cj c e, In e (towards cj c) <-> In e (c_le c) /\ owns cj (k_peer e).
Proof. unfold towards. intros. rewrite filter_In, owns_b_iff. tauto. Qed.

Lemma towards_same : forall cy cy' cx cx', c_le cx' = c_le cx -> addr_same cy cy' -> towards cy' cx' = towards cy cx.
Proof.
  intros cy cy' cx cx' H1 H2. unfold towards. rewrite H1. apply filter_ext_in. intros e _. now apply owns_b_same.
Qed.

Lemma towards_snoc : forall cy c c' k, c_le c' = c_le c ++ [k] ->
  towards cy c' = towards cy c ++ (if owns_b cy (k_peer k) then [k] else []).
Proof. intros cy c c' k H. unfold towards. now rewrite H, filter_app. Qed.

Lemma towards_del_other : forall cy c c' p, keys_nodup (c_le c) -> c_le c' = tbl_del (c_le c) p ->
  ~ owns cy p -> towards cy c' = towards cy c.
Proof.
  intros cy c c' p Hk Hle H. unfold towards. rewrite Hle, filter_del by assumption. apply filter_ext_in.
  intros e He. destruct (owns_b cy (k_peer e)) eqn:E; [|reflexivity]. simpl.
  apply owns_b_iff in E. apply negb_true_iff, Z.eqb_neq. congruence.
Qed.

Lemma towards_del_single : forall cy c c' e, keys_nodup (c_le c) -> c_le c' = tbl_del (c_le c) (k_peer e) ->
  towards cy c = [e] -> towards cy c' = [].
Proof.
  intros cy c c' e Hk Hle H. unfold towards. rewrite Hle, filter_del, filter_filter by assumption.
  fold (towards cy c). rewrite H. simpl. now rewrite Z.eqb_refl.
Qed.

Lemma sinv_update : forall s i0 c c' net',
  sinv s -> ginv (mkState (upd (st_cs s) i0 c') net') ->
  nth_error (st_cs s) i0 = Some c -> addr_same c c' -> noself ctl_le net' ->
  (forall e, In e (c_le c') -> In e (c_le c) \/
        exists j cj, j <> i0 /\ nth_error (st_cs s) j = Some cj /\ owns cj (k_peer e)) ->
  (forall y cy, y <> i0 -> nth_error (st_cs s) y = Some cy ->
        le_ok i0 y c' cy (filter (rel_pkt (st_cs s) i0 y) net') (filter (rel_pkt (st_cs s) y i0) net')) ->
  (forall x y, x <> i0 -> y <> i0 ->
        filter (rel_pkt (st_cs s) x y) net' = filter (rel_pkt (st_cs s) x y) (st_net s)) ->
  sinv (mkState (upd (st_cs s) i0 c') net').
Proof.
  intros s i0 c c' net' S G' Hi Hs Hbc Hpeer Hp0 Hframe.
  pose proof (same_addrs_upd _ _ _ _ Hi Hs) as Hsa.
  constructor; simpl; auto.
  - intros i ci e Hci He.
    assert (Hold : exists j cj, j <> i /\ nth_error (st_cs s) j = Some cj /\ owns cj (k_peer e)).
    { destruct (nth_upd_cases _ _ _ _ _ _ Hi Hci) as [[-> ->]|[Hne Hci0]]; [|eapply (si_peer s S); eauto].
      destruct (Hpeer e He) as [Hin|Hnew]; [eapply (si_peer s S); eauto | exact Hnew]. }
    destruct Hold as [j [cj [Hj1 [Hj2 Hj3]]]].
    destruct (same_addrs_owner _ _ _ _ _ Hsa Hj2 Hj3) as [cj' [Hj' Ho]]. eauto.
  - apply (pairwise_update rel_pkt le_ok le_ok_sym s i0 c); auto; [apply (si_pair s S)|].
    intros x y p. now apply rel_pkt_same.
Qed.

(* a step of i0 that leaves its LE table alone and neither takes nor sends a control message *)
Lemma sinv_neutral : forall s i0 c c' net' out,
  sinv s -> ginv (mkState (upd (st_cs s) i0 c') (net' ++ out)) ->
  nth_error (st_cs s) i0 = Some c -> addr_same c c' -> c_le c' = c_le c ->
  none_of is_ctl out -> noself is_bcast out ->
  (forall p, In p net' -> In p (st_net s)) ->
  (forall x y, filter (rel_pkt (st_cs s) x y) net' = filter (rel_pkt (st_cs s) x y) (st_net s)) ->
  sinv (mkState (upd (st_cs s) i0 c') (net' ++ out)).
Proof.
  intros s i0 c c' net' out S G' Hi Hs Hle Hnc Hns Hsub Hrel.
  assert (Hf : forall x y, filter (rel_pkt (st_cs s) x y) (net' ++ out) = filter (rel_pkt (st_cs s) x y) (st_net s)).
  { intros x y. rewrite filter_app, (filter_none _ out (no_ctl_rel _ x y out Hnc)), app_nil_r. apply Hrel. }
  eapply sinv_update; eauto.
  - apply noself_app; [|now apply (noself_orb is_bcast is_ctl)].
    intros src dst m Hin. apply (si_bc s S). auto.
  - intros e He. left. now rewrite <- Hle.
  - intros y cy Hy Hcy. unfold le_ok. rewrite !Hf.
    rewrite (towards_same cy cy c c' Hle (addr_same_refl cy)), (towards_same c c' cy cy eq_refl Hs).
    exact (si_pair s S _ _ _ _ (not_eq_sym Hy) Hi Hcy).
Qed.

(* the LE table of c changes at most by one entry whose peer address belongs to cj *)
Definition le_change (cj c c' : ctrl) : Prop :=
  c_le c' = c_le c
  \/ (exists k, c_le c' = c_le c ++ [k] /\ owns cj (k_peer k))
  \/ (exists p, c_le c' = tbl_del (c_le c) p /\ owns cj p).

(* a step of i0 that concerns only its pair with j1 *)
Lemma sinv_pair_step : forall s i0 j1 c c' cj1 net',
  sinv s -> ginv (mkState (upd (st_cs s) i0 c') net') ->
  nth_error (st_cs s) i0 = Some c -> nth_error (st_cs s) j1 = Some cj1 -> j1 <> i0 ->
  addr_same c c' -> noself ctl_le net' -> le_change cj1 c c' ->
  (forall x y, x <> i0 \/ y <> j1 -> x <> j1 \/ y <> i0 ->
        filter (rel_pkt (st_cs s) x y) net' = filter (rel_pkt (st_cs s) x y) (st_net s)) ->
  le_ok i0 j1 c' cj1 (filter (rel_pkt (st_cs s) i0 j1) net') (filter (rel_pkt (st_cs s) j1 i0) net') ->
  sinv (mkState (upd (st_cs s) i0 c') net').
Proof.
  intros s i0 j1 c c' cj1 net' S G' Hi Hj Hne Hs Hbc Hle Hframe Hpair.
  pose proof (ci_le_keys c (proj1 (g_c s (si_g s S) _ _ Hi))) as Hkeys.
  eapply sinv_update; eauto.
  - intros e He. destruct Hle as [Hle|[[k [Hle Hk]]|[p [Hle Hp]]]]; rewrite Hle in He.
    + now left.
    + apply in_app_or in He. destruct He as [He|[<-|[]]]; eauto 6.
    + left. eapply tbl_del_in; eauto.
  - intros y cy Hy Hcy. destruct (Nat.eq_dec y j1) as [->|Hyj]; [congruence|].
    assert (Hoth : forall a, owns cj1 a -> ~ owns cy a).
    { intros a H1 Hy'. apply Hyj. exact (owner_unique s y j1 cy cj1 a (si_g s S) Hcy Hj Hy' H1). }
    unfold le_ok. rewrite !Hframe by auto. rewrite (towards_same c c' cy cy eq_refl Hs).
    replace (towards cy c') with (towards cy c); [exact (si_pair s S _ _ _ _ (not_eq_sym Hy) Hi Hcy)|].
    destruct Hle as [Hle|[[k [Hle Hk]]|[p [Hle Hp]]]].
    + unfold towards. now rewrite Hle.
    + rewrite (towards_snoc _ _ _ _ Hle). apply Hoth, owns_b_false in Hk. rewrite Hk. symmetry. apply app_nil_r.
    + symmetry. exact (towards_del_other cy c c' p Hkeys Hle (Hoth _ Hp)).
Qed.

Lemma local_le_effect : forall cs n i c l c' e o, local cs n i c l = (c', e, o) ->
  (c_le c' = c_le c /\ none_of is_ctl o /\ noself is_bcast o)
  \/ (exists i0 h r k, l = LDisconnect i0 h r /\ by_handle (c_cl c) h = None /\
        by_handle (c_le c) h = Some k /\ c_le c' = tbl_del (c_le c) (k_peer k) /\
        o = match find_le cs (k_peer k) with None => [] | Some j => [(i, j, MTerm (k_self k) r)] end).
Proof.
  intros cs n i c l c' e o H.
  destruct (local_cases _ _ _ _ _ _ _ _ H) as [H0|[[j [h [r [-> H0]]]]|[[j [p [_ H0]]]|[j [p [_ H0]]]]]].
  - left. tauto.
  - apply disconnect_effect in H0.
    destruct (by_handle (c_cl c) h) as [k|] eqn:Ecl; [|destruct (by_handle (c_le c) h) as [k|] eqn:Ele].
    + left. destruct H0 as [_ [Hle [_ ->]]]. destruct (find_classic cs (k_peer k)); auto with outs.
    + right. exists j, h, r, k. tauto.
    + left. tauto.
  - left. destruct (cl_connect_cases _ _ _ _ _ _ _ H0) as [[-> [-> _]]|[[_ [-> [_ ->]]]|[j' [_ [-> [_ ->]]]]]];
      auto with outs.
  - left. apply cl_accept_effect in H0. destruct (tbl_get (c_cl c) p); destruct H0 as [H1 H2]; subst.
    + destruct (alloc c), (find_classic cs p); auto with outs.
    + auto with outs.
Qed.

Lemma adv_le_effect : forall cs n j c b d sr c' e o, on_message cs n j c (MAdv b d sr) = (c', e, o) ->
  (c_le c' = c_le c /\ o = [])
  \/ (creates c b = true /\ exists own h, c_pending c = Some (b, own) /\
        c_le c' = c_le c ++ [mkConn b (if own then c_public c else c_random c) h true] /\
        o = broadcast n j (MConnInd (if own then c_public c else c_random c) b)).
Proof.
  intros cs n j c b d sr c' e o H. simpl in H. unfold on_adv, create_le_connection in H.
  destruct (c_pending c) as [[peer own]|] eqn:Hp; [|inversion H; subst; now left].
  destruct (peer =? b) eqn:Epb; [|inversion H; subst; now left].
  apply Z.eqb_eq in Epb. subst peer.
  destruct (tbl_get (c_le c) b) eqn:Hg; [inversion H; subst; now left|].
  destruct (alloc c) as [h|]; inversion H; subst; [|now left].
  right. split.
  - unfold creates. now rewrite Hp, Z.eqb_refl, Hg.
  - exists own, h. repeat split; auto. simpl. now apply tbl_set_app.
Qed.

Lemma connind_cases : forall cs n j c a b c' e o, on_message cs n j c (MConnInd a b) = (c', e, o) ->
  (o = [] /\ exists h, c_le c' = tbl_set (c_le c) (mkConn a b h false))
  \/ (c' = c /\ o = refuse cs j c a b)
  \/ (alloc c = None /\ c' = c /\ o = []).
Proof.
  intros cs n j c a b c' e o H. simpl in H. unfold on_connect_ind in H.
  destruct (andb (leg_address c =? b) (c_leg_enabled c));
    [|destruct (find_set c (c_sets c) b); [|inversion H; auto]];
    (destruct (alloc c) as [h|] eqn:Ha; inversion H; subst; simpl; eauto 6).
Qed.

Lemma term_le_effect : forall cs n j c a r c' e o, on_message cs n j c (MTerm a r) = (c', e, o) ->
  o = [] /\ c_le c' = match tbl_get (c_le c) a with Some _ => tbl_del (c_le c) a | None => c_le c end.
Proof.
  intros cs n j c a r c' e o H. simpl in H. unfold on_terminate in H.
  destruct (tbl_get (c_le c) a); inversion H; subst; auto.
Qed.

(* a control message in flight: who sent it, and the state of the pair *)
Lemma le_in_flight : forall s k i j m, sinv s -> nth_error (st_net s) k = Some (i, j, m) ->
  forall cj, nth_error (st_cs s) j = Some cj -> rel_msg cj m = true ->
  i <> j /\ exists ci, nth_error (st_cs s) i = Some ci /\ msg_ok ci m /\
    rel_pkt (st_cs s) i j (i, j, m) = true /\
    le_ok i j ci cj (rel s i j) (rel s j i) /\ In (i, j, m) (rel s i j).
Proof.
  intros s k i j m S Hk cj Hj Hm. pose proof (nth_error_In _ _ Hk) as Hin.
  assert (Hne : i <> j).
  { apply (si_bc s S _ _ _ Hin). unfold ctl_le. now rewrite (rel_msg_ctl _ _ Hm), orb_true_r. }
  destruct (g_net s (si_g s S) _ _ _ Hin) as [ci [Hi Hok]].
  pose proof (rel_pkt_self _ i j cj m Hj Hm) as Hr.
  split; [exact Hne|]. exists ci. repeat split; auto.
  - exact (si_pair s S _ _ _ _ Hne Hi Hj).
  - apply filter_In. auto.
Qed.

(* delivery of the control message m from i1 to j0 without an answer: m was alone in flight
   between the two, and what is asked for is the state of the pair once m is taken *)
Lemma sinv_pair_deliver : forall s k i1 j0 m c c',
  sinv s -> ginv (mkState (upd (st_cs s) j0 c') (remove_nth k (st_net s))) ->
  nth_error (st_net s) k = Some (i1, j0, m) -> nth_error (st_cs s) j0 = Some c -> rel_msg c m = true ->
  addr_same c c' ->
  (forall ci1, nth_error (st_cs s) i1 = Some ci1 -> msg_ok ci1 m -> le_ok i1 j0 ci1 c [(i1, j0, m)] [] ->
     le_change ci1 c c' /\ le_ok j0 i1 c' ci1 [] []) ->
  sinv (mkState (upd (st_cs s) j0 c') (remove_nth k (st_net s))).
Proof.
  intros s k i1 j0 m c c' S G' Hk Hj Hm Hs Hnew.
  destruct (le_in_flight s _ _ _ _ S Hk c Hj Hm) as [Hne [ci1 [Hi1 [Hok [Hrelp [Hp Hin]]]]]].
  destruct (pair_state_in_flight _ _ _ _ _ _ _ Hp Hin) as [R1 [R2 _]].
  rewrite R1, R2 in Hp. destruct (Hnew ci1 Hi1 Hok Hp) as [Hch Hpair]. unfold rel in R1, R2.
  apply (sinv_pair_step s j0 i1 c c' ci1); auto.
  - apply noself_remove, (si_bc s S).
  - intros x y _ H2. apply (sel_remove rel_ends Hk H2).
  - rewrite (sel_remove rel_ends Hk (x := j0) (y := i1)) by auto.
    now rewrite (filter_single_remove _ _ _ _ Hk Hrelp R1), R2.
Qed.

(* an advertisement makes controller i0 create a connection towards j1 *)
Lemma sinv_create : forall s k j1 i0 b d sr c c' (own : bool) h,
  let s' := mkState (upd (st_cs s) i0 c') (remove_nth k (st_net s) ++ broadcast (length (st_cs s)) i0 (MConnInd (if own then c_public c else c_random c) b)) in
  sinv s -> ginv s' ->
  nth_error (st_net s) k = Some (j1, i0, MAdv b d sr) ->
  nth_error (st_cs s) i0 = Some c -> addr_same c c' ->
  c_le c' = c_le c ++ [mkConn b (if own then c_public c else c_random c) h true] ->
  pair_idle s i0 j1 = true ->
  sinv s'.
Proof.
  intros s k j1 i0 b d sr c c' own h s' S G' Hk Hi Hs Hle Hidle. subst s'.
  set (self := if own then c_public c else c_random c) in *.
  pose proof (nth_error_In _ _ Hk) as Hkin.
  destruct (g_net s (si_g s S) _ _ _ Hkin) as [cj1 [Hj1 Hob]]. simpl in Hob.
  assert (Hne : j1 <> i0) by exact (si_bc s S _ _ _ Hkin eq_refl).
  assert (Hrm : forall x y, filter (rel_pkt (st_cs s) x y) (remove_nth k (st_net s)) = filter (rel_pkt (st_cs s) x y) (st_net s)).
  { intros x y. exact (filter_remove_other _ _ _ _ Hk (rel_pkt_unselected _ j1 i0 (MAdv b d sr) c Hi eq_refl x y)). }
  destruct (pair_idle_lists _ _ _ _ _ Hi Hj1 Hidle) as [T1 [T2 [R1 R2]]]. unfold rel in R1, R2.
  apply (sinv_pair_step s i0 j1 c c' cj1); auto.
  - apply noself_app; [apply noself_remove, (si_bc s S) | apply noself_broadcast].
  - right. left. eauto.
  - intros x y H1 _. rewrite filter_app, Hrm, rel_broadcast_other; [apply app_nil_r|].
    destruct H1 as [H1|H1]; [now left | right]. intros cy Hcy. simpl. apply owns_b_false. intro Ho.
    apply H1. exact (owner_unique s y j1 cy cj1 b (si_g s S) Hcy Hj1 Ho Hob).
  - unfold le_ok. rewrite !filter_app, !Hrm, R1, R2, (towards_snoc _ _ _ _ Hle), T1.
    rewrite (towards_same c c' cj1 cj1 eq_refl Hs), T2. simpl k_peer.
    apply owns_b_iff in Hob. rewrite Hob. simpl.
    rewrite rel_broadcast_target, rel_broadcast_other;
      [| now left | eapply rel_pkt_self; eauto | eapply nth_error_lt; eauto | assumption].
    right. right. left. left. exists (mkConn b self h true). simpl. repeat split; reflexivity.
Qed.

(* the addressee j0 of a ConnectInd(a, b) from i1 accepts it *)
Lemma sinv_accept : forall s k i1 j0 a b c c' h,
  let s' := mkState (upd (st_cs s) j0 c') (remove_nth k (st_net s)) in
  sinv s -> ginv s' ->
  nth_error (st_net s) k = Some (i1, j0, MConnInd a b) ->
  nth_error (st_cs s) j0 = Some c -> addr_same c c' -> owns c b ->
  c_le c' = tbl_set (c_le c) (mkConn a b h false) ->
  sinv s'.
Proof.
  intros s k i1 j0 a b c c' h s' S G' Hk Hj Hs Hob Hle. subst s'.
  apply (sinv_pair_deliver s k i1 j0 (MConnInd a b) c c'); auto; [now apply owns_b_iff|].
  intros ci1 Hi1 Hoa Hp. simpl in Hoa.
  destruct (pair_state_in_flight _ _ _ _ _ _ _ Hp (or_introl eq_refl)) as [_ [_ [e [T1 [T2 [E1 [E2 E3]]]]]]].
  (* the addressee holds nothing towards the initiator, in particular nothing filed under a *)
  assert (Hnone : tbl_get (c_le c) a = None).
  { destruct (tbl_get (c_le c) a) as [k0|] eqn:Eg; [|reflexivity]. exfalso.
    apply tbl_get_in in Eg. destruct Eg as [Hk0 Hp0].
    assert (Hin0 : In k0 (towards ci1 c)) by (apply towards_in; split; [assumption | now rewrite Hp0]).
    rewrite T2 in Hin0. contradiction. }
  rewrite (tbl_set_app (c_le c) (mkConn a b h false) Hnone) in Hle.
  split; [right; left; eauto|].
  unfold le_ok. rewrite (towards_snoc _ _ _ _ Hle), T2, (towards_same c c' ci1 ci1 eq_refl Hs), T1. simpl k_peer.
  apply owns_b_iff in Hoa. rewrite Hoa. simpl.
  right. left. exists (mkConn a b h false), e. unfold mirror. simpl. repeat split; auto.
Qed.

(* the addressee j0 of a ConnectInd(a, b) from i1 no longer advertises b and refuses (D06d) *)
Lemma sinv_refuse : forall s k i1 j0 a b c,
  let s' := mkState (upd (st_cs s) j0 c) (remove_nth k (st_net s) ++ refuse (st_cs s) j0 c a b) in
  sinv s -> ginv s' ->
  nth_error (st_net s) k = Some (i1, j0, MConnInd a b) ->
  nth_error (st_cs s) j0 = Some c -> owns c b ->
  sinv s'.
Proof.
  intros s k i1 j0 a b c s' S G' Hk Hj Hob. subst s'.
  destruct (le_in_flight s _ _ _ _ S Hk c Hj (proj2 (owns_b_iff c b) Hob)) as [Hne [ci1 [Hi1 [Hoa [Hrelp [Hp Hin]]]]]].
  destruct (pair_state_in_flight _ _ _ _ _ _ _ Hp Hin) as [R1 [R2 [e [T1 [T2 [E1 [E2 E3]]]]]]].
  assert (He : In e (c_le ci1)) by (apply (proj1 (towards_in c ci1 e)); rewrite T1; now left).
  assert (Hfind : find_le (st_cs s) a = Some i1) by (rewrite <- E2; eapply find_le_holder; eauto using si_g).
  unfold refuse in *. rewrite (owns_own_address _ _ Hob), Hfind in *. unfold rel in R1, R2.
  apply (sinv_pair_step s j0 i1 c c ci1); auto using addr_same_refl.
  - apply noself_app; [apply noself_remove, (si_bc s S) | apply noself_one; auto].
  - now left.
  - intros x y H1 H2. rewrite (sel_send rel_ends) by auto. apply (sel_remove rel_ends Hk H2).
  - unfold le_ok. rewrite (sel_send rel_ends (x := i1) (y := j0)) by auto.
    rewrite (filter_single_remove _ _ _ _ Hk Hrelp R1).
    rewrite filter_app, filter_one, (sel_remove rel_ends Hk), R2, (rel_pkt_self _ j0 i1 ci1 (MTerm b 62) Hi1 eq_refl), T1, T2 by auto.
    right. right. left. right. exists e, 62. rewrite E3. auto.
Qed.

(* when nothing is in flight between i and the owner j of the peer address of one of i's
   connections, the pair is connected: j holds the mirror connection, so the link finds j for
   that address *)
Lemma quiet_pair_connected : forall s i j c cj ent, sinv s ->
  nth_error (st_cs s) i = Some c -> nth_error (st_cs s) j = Some cj -> j <> i ->
  In ent (c_le c) -> owns cj (k_peer ent) -> pair_quiet s i j = true ->
  find_le (st_cs s) (k_peer ent) = Some j /\
  exists e', towards cj c = [ent] /\ towards c cj = [e'] /\ mirror ent e'.
Proof.
  intros s i j c cj ent S Hi Hj Hji Hent Hoj Hq.
  pose proof (si_pair s S _ _ _ _ (not_eq_sym Hji) Hi Hj) as Hp. unfold le_ok in Hp.
  destruct (pair_quiet_nil _ _ _ Hq) as [Q1 Q2]. unfold rel in Q1, Q2. rewrite Q1, Q2 in Hp.
  assert (Hin : In ent (towards cj c)) by (apply towards_in; auto).
  destruct (pair_state_quiet _ _ _ _ Hp) as [[T1 _]|[e [e' [T1 [T2 M]]]]]; rewrite T1 in Hin;
    [destruct Hin | destruct Hin as [->|[]]].
  split; [|eauto]. destruct M as [_ [M2 _]]. rewrite <- M2.
  apply (find_le_holder s j cj e' (si_g s S) Hj). apply (proj1 (towards_in c cj e')). rewrite T2. now left.
Qed.

(* controller i0 disconnects an established LE connection with j1 *)
Lemma sinv_disconnect : forall s i0 j1 c c' cj1 ent e' r,
  let s' := mkState (upd (st_cs s) i0 c') (st_net s ++ [(i0, j1, MTerm (k_self ent) r)]) in
  sinv s -> ginv s' ->
  nth_error (st_cs s) i0 = Some c -> nth_error (st_cs s) j1 = Some cj1 -> j1 <> i0 -> addr_same c c' ->
  owns cj1 (k_peer ent) -> c_le c' = tbl_del (c_le c) (k_peer ent) -> pair_quiet s i0 j1 = true ->
  towards cj1 c = [ent] -> towards c cj1 = [e'] -> mirror ent e' ->
  sinv s'.
Proof.
  intros s i0 j1 c c' cj1 ent e' r s' S G' Hi Hj1 Hji Hs Hob Hle Hq T1 T2 [M1 _]. subst s'.
  pose proof (ci_le_keys c (proj1 (g_c s (si_g s S) _ _ Hi))) as Hkeys.
  destruct (pair_quiet_nil _ _ _ Hq) as [Q1 Q2]. unfold rel in Q1, Q2.
  apply (sinv_pair_step s i0 j1 c c' cj1); auto.
  - apply noself_app; [apply (si_bc s S) | apply noself_one; auto].
  - right. right. eauto.
  - intros x y H1 _. apply (sel_send rel_ends H1).
  - unfold le_ok. rewrite (sel_send rel_ends (x := j1) (y := i0)) by auto.
    rewrite filter_app, filter_one, Q1, Q2, (rel_pkt_self _ i0 j1 cj1 (MTerm (k_self ent) r) Hj1 eq_refl).
    rewrite (towards_del_single cj1 c c' ent Hkeys Hle T1), (towards_same c c' cj1 cj1 eq_refl Hs), T2.
    right. right. left. right. exists e', r. rewrite M1. auto.
Qed.

(* a TerminateInd from i1 reaches j0 *)
Lemma sinv_terminate : forall s k i1 j0 a r c c',
  let s' := mkState (upd (st_cs s) j0 c') (remove_nth k (st_net s)) in
  sinv s -> ginv s' ->
  nth_error (st_net s) k = Some (i1, j0, MTerm a r) ->
  nth_error (st_cs s) j0 = Some c -> addr_same c c' ->
  c_le c' = match tbl_get (c_le c) a with Some _ => tbl_del (c_le c) a | None => c_le c end ->
  sinv s'.
Proof.
  intros s k i1 j0 a r c c' s' S G' Hk Hj Hs Hle. subst s'.
  apply (sinv_pair_deliver s k i1 j0 (MTerm a r) c c'); auto.
  intros ci1 Hi1 Hoa Hp. simpl in Hoa.
  destruct (pair_state_in_flight _ _ _ _ _ _ _ Hp (or_introl eq_refl)) as [_ [_ [e' [T1 [T2 E1]]]]].
  pose proof (ci_le_keys c (proj1 (g_c s (si_g s S) _ _ Hj))) as Hkeys.
  assert (He' : In e' (c_le c)) by (apply (proj1 (towards_in ci1 c e')); rewrite T2; now left).
  rewrite <- E1, (tbl_get_of_in _ _ Hkeys He') in Hle. rewrite <- E1 in Hoa.
  split; [right; right; eauto|].
  unfold le_ok. rewrite (towards_del_single ci1 c c' e' Hkeys Hle T2), (towards_same c c' ci1 ci1 eq_refl Hs), T1.
  left. auto.
Qed.

Lemma guard_sym_static : forall s l, guard_sym s l = true -> guard_static s l = true.
Proof. unfold guard_sym. intros s l H. apply andb_true_iff in H. tauto. Qed.

Theorem sinv_step : forall s l s' evs out, sinv s -> guard_sym s l = true ->
  step s l = (s', evs, out) -> sinv s'.
Proof.
  intros s l s' evs out S Gd H.
  pose proof (si_g s S) as G.
  assert (G' : ginv s') by (eapply ginv_step; eauto using guard_sym_static).
  pose proof H as Hstep. apply step_shape in H. destruct H.
  - now subst.
  - (* a host command or timer at controller i *)
    subst s' evs. destruct (g_c s G _ _ H0) as [Ci Ai].
    pose proof (guard_static_c _ _ _ _ (guard_sym_static _ _ Gd) H H0) as Hst.
    destruct (local_ainv _ _ _ _ _ _ _ _ Ai Hst H1) as [Hs [_ _]].
    destruct (local_le_effect _ _ _ _ _ _ _ _ H1) as [[Hle [Hnc Hns]]|[i0 [h [r [ent [-> [Hcl [Hb [Hle Ho]]]]]]]]].
    + eapply sinv_neutral; eauto.
    + simpl in H. inversion H; subst i0.
      apply by_handle_in in Hb as Hent. destruct Hent as [Hent _].
      destruct (si_peer s S _ _ _ H0 Hent) as [j [cj [Hji [Hj Hoj]]]].
      unfold guard_sym in Gd. apply andb_true_iff in Gd. destruct Gd as [_ Gd].
      rewrite H0, Hcl, Hb, (owner_of_unique s j cj _ G Hj Hoj) in Gd.
      destruct (quiet_pair_connected s i j c cj ent S H0 Hj Hji Hent Hoj Gd) as [Hfind [e' [T1 [T2 M]]]].
      rewrite Hfind in Ho. subst out. eapply sinv_disconnect; eauto.
  - (* delivery of message m from src to dst *)
    subst s' evs. destruct (g_c s G _ _ H2) as [Cd Ad].
    destruct (message_ainv _ _ _ _ _ _ _ _ Ad H3) as [Hs [_ _]].
    unfold guard_sym in Gd. apply andb_true_iff in Gd. destruct Gd as [_ Gd]. subst l. rewrite H0, H2 in Gd.
    (* a message that no pair counts, that leaves the LE table alone and is not answered *)
    assert (Hneutral : rel_msg c m = false -> c_le c' = c_le c -> out = [] ->
              sinv (mkState (upd (st_cs s) dst c') (remove_nth k (st_net s) ++ out))).
    { intros Hm Hle ->. eapply sinv_neutral; eauto with outs.
      - intros p. apply remove_nth_in.
      - intros x y. exact (filter_remove_other _ _ _ _ H0 (rel_pkt_unselected _ _ _ _ _ H2 Hm x y)). }
    destruct (ctl_le m) eqn:Em.
    2:{ destruct (proj1 (proj2 (message_effect _ _ _ _ _ _ _ _ H3)) Em) as [Hle Ho].
        apply orb_false_iff in Em. apply Hneutral; auto.
        destruct (rel_msg c m) eqn:E; [apply rel_msg_ctl in E; destruct Em; congruence | reflexivity]. }
    destruct m; try discriminate Em.
    + (* MAdv *)
      destruct (adv_le_effect _ _ _ _ _ _ _ _ _ _ H3) as [[Hle ->]|[Hcr [own [h [Hp [Hle ->]]]]]].
      * apply Hneutral; auto.
      * rewrite Hcr in Gd. eapply sinv_create; eauto.
    + (* MConnInd *)
      destruct (owns_b c adv) eqn:Eo.
      * apply owns_b_iff in Eo.
        destruct (connind_cases _ _ _ _ _ _ _ _ _ H3) as [[-> [h Hle]]|[[-> ->]|[Hal _]]].
        -- rewrite app_nil_r in *. eapply sinv_accept; eauto.
        -- eapply sinv_refuse; eauto.
        -- rewrite Hal in Gd. discriminate.
      * (* not an address of this controller *)
        destruct (connect_ind_effect _ _ _ _ _ _ _ _ _ Ad H3) as [Hign _].
        destruct (Hign (proj1 (owns_b_false c adv) Eo)) as [-> [_ ->]]. apply Hneutral; auto.
    + (* MTerm *)
      destruct (term_le_effect _ _ _ _ _ _ _ _ _ H3) as [-> Hle]. rewrite app_nil_r in *.
      eapply sinv_terminate; eauto.
  - (* a message to a controller that does not exist is dropped *)
    subst s' evs out. destruct S as [_ Sbc Speer Spair]. constructor; simpl; auto.
    + now apply noself_remove.
    + exact (pairwise_lost rel_pkt le_ok rel_ends s k src dst m Spair H0 H1).
Qed.

Lemma sinv_init : forall cfg, cfg_ok cfg = true -> sinv (init cfg).
Proof.
  intros cfg H. pose proof (ginv_init cfg H) as G.
  assert (Hle : forall i c, nth_error (st_cs (init cfg)) i = Some c -> c_le c = []).
  { unfold init; simpl. intros i c Hc. rewrite nth_error_map in Hc.
    destruct (nth_error cfg i) as [[[p r] x]|]; [|discriminate]. simpl in Hc. inversion Hc; subst. reflexivity. }
  constructor; auto.
  - intros src dst m [].
  - intros i ci e Hi He. rewrite (Hle _ _ Hi) in He. contradiction.
  - intros i j ci cj Hij Hi Hj. unfold le_ok, towards. rewrite (Hle _ _ Hi), (Hle _ _ Hj). simpl.
    left. auto.
Qed.

Lemma reachable_sinv : forall cfg ls, cfg_ok cfg = true -> run_ok guard_sym (init cfg) ls = true ->
  sinv (run_state (init cfg) ls).
Proof. intros cfg ls Hc. apply (run_invariant sinv guard_sym sinv_step). now apply sinv_init. Qed.

(* tables_symmetric: in every state reachable by a schedule satisfying the guard, for any two
   controllers i and j with no link-layer control message in flight between them, i holds a
   connection to an address b of j with own address a exactly when j holds one to a with own
   address b, in the opposite role (and each side holds at most one towards the other). *)
Theorem tables_symmetric : forall cfg ls i j ci cj, cfg_ok cfg = true ->
  run_ok guard_sym (init cfg) ls = true ->
  let s := run_state (init cfg) ls in
  i <> j -> nth_error (st_cs s) i = Some ci -> nth_error (st_cs s) j = Some cj ->
  pair_quiet s i j = true ->
  (towards cj ci = [] /\ towards ci cj = []) \/
  (exists e e', towards cj ci = [e] /\ towards ci cj = [e'] /\ mirror e e').
Proof.
  intros cfg ls i j ci cj Hc Hr s Hij Hi Hj Hq.
  pose proof (si_pair s (reachable_sinv cfg ls Hc Hr) _ _ _ _ Hij Hi Hj) as Hp. unfold le_ok in Hp.
  destruct (pair_quiet_nil _ _ _ Hq) as [Q1 Q2]. unfold rel in Q1, Q2. rewrite Q1, Q2 in Hp.
  exact (pair_state_quiet _ _ _ _ Hp).
Qed.
