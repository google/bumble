(* Property C20: RFCOMM carries the exact byte stream; HFP on top negotiates
   consistently; every AT command the gateway receives is concluded by exactly one
   final result code.
   This file contains only statements, each closed by [exact] (or by complete
   evaluation for the obligations over the regenerated tables). *)
From Coq Require Import ZArith List Bool String.
From BV Require Import Gen.C20Consts Gen.C20AgSkeleton Gen.C20MuxEff Gen.C20DataPath Gen.C20AtReaders.
From BV Require Import Model.Rfcomm Model.RfcommMux Model.RfcommSm Model.RfcommSm2 Model.RfcommEff Model.RfcommRxQueue Model.HfpSlc Model.AtSkeleton Model.AtFramer.
From BV Require Import Proofs.Rfcomm Proofs.RfcommMux Proofs.RfcommSm Proofs.RfcommSm2 Proofs.RfcommEff Proofs.RfcommSrc Proofs.RfcommRxQueue Proofs.HfpSlc Proofs.AtSkeleton Proofs.AtFramer.
Import ListNotations.
Close Scope string_scope.
Open Scope list_scope.
Open Scope Z_scope.

(* the credit constants of bumble/rfcomm.py, regenerated on every run *)
Definition P : params := mkParams rfcomm_max_credits rfcomm_credit_threshold.

(* re-checked on every run against the regenerated constants:
   0 <= threshold < max_credits <= 255 (the credit byte) *)
Theorem C20_rfcomm_params_wf : wf_params_b P = true.
Proof. vm_compute. reflexivity. Qed.
Print Assumptions C20_rfcomm_params_wf.

(* Which data links.
   wf_link_b: initial credits 1..7 on each side and each side's maximum frame size accepted by
   the other end's Multiplexer.acceptable_frame_size (N1 <= 32767, min(N1, L2CAP MTU - 5) >= 23).
   The ranges of the property text (frame size 23..32767, L2CAP MTU 48..65535) are a special
   case, and it is exactly what the code enforces (fix D17i): *)
Theorem C20_property_ranges_are_links : forall ini rsp mtu_i mtu_r,
  wf_setup_b ini rsp mtu_i mtu_r = true -> wf_link_b ini rsp mtu_i mtu_r = true.
Proof. exact wf_setup_implies_link. Qed.
Print Assumptions C20_property_ranges_are_links.

(* Multiplexer.acceptable_frame_size, compiled from the source on every run, is the test
   the model uses *)
Theorem C20_acceptable_matches_source : forall n m, src_acceptable n m = acceptable n m.
Proof. exact src_acceptable_ok. Qed.
Print Assumptions C20_acceptable_matches_source.

(* every data link the code lets come up satisfies the hypothesis of the theorems below:
   both acceptance tests passed (responder on the PN command, initiator on the PN response),
   the configured credit counts are 1..7 and the configured frame sizes fit the PN field *)
Theorem C20_accepted_links_satisfy_hypotheses : forall ini rsp mtu_i mtu_r,
  credits_ok_b ini = true -> credits_ok_b rsp = true ->
  0 <= pn_mfs ini < 65536 -> 0 <= pn_mfs rsp < 65536 ->
  src_acceptable (pn_mfs (pn_wire ini)) mtu_i = true ->
  src_acceptable (pn_mfs (pn_wire rsp)) mtu_r = true ->
  wf_link_b ini rsp mtu_i mtu_r = true.
Proof. exact accepted_links_wf. Qed.
Print Assumptions C20_accepted_links_satisfy_hypotheses.

(* and no other: the model's outcome of the negotiation is "up" exactly when both tests pass *)
Theorem C20_negotiation_up_iff_accepted : forall ini rsp mtu_i mtu_r,
  pn_negotiate ini rsp mtu_i mtu_r = 2 <->
  src_acceptable (pn_mfs (pn_wire ini)) mtu_i = true /\ src_acceptable (pn_mfs (pn_wire rsp)) mtu_r = true.
Proof. exact pn_negotiate_up. Qed.
Print Assumptions C20_negotiation_up_iff_accepted.

(* One data link.
   For every such link and EVERY schedule of writes (any sizes, any bytes) and single-frame
   deliveries in both directions: *)

(* bytes received ++ bytes in flight ++ bytes not yet sent = bytes written, in order,
   in both directions *)
Theorem C20_stream_exact : forall ini rsp mtu_i mtu_r ls,
  wf_link_b ini rsp mtu_i mtu_r = true ->
  let s := Rfcomm.run P (setup ini rsp mtu_i mtu_r) ls in
  s_rcv_b s ++ flight_data (s_ab s) ++ d_tx_buf (s_a s) = writes_a ls /\
  s_rcv_a s ++ flight_data (s_ba s) ++ d_tx_buf (s_b s) = writes_b ls.
Proof. intros ini rsp mtu_i mtu_r ls H. exact (stream_exact P ini rsp mtu_i mtu_r C20_rfcomm_params_wf H ls). Qed.
Print Assumptions C20_stream_exact.

(* no frame carries more information bytes than the receiver's maximum frame size, nor
   than its L2CAP MTU minus the 5-byte frame envelope; a credit-bearing frame has a
   credit byte in 1..255 *)
Theorem C20_payload_le_max : forall ini rsp mtu_i mtu_r ls,
  wf_link_b ini rsp mtu_i mtu_r = true ->
  let s := Rfcomm.run P (setup ini rsp mtu_i mtu_r) ls in
  Forall (fun f => Z.of_nat (List.length (f_info f)) <= Z.min (pn_mfs rsp) (mtu_r - 5)
                   /\ frame_wf (d_mtu (s_a (setup ini rsp mtu_i mtu_r))) f) (s_ab s) /\
  Forall (fun f => Z.of_nat (List.length (f_info f)) <= Z.min (pn_mfs ini) (mtu_i - 5)
                   /\ frame_wf (d_mtu (s_b (setup ini rsp mtu_i mtu_r))) f) (s_ba s).
Proof. intros ini rsp mtu_i mtu_r ls H. exact (payload_le_max P ini rsp mtu_i mtu_r C20_rfcomm_params_wf H ls). Qed.
Print Assumptions C20_payload_le_max.

(* the credit ledger balances (sender's credits + data frames in flight + credits in
   flight = receiver's count), a sender's count is never negative (data is only sent
   against a credit) and a receiver's count is at least 1 *)
Theorem C20_credit_safe : forall ini rsp mtu_i mtu_r ls,
  wf_link_b ini rsp mtu_i mtu_r = true ->
  let s := Rfcomm.run P (setup ini rsp mtu_i mtu_r) ls in
  d_tx_credits (s_a s) + n_data (s_ab s) + sum_credits (s_ba s) = d_rx_credits (s_b s) /\
  d_tx_credits (s_b s) + n_data (s_ba s) + sum_credits (s_ab s) = d_rx_credits (s_a s) /\
  0 <= d_tx_credits (s_a s) /\ 0 <= d_tx_credits (s_b s) /\
  1 <= d_rx_credits (s_a s) /\ 1 <= d_rx_credits (s_b s).
Proof. intros ini rsp mtu_i mtu_r ls H. exact (credit_safe P ini rsp mtu_i mtu_r C20_rfcomm_params_wf H ls). Qed.
Print Assumptions C20_credit_safe.

(* credit replenishment keeps transfers going: whenever nothing is in flight, nothing
   is waiting to be sent and everything written has reached the peer's sink *)
Theorem C20_progress : forall ini rsp mtu_i mtu_r ls,
  wf_link_b ini rsp mtu_i mtu_r = true ->
  let s := Rfcomm.run P (setup ini rsp mtu_i mtu_r) ls in
  s_ab s = [] -> s_ba s = [] ->
  d_tx_buf (s_a s) = [] /\ d_tx_buf (s_b s) = [] /\
  s_rcv_b s = writes_a ls /\ s_rcv_a s = writes_b ls.
Proof. intros ini rsp mtu_i mtu_r ls H. exact (progress P ini rsp mtu_i mtu_r C20_rfcomm_params_wf H ls). Qed.
Print Assumptions C20_progress.

(* and that point is always reached: after any schedule, a bounded number of deliveries
   alone (no further cooperation of the writers) empties both channels with everything
   written delivered - no deadlock, no endless exchange of credit frames *)
Theorem C20_progress_drains : forall ini rsp mtu_i mtu_r ls,
  wf_link_b ini rsp mtu_i mtu_r = true ->
  exists n,
    let s := Rfcomm.run P (setup ini rsp mtu_i mtu_r) (ls ++ drain_sched n) in
    s_ab s = [] /\ s_ba s = [] /\ s_rcv_b s = writes_a ls /\ s_rcv_a s = writes_b ls.
Proof. intros ini rsp mtu_i mtu_r ls H. exact (drains_reachable P ini rsp mtu_i mtu_r ls C20_rfcomm_params_wf H). Qed.
Print Assumptions C20_progress_drains.

(* no mutual wait: in every reachable state with data queued at either end a delivery is
   enabled - the wire is never idle while somebody still has bytes to send, however much
   both ends write at the same time *)
Theorem C20_no_mutual_wait : forall ini rsp mtu_i mtu_r ls,
  wf_link_b ini rsp mtu_i mtu_r = true ->
  let s := Rfcomm.run P (setup ini rsp mtu_i mtu_r) ls in
  d_tx_buf (s_a s) <> [] \/ d_tx_buf (s_b s) <> [] -> s_ab s <> [] \/ s_ba s <> [].
Proof. intros ini rsp mtu_i mtu_r ls H. exact (no_mutual_wait P ini rsp mtu_i mtu_r ls C20_rfcomm_params_wf H). Qed.
Print Assumptions C20_no_mutual_wait.

(* because the side that owes credits always sends them: process_tx never returns with the
   receive ledger at or below the threshold, whatever its own transmit situation, and every
   credit it adds to the ledger is on the wire (the grant rule itself is pinned to the source
   by C20_needed_matches_source / C20_process_tx_matches_source and the translator's
   "rx_credits_needed = self.rx_credits_needed(); while ...:" shape check) *)
Theorem C20_credits_owed_are_sent : forall d,
  2 <= d_mtu d -> 0 <= d_tx_credits d -> 0 <= d_rx_credits d ->
  let '(d', frs, ok) := process_tx P d in
  p_threshold P < d_rx_credits d' /\ d_rx_credits d' = d_rx_credits d + sum_credits frs.
Proof.
  intros d Hm Ht Hr.
  pose proof (process_tx_spec P d (wf_params_b_ok P C20_rfcomm_params_wf) Hm Ht Hr) as H.
  destruct (process_tx P d) as [[d' frs] ok]. tauto.
Qed.
Print Assumptions C20_credits_owed_are_sent.

(* the seeded rule "withhold the credits owed while out of tx credits with data queued"
   (C20-e) deadlocks simultaneous bulk transfers: both channels empty, both buffers not *)
Theorem C20_seeded_withhold_deadlocks :
  let s := run_seeded (mkParams 32 16) (setup (mkPn 23 1) (mkPn 23 1) 48 48) withhold_witness in
  s_ab s = [] /\ s_ba s = [] /\ d_tx_buf (s_a s) <> [] /\ d_tx_buf (s_b s) <> [].
Proof. exact seeded_withhold_deadlocks. Qed.
Print Assumptions C20_seeded_withhold_deadlocks.

(* the transmit loop never runs out of the fuel the model gives it *)
Theorem C20_model_fuel : forall ini rsp mtu_i mtu_r ls,
  wf_link_b ini rsp mtu_i mtu_r = true -> s_ok (Rfcomm.run P (setup ini rsp mtu_i mtu_r) ls) = true.
Proof. intros ini rsp mtu_i mtu_r ls H. exact (fuel_ok P ini rsp mtu_i mtu_r C20_rfcomm_params_wf H ls). Qed.
Print Assumptions C20_model_fuel.

(* whatever the other links do and however the shared channel is scheduled, the
   projection of the multiplexer run on one DLCI is a run of the single-link system *)
Theorem C20_dlcs_independent : forall d ls s x,
  proj d s = Some x -> proj d (mrun P s ls) = Some (Rfcomm.run P x (proj_sched P d s ls)).
Proof. intros d ls s x. exact (dlcs_independent P d ls s x). Qed.
Print Assumptions C20_dlcs_independent.

(* hence each link of a multiplexer set up with any number of links has the
   single-link guarantees, for the bytes written on THAT link *)
Theorem C20_mux_links : forall cfg mtu_i mtu_r d ini rsp ls,
  wf_link_b ini rsp mtu_i mtu_r = true -> cfg_get d cfg = Some (ini, rsp) ->
  exists x, proj d (mrun P (msetup cfg mtu_i mtu_r) ls) = Some x /\
    let sl := proj_sched P d (msetup cfg mtu_i mtu_r) ls in
    s_rcv_b x ++ flight_data (s_ab x) ++ d_tx_buf (s_a x) = writes_a sl /\
    s_rcv_a x ++ flight_data (s_ba x) ++ d_tx_buf (s_b x) = writes_b sl /\
    s_ok x = true /\
    d_tx_credits (s_a x) + n_data (s_ab x) + sum_credits (s_ba x) = d_rx_credits (s_b x) /\
    d_tx_credits (s_b x) + n_data (s_ba x) + sum_credits (s_ab x) = d_rx_credits (s_a x) /\
    (s_ab x = [] -> s_ba x = [] -> s_rcv_b x = writes_a sl /\ s_rcv_a x = writes_b sl).
Proof.
  intros cfg mtu_i mtu_r d ini rsp ls H Hc.
  exact (mux_stream_exact P cfg mtu_i mtu_r d ini rsp ls C20_rfcomm_params_wf H Hc).
Qed.
Print Assumptions C20_mux_links.

Theorem C20_mux_link_writes : forall d ls s,
  writes_a (proj_sched P d s ls) = mwrites_a d ls /\ writes_b (proj_sched P d s ls) = mwrites_b d ls.
Proof. intros d ls s. exact (proj_sched_writes P d ls s). Qed.
Print Assumptions C20_mux_link_writes.

(* Set-up and teardown.
   every schedule of connect / open (accepted or refused) / data-link disconnect by
   either end (also crossing) / multiplexer disconnect / orderly channel close /
   deliveries: whenever nothing is in flight both ends are in matching settled states,
   and from every reachable state delivering what is in flight gets there *)
Theorem C20_setup_teardown_agree : forall ls,
  let s := sm_run sm_init ls in quiescent s = true -> agree s = true.
Proof. exact setup_teardown_agree. Qed.
Print Assumptions C20_setup_teardown_agree.

Theorem C20_setup_teardown_settles : forall ls,
  let s' := drain 16 (sm_run sm_init ls) in quiescent s' = true /\ agree s' = true.
Proof. intros ls. exact (andb_prop _ _ (proj2 (good_settles_reachable ls))). Qed.
Print Assumptions C20_setup_teardown_settles.

(* fix D20d is needed: with the old DLC.on_disc_frame the same schedule ends in a mismatch *)
Theorem C20_d20d_unfixed_refuted :
  let s := sm_run_unfixed sm_init d20d_witness in quiescent s = true /\ agree s = false.
Proof. vm_compute. split; reflexivity. Qed.
Print Assumptions C20_d20d_unfixed_refuted.

(* Set-up and teardown of several data links on one multiplexer.
   two accepted channels and one refused channel, one open_dlc in flight at a time (the
   multiplexer's single OPENING state / open_result, as in the code), every schedule of
   connect / open(d) / disconnect(d) by either end / multiplexer disconnect / orderly
   close / deliveries, plus opens whose proposed frame size the responder refuses (5 009
   reachable states, complete evaluation + closure lemma):
   no open_dlc is ever resolved with the wrong outcome (another link's DLC, refused
   although accepted, ...), and whenever nothing is in flight both ends' DLC tables and
   states match and no open_dlc is left pending *)
Theorem C20_multi_setup_teardown : forall ls,
  let s := sm2_run sm2_init ls in
  t_bad s = false /\ (quiescent2 s = true -> agree2 s = true).
Proof.
  intros ls. cbn zeta. destruct (andb_prop _ _ (proj1 (inv2_reachable ls))) as [H1 H2].
  apply negb_true_iff in H1. split; [exact H1|]. intros Hq. rewrite Hq in H2. exact H2.
Qed.
Print Assumptions C20_multi_setup_teardown.

Theorem C20_multi_setup_teardown_settles : forall ls,
  let s' := drain2 24 (sm2_run sm2_init ls) in quiescent2 s' = true /\ agree2 s' = true.
Proof. intros ls. exact (andb_prop _ _ (proj1 (proj2 (inv2_reachable ls)))). Qed.
Print Assumptions C20_multi_setup_teardown_settles.

(* an open in flight completes whatever is going on for the OTHER links: after any
   schedule, if open_dlc(d) is pending and nobody is closing link d itself, delivering
   what is in flight leaves link d CONNECTED on both ends (absent on both for the refused
   channel) and the multiplexer CONNECTED again *)
Theorem C20_open_in_flight_completes : forall ls, open_completes (sm2_run sm2_init ls) = true.
Proof. intros ls. exact (proj2 (proj2 (inv2_reachable ls))). Qed.
Print Assumptions C20_open_in_flight_completes.

(* the "un-stick an OPENING multiplexer when any link closes" change is refuted *)
Theorem C20_seeded_unstick_refuted :
  let s := sm2_run_seeded sm2_init seeded_witness in
  quiescent2 s = true /\ agree2 s = false /\ t_bad s = true.
Proof. vm_compute. repeat split. Qed.
Print Assumptions C20_seeded_unstick_refuted.

(* known finding D20j: the environment assumption "only the initiator disconnects the
   multiplexer" is needed *)
Theorem C20_responder_muxdisc_refuted :
  let s := sm2_runx sm2_init d20j_witness in
  quiescent2 s = true /\ agree2 s = false /\
  e_pend (t_a s) = Some 0%nat /\ slot (t_a s) 0 = None /\ slot (t_b s) 0 = Some DConnecting.
Proof. vm_compute. repeat split. Qed.
Print Assumptions C20_responder_muxdisc_refuted.

(* outside the property's range: a responder CONFIGURED with an unacceptable frame size *)
Theorem C20_responder_misconfigured_refuted :
  let s := sm2_runx sm2_init misconfigured_witness in
  quiescent2 s = true /\ agree2 s = false /\
  e_pend (t_a s) = None /\ slot (t_a s) 0 = None /\ slot (t_b s) 0 = Some DConnecting.
Proof. vm_compute. repeat split. Qed.
Print Assumptions C20_responder_misconfigured_refuted.

(* The models are what the source does (re-checked on every run).
   Gen/C20MuxEff.v is compiled from the source of the Multiplexer / DLC frame handlers and
   local operations; interpreting it gives, for EVERY role, multiplexer state, DLC table
   entry, other entry, pending open and frame, exactly Model/RfcommSm2.v's transition:
   new states, frames sent (MSC frames apart), open_result resolution *)
Theorem C20_mux_handlers_match_source : all_frame_cases_ok = true.
Proof. exact frame_cases_match_source. Qed.
Print Assumptions C20_mux_handlers_match_source.

Theorem C20_mux_operations_match_source : all_op_cases_ok = true.
Proof. exact op_cases_match_source. Qed.
Print Assumptions C20_mux_operations_match_source.

(* MSC frames, which the set-up / teardown models leave out, change no state *)
Theorem C20_msc_frames_harmless : all_msc_cases_ok = true.
Proof. vm_compute. reflexivity. Qed.
Print Assumptions C20_msc_frames_harmless.

(* Gen/C20DataPath.v is compiled from the source of DLC.rx_credits_needed / process_tx /
   on_uih_frame / write; for ALL inputs it is Model/Rfcomm.v *)
Theorem C20_needed_matches_source : forall d,
  src_needed (p_max_credits P) (p_threshold P) (d_rx_credits d) = needed P d.
Proof. reflexivity. Qed.
Print Assumptions C20_needed_matches_source.

Theorem C20_process_tx_matches_source : forall d need drained,
  match ptx_iter d need with
  | None => src_ptx_cond (d_tx_credits d) need (d_tx_buf d) = false
  | Some (d', fr) =>
      src_ptx_cond (d_tx_credits d) need (d_tx_buf d) = true /\
      src_ptx_body (d_mtu d) (d_tx_credits d) (d_rx_credits d) need (d_tx_buf d) drained =
        (d_tx_credits d', d_rx_credits d', d_tx_buf d', 0, [fr],
         if is_nil (d_tx_buf d') then true else drained) /\
      d_mtu d' = d_mtu d
  end.
Proof. exact src_ptx_iter_ok. Qed.
Print Assumptions C20_process_tx_matches_source.

Theorem C20_on_uih_matches_source : forall d fr q,
  dlc_on_uih P d fr =
  let '(tx1, rx1, q', delivered) :=
    src_on_uih (f_pf fr) (f_info fr) (d_tx_credits d) (d_rx_credits d) true q in
  let '(d2, frs, ok) := process_tx P (mkDlc (d_mtu d) tx1 rx1 (d_tx_buf d)) in
  (d2, frs, delivered, ok).
Proof. intros d fr q. exact (src_on_uih_ok P d fr q). Qed.
Print Assumptions C20_on_uih_matches_source.

Theorem C20_write_matches_source : forall d data,
  dlc_write P d data =
  process_tx P (mkDlc (d_mtu d) (d_tx_credits d) (d_rx_credits d) (fst (src_write (d_tx_buf d) data true))).
Proof. reflexivity. Qed.
Print Assumptions C20_write_matches_source.

(* fix D20i: "drained is set iff nothing is buffered" is kept by write and by every
   iteration of the transmit loop *)
Theorem C20_drained_tracks_buffer : forall buf data drained,
  drained = is_nil buf -> snd (src_write buf data drained) = is_nil (buf ++ data).
Proof.
  intros buf data drained ->. rewrite src_write_ok. cbn [snd].
  destruct buf; [destruct data|]; reflexivity.
Qed.
Print Assumptions C20_drained_tracks_buffer.

Theorem C20_drained_tracks_buffer_loop : forall d need drained d' fr,
  ptx_iter d need = Some (d', fr) -> drained = is_nil (d_tx_buf d) ->
  let '(_, _, buf', _, _, dr') :=
    src_ptx_body (d_mtu d) (d_tx_credits d) (d_rx_credits d) need (d_tx_buf d) drained in
  dr' = is_nil buf'.
Proof. exact drained_inv_iter. Qed.
Print Assumptions C20_drained_tracks_buffer_loop.

(* A sink that is set late.
   data that arrives before a sink is set waits in a bounded queue: the stream handed to
   the sink is exact as long as at most DEFAULT_RX_QUEUE_SIZE data frames arrived before;
   with one frame more the oldest data is lost (known finding D20h) *)
Theorem C20_late_sink_exact : forall before after,
  Z.of_nat (List.length before) <= rx_queue_size ->
  q_out (rxq_recv rx_queue_size (rxq_set_sink (rxq_recv rx_queue_size rxq_init before)) after)
  = List.concat before ++ List.concat after.
Proof. exact (late_sink_exact rx_queue_size). Qed.
Print Assumptions C20_late_sink_exact.

Theorem C20_late_sink_overflow_refuted :
  q_out (rxq_set_sink (rxq_recv 32 rxq_init (numbered 33))) = List.concat (tl (numbered 33))
  /\ q_out (rxq_set_sink (rxq_recv 32 rxq_init (numbered 33))) <> List.concat (numbered 33).
Proof. split; [vm_compute; reflexivity|vm_compute; discriminate]. Qed.
Print Assumptions C20_late_sink_overflow_refuted.

Theorem C20_rx_queue_size_is_32 : rx_queue_size = 32.
Proof. vm_compute. reflexivity. Qed.
Print Assumptions C20_rx_queue_size_is_32.

(* the no-sink branch of on_uih_frame is that queue, with the same ledger updates *)
Theorem C20_on_uih_nosink_matches_source : forall pf info tx rx q,
  let '(tx1, rx1, q', delivered) := src_on_uih pf info tx rx false q in
  let '(tx2, rx2, _, _) := src_on_uih pf info tx rx true q in
  tx1 = tx2 /\ rx1 = rx2 /\ delivered = [] /\
  q' = (let data := if pf then tl info else info in
        if is_nil data then q else dq_append rx_queue_size q data).
Proof. exact src_on_uih_nosink. Qed.
Print Assumptions C20_on_uih_nosink_matches_source.

(* HFP service-level connection.
   for EVERY HF feature mask, AG feature mask, HF indicator list, codec list, call-hold
   set, set of AG-supported / AG-disabled HF indicators, and every non-empty list of AG
   indicators with non-empty value sets: the initialisation completes (every command
   answered OK, the AG emits slc_complete exactly once, indicator reporting is on) and
   both ends hold the same negotiated values *)
Theorem C20_slc_completes_negotiated_equal : forall (H : hf_cfg) (C : ag_cfg),
  wf_cfg_b C = true ->
  exists h a,
    slc H C = Done h a (expected_sent H C) /\
    hf_ag_features h = ac_features C /\
    hf_ag_indicators h = expected_inds 0 (ac_indicators C) /\
    hf_chld h = (if both_3w H C then ac_chld C else []) /\
    map (fun x : Z * bool * bool => fst (fst x)) (hf_ind h) = hc_indicators H /\
    (forall i s e, In (i, s, e) (hf_ind h) ->
       if both_hi H C
       then s = HfpSlc.zmem i (ac_hf_indicators C) /\
            e = HfpSlc.zmem i (ac_hf_indicators C) && negb (HfpSlc.zmem i (ac_disabled C))
       else s = false /\ e = false) /\
    ag_hf_features a = hc_features H /\
    ag_codecs a = (if both_cn H C then hc_codecs H else []) /\
    ag_hf_ind a = expected_ag_ind H C /\
    ag_report a = true /\
    ag_slc_events a = 1.
Proof. exact slc_result. Qed.
Print Assumptions C20_slc_completes_negotiated_equal.

(* the AG indicators the HF ends up with: names, status and value sets of the AG's own
   list, indexed by position *)
Theorem C20_slc_ag_indicators : forall (C : ag_cfg),
  wf_cfg_b C = true ->
  Forall2 same_indicator (expected_inds 0 (ac_indicators C)) (ac_indicators C) /\
  map hi_index (expected_inds 0 (ac_indicators C)) = zrange 0 (List.length (ac_indicators C)).
Proof. intros C H. exact (expected_inds_spec (ac_indicators C) 0 (wf_cfg_inds C H)). Qed.
Print Assumptions C20_slc_ag_indicators.

(* after the SLC: any sequence of AG indicator updates (+CIEV) and codec proposals (+BCS)
   leaves the HF's copy of the AG indicator values equal to the AG's, and the same
   active codec on both ends *)
Theorem C20_live_indicators_and_codec_agree : forall (H : hf_cfg) (C : ag_cfg),
  wf_cfg_b C = true ->
  forall ops, exists s,
    live_run H C ops = Some s /\
    lv_hf_status s = lv_ag_status s /\ lv_hf_codec s = lv_ag_codec s.
Proof. exact live_agree. Qed.
Print Assumptions C20_live_indicators_and_codec_agree.

(* The AT readers are independent of the RFCOMM segmentation.
   HfProtocol._read_at (responses, <CR><LF>) and AgProtocol._read_at (commands, <CR>) are the
   sinks of the data link.  For every byte string and EVERY way of cutting it into chunks
   (frame sizes, credit bytes, batching), the lines handed to the parser, in order, and the
   bytes left in read_buffer are those of one call with the whole string *)
Theorem C20_hf_reader_chunking_irrelevant : forall chunks,
  feed_chunks hf_reader [] chunks = feed hf_reader [] (List.concat chunks).
Proof. intros chunks. exact (chunking_irrelevant hf_reader hf_delim_nonempty chunks [] eq_refl). Qed.
Print Assumptions C20_hf_reader_chunking_irrelevant.

Theorem C20_ag_reader_chunking_irrelevant : forall chunks,
  feed_chunks ag_reader [] chunks = feed ag_reader [] (List.concat chunks).
Proof. intros chunks. exact (chunking_irrelevant ag_reader ag_delim_nonempty chunks [] eq_refl). Qed.
Print Assumptions C20_ag_reader_chunking_irrelevant.

(* feed fusion, from any buffer content *)
Theorem C20_reader_feed_fusion : forall buf b c,
  feed hf_reader buf (b ++ c) =
    (let '(l1, r1) := feed hf_reader buf b in let '(l2, r2) := feed hf_reader r1 c in (l1 ++ l2, r2)) /\
  feed ag_reader buf (b ++ c) =
    (let '(l1, r1) := feed ag_reader buf b in let '(l2, r2) := feed ag_reader r1 c in (l1 ++ l2, r2)).
Proof.
  intros buf b c. split;
    [exact (feed_fusion hf_reader hf_delim_nonempty buf b c)|exact (feed_fusion ag_reader ag_delim_nonempty buf b c)].
Qed.
Print Assumptions C20_reader_feed_fusion.

(* the framing statements of the two readers in the source (pinned statement by statement by
   the translator on every run) have the delimiter, widths and empty-line clause of the
   readers the theorems above are about *)
Theorem C20_at_readers_match_source :
  src_hf_reader_shape = shape_of hf_reader /\ src_ag_reader_shape = shape_of ag_reader.
Proof. vm_compute. split; reflexivity. Qed.
Print Assumptions C20_at_readers_match_source.

(* the seeded "nothing to parse unless this chunk contains a delimiter" shortcut is refuted:
   <CR><LF>OK<CR> | <LF> *)
Theorem C20_seeded_reader_refuted :
  feed_chunks_seeded hf_reader [] [[13; 10; 79; 75; 13]; [10]] = ([], [79; 75; 13; 10]) /\
  feed_chunks hf_reader [] [[13; 10; 79; 75; 13]; [10]] = ([[79; 75]], []) /\
  feed hf_reader [] [13; 10; 79; 75; 13; 10] = ([[79; 75]], []).
Proof. vm_compute. repeat split. Qed.
Print Assumptions C20_seeded_reader_refuted.

(* re-checked on every run: for every handler of AgProtocol, every path through the
   per-line body of _read_at that dispatches to it passes the exactly-one check *)
Theorem C20_ag_dispatch_wf :
  forallb (fun h => line_ok (ag_line (h_body h))) ag_handlers = true.
Proof. vm_compute. reflexivity. Qed.
Print Assumptions C20_ag_dispatch_wf.

(* the lines that select no handler (unknown command) or fail to parse: the same body
   with a handler that is never called *)
Theorem C20_ag_dispatch_other_wf :
  forallb (fun o => Nat.eqb (fst o) 1 && match snd o with Norm | Contd => true | _ => false end)
          (filter (fun o => negb (Nat.eqb (fst o) 0)) (AtSkeleton.run (ag_line Skip) 0)) = true
  /\ ag_flag_discipline = true.
Proof. vm_compute. split; reflexivity. Qed.
Print Assumptions C20_ag_dispatch_other_wf.

(* hence: every path (any branch, any loop count, an exception at any point the
   translator cannot exclude, a wrong number of parameters) through the handling of a
   command line writes exactly one final result code and ends normally *)
Theorem C20_ag_exactly_one_final : forall h, In h ag_handlers ->
  forall n st, exec (ag_line (h_body h)) 0 n st -> n = 1%nat /\ (st = Norm \/ st = Contd).
Proof. exact (table_exactly_one ag_line ag_handlers C20_ag_dispatch_wf). Qed.
Print Assumptions C20_ag_exactly_one_final.

Example C20_nonvacuous_data :
  let s := Rfcomm.run P (setup (mkPn 23 1) (mkPn 32767 7) 48 65535)
               [WriteA (repeat 7 100); WriteB [1; 2; 3]; Rfcomm.DeliverAB; Rfcomm.DeliverBA; Rfcomm.DeliverBA; Rfcomm.DeliverAB;
                Rfcomm.DeliverAB; Rfcomm.DeliverBA; Rfcomm.DeliverAB; Rfcomm.DeliverBA] in
  wf_setup_b (mkPn 23 1) (mkPn 32767 7) 48 65535 = true /\ wf_link_b (mkPn 23 1) (mkPn 32767 7) 28 65535 = true /\
  s_rcv_b s = repeat 7 100 /\ s_rcv_a s = [1; 2; 3] /\ s_ab s = [] /\ s_ba s = [].
Proof. vm_compute. repeat split. Qed.

Example C20_nonvacuous_slc :
  let C := mkAgCfg 1537 [mkAgInd 1 [0; 1] 0; mkAgInd 4 [0; 2; 5] 2] [2; 1] [3; 1] [2] in
  wf_cfg_b C = true /\
  slc_obs (mkHfCfg 386 [1; 2] [1; 2]) C =
    (true, [0; 1; 2; 3; 4; 5; 6; 7; 8],
     Some (1537, [(1, [0; 1], 0, 0); (4, [0; 2; 5], 2, 1)], [3; 1], [(1, true, true); (2, true, false)],
           (386, [1; 2], [(2, false); (1, true)], true, 1))).
Proof. vm_compute. split; reflexivity. Qed.

Example C20_nonvacuous_skeleton :
  (List.length ag_handlers >= 20)%nat /\ ag_uses_guard = true.
Proof. vm_compute. split; [repeat constructor|reflexivity]. Qed.
