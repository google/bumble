(* Routing under changing addresses (property C06).
   [rinv] is what the routing theorems really need: per-controller table invariants, own
   addresses of LE connections unique across controllers, public addresses unique.  It follows
   from the static invariant [ginv] and from the dynamic invariant [dinv], which holds initially
   and is kept by every step in which a controller only takes addresses nobody else uses
   ([guard_fresh]): the random address may change while connections exist, advertising sets
   may have random addresses of their own. *)
From Coq Require Import ZArith List Bool Lia Arith.
From BV Require Import Model.Link Proofs.Link.
Import ListNotations.
Open Scope Z_scope.

Record rinv (s : state) : Prop := mkRinv {
  r_c : forall i c, nth_error (st_cs s) i = Some c -> cinv c;
  r_self : forall i j ci cj k k', nth_error (st_cs s) i = Some ci -> nth_error (st_cs s) j = Some cj ->
           In k (c_le ci) -> In k' (c_le cj) -> k_self k = k_self k' -> i = j;
  r_pub : forall i j ci cj, nth_error (st_cs s) i = Some ci -> nth_error (st_cs s) j = Some cj ->
          c_public ci = c_public cj -> i = j
}.

Lemma ginv_rinv : forall s, ginv s -> rinv s.
Proof.
  intros s G. constructor.
  - intros i c H. exact (proj1 (g_c s G i c H)).
  - intros i j ci cj k k' Hi Hj Hk Hk' E. eapply (g_uniq s G i j ci cj (k_self k)); eauto.
    + exact (ai_self ci (proj2 (g_c s G _ _ Hi)) k Hk).
    + rewrite E. exact (ai_self cj (proj2 (g_c s G _ _ Hj)) k' Hk').
  - intros i j ci cj Hi Hj E. eapply (g_uniq s G i j ci cj (c_public ci)); eauto; [now left | rewrite E; now left].
Qed.

Lemma find_le_holder_r : forall s j cj k, rinv s -> nth_error (st_cs s) j = Some cj ->
  In k (c_le cj) -> find_le (st_cs s) (k_self k) = Some j.
Proof.
  intros s j cj k R Hj Hk. apply (find_le_unique _ _ _ _ Hj Hk).
  intros i ci k0 Hi Hk0 E. exact (r_self s R i j ci cj k0 k Hi Hj Hk0 Hk E).
Qed.

Lemma find_classic_owner_r : forall s j cj, rinv s -> nth_error (st_cs s) j = Some cj ->
  find_classic (st_cs s) (c_public cj) = Some j.
Proof.
  intros s j cj R Hj. apply (find_classic_unique _ _ _ Hj). intros i ci Hi E. exact (r_pub s R i j ci cj Hi Hj E).
Qed.

Definition disjoint_claims (cs : list ctrl) : Prop :=
  forall i j ci cj a, nth_error cs i = Some ci -> nth_error cs j = Some cj ->
                      In a (claims ci) -> In a (claims cj) -> i = j.

Record dinv (s : state) : Prop := mkDinv {
  d_c : forall i c, nth_error (st_cs s) i = Some c -> cinv c;
  d_claims : disjoint_claims (st_cs s)
}.

Lemma dinv_rinv : forall s, dinv s -> rinv s.
Proof.
  intros s [Dc Dd]. constructor; auto.
  - intros i j ci cj k k' Hi Hj Hk Hk' E. apply (Dd i j ci cj (k_self k) Hi Hj).
    + apply in_claims. eauto 6.
    + apply in_claims. eauto 6.
  - intros i j ci cj Hi Hj E. apply (Dd i j ci cj (c_public ci) Hi Hj); [now left | rewrite E; now left].
Qed.

(* the addresses a controller uses after a step are those it used before and the one the label brings in *)
Lemma prim_claims : forall na c c' a, prim na c c' -> In a (claims c') -> In a (claims c) \/ na = Some a.
Proof.
  intros na c c' a P Ha. destruct P as [c' (Hp & Hr & Hs & Hl & _)| | | | | | | | | |]; auto;
    apply in_claims in Ha; rewrite in_claims.
  - unfold set_randoms in *. rewrite Hp, Hr, Hs, Hl in Ha. auto.
  - destruct Ha as [Ha|[Ha|[Ha|[x [Hx <-]]]]]; auto. apply tbl_set_in_weak in Hx.
    destruct Hx as [->|Hx]; [left; now apply in_claims | eauto 8].
  - destruct Ha as [Ha|[Ha|[Ha|[x [Hx <-]]]]]; auto. apply tbl_del_in in Hx. eauto 8.
  - destruct Ha as [Ha|[Ha|[Ha|Ha]]]; auto. apply in_set_randoms in Ha. destruct Ha as [s [Hs Ha]].
    destruct (H s Hs a Ha); auto.
  - simpl in Ha. destruct Ha as [Ha|[Ha|Ha]]; auto. right. congruence.
Qed.

Lemma evolves_claims : forall na c c' a, evolves na c c' -> In a (claims c') -> In a (claims c) \/ na = Some a.
Proof.
  induction 1 as [|c c1 c' P E IH]; intros Ha; [auto|].
  destruct (IH Ha) as [H1|H1]; [exact (prim_claims na c c1 a P H1) | auto].
Qed.

Lemma fresh_for_spec : forall cs n i a, fresh_for cs n i a = true ->
  forall j cj, nth_error cs j = Some cj -> (n + j)%nat <> i -> ~ In a (claims cj).
Proof.
  induction cs as [|c cs IH]; cbn [fresh_for nth_error]; intros n i a H j cj Hj Hne; [destruct j; discriminate|].
  apply andb_true_iff in H. destruct H as [H1 H2]. destruct j as [|j]; cbn [nth_error] in Hj.
  -  inversion Hj; subst. apply orb_true_iff in H1. destruct H1 as [H1|H1].
    + apply Nat.eqb_eq in H1. lia.
    + apply negb_true_iff in H1. intro Hin. apply zmem_in in Hin. congruence.
  - apply (IH (S n) i a H2 j cj Hj). lia.
Qed.

Lemma dinv_update : forall s i c c' net' l,
  dinv s -> nth_error (st_cs s) i = Some c -> cinv c' ->
  (forall a, In a (claims c') -> In a (claims c) \/ new_addr l = Some a) ->
  (forall a, new_addr l = Some a -> forall j cj, nth_error (st_cs s) j = Some cj -> j <> i -> ~ In a (claims cj)) ->
  dinv (mkState (upd (st_cs s) i c') net').
Proof.
  intros s i c c' net' l [Dc Dd] Hi Hci Hcl Hfresh. constructor; simpl.
  - intros j cj Hj. rewrite (nth_upd _ _ _ _ _ Hi) in Hj. destruct (Nat.eqb i j); [inversion Hj; subst; auto | eauto].
  - intros x y cx cy a Hx Hy Hax Hay.
    rewrite (nth_upd _ _ x _ _ Hi) in Hx. rewrite (nth_upd _ _ y _ _ Hi) in Hy.
    destruct (Nat.eqb i x) eqn:Ex; destruct (Nat.eqb i y) eqn:Ey.
    + apply Nat.eqb_eq in Ex, Ey. congruence.
    + apply Nat.eqb_eq in Ex. apply Nat.eqb_neq in Ey. subst x. inversion Hx; subst cx.
      destruct (Hcl _ Hax) as [Hold|Hnew].
      * exact (Dd i y c cy a Hi Hy Hold Hay).
      * exfalso. eapply (Hfresh a Hnew y cy); eauto.
    + apply Nat.eqb_eq in Ey. apply Nat.eqb_neq in Ex. subst y. inversion Hy; subst cy.
      destruct (Hcl _ Hay) as [Hold|Hnew].
      * exact (Dd x i cx c a Hx Hi Hax Hold).
      * exfalso. eapply (Hfresh a Hnew x cx); eauto.
    + exact (Dd x y cx cy a Hx Hy Hax Hay).
Qed.

Lemma dinv_step : forall s l s' evs out, dinv s -> guard_fresh s l = true ->
  step s l = (s', evs, out) -> dinv s'.
Proof.
  intros s l s' evs out D G H. apply step_shape in H. destruct H.
  - now subst.
  - subst s'. eapply dinv_update with (l := l); eauto.
    + eapply cinv_local; eauto. exact (d_c s D _ _ H0).
    + intros a. apply evolves_claims. eapply local_evolves; eauto.
    + intros a Hn j cj Hj Hne. unfold guard_fresh in G.
      destruct l; simpl in Hn; try discriminate; inversion Hn; subst; simpl in H; inversion H; subst;
        eapply (fresh_for_spec _ 0%nat _ _ G); eauto.
  - subst s'. eapply dinv_update with (l := LDeliver k); eauto.
    + eapply cinv_message; eauto. exact (d_c s D _ _ H2).
    + intros a. apply (evolves_claims None). eapply message_evolves; eauto.
    + intros a Hn. discriminate.
  - subst s'. destruct D as [Dc Dd]. constructor; simpl; auto.
Qed.

Lemma dinv_init : forall cfg, cfg_ok cfg = true -> dinv (init cfg).
Proof.
  intros cfg H. pose proof (ginv_init cfg H) as G. constructor.
  - intros i c Hc. exact (proj1 (g_c _ G i c Hc)).
  - intros i j ci cj a Hi Hj Hai Haj.
    assert (Hnew : forall k c, nth_error (st_cs (init cfg)) k = Some c -> forall x, In x (claims c) -> owns c x).
    { unfold init; simpl. intros k c Hc x Hx. rewrite nth_error_map in Hc.
      destruct (nth_error cfg k) as [[[p r] e]|]; [|discriminate]. simpl in Hc. inversion Hc; subst.
      unfold claims in Hx. simpl in Hx. destruct Hx as [<-|[<-|[]]]; [now left | now right]. }
    eapply (g_uniq _ G i j ci cj a); eauto.
Qed.
