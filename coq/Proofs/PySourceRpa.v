(* C14 - the resolvable-private-address models equal the denotation of the current source of
   hci.Address.generate_private_address / is_resolvable and helpers.verify_rpa_with_irk.
   (smp.AddressResolver.resolve contains a loop: fingerprint + correspondence.) *)
From Coq Require Import ZArith List Bool String Lia ZifyBool.
From BV Require Import Model.CryptoBytes Model.PyAst Model.SmToolbox Gen.C14Source Proofs.CryptoBytes.
From BV Require Import Proofs.PySourceEval Proofs.PySourceToolbox.
Import ListNotations.
Open Scope string_scope.
Open Scope list_scope.
Open Scope Z_scope.

Section Rpa.
  Variable e : list Z -> list Z -> list Z.
  Variable tokens : list Z.          (* what secrets.token_bytes(6) returns *)

  Definition prim_rpa (f : string) (args : list val) : val :=
    if any_err args then VErr else
    if String.eqb f "crypto.generate_prand" then VBytes (prand_of tokens) else
    if String.eqb f "crypto.ah" then match args with [VBytes k; VBytes r] => VBytes (ah e k r) | _ => VErr end else
    if String.eqb f "secrets.token_bytes" then match args with [VInt 6] => VBytes tokens | _ => VErr end else
    if String.eqb f "bytes" then
      match args with
      | [VBytes b] => VBytes b                       (* bytes(address) = address.address_bytes *)
      | [VTuple l] => match ints_of l with Some zs => match bytes_of zs with Some b => VBytes b | None => VErr end | None => VErr end
      | _ => VErr
      end else
    if String.eqb f "Address" then match args with [VBytes b; VInt t] => VTuple [VBytes b; VInt t] | _ => VErr end else
    VErr.

  Definition run (init : env) (ps : list string) (body : list stmt) (args : list val) : val :=
    result_of (call prim_rpa no_attr no_op no_meth 30 init ps body args).

  Ltac py :=
    unfold run, call;
    py_run ltac:(with_strategy opaque [py_slice py_splice rev app zeros nth ah prand_of bytes_ok list_eqb]
                   cbv_int_folded).

  Definition class_env : env := [("Address.RANDOM_DEVICE_ADDRESS", VInt 1)].

  Theorem generate_private_address_resolvable_matches_source : forall irk,
    (len irk =? 0) = false ->
    run class_env src_generate_private_address_params src_generate_private_address [VStr "cls"; VBytes irk] =
    VTuple [VBytes (rpa_generate e irk tokens); VInt 1].
  Proof. intros irk H. py. rewrite H. reflexivity. Qed.

  Lemma land63_ok : forall b, byte_ok (Z.land b 63) = true.
  Proof.
    intros b. apply byte_ok_iff. change 63 with (Z.ones 6). rewrite Z.land_ones by lia.
    pose proof (Z.mod_pos_bound b (2 ^ 6)). lia.
  Qed.

  Theorem generate_private_address_non_resolvable_matches_source :
    List.length tokens = 6%nat ->
    run class_env src_generate_private_address_params src_generate_private_address [VStr "cls"; VBytes []] =
    VTuple [VBytes (nrpa_generate tokens); VInt 1].
  Proof.
    intros H. py.
    replace (5 <? len tokens) with true by (unfold len; lia).
    py. unfold nrpa_generate. cbn [bytes_ok forallb]. rewrite land63_ok. reflexivity.
  Qed.

  Theorem is_resolvable_matches_source : forall t b, List.length b = 6%nat ->
    run [("self.address_type", VInt t); ("self.RANDOM_DEVICE_ADDRESS", VInt 1); ("self.address_bytes", VBytes b)]
        src_is_resolvable_params src_is_resolvable [VStr "address"] =
    VBool ((t =? 1) && is_resolvable_bytes b).
  Proof.
    intros t b H. py.
    replace (5 <? len b) with true by (unfold len; lia). py.
    unfold is_resolvable_bytes. destruct (t =? 1); reflexivity.
  Qed.

  Theorem verify_rpa_with_irk_matches_source : forall addr irk,
    run [] src_verify_rpa_with_irk_params src_verify_rpa_with_irk [VBytes addr; VBytes irk] =
    VBool (list_eqb (py_slice (ah e irk (py_from addr 3)) 0 3) (py_slice addr 0 3)).
  Proof. intros. py. reflexivity. Qed.

  (* for a 6-byte address this is the model's rpa_matches *)
  Lemma verify_rpa_is_rpa_matches : forall addr irk, List.length addr = 6%nat ->
    list_eqb (py_slice (ah e irk (py_from addr 3)) 0 3) (py_slice addr 0 3) = rpa_matches e irk addr.
  Proof.
    intros addr irk H. unfold rpa_matches, py_from. replace (len addr) with 6 by (unfold len; lia).
    f_equal. unfold ah.
    set (X := e irk (py_slice addr 3 6 ++ zeros 13)).
    change (py_upto (py_upto X 3) 3 = py_upto X 3). rewrite !py_upto_nonneg by lia.
    rewrite firstn_firstn. reflexivity.
  Qed.
End Rpa.
