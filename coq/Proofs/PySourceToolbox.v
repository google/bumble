(* C14 - the toolbox models equal the denotation of the current source of
   bumble/crypto/__init__.py (Gen/C14Source.v, regenerated on every run). *)
From Coq Require Import ZArith List Bool String Lia ZifyBool.
From BV Require Import Model.CryptoBytes Model.PyAst Model.SmToolbox Gen.C14Source Proofs.CryptoBytes Proofs.PySourceEval.
Import ListNotations.
Open Scope string_scope.
Open Scope list_scope.
Open Scope Z_scope.

Fixpoint ints_of (l : list val) : option (list Z) :=
  match l with
  | [] => Some []
  | VInt z :: r => match ints_of r with Some zs => Some (z :: zs) | None => None end
  | _ => None
  end.

Section Toolbox.
  Variable e : list Z -> list Z -> list Z.
  Variable aes_cmac : list Z -> list Z -> list Z.
  Variable tokens : list Z.          (* what secrets.token_bytes returns *)

  (* builtins and module-level names used by crypto/__init__.py *)
  Definition prim_tb (f : string) (args : list val) : val :=
    if any_err args then VErr else
    if String.eqb f "e" then match args with [VBytes k; VBytes d] => VBytes (e k d) | _ => VErr end else
    if String.eqb f "aes_cmac" then match args with [VBytes m; VBytes k] => VBytes (aes_cmac m k) | _ => VErr end else
    if String.eqb f "reverse" then match args with [VBytes b] => VBytes (rev b) | _ => VErr end else
    if String.eqb f "[::-1]" then match args with [VBytes b] => VBytes (rev b) | _ => VErr end else
    if String.eqb f "xor" then
      match args with [VBytes x; VBytes y] => match xor_assert x y with Some r => VBytes r | None => VErr end | _ => VErr end else
    if String.eqb f "bytes(map(operator.xor))" then match args with [VBytes x; VBytes y] => VBytes (xor_zip x y) | _ => VErr end else
    if String.eqb f "bytes" then
      match args with
      | [VInt n] => match n with Zneg _ => VErr | _ => VBytes (zeros (Z.to_nat n)) end
      | [VTuple l] => match ints_of l with Some zs => match bytes_of zs with Some b => VBytes b | None => VErr end | None => VErr end
      | _ => VErr
      end else
    if String.eqb f "len" then match args with [VBytes b] => VInt (len b) | _ => VErr end else
    if String.eqb f "int.from_bytes" then match args with [VBytes b; VStr "big"; VBool false] => VInt (be_int b) | _ => VErr end else
    if String.eqb f "secrets.token_bytes" then match args with [VInt n] => if len tokens =? n then VBytes tokens else VErr | _ => VErr end else
    VErr.

  Definition no_attr (n : string) (v : val) : val := VErr.
  Definition no_op (op : binop) (a b : val) : val := VErr.
  Definition no_meth (n : string) : option (list string * list stmt) := None.

  Definition run (ps : list string) (body : list stmt) (args : list val) : val :=
    result_of (call prim_tb no_attr no_op no_meth 40 [] ps body args).

  Ltac py :=
    unfold run, call;
    py_run ltac:(with_strategy opaque [xor_zip py_slice py_splice rev app zeros bytes_ok bytes_of xor_assert nth]
                   cbv_int_folded).

  Theorem reverse_matches_source : forall b,
    run src_reverse_params src_reverse [VBytes b] = VBytes (rev b).
  Proof. reflexivity. Qed.

  Theorem xor_matches_source : forall x y,
    run src_xor_params src_xor [VBytes x; VBytes y] =
    match xor_assert x y with Some r => VBytes r | None => VErr end.
  Proof. intros x y. unfold xor_assert. py. destruct (len x =? len y); reflexivity. Qed.

  Theorem ah_matches_source : forall k r,
    run src_ah_params src_ah [VBytes k; VBytes r] = VBytes (ah e k r).
  Proof. intros. py. reflexivity. Qed.

  Theorem c1_matches_source : forall k r preq pres iat rat ia ra,
    run src_c1_params src_c1 [VBytes k; VBytes r; VBytes preq; VBytes pres; VInt iat; VInt rat; VBytes ia; VBytes ra] =
    match c1 e k r preq pres iat rat ia ra with Some o => VBytes o | None => VErr end.
  Proof.
    intros. unfold c1. py.
    destruct (bytes_of [iat; rat]) as [h|]; [|reflexivity]. py. rewrite <- !app_assoc.
    destruct (xor_assert r (h ++ preq ++ pres)) as [x1|]; [|reflexivity]. py.
    destruct (xor_assert (e k x1) (ra ++ ia ++ [0; 0; 0; 0])); reflexivity.
  Qed.

  Theorem s1_matches_source : forall k r1 r2,
    run src_s1_params src_s1 [VBytes k; VBytes r1; VBytes r2] = VBytes (s1 e k r1 r2).
  Proof. intros. py. reflexivity. Qed.

  Theorem f4_matches_source : forall u v x z,
    run src_f4_params src_f4 [VBytes u; VBytes v; VBytes x; VBytes z] = VBytes (f4 aes_cmac u v x z).
  Proof. intros. py. unfold f4. rewrite <- app_assoc. reflexivity. Qed.

  Theorem f5_matches_source : forall w n1 n2 a1 a2,
    run src_f5_params src_f5 [VBytes w; VBytes n1; VBytes n2; VBytes a1; VBytes a2] =
    VTuple [VBytes (fst (f5 aes_cmac w n1 n2 a1 a2)); VBytes (snd (f5 aes_cmac w n1 n2 a1 a2))].
  Proof. intros. py. unfold f5. cbn [fst snd]. rewrite <- !app_assoc. reflexivity. Qed.

  Theorem f6_matches_source : forall w n1 n2 r io_cap a1 a2,
    run src_f6_params src_f6 [VBytes w; VBytes n1; VBytes n2; VBytes r; VBytes io_cap; VBytes a1; VBytes a2] =
    VBytes (f6 aes_cmac w n1 n2 r io_cap a1 a2).
  Proof. intros. py. unfold f6. rewrite <- !app_assoc. reflexivity. Qed.

  Theorem g2_matches_source : forall u v x y,
    run src_g2_params src_g2 [VBytes u; VBytes v; VBytes x; VBytes y] = VInt (g2 aes_cmac u v x y).
  Proof. intros. py. unfold g2. rewrite <- !app_assoc. reflexivity. Qed.

  Theorem h6_matches_source : forall w key_id,
    run src_h6_params src_h6 [VBytes w; VBytes key_id] = VBytes (h6 aes_cmac w key_id).
  Proof. intros. py. reflexivity. Qed.

  Theorem h7_matches_source : forall salt w,
    run src_h7_params src_h7 [VBytes salt; VBytes w] = VBytes (h7 aes_cmac salt w).
  Proof. intros. py. reflexivity. Qed.

  Theorem generate_prand_matches_source : List.length tokens = 6%nat ->
    run src_generate_prand_params src_generate_prand [] = VBytes (prand_of tokens).
  Proof.
    intros H. py. replace (len tokens =? 6) with true by (unfold len; lia). py.
    replace (2 <? len tokens) with true by (unfold len; lia). py.
    unfold bytes_of. cbn [bytes_ok forallb].
    rewrite (proj2 (byte_ok_iff _)); [reflexivity|].
    pose proof (lor_land_127_64 (nth (Z.to_nat 2) tokens 0)). lia.
  Qed.

  Theorem toolbox_matches_source :
    (forall k r, run src_ah_params src_ah [VBytes k; VBytes r] = VBytes (ah e k r)) /\
    (forall k r preq pres iat rat ia ra,
       run src_c1_params src_c1 [VBytes k; VBytes r; VBytes preq; VBytes pres; VInt iat; VInt rat; VBytes ia; VBytes ra] =
       match c1 e k r preq pres iat rat ia ra with Some o => VBytes o | None => VErr end) /\
    (forall k r1 r2, run src_s1_params src_s1 [VBytes k; VBytes r1; VBytes r2] = VBytes (s1 e k r1 r2)) /\
    (forall u v x z, run src_f4_params src_f4 [VBytes u; VBytes v; VBytes x; VBytes z] = VBytes (f4 aes_cmac u v x z)) /\
    (forall w n1 n2 a1 a2, run src_f5_params src_f5 [VBytes w; VBytes n1; VBytes n2; VBytes a1; VBytes a2] =
       VTuple [VBytes (fst (f5 aes_cmac w n1 n2 a1 a2)); VBytes (snd (f5 aes_cmac w n1 n2 a1 a2))]) /\
    (forall w n1 n2 r io_cap a1 a2,
       run src_f6_params src_f6 [VBytes w; VBytes n1; VBytes n2; VBytes r; VBytes io_cap; VBytes a1; VBytes a2] =
       VBytes (f6 aes_cmac w n1 n2 r io_cap a1 a2)) /\
    (forall u v x y, run src_g2_params src_g2 [VBytes u; VBytes v; VBytes x; VBytes y] = VInt (g2 aes_cmac u v x y)) /\
    (forall w key_id, run src_h6_params src_h6 [VBytes w; VBytes key_id] = VBytes (h6 aes_cmac w key_id)) /\
    (forall salt w, run src_h7_params src_h7 [VBytes salt; VBytes w] = VBytes (h7 aes_cmac salt w)) /\
    (forall x y, run src_xor_params src_xor [VBytes x; VBytes y] =
       match xor_assert x y with Some r => VBytes r | None => VErr end) /\
    (forall b, run src_reverse_params src_reverse [VBytes b] = VBytes (rev b)).
  Proof.
    exact (conj ah_matches_source (conj c1_matches_source (conj s1_matches_source (conj f4_matches_source
          (conj f5_matches_source (conj f6_matches_source (conj g2_matches_source (conj h6_matches_source
          (conj h7_matches_source (conj xor_matches_source reverse_matches_source)))))))))).
  Qed.
End Toolbox.
