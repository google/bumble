(* The C09 theorems about Model/ChanMgr.v.  Every primitive of the model is characterised by what it
   does to the views hget / wget / the five tables (rewrite base `acc`).  The invariant Inv says that
   the tables hold exactly the channels in use and that every pending future has an owner; inv_frame
   reduces its preservation to premises about the channels a step changes, and the one-channel
   frames (inv_frame1, inv_chan_step, inv_closed_gen, inv_new_chan) serve the handlers.
   links_independent is separate: same_conn b is preserved by every primitive applied off
   connection b, and a handler is a composition of primitives. *)
From Coq Require Import ZArith List Bool Lia.
From BV Require Import Gen.C09Tables Model.ChanMgr Proofs.ChanMgrLib.
Import ListNotations.
Open Scope Z_scope.

(* every primitive is characterised by what it does to hget / wget / the five tables *)

Lemma chs_hupd m u f : m_chs (hupd m u f) = m_chs m. Proof. unfold hupd. now destruct (u <? 0). Qed.
Lemma le_hupd m u f : m_le (hupd m u f) = m_le m. Proof. unfold hupd. now destruct (u <? 0). Qed.
Lemma reqs_hupd m u f : m_reqs (hupd m u f) = m_reqs m. Proof. unfold hupd. now destruct (u <? 0). Qed.
Lemma pend_hupd m u f : m_pend (hupd m u f) = m_pend m. Proof. unfold hupd. now destruct (u <? 0). Qed.
Lemma ids_hupd m u f : m_ids (hupd m u f) = m_ids m. Proof. unfold hupd. now destruct (u <? 0). Qed.
Lemma wget_hupd m u f w : wget (hupd m u f) w = wget m w. Proof. unfold hupd. now destruct (u <? 0). Qed.
Lemma lesrv_hupd m u f : m_lesrv (hupd m u f) = m_lesrv m. Proof. unfold hupd. now destruct (u <? 0). Qed.
Lemma clsrv_hupd m u f : m_clsrv (hupd m u f) = m_clsrv m. Proof. unfold hupd. now destruct (u <? 0). Qed.
Lemma wlen_hupd m u f : wuid (hupd m u f) = wuid m. Proof. unfold hupd. now destruct (u <? 0). Qed.
Lemma hlen_hupd m u f : huid (hupd m u f) = huid m.
Proof. unfold huid, hupd. destruct (u <? 0); cbn; [auto|]. now rewrite length_lupd. Qed.

Lemma chs_hnew m c : m_chs (hnew m c) = m_chs m. Proof. reflexivity. Qed.
Lemma le_hnew m c : m_le (hnew m c) = m_le m. Proof. reflexivity. Qed.
Lemma reqs_hnew m c : m_reqs (hnew m c) = m_reqs m. Proof. reflexivity. Qed.
Lemma pend_hnew m c : m_pend (hnew m c) = m_pend m. Proof. reflexivity. Qed.
Lemma ids_hnew m c : m_ids (hnew m c) = m_ids m. Proof. reflexivity. Qed.
Lemma wget_hnew m c w : wget (hnew m c) w = wget m w. Proof. reflexivity. Qed.
Lemma wlen_hnew m c : wuid (hnew m c) = wuid m. Proof. reflexivity. Qed.
Lemma hlen_hnew m c : huid (hnew m c) = huid m + 1.
Proof. unfold huid, hnew. cbn. rewrite app_length. cbn. lia. Qed.

Lemma chs_wres m w o : m_chs (wres m w o) = m_chs m. Proof. unfold wres. now destruct (w <? 0). Qed.
Lemma le_wres m w o : m_le (wres m w o) = m_le m. Proof. unfold wres. now destruct (w <? 0). Qed.
Lemma reqs_wres m w o : m_reqs (wres m w o) = m_reqs m. Proof. unfold wres. now destruct (w <? 0). Qed.
Lemma pend_wres m w o : m_pend (wres m w o) = m_pend m. Proof. unfold wres. now destruct (w <? 0). Qed.
Lemma ids_wres m w o : m_ids (wres m w o) = m_ids m. Proof. unfold wres. now destruct (w <? 0). Qed.
Lemma hget_wres m w o u : hget (wres m w o) u = hget m u. Proof. unfold wres. now destruct (w <? 0). Qed.
Lemma hlen_wres m w o : huid (wres m w o) = huid m. Proof. unfold wres. now destruct (w <? 0). Qed.
Lemma wlen_wres m w o : wuid (wres m w o) = wuid m.
Proof. unfold wuid, wres. destruct (w <? 0); cbn; [auto|]. now rewrite length_lupd. Qed.

Lemma chs_wres_opt m w o : m_chs (wres_opt m w o) = m_chs m. Proof. destruct w; cbn; auto using chs_wres. Qed.
Lemma le_wres_opt m w o : m_le (wres_opt m w o) = m_le m. Proof. destruct w; cbn; auto using le_wres. Qed.
Lemma reqs_wres_opt m w o : m_reqs (wres_opt m w o) = m_reqs m. Proof. destruct w; cbn; auto using reqs_wres. Qed.
Lemma pend_wres_opt m w o : m_pend (wres_opt m w o) = m_pend m. Proof. destruct w; cbn; auto using pend_wres. Qed.
Lemma ids_wres_opt m w o : m_ids (wres_opt m w o) = m_ids m. Proof. destruct w; cbn; auto using ids_wres. Qed.
Lemma hget_wres_opt m w o u : hget (wres_opt m w o) u = hget m u. Proof. destruct w; cbn; auto using hget_wres. Qed.
Lemma hlen_wres_opt m w o : huid (wres_opt m w o) = huid m. Proof. destruct w; cbn; auto using hlen_wres. Qed.
Lemma wlen_wres_opt m w o : wuid (wres_opt m w o) = wuid m. Proof. destruct w; cbn; auto using wlen_wres. Qed.
Lemma wget_wres_opt m w o w' :
  wget (wres_opt m w o) w' =
  match w with
  | Some x => if Z.eqb w' x then option_map (wres1 o) (wget m w') else wget m w'
  | None => wget m w' end.
Proof. destruct w; cbn; auto using wget_wres. Qed.

Lemma chs_wnew m o k h r : m_chs (wnew m o k h r) = m_chs m. Proof. reflexivity. Qed.
Lemma le_wnew m o k h r : m_le (wnew m o k h r) = m_le m. Proof. reflexivity. Qed.
Lemma reqs_wnew m o k h r : m_reqs (wnew m o k h r) = m_reqs m. Proof. reflexivity. Qed.
Lemma pend_wnew m o k h r : m_pend (wnew m o k h r) = m_pend m. Proof. reflexivity. Qed.
Lemma ids_wnew m o k h r : m_ids (wnew m o k h r) = m_ids m. Proof. reflexivity. Qed.
Lemma hget_wnew m o k h r u : hget (wnew m o k h r) u = hget m u. Proof. reflexivity. Qed.
Lemma hlen_wnew m o k h r : huid (wnew m o k h r) = huid m. Proof. reflexivity. Qed.
Lemma wlen_wnew m o k h r : wuid (wnew m o k h r) = wuid m + 1.
Proof. unfold wuid, wnew. cbn. rewrite app_length. cbn. lia. Qed.

Lemma chs_next_id m h : m_chs (next_id m h) = m_chs m. Proof. reflexivity. Qed.
Lemma le_next_id m h : m_le (next_id m h) = m_le m. Proof. reflexivity. Qed.
Lemma reqs_next_id m h : m_reqs (next_id m h) = m_reqs m. Proof. reflexivity. Qed.
Lemma pend_next_id m h : m_pend (next_id m h) = m_pend m. Proof. reflexivity. Qed.
Lemma hget_next_id m h u : hget (next_id m h) u = hget m u. Proof. reflexivity. Qed.
Lemma wget_next_id m h w : wget (next_id m h) w = wget m w. Proof. reflexivity. Qed.
Lemma hlen_next_id m h : huid (next_id m h) = huid m. Proof. reflexivity. Qed.
Lemma wlen_next_id m h : wuid (next_id m h) = wuid m. Proof. reflexivity. Qed.

Lemma hget_with_chs m x u : hget (with_chs m x) u = hget m u. Proof. reflexivity. Qed.
Lemma hget_with_le m x u : hget (with_le m x) u = hget m u. Proof. reflexivity. Qed.
Lemma hget_with_reqs m x u : hget (with_reqs m x) u = hget m u. Proof. reflexivity. Qed.
Lemma hget_with_pend m x u : hget (with_pend m x) u = hget m u. Proof. reflexivity. Qed.
Lemma wget_with_chs m x w : wget (with_chs m x) w = wget m w. Proof. reflexivity. Qed.
Lemma wget_with_le m x w : wget (with_le m x) w = wget m w. Proof. reflexivity. Qed.
Lemma wget_with_reqs m x w : wget (with_reqs m x) w = wget m w. Proof. reflexivity. Qed.
Lemma wget_with_pend m x w : wget (with_pend m x) w = wget m w. Proof. reflexivity. Qed.

Lemma chs_with_chs m x : m_chs (with_chs m x) = x. Proof. reflexivity. Qed.
Lemma chs_with_le m x : m_chs (with_le m x) = m_chs m. Proof. reflexivity. Qed.
Lemma chs_with_reqs m x : m_chs (with_reqs m x) = m_chs m. Proof. reflexivity. Qed.
Lemma chs_with_pend m x : m_chs (with_pend m x) = m_chs m. Proof. reflexivity. Qed.
Lemma chs_with_ids m x : m_chs (with_ids m x) = m_chs m. Proof. reflexivity. Qed.
Lemma chs_with_heap m x : m_chs (with_heap m x) = m_chs m. Proof. reflexivity. Qed.
Lemma chs_with_w m x : m_chs (with_w m x) = m_chs m. Proof. reflexivity. Qed.
Lemma le_with_chs m x : m_le (with_chs m x) = m_le m. Proof. reflexivity. Qed.
Lemma le_with_le m x : m_le (with_le m x) = x. Proof. reflexivity. Qed.
Lemma le_with_reqs m x : m_le (with_reqs m x) = m_le m. Proof. reflexivity. Qed.
Lemma le_with_pend m x : m_le (with_pend m x) = m_le m. Proof. reflexivity. Qed.
Lemma le_with_ids m x : m_le (with_ids m x) = m_le m. Proof. reflexivity. Qed.
Lemma le_with_heap m x : m_le (with_heap m x) = m_le m. Proof. reflexivity. Qed.
Lemma le_with_w m x : m_le (with_w m x) = m_le m. Proof. reflexivity. Qed.
Lemma reqs_with_chs m x : m_reqs (with_chs m x) = m_reqs m. Proof. reflexivity. Qed.
Lemma reqs_with_le m x : m_reqs (with_le m x) = m_reqs m. Proof. reflexivity. Qed.
Lemma reqs_with_reqs m x : m_reqs (with_reqs m x) = x. Proof. reflexivity. Qed.
Lemma reqs_with_pend m x : m_reqs (with_pend m x) = m_reqs m. Proof. reflexivity. Qed.
Lemma reqs_with_ids m x : m_reqs (with_ids m x) = m_reqs m. Proof. reflexivity. Qed.
Lemma reqs_with_heap m x : m_reqs (with_heap m x) = m_reqs m. Proof. reflexivity. Qed.
Lemma reqs_with_w m x : m_reqs (with_w m x) = m_reqs m. Proof. reflexivity. Qed.
Lemma pend_with_chs m x : m_pend (with_chs m x) = m_pend m. Proof. reflexivity. Qed.
Lemma pend_with_le m x : m_pend (with_le m x) = m_pend m. Proof. reflexivity. Qed.
Lemma pend_with_reqs m x : m_pend (with_reqs m x) = m_pend m. Proof. reflexivity. Qed.
Lemma pend_with_pend m x : m_pend (with_pend m x) = x. Proof. reflexivity. Qed.
Lemma pend_with_ids m x : m_pend (with_ids m x) = m_pend m. Proof. reflexivity. Qed.
Lemma pend_with_heap m x : m_pend (with_heap m x) = m_pend m. Proof. reflexivity. Qed.
Lemma pend_with_w m x : m_pend (with_w m x) = m_pend m. Proof. reflexivity. Qed.
Lemma ids_with_chs m x : m_ids (with_chs m x) = m_ids m. Proof. reflexivity. Qed.
Lemma ids_with_le m x : m_ids (with_le m x) = m_ids m. Proof. reflexivity. Qed.
Lemma ids_with_reqs m x : m_ids (with_reqs m x) = m_ids m. Proof. reflexivity. Qed.
Lemma ids_with_pend m x : m_ids (with_pend m x) = m_ids m. Proof. reflexivity. Qed.
Lemma ids_with_ids m x : m_ids (with_ids m x) = x. Proof. reflexivity. Qed.
Lemma ids_with_heap m x : m_ids (with_heap m x) = m_ids m. Proof. reflexivity. Qed.
Lemma ids_with_w m x : m_ids (with_w m x) = m_ids m. Proof. reflexivity. Qed.
Lemma wlen_with_chs m x : wuid (with_chs m x) = wuid m. Proof. reflexivity. Qed.
Lemma hlen_with_chs m x : huid (with_chs m x) = huid m. Proof. reflexivity. Qed.
Lemma wlen_with_le m x : wuid (with_le m x) = wuid m. Proof. reflexivity. Qed.
Lemma hlen_with_le m x : huid (with_le m x) = huid m. Proof. reflexivity. Qed.
Lemma wlen_with_reqs m x : wuid (with_reqs m x) = wuid m. Proof. reflexivity. Qed.
Lemma hlen_with_reqs m x : huid (with_reqs m x) = huid m. Proof. reflexivity. Qed.
Lemma wlen_with_pend m x : wuid (with_pend m x) = wuid m. Proof. reflexivity. Qed.
Lemma hlen_with_pend m x : huid (with_pend m x) = huid m. Proof. reflexivity. Qed.
Lemma wlen_with_ids m x : wuid (with_ids m x) = wuid m. Proof. reflexivity. Qed.
Lemma hlen_with_ids m x : huid (with_ids m x) = huid m. Proof. reflexivity. Qed.

Lemma hget_occ m u c u' : hget (on_channel_closed m u c) u' = hget m u'.
Proof. unfold on_channel_closed. repeat destruct (is_uid _ _); reflexivity. Qed.
Lemma wget_occ m u c w : wget (on_channel_closed m u c) w = wget m w.
Proof. unfold on_channel_closed. repeat destruct (is_uid _ _); reflexivity. Qed.
Lemma reqs_occ m u c : m_reqs (on_channel_closed m u c) = m_reqs m.
Proof. unfold on_channel_closed. repeat destruct (is_uid _ _); reflexivity. Qed.
Lemma pend_occ m u c : m_pend (on_channel_closed m u c) = m_pend m.
Proof. unfold on_channel_closed. repeat destruct (is_uid _ _); reflexivity. Qed.
Lemma ids_occ m u c : m_ids (on_channel_closed m u c) = m_ids m.
Proof. unfold on_channel_closed. repeat destruct (is_uid _ _); reflexivity. Qed.
Lemma hlen_occ m u c : huid (on_channel_closed m u c) = huid m.
Proof. unfold on_channel_closed. repeat destruct (is_uid _ _); reflexivity. Qed.
Lemma wlen_occ m u c : wuid (on_channel_closed m u c) = wuid m.
Proof. unfold on_channel_closed. repeat destruct (is_uid _ _); reflexivity. Qed.
Lemma chs_occ m u c :
  m_chs (on_channel_closed m u c) =
  if is_uid (tget (c_conn c) (c_scid c) (m_chs m)) u then tdel (c_conn c) (c_scid c) (m_chs m) else m_chs m.
Proof. unfold on_channel_closed. repeat destruct (is_uid _ _); reflexivity. Qed.
Lemma le_occ m u c :
  m_le (on_channel_closed m u c) =
  if is_uid (tget (c_conn c) (c_dcid c) (m_le m)) u then tdel (c_conn c) (c_dcid c) (m_le m) else m_le m.
Proof.
  unfold on_channel_closed.
  destruct (is_uid (tget (c_conn c) (c_scid c) (m_chs m)) u); cbn;
    destruct (is_uid (tget (c_conn c) (c_dcid c) (m_le m)) u); reflexivity.
Qed.

Lemma ids_occ' m u c : m_ids (on_channel_closed m u c) = m_ids m.
Proof. apply ids_occ. Qed.

Lemma hget_loa m u c u' : hget (le_open_abandoned m u c) u' = hget m u'.
Proof. unfold le_open_abandoned. repeat destruct (is_uid _ _); reflexivity. Qed.
Lemma wget_loa m u c w : wget (le_open_abandoned m u c) w = wget m w.
Proof. unfold le_open_abandoned. repeat destruct (is_uid _ _); reflexivity. Qed.
Lemma le_loa m u c : m_le (le_open_abandoned m u c) = m_le m.
Proof. unfold le_open_abandoned. repeat destruct (is_uid _ _); reflexivity. Qed.
Lemma pend_loa m u c : m_pend (le_open_abandoned m u c) = m_pend m.
Proof. unfold le_open_abandoned. repeat destruct (is_uid _ _); reflexivity. Qed.
Lemma ids_loa m u c : m_ids (le_open_abandoned m u c) = m_ids m.
Proof. unfold le_open_abandoned. repeat destruct (is_uid _ _); reflexivity. Qed.
Lemma reqs_loa m u c : m_reqs (le_open_abandoned m u c) =
  if is_uid (tget (c_conn c) (c_ref c) (m_reqs m)) (c_scid c) then tdel (c_conn c) (c_ref c) (m_reqs m) else m_reqs m.
Proof. unfold le_open_abandoned. repeat destruct (is_uid _ _); reflexivity. Qed.
Lemma chs_loa m u c : m_chs (le_open_abandoned m u c) =
  if is_uid (tget (c_conn c) (c_scid c) (m_chs m)) u then tdel (c_conn c) (c_scid c) (m_chs m) else m_chs m.
Proof.
  unfold le_open_abandoned.
  destruct (is_uid (tget (c_conn c) (c_ref c) (m_reqs m)) (c_scid c)); cbn;
    destruct (is_uid (tget (c_conn c) (c_scid c) (m_chs m)) u); reflexivity.
Qed.

Lemma is_uid_iff o u : is_uid o u = true <-> o = Some u.
Proof. destruct o; cbn; [rewrite Z.eqb_eq|]; split; congruence. Qed.

#[export] Hint Rewrite
  chs_hupd le_hupd reqs_hupd pend_hupd ids_hupd wget_hupd hlen_hupd wlen_hupd hget_hupd
  chs_hnew le_hnew reqs_hnew pend_hnew ids_hnew wget_hnew hlen_hnew wlen_hnew hget_hnew
  chs_wres le_wres reqs_wres pend_wres ids_wres hget_wres hlen_wres wlen_wres wget_wres
  chs_wres_opt le_wres_opt reqs_wres_opt pend_wres_opt ids_wres_opt hget_wres_opt hlen_wres_opt
  wlen_wres_opt wget_wres_opt
  chs_wnew le_wnew reqs_wnew pend_wnew ids_wnew hget_wnew hlen_wnew wlen_wnew wget_wnew
  chs_next_id le_next_id reqs_next_id pend_next_id hget_next_id wget_next_id hlen_next_id wlen_next_id
  hget_with_chs hget_with_le hget_with_reqs hget_with_pend
  wget_with_chs wget_with_le wget_with_reqs wget_with_pend
  hget_occ wget_occ reqs_occ pend_occ ids_occ hlen_occ wlen_occ chs_occ le_occ
  : acc.

#[export] Hint Rewrite @tget_tset @tget_tdel @tget_tdrop : acc.
#[export] Hint Rewrite hget_loa wget_loa le_loa pend_loa ids_loa reqs_loa chs_loa : acc.
#[export] Hint Rewrite chs_with_chs chs_with_le chs_with_reqs chs_with_pend chs_with_ids chs_with_heap chs_with_w le_with_chs le_with_le le_with_reqs le_with_pend le_with_ids le_with_heap le_with_w reqs_with_chs reqs_with_le reqs_with_reqs reqs_with_pend reqs_with_ids reqs_with_heap reqs_with_w pend_with_chs pend_with_le pend_with_reqs pend_with_pend pend_with_ids pend_with_heap pend_with_w ids_with_chs ids_with_le ids_with_reqs ids_with_pend ids_with_ids ids_with_heap ids_with_w : acc.
#[export] Hint Rewrite wlen_with_chs hlen_with_chs wlen_with_le hlen_with_le wlen_with_reqs hlen_with_reqs wlen_with_pend hlen_with_pend wlen_with_ids hlen_with_ids : acc.

(* Normalisation with the accessor equations, in one traversal of the goal with the rules
   looked up by head symbol; `autorewrite with acc` gives the same result but tries each rule
   of the base in turn on the whole goal.  The traversal does not enter a `match` branch that
   binds a variable (wget_wres_opt leaves one): goals about the futures after wres_opt keep
   autorewrite. *)
Ltac acc := try rewrite_strat (topdown (repeat (hints acc))).
Tactic Notation "acc" "in" hyp(H) := try rewrite_strat (topdown (repeat (hints acc))) in H.

(* the waiter view alone, with the completion of an optional future as a test, not a match *)
Lemma wget_wres_opt' m w o w' :
  wget (wres_opt m w o) w' = if is_uid w w' then option_map (wres1 o) (wget m w') else wget m w'.
Proof. rewrite wget_wres_opt. destruct w; cbn; auto. now rewrite Z.eqb_sym. Qed.
#[export] Hint Rewrite wget_hupd wget_occ wget_with_chs wget_with_le wget_with_reqs wget_with_pend
  wget_next_id wget_hnew wget_wres_opt' wget_loa : accw.

(* the next index is free, an index in use is not the next one *)
Lemma wget_old m w x : wget m w = Some x -> Z.eqb w (wuid m) = false.
Proof. intros H. apply wget_bound in H. unfold wuid. destruct (Z.eqb_spec w (Z.of_nat (length (m_w m)))); auto. lia. Qed.
Lemma wget_wuid m : wget m (wuid m) = None.
Proof.
  unfold wget, wuid. destruct (Z.ltb_spec (Z.of_nat (length (m_w m))) 0); auto.
  rewrite Nat2Z.id. apply nth_error_None. lia.
Qed.
Lemma hget_huid m : hget m (huid m) = None.
Proof.
  unfold hget, huid. destruct (Z.ltb_spec (Z.of_nat (length (m_heap m))) 0); auto.
  rewrite Nat2Z.id. apply nth_error_None. lia.
Qed.
Lemma hget_old m u c : hget m u = Some c -> Z.eqb u (huid m) = false.
Proof. intros H. apply hget_bound in H. unfold huid. destruct (Z.eqb_spec u (Z.of_nat (length (m_heap m)))); auto. lia. Qed.

(* states in which a channel object is filed in `channels` whatever its waiters *)
Definition reg_st (s : cst) : bool :=
  match s with
  | SConnected | SDisconnecting | SWaitConfigReqRsp | SWaitConfigReq | SWaitConfigRsp
  | SOpen | SWaitDisconnect => true
  | _ => false
  end.

(* "the channel is in use": it is open or being opened / configured / closed on a connection
   that still exists.  This is the abstract set the `channels` table must equal. *)
Definition in_use (m : mgr) (u : Z) (c : chan) : bool :=
  c_live c &&
  match c_st c with
  | SConnecting | SWaitConnectRsp => match c_cw c with Some _ => true | None => false end
  | SInit => match tget (c_conn c) (c_ref c) (m_pend m) with
             | Some (_, us) => memz u us | None => false end
  | s => reg_st s
  end.

Definition cw_st (k : ckind) (s : cst) : bool :=
  match k, s with
  | KLe, SConnecting => true
  | KCl, SWaitConnectRsp | KCl, SWaitConfigReqRsp | KCl, SWaitConfigReq | KCl, SWaitConfigRsp => true
  | _, _ => false
  end.
Definition dw_st (k : ckind) (s : cst) : bool :=
  match k, s with KLe, SDisconnecting => true | KCl, SWaitDisconnect => true | _, _ => false end.

(* the two channel classes have different state types: an LE channel is never in a classic
   open state and vice versa *)
Definition kind_st (k : ckind) (s : cst) : bool :=
  match k with KLe => negb (cl_abortable_st s) | KCl => negb (le_open_st s) end.

Definition waiter_is (m : mgr) (w : Z) (k : wkind) (h r : Z) : Prop :=
  exists x, wget m w = Some x /\ w_out x = O_PENDING /\ w_kind x = k /\ w_conn x = h /\ w_ref x = r.

Record Inv (m : mgr) : Prop := {
  nd_chs : NoDup (map fst (m_chs m));
  nd_le : NoDup (map fst (m_le m));
  nd_reqs : NoDup (map fst (m_reqs m));
  nd_pend : NoDup (map fst (m_pend m));
  chs_pt : forall h k u, tget h k (m_chs m) = Some u ->
           exists c, hget m u = Some c /\ c_conn c = h /\ c_scid c = k;
  le_pt : forall h k u, tget h k (m_le m) = Some u ->
          exists c, hget m u = Some c /\ c_conn c = h /\ c_dcid c = k /\ c_kind c = KLe /\
                    c_live c = true /\ le_open_st (c_st c) = true;
  ch_reg : forall u c, hget m u = Some c ->
           (tget (c_conn c) (c_scid c) (m_chs m) = Some u <-> in_use m u c = true);
  ch_le : forall u c, hget m u = Some c -> c_kind c = KLe -> c_live c = true ->
          le_open_st (c_st c) = true -> tget (c_conn c) (c_dcid c) (m_le m) = Some u;
  ch_cw : forall u c w, hget m u = Some c -> c_cw c = Some w ->
          c_live c = true /\ cw_st (c_kind c) (c_st c) = true /\ waiter_is m w WOpen (c_conn c) u;
  ch_dw : forall u c w, hget m u = Some c -> c_dw c = Some w ->
          c_live c = true /\ dw_st (c_kind c) (c_st c) = true /\ waiter_is m w WClose (c_conn c) u;
  ch_dr : forall u c, hget m u = Some c -> c_drained c = false ->
          c_kind c = KLe /\ c_live c = true /\ c_st c = SConnected;
  ch_dead : forall u c, hget m u = Some c -> c_live c = false ->
            le_open_st (c_st c) = false /\ cl_abortable_st (c_st c) = false;
  ch_ks : forall u c, hget m u = Some c -> kind_st (c_kind c) (c_st c) = true;
  w_own : forall w x, wget m w = Some x -> w_out x = O_PENDING ->
          match w_kind x with
          | WOpen => exists c, hget m (w_ref x) = Some c /\ c_cw c = Some w
          | WClose => exists c, hget m (w_ref x) = Some c /\ c_dw c = Some w
          | WOpenEnh => exists us, tget (w_conn x) (w_ref x) (m_pend m) = Some (w, us)
          end;
  pend_ok : forall h id w us, tget h id (m_pend m) = Some (w, us) ->
            waiter_is m w WOpenEnh h id /\ NoDup us /\
            forall u, In u us ->
              exists c, hget m u = Some c /\ c_kind c = KLe /\ c_conn c = h /\ c_st c = SInit /\
                        c_ref c = id /\ c_live c = true /\ c_cw c = None /\ c_dw c = None;
  reqs_ok : forall h id k, tget h id (m_reqs m) = Some k ->
            exists u c, tget h k (m_chs m) = Some u /\ hget m u = Some c /\ c_kind c = KLe /\
                        c_st c = SConnecting /\ c_ref c = id
}.

Lemma hget_init lesrv clsrv u : hget (m_init lesrv clsrv) u = None.
Proof. unfold hget. cbn. destruct (u <? 0); [auto|]. now destruct (Z.to_nat u). Qed.
Lemma wget_init lesrv clsrv w : wget (m_init lesrv clsrv) w = None.
Proof. unfold wget. cbn. destruct (w <? 0); [auto|]. now destruct (Z.to_nat w). Qed.

Lemma inv_init lesrv clsrv : Inv (m_init lesrv clsrv).
Proof.
  constructor; try (cbn; apply NoDup_nil);
    intros *; rewrite ?hget_init, ?wget_init; cbn; discriminate.
Qed.

(* the invariant does not mention identifiers or servers *)
Lemma inv_ext m m' :
  (forall u, hget m' u = hget m u) -> (forall w, wget m' w = wget m w) ->
  m_chs m' = m_chs m -> m_le m' = m_le m -> m_reqs m' = m_reqs m -> m_pend m' = m_pend m ->
  Inv m -> Inv m'.
Proof.
  intros Hh Hw Hc Hl Hr Hp I.
  assert (Hiu : forall u c, in_use m' u c = in_use m u c) by (intros; unfold in_use; now rewrite Hp).
  assert (Hwi : forall w k h r, waiter_is m' w k h r <-> waiter_is m w k h r)
    by (intros; unfold waiter_is; now rewrite Hw).
  destruct I. constructor; rewrite ?Hc, ?Hl, ?Hr, ?Hp; try assumption.
  - intros h k u H. rewrite Hh. auto.
  - intros h k u H. rewrite Hh. auto.
  - intros u c H. rewrite Hh in H. rewrite Hiu. auto.
  - intros u c H. rewrite Hh in H. auto.
  - intros u c w H. rewrite Hh in H. rewrite Hwi. eauto.
  - intros u c w H. rewrite Hh in H. rewrite Hwi. eauto.
  - intros u c H. rewrite Hh in H. eauto.
  - intros u c H. rewrite Hh in H. eauto.
  - intros u c H. rewrite Hh in H. eauto.
  - intros w x H Ho. rewrite Hw in H. specialize (w_own0 w x H Ho).
    destruct (w_kind x); try (destruct w_own0 as [c Hc']; exists c; now rewrite Hh). auto.
  - intros h id w us H. specialize (pend_ok0 h id w us H). destruct pend_ok0 as (A & N & B).
    split; [now apply Hwi|split; [exact N|]]. intros u Hu. destruct (B u Hu) as [c Hc']. exists c. now rewrite Hh.
  - intros h id k H. destruct (reqs_ok0 h id k H) as [u [c Hc']]. exists u, c. now rewrite Hh.
Qed.

Lemma inv_next_id m h : Inv m -> Inv (next_id m h).
Proof. apply inv_ext; reflexivity. Qed.

(* m' is obtained from m by replacing the records of the channels on which chg is defined
   (new channels included) and changing tables / waiters accordingly; every premise is local
   to the changed channels. *)
Definition chan_facts (c : chan) : Prop :=
  (forall w, c_cw c = Some w -> c_live c = true /\ cw_st (c_kind c) (c_st c) = true) /\
  (forall w, c_dw c = Some w -> c_live c = true /\ dw_st (c_kind c) (c_st c) = true) /\
  (c_drained c = false -> c_kind c = KLe /\ c_live c = true /\ c_st c = SConnected) /\
  (c_live c = false -> le_open_st (c_st c) = false /\ cl_abortable_st (c_st c) = false) /\
  kind_st (c_kind c) (c_st c) = true.

Definition member_ok (c : chan) (h id : Z) : Prop :=
  c_kind c = KLe /\ c_conn c = h /\ c_st c = SInit /\ c_ref c = id /\ c_live c = true /\
  c_cw c = None /\ c_dw c = None.

Definition owner_ok (m : mgr) (w : Z) (x : waiter) : Prop :=
  match w_kind x with
  | WOpen => exists c, hget m (w_ref x) = Some c /\ c_cw c = Some w
  | WClose => exists c, hget m (w_ref x) = Some c /\ c_dw c = Some w
  | WOpenEnh => exists us, tget (w_conn x) (w_ref x) (m_pend m) = Some (w, us)
  end.

Section Frame.
  Variables (m m' : mgr) (chg : Z -> option chan).
  Hypothesis I : Inv m.
  (* heap *)
  Hypothesis Hheap : forall u, hget m' u = match chg u with Some c' => Some c' | None => hget m u end.
  Hypothesis Hfacts : forall u c', chg u = Some c' -> chan_facts c'.
  (* channels *)
  Hypothesis CH1 : NoDup (map fst (m_chs m')).
  Hypothesis CH2 : forall h k u, chg u = None -> (tget h k (m_chs m') = Some u <-> tget h k (m_chs m) = Some u).
  Hypothesis CH3 : forall h k u c', chg u = Some c' -> tget h k (m_chs m') = Some u -> h = c_conn c' /\ k = c_scid c'.
  Hypothesis CH4 : forall u c', chg u = Some c' ->
                   (tget (c_conn c') (c_scid c') (m_chs m') = Some u <-> in_use m' u c' = true).
  (* le_coc_channels *)
  Hypothesis LE1 : NoDup (map fst (m_le m')).
  Hypothesis LE2 : forall h k u, chg u = None -> (tget h k (m_le m') = Some u <-> tget h k (m_le m) = Some u).
  Hypothesis LE3 : forall h k u c', chg u = Some c' -> tget h k (m_le m') = Some u ->
                   h = c_conn c' /\ k = c_dcid c' /\ c_kind c' = KLe /\ c_live c' = true /\ le_open_st (c_st c') = true.
  Hypothesis LE4 : forall u c', chg u = Some c' -> c_kind c' = KLe -> c_live c' = true ->
                   le_open_st (c_st c') = true -> tget (c_conn c') (c_dcid c') (m_le m') = Some u.
  (* pending enhanced requests *)
  Hypothesis PE1 : NoDup (map fst (m_pend m')).
  Hypothesis PE2 : forall h id w us, tget h id (m_pend m') = Some (w, us) ->
                   (tget h id (m_pend m) = Some (w, us) /\ wget m' w = wget m w) \/
                   (waiter_is m' w WOpenEnh h id /\ NoDup us /\
                    forall u, In u us -> chg u = None -> exists c, hget m u = Some c /\ member_ok c h id).
  Hypothesis PE3 : forall h id w us u c', tget h id (m_pend m') = Some (w, us) -> In u us ->
                   chg u = Some c' -> member_ok c' h id.
  Hypothesis PE4 : forall u c, chg u = None -> hget m u = Some c -> in_use m' u c = in_use m u c.
  (* le_coc_requests *)
  Hypothesis RQ1 : NoDup (map fst (m_reqs m')).
  Hypothesis RQ2 : forall h id k, tget h id (m_reqs m') = Some k ->
                   exists u c, tget h k (m_chs m') = Some u /\ hget m' u = Some c /\ c_kind c = KLe /\
                               c_st c = SConnecting /\ c_ref c = id.
  (* waiters *)
  Hypothesis W1 : forall w x, wget m w = Some x ->
                  wget m' w = Some x \/ exists x', wget m' w = Some x' /\ w_out x' <> O_PENDING.
  Hypothesis W2 : forall u c w, chg u = None -> hget m u = Some c ->
                  c_cw c = Some w \/ c_dw c = Some w -> wget m' w = wget m w.
  Hypothesis W4 : forall w x', wget m w = None -> wget m' w = Some x' -> w_out x' = O_PENDING -> owner_ok m' w x'.
  Hypothesis W5c : forall u c c' w x', chg u = Some c' -> hget m u = Some c -> c_cw c = Some w ->
                   wget m' w = Some x' -> w_out x' = O_PENDING -> c_cw c' = Some w.
  Hypothesis W5d : forall u c c' w x', chg u = Some c' -> hget m u = Some c -> c_dw c = Some w ->
                   wget m' w = Some x' -> w_out x' = O_PENDING -> c_dw c' = Some w.
  Hypothesis W5p : forall h id w us x', tget h id (m_pend m) = Some (w, us) ->
                   wget m' w = Some x' -> w_out x' = O_PENDING -> exists us', tget h id (m_pend m') = Some (w, us').
  Hypothesis W6c : forall u c' w, chg u = Some c' -> c_cw c' = Some w -> waiter_is m' w WOpen (c_conn c') u.
  Hypothesis W6d : forall u c' w, chg u = Some c' -> c_dw c' = Some w -> waiter_is m' w WClose (c_conn c') u.

  Lemma inv_frame : Inv m'.
  Proof.
    destruct I as [i1 i2 i3 i4 ichs ile ireg ilec icw idw idr idead iks iown ipend ireqs].
    constructor; auto.
    - (* chs_pt *) intros h k u H. rewrite Hheap. destruct (chg u) as [c'|] eqn:E.
      + exists c'. destruct (CH3 _ _ _ _ E H). subst. auto.
      + apply CH2 in H; [|auto]. auto.
    - (* le_pt *) intros h k u H. rewrite Hheap. destruct (chg u) as [c'|] eqn:E.
      + exists c'. destruct (LE3 _ _ _ _ E H) as (?&?&?&?&?). subst. repeat split; auto.
      + apply LE2 in H; [|auto]. auto.
    - (* ch_reg *) intros u c H. rewrite Hheap in H. destruct (chg u) as [c'|] eqn:E.
      + inversion H; subst. auto.
      + rewrite PE4 by auto. rewrite CH2 by auto. auto.
    - (* ch_le *) intros u c H Hk Hl Ho. rewrite Hheap in H. destruct (chg u) as [c'|] eqn:E.
      + inversion H; subst. eauto.
      + apply LE2; auto.
    - (* ch_cw *) intros u c w H Hc. rewrite Hheap in H. destruct (chg u) as [c'|] eqn:E.
      + inversion H; subst. destruct (Hfacts _ _ E) as (F1 & _ & _ & _ & _). destruct (F1 _ Hc). eauto.
      + destruct (icw u c w H Hc) as (A & B & Wi). repeat split; auto.
        unfold waiter_is in *. rewrite (W2 u c w E H); auto.
    - (* ch_dw *) intros u c w H Hc. rewrite Hheap in H. destruct (chg u) as [c'|] eqn:E.
      + inversion H; subst. destruct (Hfacts _ _ E) as (_ & F1 & _ & _ & _). destruct (F1 _ Hc). eauto.
      + destruct (idw u c w H Hc) as (A & B & Wi). repeat split; auto.
        unfold waiter_is in *. rewrite (W2 u c w E H); auto.
    - (* ch_dr *) intros u c H Hd. rewrite Hheap in H. destruct (chg u) as [c'|] eqn:E.
      + inversion H; subst. destruct (Hfacts _ _ E) as (_ & _ & F & _ & _). auto.
      + eauto.
    - (* ch_dead *) intros u c H Hd. rewrite Hheap in H. destruct (chg u) as [c'|] eqn:E.
      + inversion H; subst. destruct (Hfacts _ _ E) as (_ & _ & _ & F & _). auto.
      + eauto.
    - (* ch_ks *) intros u c H. rewrite Hheap in H. destruct (chg u) as [c'|] eqn:E.
      + inversion H; subst. destruct (Hfacts _ _ E) as (_ & _ & _ & _ & F). auto.
      + eauto.
    - (* w_own *) intros w x' H Ho. change (owner_ok m' w x').
      destruct (wget m w) as [x|] eqn:Ew; [|eauto].
      destruct (W1 w x Ew) as [Hs|[x'' [Hs Hn]]]; [|congruence].
      assert (x' = x) by congruence. subst x'.
      specialize (iown w x Ew Ho). unfold owner_ok.
      destruct (w_kind x).
      * destruct iown as [c [Hc Hcw]]. rewrite Hheap. destruct (chg (w_ref x)) as [c'|] eqn:E; eauto.
      * destruct iown as [us Hus]. eapply W5p; eauto.
      * destruct iown as [c [Hc Hcw]]. rewrite Hheap. destruct (chg (w_ref x)) as [c'|] eqn:E; eauto.
    - (* pend_ok *) intros h id w us H.
      assert (Hmem : forall u, In u us -> (exists c, hget m' u = Some c /\ member_ok c h id)).
      { intros u Hu. rewrite Hheap. destruct (chg u) as [c'|] eqn:E.
        - exists c'. split; auto. eapply PE3; eauto.
        - destruct (PE2 _ _ _ _ H) as [[Ho _]|(_ & _ & Hc)]; [|eauto].
          destruct (ipend _ _ _ _ Ho) as (_ & _ & B). destruct (B u Hu) as [c Hc]. exists c. unfold member_ok. tauto. }
      split; [|split].
      + destruct (PE2 _ _ _ _ H) as [[Ho Hw]|[Hw _]]; auto.
        destruct (ipend _ _ _ _ Ho) as [A _]. unfold waiter_is in *. now rewrite Hw.
      + destruct (PE2 _ _ _ _ H) as [[Ho _]|(_ & N & _)]; auto.
        destruct (ipend _ _ _ _ Ho) as (_ & N & _). exact N.
      + intros u Hu. destruct (Hmem u Hu) as [c [Hc M]]. exists c. unfold member_ok in M. tauto.
  Qed.
End Frame.

Definition chg1 (u : Z) (c' : chan) : Z -> option chan := fun u' => if Z.eqb u' u then Some c' else None.

Lemma chg1_some u c' u0 c0 : chg1 u c' u0 = Some c0 -> u0 = u /\ c0 = c'.
Proof. unfold chg1. destruct (Z.eqb_spec u0 u); [intros [= <-]; auto|discriminate]. Qed.
Lemma chg1_none u c' u0 : chg1 u c' u0 = None -> u0 <> u.
Proof. unfold chg1. destruct (Z.eqb_spec u0 u); [discriminate|auto]. Qed.

(* relations between a table and its update, seen from the other values *)
Lemma rel_tdel (t : table Z) h0 k0 u :
  tget h0 k0 t = Some u ->
  forall h k u', u' <> u -> (tget h k (tdel h0 k0 t) = Some u' <-> tget h k t = Some u').
Proof.
  intros H h k u' Hn. rewrite tget_tdel. destruct (Z.eqb_spec h h0), (Z.eqb_spec k k0); subst; cbn; try tauto.
  rewrite H. split; congruence.
Qed.

Lemma rel_tset (t : table Z) h0 k0 u :
  (tget h0 k0 t = None \/ tget h0 k0 t = Some u) ->
  forall h k u', u' <> u -> (tget h k (tset h0 k0 u t) = Some u' <-> tget h k t = Some u').
Proof.
  intros H h k u' Hn. rewrite tget_tset, tget_tdel.
  destruct (Z.eqb_spec h h0), (Z.eqb_spec k k0); subst; cbn; try tauto.
  destruct H as [H|H]; rewrite H; split; congruence.
Qed.

Definition le_reg (c : chan) : bool :=
  match c_kind c with KLe => c_live c && le_open_st (c_st c) | KCl => false end.

Lemma le_reg_iff c : le_reg c = true <-> c_kind c = KLe /\ c_live c = true /\ le_open_st (c_st c) = true.
Proof.
  unfold le_reg. destruct (c_kind c).
  - rewrite andb_true_iff. tauto.
  - split; [discriminate|]. intros (H & _). discriminate.
Qed.

Lemma in_use_pend m m' u c : m_pend m' = m_pend m -> in_use m' u c = in_use m u c.
Proof. unfold in_use. now intros ->. Qed.

(* from the invariant: where a channel is filed *)
Lemma chs_self m u c h k : Inv m -> hget m u = Some c -> tget h k (m_chs m) = Some u -> h = c_conn c /\ k = c_scid c.
Proof. intros I Hu H. destruct (chs_pt m I _ _ _ H) as [c0 (H0 & <- & <-)]. rewrite Hu in H0. now inversion H0. Qed.
Lemma le_self m u c h k : Inv m -> hget m u = Some c -> tget h k (m_le m) = Some u ->
  h = c_conn c /\ k = c_dcid c /\ le_reg c = true.
Proof.
  intros I Hu H. destruct (le_pt m I _ _ _ H) as [c0 (H0 & <- & <- & A & B & C)]. rewrite Hu in H0. inversion H0; subst.
  repeat split; auto. apply le_reg_iff; auto.
Qed.
Lemma le_reg_tget m u c : Inv m -> hget m u = Some c ->
  (tget (c_conn c) (c_dcid c) (m_le m) = Some u <-> le_reg c = true).
Proof.
  intros I Hu. split.
  - intros H. eapply le_self; eauto.
  - intros H. apply le_reg_iff in H. destruct H as (A & B & C). eapply ch_le; eauto.
Qed.

(* Where uid u is filed.  In t' it is under (h, k) exactly when `now` holds and nowhere else,
   and the entries of the other uids are those of t.  With t' = t this is what the invariant
   says of a table; a step refiles one uid. *)
Definition filed (t t' : table Z) (u h k : Z) (now : bool) : Prop :=
  NoDup (map fst t') /\
  (forall h' k' u', u' <> u -> (tget h' k' t' = Some u' <-> tget h' k' t = Some u')) /\
  (forall h' k', tget h' k' t' = Some u -> h' = h /\ k' = k) /\
  (tget h k t' = Some u <-> now = true).

Lemma filed_absent (t : table Z) u h k :
  NoDup (map fst t) -> (forall h' k', tget h' k' t <> Some u) -> filed t t u h k false.
Proof.
  intros N A. split; [exact N|split; [tauto|split]].
  - intros h' k' H. destruct (A _ _ H).
  - split; [intros H; destruct (A _ _ H)|discriminate].
Qed.

(* u stays, is removed, or is entered under a key that is free (the same key if it stays) *)
Lemma filed_step (t : table Z) u h k was k' now :
  filed t t u h k was ->
  (was = true -> now = true -> k' = k) -> (was = false -> now = true -> tget h k' t = None) ->
  filed t (match was, now with true, false => tdel h k t | false, true => tset h k' u t | _, _ => t end)
        u h k' now.
Proof.
  intros H0 Hk Hf. pose proof H0 as (N & _ & O & F).
  assert (A : was = false -> forall h' k'', tget h' k'' t <> Some u).
  { intros -> h' k'' H. destruct (O _ _ H) as [-> ->]. apply F in H. discriminate. }
  destruct was, now.
  - now rewrite (Hk eq_refl eq_refl).
  - assert (Hu : tget h k t = Some u) by now apply F.
    assert (Hno : forall h' k'', tget h' k'' (tdel h k t) <> Some u).
    { intros h' k'' [Hne H]%tget_tdel_inv. destruct (O _ _ H). tauto. }
    split; [now apply NoDup_tdel|split; [now apply rel_tdel|split]].
    + intros h' k'' H. destruct (Hno _ _ H).
    + split; [intros H; destruct (Hno _ _ H)|discriminate].
  - specialize (A eq_refl). specialize (Hf eq_refl eq_refl).
    split; [now apply NoDup_tset|split; [apply rel_tset; now left|split]].
    + intros h' k'' [(-> & -> & _)|[_ H]]%tget_tset_inv; [auto|destruct (A _ _ H)].
    + split; [reflexivity|intros _; now rewrite tget_tset, !Z.eqb_refl].
  - apply filed_absent; auto.
Qed.

Lemma chs_filed m u c : Inv m -> hget m u = Some c ->
  filed (m_chs m) (m_chs m) u (c_conn c) (c_scid c) (in_use m u c).
Proof.
  intros I Hu. split; [apply (nd_chs m I)|split; [tauto|split; [|apply (ch_reg m I u c Hu)]]].
  intros h k H. eapply chs_self; eauto.
Qed.
Lemma le_filed m u c : Inv m -> hget m u = Some c ->
  filed (m_le m) (m_le m) u (c_conn c) (c_dcid c) (le_reg c).
Proof.
  intros I Hu. split; [apply (nd_le m I)|split; [tauto|split; [|apply (le_reg_tget m u c I Hu)]]].
  intros h k H. destruct (le_self m u c h k I Hu H) as (A & B & _). auto.
Qed.

Section Frame1.
  Variables (m m' : mgr) (u : Z) (c' : chan).
  Hypothesis I : Inv m.
  Hypothesis Hheap : forall u', hget m' u' = if Z.eqb u' u then Some c' else hget m u'.
  Hypothesis Hfacts : chan_facts c'.
  Hypothesis CH : filed (m_chs m) (m_chs m') u (c_conn c') (c_scid c') (in_use m' u c').
  Hypothesis LE : filed (m_le m) (m_le m') u (c_conn c') (c_dcid c') (le_reg c').
  Hypothesis PE : m_pend m' = m_pend m.
  Hypothesis PE3 : forall h id w us, tget h id (m_pend m) = Some (w, us) -> In u us -> member_ok c' h id.
  Hypothesis RQ1 : NoDup (map fst (m_reqs m')).
  Hypothesis RQ2 : forall h id k, tget h id (m_reqs m') = Some k ->
                   exists u0 c, tget h k (m_chs m') = Some u0 /\ hget m' u0 = Some c /\ c_kind c = KLe /\
                               c_st c = SConnecting /\ c_ref c = id.
  Hypothesis W1 : forall w x, wget m w = Some x ->
                  wget m' w = Some x \/ exists x', wget m' w = Some x' /\ w_out x' <> O_PENDING.
  (* only the waiters of the changed channel (and new ones) are touched *)
  Hypothesis W2 : forall w x, wget m w = Some x -> w_ref x <> u \/ w_kind x = WOpenEnh -> wget m' w = Some x.
  Hypothesis W4 : forall w x', wget m w = None -> wget m' w = Some x' -> w_out x' = O_PENDING -> owner_ok m' w x'.
  Hypothesis W5c : forall c w x', hget m u = Some c -> c_cw c = Some w ->
                   wget m' w = Some x' -> w_out x' = O_PENDING -> c_cw c' = Some w.
  Hypothesis W5d : forall c w x', hget m u = Some c -> c_dw c = Some w ->
                   wget m' w = Some x' -> w_out x' = O_PENDING -> c_dw c' = Some w.
  Hypothesis W6c : forall w, c_cw c' = Some w -> waiter_is m' w WOpen (c_conn c') u.
  Hypothesis W6d : forall w, c_dw c' = Some w -> waiter_is m' w WClose (c_conn c') u.

  Lemma inv_frame1 : Inv m'.
  Proof.
    destruct CH as (CH1 & CH2 & CH3 & CH4), LE as (LE1 & LE2 & LE3 & LE4).
    apply (inv_frame m m' (chg1 u c') I).
    - (* heap *) intros u0. rewrite Hheap. unfold chg1. destruct (Z.eqb u0 u); auto.
    - (* facts *) intros u0 c0 E. apply chg1_some in E. destruct E; subst. auto.
    - exact CH1.
    - intros h k u0 E. apply chg1_none in E. auto.
    - intros h k u0 c0 E. apply chg1_some in E. destruct E; subst. auto.
    - intros u0 c0 E. apply chg1_some in E. destruct E; subst. auto.
    - exact LE1.
    - intros h k u0 E. apply chg1_none in E. auto.
    - intros h k u0 c0 E H. apply chg1_some in E. destruct E; subst.
      destruct (LE3 _ _ H) as [-> ->]. apply LE4, le_reg_iff in H. tauto.
    - intros u0 c0 E A B C. apply chg1_some in E. destruct E; subst. apply LE4, le_reg_iff. auto.
    - (* PE1 *) rewrite PE. apply I.
    - (* PE2 *) intros h id w us H. rewrite PE in H. left. split; auto.
      destruct (pend_ok m I _ _ _ _ H) as [[x (Hx & _ & Hk & _)] _].
      rewrite Hx. apply W2; auto.
    - (* PE3 *) intros h id w us u0 c0 H Hu E. apply chg1_some in E. destruct E; subst. rewrite PE in H. eauto.
    - (* PE4 *) intros u0 c E Hc. unfold in_use. now rewrite PE.
    - exact RQ1.
    - exact RQ2.
    - exact W1.
    - (* W2 *) intros u0 c w E Hc Hw. apply chg1_none in E.
      destruct Hw as [Hw|Hw].
      + destruct (ch_cw m I _ _ _ Hc Hw) as (_ & _ & [x (Hx & _ & _ & _ & Hr)]).
        rewrite Hx. apply W2; auto. left. congruence.
      + destruct (ch_dw m I _ _ _ Hc Hw) as (_ & _ & [x (Hx & _ & _ & _ & Hr)]).
        rewrite Hx. apply W2; auto. left. congruence.
    - exact W4.
    - intros u0 c c0 w x' E. apply chg1_some in E. destruct E; subst. eauto.
    - intros u0 c c0 w x' E. apply chg1_some in E. destruct E; subst. eauto.
    - (* W5p *) intros h id w us x' H Hw Ho. rewrite PE. eauto.
    - intros u0 c0 w E. apply chg1_some in E. destruct E; subst. auto.
    - intros u0 c0 w E. apply chg1_some in E. destruct E; subst. auto.
  Qed.
End Frame1.

Section ChanStep.
  Variables (m m' : mgr) (u : Z) (c c' : chan) (o1 o2 : Z) (keepreq : bool).
  Hypothesis I : Inv m.
  Hypothesis Hu : hget m u = Some c.
  Hypothesis Hheap : forall u', hget m' u' = if Z.eqb u' u then Some c' else hget m u'.
  Hypothesis Hk : c_kind c' = c_kind c.
  Hypothesis Hconn : c_conn c' = c_conn c.
  Hypothesis Hscid : c_scid c' = c_scid c.
  Hypothesis Hlive : c_kind c = KLe -> c_st c = SConnecting -> c_live c' = c_live c.
  Hypothesis Hfacts : chan_facts c'.
  Hypothesis Hreg : in_use m u c' = true -> in_use m u c = true.
  Hypothesis Hchs : m_chs m' = if in_use m u c' then m_chs m
                               else if in_use m u c then tdel (c_conn c) (c_scid c) (m_chs m) else m_chs m.
  Hypothesis Hle : m_le m' = match le_reg c, le_reg c' with
                             | true, false => tdel (c_conn c) (c_dcid c) (m_le m)
                             | false, true => tset (c_conn c) (c_dcid c') u (m_le m)
                             | _, _ => m_le m end.
  Hypothesis Hdc : le_reg c = true -> le_reg c' = true -> c_dcid c' = c_dcid c.
  Hypothesis Hfresh : le_reg c = false -> le_reg c' = true -> tget (c_conn c) (c_dcid c') (m_le m) = None.
  Hypothesis Hpend : m_pend m' = m_pend m.
  Hypothesis Hinit : c_st c = SInit -> c_st c' = SInit /\ c_ref c' = c_ref c /\ c_live c' = c_live c /\
                                       c_cw c' = None /\ c_dw c' = None.
  Hypothesis Hreqs : m_reqs m' = if keepreq then m_reqs m else tdel (c_conn c) (c_ref c) (m_reqs m).
  Hypothesis Hkeep : keepreq = true -> c_kind c = KLe -> c_st c = SConnecting ->
                     tget (c_conn c) (c_ref c) (m_reqs m) = Some (c_scid c) ->
                     c_st c' = SConnecting /\ c_ref c' = c_ref c /\ c_cw c' = c_cw c.
  Hypothesis Hw : forall w, wget m' w =
                    if is_uid (c_cw c) w && negb (is_uid (c_cw c') w) then option_map (wres1 o1) (wget m w)
                    else if is_uid (c_dw c) w && negb (is_uid (c_dw c') w) then option_map (wres1 o2) (wget m w)
                    else wget m w.
  Hypothesis Ho1 : o1 <> O_PENDING.
  Hypothesis Ho2 : o2 <> O_PENDING.
  Hypothesis Hcw : c_cw c' = None \/ c_cw c' = c_cw c.
  Hypothesis Hdw : c_dw c' = None \/ c_dw c' = c_dw c.

  Lemma inv_chan_step : Inv m'.
  Proof.
    assert (Hiu : forall u0 c0, in_use m' u0 c0 = in_use m u0 c0) by (intros; now apply in_use_pend).
    pose proof (ch_reg m I u c Hu) as Hregc.
    pose proof (le_reg_tget m u c I Hu) as Hlec.
    assert (CH : filed (m_chs m) (m_chs m') u (c_conn c') (c_scid c') (in_use m' u c')).
    { rewrite Hiu, Hchs, Hconn, Hscid.
      generalize (filed_step _ u _ _ _ (c_scid c) (in_use m u c') (chs_filed m u c I Hu) (fun _ _ => eq_refl)).
      destruct (in_use m u c) eqn:E1, (in_use m u c') eqn:E2; intros S; try (apply S; discriminate).
      specialize (Hreg eq_refl). discriminate. }
    assert (LE : filed (m_le m) (m_le m') u (c_conn c') (c_dcid c') (le_reg c')).
    { rewrite Hle, Hconn. now apply (filed_step _ u _ _ _ _ _ (le_filed m u c I Hu)). }
    assert (CH2 := proj1 (proj2 CH)).
    assert (Wcw : forall w, c_cw c = Some w -> waiter_is m w WOpen (c_conn c) u) by (intros; eapply ch_cw; eauto).
    assert (Wdw : forall w, c_dw c = Some w -> waiter_is m w WClose (c_conn c) u) by (intros; eapply ch_dw; eauto).
    apply (inv_frame1 m m' u c' I); auto.
    - (* PE3 *) intros h id w us H Hin. destruct (pend_ok m I _ _ _ _ H) as (_ & _ & B).
      destruct (B u Hin) as [c0 (H0 & M)]. rewrite Hu in H0. inversion H0; subst c0.
      destruct M as (M1 & M2 & M3 & M4 & M5 & M6 & M7). destruct (Hinit M3) as (N1 & N2 & N3 & N4 & N5).
      unfold member_ok. rewrite Hk, Hconn, N1, N2, N3. tauto.
    - (* RQ1 *) rewrite Hreqs. destruct keepreq; [|apply NoDup_tdel]; apply (nd_reqs m I).
    - (* RQ2 *) intros h id k H.
      assert (Ho : tget h id (m_reqs m) = Some k).
      { rewrite Hreqs in H. destruct keepreq; auto. now apply tget_tdel_inv in H. }
      destruct (reqs_ok m I _ _ _ Ho) as [u0 [c0 (R1 & R2 & R3 & R4 & R5)]].
      destruct (Z.eqb_spec u0 u) as [->|Hn].
      + rewrite Hu in R2. inversion R2; subst c0. destruct (chs_self m u c h k I Hu R1) as [-> ->].
        destruct keepreq eqn:Ek.
        * assert (Hmine : tget (c_conn c) (c_ref c) (m_reqs m) = Some (c_scid c)) by (now rewrite R5).
          destruct (Hkeep eq_refl R3 R4 Hmine) as (S1 & S2 & S3). exists u, c'. rewrite Hheap, Z.eqb_refl.
          assert (Hin : in_use m u c = true) by (apply Hregc; auto).
          assert (Hin' : in_use m u c' = true).
          { unfold in_use in *. rewrite S1, S3, (Hlive R3 R4). now rewrite R4 in Hin. }
          rewrite Hchs, Hin'. repeat split; auto; congruence.
        * rewrite Hreqs, tget_tdel in H. subst id. rewrite !Z.eqb_refl in H. discriminate.
      + exists u0, c0. rewrite Hheap. destruct (Z.eqb_spec u0 u); [congruence|]. repeat split; auto.
        now apply CH2.
    - (* W1 *) intros w x Hx. rewrite Hw, Hx. cbn.
      destruct (Z.eqb_spec (w_out x) O_PENDING) as [Hp|Hp].
      + destruct (is_uid (c_cw c) w && negb (is_uid (c_cw c') w)); [right; eexists; split; eauto using wres1_done|].
        destruct (is_uid (c_dw c) w && negb (is_uid (c_dw c') w)); [right; eexists; split; eauto using wres1_done|auto].
      + assert (forall o, wres1 o x = x) by (intros; unfold wres1; destruct (Z.eqb_spec (w_out x) O_PENDING); congruence).
        rewrite !H. repeat destruct (_ && _); auto.
    - (* W2 *) intros w x Hx Hr. rewrite Hw.
      destruct (is_uid (c_cw c) w) eqn:E1.
      { apply is_uid_iff in E1. destruct (Wcw w E1) as [x0 (A & _ & B & _ & D)].
        rewrite Hx in A. inversion A; subst. destruct Hr; congruence. }
      destruct (is_uid (c_dw c) w) eqn:E2.
      { apply is_uid_iff in E2. destruct (Wdw w E2) as [x0 (A & _ & B & _ & D)].
        rewrite Hx in A. inversion A; subst. destruct Hr; congruence. }
      cbn. auto.
    - (* W4 *) intros w x' Hn. rewrite Hw, Hn. cbn. repeat destruct (_ && _); discriminate.
    - (* W5c *) intros c0 w x' H0 Hc Hx Hp. rewrite Hu in H0. inversion H0; subst c0.
      destruct Hcw as [Hn|Hn]; [|congruence]. exfalso.
      rewrite Hw, Hc, Hn in Hx. cbn in Hx. rewrite Z.eqb_refl in Hx. cbn in Hx.
      destruct (wget m w); [|discriminate]. inversion Hx; subst. eapply wres1_pending; eauto.
    - (* W5d *) intros c0 w x' H0 Hc Hx Hp. rewrite Hu in H0. inversion H0; subst c0.
      destruct Hdw as [Hn|Hn]; [|congruence]. exfalso.
      rewrite Hw in Hx. rewrite Hc, Hn in Hx. cbn in Hx. rewrite Z.eqb_refl in Hx. cbn in Hx.
      destruct (is_uid (c_cw c) w && negb (is_uid (c_cw c') w));
        (destruct (wget m w); [|discriminate]); inversion Hx; subst; eapply wres1_pending; eauto.
    - (* W6c *) intros w Hc. destruct Hcw as [Hn|Hn]; [congruence|]. rewrite Hn in Hc.
      destruct (Wcw w Hc) as [x (A & B & C & D & E)]. exists x. rewrite Hconn. repeat split; auto.
      rewrite Hw, Hn, Hc. cbn. rewrite Z.eqb_refl. cbn.
      destruct (is_uid (c_dw c) w) eqn:E2; [|auto].
      apply is_uid_iff in E2. destruct (Wdw w E2) as [x0 (A' & _ & B' & _)]. rewrite A in A'. inversion A'; subst. congruence.
    - (* W6d *) intros w Hc. destruct Hdw as [Hn|Hn]; [congruence|]. rewrite Hn in Hc.
      destruct (Wdw w Hc) as [x (A & B & C & D & E)]. exists x. rewrite Hconn. repeat split; auto.
      rewrite Hw, Hn, Hc. cbn. rewrite Z.eqb_refl. cbn.
      destruct (is_uid (c_cw c) w) eqn:E2; [|cbn; auto].
      apply is_uid_iff in E2. destruct (Wcw w E2) as [x0 (A' & _ & B' & _)]. rewrite A in A'. inversion A'; subst. congruence.
  Qed.
End ChanStep.
(* facts about one channel drawn from the invariant *)
Lemma inv_chan_facts m u c : Inv m -> hget m u = Some c -> chan_facts c.
Proof.
  intros I Hu. repeat split.
  - eapply ch_cw; eauto.
  - eapply ch_cw; eauto.
  - eapply ch_dw; eauto.
  - eapply ch_dw; eauto.
  - eapply ch_dr; eauto.
  - eapply ch_dr; eauto.
  - eapply ch_dr; eauto.
  - eapply ch_dead; eauto.
  - eapply ch_dead; eauto.
  - eapply ch_ks; eauto.
Qed.

Lemma live_of_open m u c : Inv m -> hget m u = Some c ->
  le_open_st (c_st c) = true \/ cl_abortable_st (c_st c) = true -> c_live c = true.
Proof.
  intros I Hu H. destruct (c_live c) eqn:E; auto.
  destruct (ch_dead m I u c Hu E) as [A B]. destruct H; congruence.
Qed.

Lemma init_no_waiters c : chan_facts c -> c_st c = SInit -> c_cw c = None /\ c_dw c = None.
Proof.
  intros (F1 & F2 & _) E. split.
  - destruct (c_cw c) as [w|] eqn:Ec; auto. destruct (F1 w eq_refl) as [_ H]. rewrite E in H. destruct (c_kind c); discriminate.
  - destruct (c_dw c) as [w|] eqn:Ec; auto. destruct (F2 w eq_refl) as [_ H]. rewrite E in H. destruct (c_kind c); discriminate.
Qed.

Ltac t_heap Hu :=
  let u' := fresh "u'" in
  intros u'; acc;
  match goal with |- context [Z.eqb u' ?x] => destruct (Z.eqb_spec u' x) end;
  subst; rewrite ?Hu; cbn; try reflexivity.

(* the premises of a frame lemma about what the step does not touch, and the heap after an
   update of the one channel *)
Ltac t_same Hu := try solve [acc; reflexivity | discriminate | t_heap Hu].

Ltac t_wsame := let w := fresh "w" in intros w; acc; cbn; rewrite ?andb_negb_r; try reflexivity.

Lemma inv_out m u c cr pe d :
  Inv m -> hget m u = Some c ->
  (d = false -> c_kind c = KLe /\ c_st c = SConnected) ->
  Inv (hupd m u (fun _ => set_out c cr pe d)).
Proof.
  intros I Hu Hd. pose proof (inv_chan_facts m u c I Hu) as (F1 & F2 & F3 & F4 & F5).
  refine (inv_chan_step m _ u c (set_out c cr pe d) O_ERROR O_ERROR true I Hu _ _ _ _ _ _ _ _ _ _ _ _ _ _ _ _ _ _ _ _); t_same Hu.
  - unfold chan_facts; cbn. split; [exact F1|split; [exact F2|split; [|split; [exact F4|exact F5]]]].
    intros ->. destruct Hd as [A B]; auto. repeat split; auto. eapply live_of_open; eauto. left. now rewrite B.
  - auto.
  - acc. change (in_use m u (set_out c cr pe d)) with (in_use m u c). destruct (in_use m u c); auto.
  - acc. change (le_reg (set_out c cr pe d)) with (le_reg c). destruct (le_reg c); auto.
  - change (le_reg (set_out c cr pe d)) with (le_reg c). congruence.
  - cbn. intros E. destruct (init_no_waiters c (inv_chan_facts m u c I Hu) E). auto.
  - cbn. auto.
  - t_wsame.
  - auto.
  - auto.
Qed.

Lemma bool_iff (a b : bool) : (a = true <-> b = true) -> a = b.
Proof. destruct a, b; intros [H1 H2]; auto. - symmetry. auto. Qed.

Lemma is_uid_chs m u c : Inv m -> hget m u = Some c ->
  is_uid (tget (c_conn c) (c_scid c) (m_chs m)) u = in_use m u c.
Proof. intros I Hu. apply bool_iff. rewrite is_uid_iff. now apply ch_reg. Qed.

Lemma is_uid_le m u c : Inv m -> hget m u = Some c ->
  is_uid (tget (c_conn c) (c_dcid c) (m_le m)) u = le_reg c.
Proof. intros I Hu. apply bool_iff. rewrite is_uid_iff. now apply le_reg_tget. Qed.

Lemma no_cw_unless c : chan_facts c -> cw_st (c_kind c) (c_st c) = false -> c_cw c = None.
Proof. intros (F1 & _) H. destruct (c_cw c) as [w|] eqn:E; auto. destruct (F1 w eq_refl). congruence. Qed.
Lemma no_dw_unless c : chan_facts c -> dw_st (c_kind c) (c_st c) = false -> c_dw c = None.
Proof. intros (_ & F2 & _) H. destruct (c_dw c) as [w|] eqn:E; auto. destruct (F2 w eq_refl). congruence. Qed.

(* the waiter part of a step that resolves the channel's disconnection_result *)
Lemma wget_res_dw m c c' o w :
  c_cw c' = c_cw c -> c_dw c' = None ->
  match c_dw c with
  | Some x => if Z.eqb w x then option_map (wres1 o) (wget m w) else wget m w
  | None => wget m w end =
  if is_uid (c_cw c) w && negb (is_uid (c_cw c') w) then option_map (wres1 O_ERROR) (wget m w)
  else if is_uid (c_dw c) w && negb (is_uid (c_dw c') w) then option_map (wres1 o) (wget m w)
  else wget m w.
Proof.
  intros -> ->. rewrite andb_negb_r. cbn. destruct (c_dw c); cbn; auto. rewrite andb_true_r, Z.eqb_sym. reflexivity.
Qed.

Lemma inv_le_closed m u c (fl : bool) :
  Inv m -> hget m u = Some c -> c_kind c = KLe ->
  tget (c_conn c) (c_scid c) (m_chs m) = Some u ->
  c_st c <> SInit -> c_st c <> SConnecting -> (fl = false -> c_st c <> SConnected) ->
  Inv (hupd (wres_opt (on_channel_closed (hupd m u (fun c => set_st c SDisconnected)) u c) (c_dw c) O_RESULT)
            u (fun c => if fl then flush_output (set_dw c None) else set_dw c None)).
Proof.
  intros I Hu Ek Hreg Hs1 Hs2 Hs3.
  pose proof (inv_chan_facts m u c I Hu) as F. pose proof F as (F1 & F2 & F3 & F4 & F5).
  assert (Hin : in_use m u c = true) by (apply (ch_reg m I u c Hu); auto).
  assert (Hcw : c_cw c = None).
  { apply no_cw_unless; auto. rewrite Ek. destruct (c_st c); auto; congruence. }
  set (c' := if fl then flush_output (set_dw (set_st c SDisconnected) None) else set_dw (set_st c SDisconnected) None).
  assert (Ec' : c_kind c' = c_kind c /\ c_conn c' = c_conn c /\ c_scid c' = c_scid c /\ c_live c' = c_live c /\
                c_st c' = SDisconnected /\ c_cw c' = c_cw c /\ c_dw c' = None /\ c_dcid c' = c_dcid c /\
                c_ref c' = c_ref c /\ (c_drained c' = false -> fl = false /\ c_drained c = false))
    by (subst c'; destruct fl; cbn; repeat split; auto; discriminate).
  destruct Ec' as (E1 & E2 & E3 & E4 & E5 & E6 & E7 & E8 & E9 & E10).
  assert (Hin' : in_use m u c' = false) by (unfold in_use; rewrite E5; cbn; apply andb_false_r).
  assert (Hle' : le_reg c' = false) by (unfold le_reg; rewrite E1, Ek, E5; cbn; apply andb_false_r).
  refine (inv_chan_step m _ u c c' O_ERROR O_RESULT true I Hu _ _ _ _ _ _ _ _ _ _ _ _ _ _ _ _ _ _ _ _); t_same Hu.
  - exact E1.
  - exact E2.
  - exact E3.
  - intros _ _; exact E4.
  - unfold chan_facts. rewrite E6, E7, E5, Hcw.
    split; [discriminate|split; [discriminate|split; [|split; [cbn; auto|rewrite E1, Ek; reflexivity]]]].
    intros Hd; destruct (E10 Hd) as [Hf Hd']; destruct (F3 Hd') as (_ & _ & Hc); exfalso; now apply Hs3.
  - congruence.
  - acc. rewrite (is_uid_chs m u c I Hu), Hin, Hin'. reflexivity.
  - acc. rewrite (is_uid_le m u c I Hu), Hle'. destruct (le_reg c); reflexivity.
  - congruence.
  - congruence.
  - intros; congruence.
  - intros; congruence.
  - intros w. autorewrite with acc. apply wget_res_dw; auto.
  - auto.
  - auto.
Qed.
Lemma in_use_live m u c : in_use m u c = true -> c_live c = true.
Proof. unfold in_use. now intros [H _]%andb_true_iff. Qed.

(* only the value of the update function at the present record matters *)
Lemma inv_hupd_ext m u c f g : hget m u = Some c -> f c = g c -> Inv (hupd m u f) -> Inv (hupd m u g).
Proof.
  intros Hu E. apply inv_ext; try (autorewrite with acc; reflexivity).
  - intros u'. acc. destruct (Z.eqb_spec u' u); subst; rewrite ?Hu; cbn; congruence.
  - intros w. now acc.
Qed.
Lemma inv_hupd_fun m u c f : hget m u = Some c -> Inv (hupd m u (fun _ => f c)) -> Inv (hupd m u f).
Proof. intros Hu. now apply (inv_hupd_ext m u c). Qed.

(* a waiter that is already completed can always be added *)
Lemma inv_wnew_done m o k h r : o <> O_PENDING -> Inv m -> Inv (wnew m o k h r).
Proof.
  intros Ho I.
  assert (Hold : forall w x, wget m w = Some x -> wget (wnew m o k h r) w = Some x).
  { intros w x Hx. rewrite wget_wnew. destruct (Z.eqb_spec w (wuid m)); auto.
    apply wget_bound in Hx. unfold wuid in *. lia. }
  assert (Hwi : forall w k' h' r', waiter_is m w k' h' r' -> waiter_is (wnew m o k h r) w k' h' r').
  { intros w k' h' r' [x (A & B)]. exists x. split; auto. }
  destruct I as [i1 i2 i3 i4 ichs ile ireg ilec icw idw idr idead iks iown ipend ireqs]. constructor; try assumption.
  - intros u c w Hu Hc. destruct (icw u c w Hu Hc) as (A & B & C). auto.
  - intros u c w Hu Hc. destruct (idw u c w Hu Hc) as (A & B & C). auto.
  - intros w x Hx Hp. rewrite wget_wnew in Hx. destruct (Z.eqb_spec w (wuid m)).
    + inversion Hx; subst x. cbn in Hp. congruence.
    + apply (iown w x Hx Hp).
  - intros h' id w us Hp. destruct (ipend h' id w us Hp) as (A & N & B). split; auto.
Qed.

(* dropping a pending request entry *)
Lemma inv_reqs_del m h id : Inv m -> Inv (with_reqs m (tdel h id (m_reqs m))).
Proof.
  intros I. destruct I as [i1 i2 i3 i4 ichs ile ireg ilec icw idw idr idead iks iown ipend ireqs]. constructor; try assumption; cbn.
  - now apply NoDup_tdel.
  - intros h' id' k [_ H]%tget_tdel_inv. apply (ireqs h' id' k H).
Qed.

Lemma inv_upd_same m u c c' :
  Inv m -> hget m u = Some c ->
  c_kind c' = c_kind c -> c_conn c' = c_conn c -> c_scid c' = c_scid c -> c_live c' = c_live c ->
  c_cw c' = c_cw c -> c_dw c' = c_dw c -> c_ref c' = c_ref c ->
  (le_reg c = true -> c_dcid c' = c_dcid c) ->
  in_use m u c' = in_use m u c -> le_reg c' = le_reg c ->
  chan_facts c' ->
  (c_st c = SInit -> c_st c' = SInit) ->
  (c_kind c = KLe -> c_st c = SConnecting -> c_st c' = SConnecting) ->
  Inv (hupd m u (fun _ => c')).
Proof.
  intros I Hu E1 E2 E3 E4 E5 E6 E7 E8 Hin Hle Hf Hi Hc.
  refine (inv_chan_step m _ u c c' O_ERROR O_ERROR true I Hu _ _ _ _ _ _ _ _ _ _ _ _ _ _ _ _ _ _ _ _); t_same Hu.
  - exact E1.
  - exact E2.
  - exact E3.
  - intros _ _; exact E4.
  - exact Hf.
  - congruence.
  - acc. rewrite Hin. destruct (in_use m u c); reflexivity.
  - acc. rewrite Hle. destruct (le_reg c); reflexivity.
  - auto.
  - congruence.
  - intros E. destruct (init_no_waiters c (inv_chan_facts m u c I Hu) E). repeat split; auto; congruence.
  - intros _ A B. auto.
  - intros w. acc. rewrite E5, E6, !andb_negb_r. reflexivity.
  - auto.
  - auto.
Qed.
Definition dead_st (s : cst) : bool :=
  match s with SDisconnected | SConnError | SClosed | SOrphan => true | _ => false end.

Lemma wget_res2 m cw dw o1 o2 w : o1 <> O_PENDING ->
  wget (wres_opt (wres_opt m cw o1) dw o2) w =
  if is_uid cw w then option_map (wres1 o1) (wget m w)
  else if is_uid dw w then option_map (wres1 o2) (wget m w) else wget m w.
Proof.
  intros Ho. autorewrite with acc. destruct cw as [x|], dw as [y|]; cbn; rewrite ?(Z.eqb_sym w); auto.
  destruct (Z.eqb_spec x w), (Z.eqb_spec y w); subst; auto.
  destruct (wget m w); cbn; auto. now rewrite wres1_twice.
Qed.

Section Closed.
  Variables (m m' : mgr) (u : Z) (c c' : chan) (o1 o2 : Z) (keepreq : bool).
  Hypothesis I : Inv m.
  Hypothesis Hu : hget m u = Some c.
  Hypothesis Hin : in_use m u c = true.
  Hypothesis Hheap : forall u', hget m' u' = if Z.eqb u' u then Some c' else hget m u'.
  Hypothesis Hk : c_kind c' = c_kind c.
  Hypothesis Hconn : c_conn c' = c_conn c.
  Hypothesis Hscid : c_scid c' = c_scid c.
  Hypothesis Hlive : c_live c' = c_live c.
  Hypothesis Hst : dead_st (c_st c') = true.
  Hypothesis Hcw' : c_cw c' = None.
  Hypothesis Hdw' : c_dw c' = None.
  Hypothesis Hdr : c_drained c' = false -> c_drained c = false /\ c_st c <> SConnected.
  Hypothesis Hchs : m_chs m' = tdel (c_conn c) (c_scid c) (m_chs m).
  Hypothesis Hle : m_le m' = if le_reg c then tdel (c_conn c) (c_dcid c) (m_le m) else m_le m.
  Hypothesis Hpend : m_pend m' = m_pend m.
  Hypothesis Hninit : c_st c <> SInit.
  Hypothesis Hreqs : m_reqs m' = if keepreq then m_reqs m else tdel (c_conn c) (c_ref c) (m_reqs m).
  Hypothesis Hkeep : keepreq = true -> c_kind c = KLe -> c_st c = SConnecting -> False.
  Hypothesis Hw : forall w, wget m' w =
                    if is_uid (c_cw c) w then option_map (wres1 o1) (wget m w)
                    else if is_uid (c_dw c) w then option_map (wres1 o2) (wget m w) else wget m w.
  Hypothesis Ho1 : o1 <> O_PENDING.
  Hypothesis Ho2 : o2 <> O_PENDING.

  Lemma inv_closed_gen : Inv m'.
  Proof.
    assert (Hin' : in_use m u c' = false).
    { unfold in_use. destruct (c_st c'); try discriminate; cbn; apply andb_false_r. }
    assert (Hle' : le_reg c' = false).
    { unfold le_reg. destruct (c_kind c'); auto. destruct (c_st c'); try discriminate; cbn; apply andb_false_r. }
    pose proof (inv_chan_facts m u c I Hu) as (F1 & F2 & F3 & F4 & F5).
    refine (inv_chan_step m m' u c c' o1 o2 keepreq I Hu Hheap Hk Hconn Hscid (fun _ _ => Hlive) _ _ _ _ _ _ Hpend _ Hreqs _ _ Ho1 Ho2 _ _).
    - unfold chan_facts. rewrite Hcw', Hdw'.
      split; [discriminate|split; [discriminate|split; [|split]]].
      + intros Hd. destruct (Hdr Hd) as [A B]. destruct (F3 A) as (_ & _ & C). congruence.
      + intros _. destruct (c_st c'); try discriminate; auto.
      + destruct (c_kind c'), (c_st c'); try discriminate; reflexivity.
    - congruence.
    - rewrite Hin', Hin. exact Hchs.
    - rewrite Hle'. rewrite Hle. destruct (le_reg c); reflexivity.
    - congruence.
    - congruence.
    - intros E. congruence.
    - intros A B C. exfalso. auto.
    - intros w. rewrite Hw, Hcw', Hdw'. cbn. rewrite !andb_true_r. reflexivity.
    - auto.
    - auto.
  Qed.
End Closed.

Lemma res2_norm (a b : bool) o1 o2 (g : option waiter) : o1 <> O_PENDING ->
  (if b then option_map (wres1 o2) (if a then option_map (wres1 o1) g else g)
   else if a then option_map (wres1 o1) g else g) =
  (if a then option_map (wres1 o1) g else if b then option_map (wres1 o2) g else g).
Proof. intros H. destruct a, b, g; cbn; auto. now rewrite wres1_twice. Qed.

Lemma tdel_tdel {V} h k (t : table V) : tdel h k (tdel h k t) = tdel h k t.
Proof.
  unfold tdel. induction t as [|e t IH]; cbn; auto.
  destruct (key_is h k e) eqn:E; cbn; auto. rewrite E. cbn. now rewrite IH.
Qed.

Lemma wpending_cw m u c w : Inv m -> hget m u = Some c -> c_cw c = Some w -> wpending m (c_cw c) = true.
Proof.
  intros I Hu Hc. destruct (ch_cw m I u c w Hu Hc) as (_ & _ & [x (A & B & _)]).
  rewrite Hc. cbn. rewrite wout_wget, A, B. reflexivity.
Qed.

Lemma wpending_none m u c : Inv m -> hget m u = Some c -> wpending m (c_cw c) = false -> c_cw c = None.
Proof.
  intros I Hu H. destruct (c_cw c) as [w|] eqn:Hc; auto.
  pose proof (wpending_cw m u c w I Hu Hc) as P. rewrite Hc in P. congruence.
Qed.

Lemma reg_in_use m u c : Inv m -> hget m u = Some c -> tget (c_conn c) (c_scid c) (m_chs m) = Some u -> in_use m u c = true.
Proof. intros I Hu H. now apply (ch_reg m I u c Hu). Qed.

Lemma init_in_use_le m u c : Inv m -> hget m u = Some c -> c_st c = SInit -> in_use m u c = true -> c_kind c = KLe.
Proof.
  intros I Hu E H. unfold in_use in H. rewrite E in H. apply andb_true_iff in H. destruct H as [_ H].
  destruct (tget (c_conn c) (c_ref c) (m_pend m)) as [[w us]|] eqn:Ep; [|discriminate].
  apply memz_In in H. destruct (pend_ok m I _ _ _ _ Ep) as (_ & _ & B). destruct (B u H) as [c0 (A & K & _)].
  rewrite Hu in A. now inversion A; subst.
Qed.

Lemma inv_cl_disc_rsp m u c :
  Inv m -> hget m u = Some c -> c_kind c = KCl -> c_st c = SWaitDisconnect ->
  Inv (on_channel_closed (hupd (wres_opt (hupd m u (fun c => set_st c SClosed)) (c_dw c) O_RESULT)
                               u (fun c => set_dw c None)) u c).
Proof.
  intros I Hu Ek Es.
  pose proof (inv_chan_facts m u c I Hu) as F. pose proof F as (F1 & F2 & F3 & F4 & F5).
  assert (El : c_live c = true) by (eapply live_of_open; eauto; right; now rewrite Es).
  assert (Hin : in_use m u c = true) by (unfold in_use; rewrite El, Es; reflexivity).
  assert (Hcw : c_cw c = None) by (apply no_cw_unless; auto; now rewrite Ek, Es).
  apply (inv_closed_gen m _ u c (set_dw (set_st c SClosed) None) O_ERROR O_RESULT true I Hu Hin); cbn; auto; try discriminate; t_same Hu.
  - intros Hd. destruct (F3 Hd) as (K & _). congruence.
  - acc. now rewrite (is_uid_chs m u c I Hu), Hin.
  - acc. rewrite (is_uid_le m u c I Hu). destruct (le_reg c); reflexivity.
  - congruence.
  - intros _ K. congruence.
  - intros w. autorewrite with accw. rewrite Hcw. reflexivity.
Qed.

Lemma inv_cl_disc_req m u c :
  Inv m -> hget m u = Some c -> c_kind c = KCl ->
  tget (c_conn c) (c_scid c) (m_chs m) = Some u ->
  let m4 := on_channel_closed
              (hupd (wres_opt (hupd (wres_opt m (c_cw c) O_ERROR) u (fun c => set_st c SClosed)) (c_dw c) O_RESULT)
                    u (fun c => set_dw c None)) u c in
  Inv (if wpending m (c_cw c) then cl_connect_failed m4 u c else m4).
Proof.
  intros I Hu Ek Hreg m4.
  pose proof (inv_chan_facts m u c I Hu) as F. pose proof F as (F1 & F2 & F3 & F4 & F5).
  assert (Hin : in_use m u c = true) by (eapply reg_in_use; eauto).
  destruct (wpending m (c_cw c)) eqn:Ew.
  - apply (inv_closed_gen m _ u c (set_cw (set_dw (set_st c SClosed) None) None) O_ERROR O_RESULT true I Hu Hin);
      subst m4; unfold cl_connect_failed; cbn; auto; try discriminate; t_same Hu.
    + intros Hd. destruct (F3 Hd) as (K & _). congruence.
    + acc. rewrite (is_uid_chs m u c I Hu), Hin. apply tdel_tdel.
    + acc. rewrite (is_uid_le m u c I Hu). destruct (le_reg c); reflexivity.
    + intros E. pose proof (init_in_use_le m u c I Hu E Hin). congruence.
    + intros _ K. congruence.
    + intros w. autorewrite with accw. apply res2_norm. discriminate.
  - assert (Hcw : c_cw c = None) by (eapply wpending_none; eauto).
    apply (inv_closed_gen m _ u c (set_dw (set_st c SClosed) None) O_ERROR O_RESULT true I Hu Hin);
      subst m4; cbn; auto; try discriminate; t_same Hu.
    + intros Hd. destruct (F3 Hd) as (K & _). congruence.
    + acc. now rewrite (is_uid_chs m u c I Hu), Hin.
    + acc. rewrite (is_uid_le m u c I Hu). destruct (le_reg c); reflexivity.
    + intros E. pose proof (init_in_use_le m u c I Hu E Hin). congruence.
    + intros _ K. congruence.
    + intros w. autorewrite with accw. apply res2_norm. discriminate.
Qed.

Lemma set_same_cw c : c_cw c = None -> set_cw c None = c.
Proof. destruct c; cbn; intros ->; reflexivity. Qed.
Lemma set_same_dw c : c_dw c = None -> set_dw c None = c.
Proof. destruct c; cbn; intros ->; reflexivity. Qed.

Lemma inv_hupd_id m u c : hget m u = Some c -> Inv m -> Inv (hupd m u (fun _ => c)).
Proof.
  intros Hu. apply inv_ext; try (autorewrite with acc; reflexivity).
  - intros u'. acc. destruct (Z.eqb_spec u' u); subst; rewrite ?Hu; reflexivity.
  - intros w. now acc.
Qed.

(* a pending LE open is given up (abort() of the connecting channel, or the caller cancels the
   awaiting task): the channel is unregistered, its request forgotten, its future cancelled *)
Lemma inv_le_abandon m u c w f :
  Inv m -> hget m u = Some c -> c_kind c = KLe -> c_st c = SConnecting -> c_cw c = Some w ->
  c_kind (f c) = c_kind c -> c_conn (f c) = c_conn c -> c_scid (f c) = c_scid c -> c_dcid (f c) = c_dcid c ->
  c_live (f c) = c_live c -> c_st (f c) = c_st c -> c_ref (f c) = c_ref c -> c_cw (f c) = None ->
  c_dw (f c) = c_dw c -> (c_drained (f c) = false -> c_drained c = false) ->
  Inv (le_open_abandoned (hupd (wres m w O_CANCELLED) u f) u c).
Proof.
  intros I Hu Ek Es Hcw E1 E2 E3 E4 E5 E6 E7 E8 E9 E10.
  pose proof (inv_chan_facts m u c I Hu) as F. pose proof F as (F1 & F2 & F3 & F4 & F5).
  destruct (F1 w Hcw) as [El _].
  assert (Hin : in_use m u c = true) by (unfold in_use; now rewrite El, Es, Hcw).
  assert (Hin' : in_use m u (f c) = false) by (unfold in_use; rewrite E6, Es, E8; apply andb_false_r).
  assert (Hle : le_reg c = false) by (unfold le_reg; rewrite Ek, Es; apply andb_false_r).
  assert (Hle' : le_reg (f c) = false) by (unfold le_reg; rewrite E1, Ek, E6, Es; apply andb_false_r).
  assert (Hdw : c_dw c = None) by (apply no_dw_unless; auto; now rewrite Ek, Es).
  refine (inv_chan_step m _ u c (f c) O_CANCELLED O_ERROR
            (negb (is_uid (tget (c_conn c) (c_ref c) (m_reqs m)) (c_scid c))) I Hu _ E1 E2 E3 (fun _ _ => E5) _ _ _ _ _ _ _ _ _ _ _ _ _ _ _); t_same Hu.
  - unfold chan_facts. rewrite E8, E9, Hdw, E6, E1, E5.
    split; [discriminate|split; [discriminate|split; [|split; [exact F4|exact F5]]]].
    intros Hd. destruct (F3 (E10 Hd)) as (_ & _ & B). congruence.
  - congruence.
  - acc. now rewrite (is_uid_chs m u c I Hu), Hin, Hin'.
  - acc. now rewrite Hle, Hle'.
  - congruence.
  - congruence.
  - congruence.
  - acc. destruct (is_uid _ _); reflexivity.
  - intros Hk _ _ Hr. rewrite Hr in Hk. cbn in Hk. rewrite Z.eqb_refl in Hk. discriminate.
  - intros w0. autorewrite with accw. rewrite wget_wres, Hcw, E8, E9, Hdw. cbn. rewrite andb_true_r, Z.eqb_sym. reflexivity.
  - auto.
  - right. congruence.
Qed.

Lemma inv_abort m u : Inv m -> Inv (abort_chan m u).
Proof.
  intros I. unfold abort_chan.
  destruct (hget m u) as [c|] eqn:Hu; [|auto].
  pose proof (inv_chan_facts m u c I Hu) as F. pose proof F as (F1 & F2 & F3 & F4 & F5).
  destruct (c_kind c) eqn:Ek.
  - (* LE *)
    destruct (le_open_st (c_st c)) eqn:Eo.
    + (* closing *)
      assert (Hcw : c_cw c = None).
      { apply no_cw_unless; auto. rewrite Ek. destruct (c_st c); auto; discriminate. }
      rewrite Hcw. cbn [wres_opt wpending].
      assert (El : c_live c = true) by (eapply live_of_open; eauto).
      assert (Hin : in_use m u c = true) by (unfold in_use; rewrite El; destruct (c_st c); try discriminate; auto).
      replace (match c_st c with SConnected | SDisconnecting => true | _ => false end) with true
        by (destruct (c_st c); try discriminate; auto).
      apply (inv_closed_gen m _ u c (flush_output (set_dw (set_cw (set_st c SDisconnected) None) None))
                            O_CANCELLED O_RESULT true I Hu Hin); cbn; auto; try discriminate; t_same Hu.
      * acc. now rewrite (is_uid_chs m u c I Hu), Hin.
      * acc. rewrite (is_uid_le m u c I Hu). destruct (le_reg c); reflexivity.
      * intros E. rewrite E in Eo. discriminate.
      * intros _ _ E. rewrite E in Eo. discriminate.
      * intros w. autorewrite with accw. rewrite Hcw. reflexivity.
    + (* not open *)
      replace (match c_st c with SConnected | SDisconnecting => true | _ => false end) with false
        by (destruct (c_st c); try discriminate; auto).
      assert (Hdw : c_dw c = None).
      { apply no_dw_unless; auto. rewrite Ek. destruct (c_st c); auto; discriminate. }
      rewrite Hdw.
      destruct (c_cw c) as [w|] eqn:Hcw.
      * (* still connecting: the pending open is given up *)
        destruct (F1 w eq_refl) as [El Hs].
        assert (Es : c_st c = SConnecting) by (destruct (c_st c); try discriminate; auto).
        pose proof (wpending_cw m u c w I Hu Hcw) as Hp. rewrite Hcw in Hp. rewrite Hp. cbn [wres_opt].
        apply (inv_le_abandon m u c w (fun c => flush_output (set_dw (set_cw c None) None))); auto.
        discriminate.
      * (* only the output queue is flushed *)
        cbn [wres_opt wpending].
        apply (inv_hupd_fun m u c _ Hu). rewrite (set_same_cw c Hcw), (set_same_dw c Hdw).
        apply inv_out; auto. discriminate.
  - (* classic *)
    destruct (cl_abortable_st (c_st c)) eqn:Eo.
    + assert (El : c_live c = true) by (eapply live_of_open; eauto).
      assert (Hin : in_use m u c = true) by (unfold in_use; rewrite El; destruct (c_st c); try discriminate; auto).
      assert (Hcw : c_cw c = None).
      { apply no_cw_unless; auto. rewrite Ek. destruct (c_st c); auto; discriminate. }
      replace (match c_st c with SOpen | SWaitDisconnect | SOrphan => true | _ => false end) with true
        by (destruct (c_st c); try discriminate; auto).
      apply (inv_closed_gen m _ u c (set_dw (set_st c SClosed) None) O_ERROR O_RESULT true I Hu Hin);
        cbn; auto; try discriminate; t_same Hu.
      * intros Hd. destruct (F3 Hd) as (K & _). congruence.
      * acc. now rewrite (is_uid_chs m u c I Hu), Hin.
      * acc. rewrite (is_uid_le m u c I Hu). destruct (le_reg c); reflexivity.
      * intros E. rewrite E in Eo. discriminate.
      * intros _ K. congruence.
      * intros w. autorewrite with accw. rewrite Hcw. reflexivity.
    + assert (Hdw : c_dw c = None).
      { apply no_dw_unless; auto. rewrite Ek. destruct (c_st c); auto; discriminate. }
      rewrite Hdw. cbn [wres_opt].
      destruct (c_st c) eqn:Es; try discriminate;
        try (apply (inv_hupd_fun m u c _ Hu); rewrite (set_same_dw c Hdw); now apply inv_hupd_id).
      (* an orphaned initiator (mode mismatch): WAIT_DISCONNECT -> CLOSED, it is filed nowhere *)
      assert (Hcw : c_cw c = None) by (apply no_cw_unless; auto; now rewrite Ek, Es).
      assert (Hnu : in_use m u c = false) by (unfold in_use; rewrite Es; apply andb_false_r).
      assert (Hle : le_reg c = false) by (unfold le_reg; now rewrite Ek).
      assert (Ic : Inv (hupd m u (fun _ => set_dw (set_st c SClosed) None))).
      { apply inv_upd_same with (c := c); cbn; auto.
        - unfold in_use; cbn. rewrite Es. now rewrite !andb_false_r.
        - unfold le_reg; cbn. now rewrite Ek.
        - unfold chan_facts; cbn. rewrite Hcw, Ek.
          split; [discriminate|split; [discriminate|split; [|split; [auto|reflexivity]]]].
          intros Hd. destruct (F3 Hd) as (K & _). congruence.
        - intros E; congruence.
        - intros K; congruence. }
      revert Ic. apply inv_ext.
      * intros u'. acc. destruct (Z.eqb_spec u' u); subst; rewrite ?Hu; reflexivity.
      * intros w. now acc.
      * acc. now rewrite (is_uid_chs m u c I Hu), Hnu.
      * acc. now rewrite (is_uid_le m u c I Hu), Hle.
      * acc. reflexivity.
      * acc. reflexivity.
Qed.

Lemma inv_recv_disc_req m h id dcid scid :
  Inv m -> frame_ok m h (FDiscReq id dcid scid) = true -> Inv (fst (recv_disc_req m h id dcid scid)).
Proof.
  intros I Hok. unfold recv_disc_req. cbn in Hok. unfold target_kind in Hok.
  destruct (tget h dcid (m_chs m)) as [u|] eqn:Et; [|auto].
  destruct (hget m u) as [c|] eqn:Hu; [|auto].
  destruct (chs_self m u c h dcid I Hu Et) as [-> ->].
  destruct (Z.eqb_spec scid (c_dcid c)) as [->|Hne]; cbn [negb]; [|auto].
  destruct (c_kind c) eqn:Ek; cbn [fst].
  - apply (inv_le_closed m u c true); auto; try discriminate;
      intros Es; rewrite Es in Hok; rewrite ?Z.eqb_refl in Hok; discriminate.
  - apply inv_cl_disc_req; auto.
Qed.

Lemma inv_recv_disc_rsp m h id dcid scid :
  Inv m -> frame_ok m h (FDiscRsp id dcid scid) = true -> Inv (fst (recv_disc_rsp m h id dcid scid)).
Proof.
  intros I Hok. unfold recv_disc_rsp. cbn in Hok. unfold target_kind in Hok.
  destruct (tget h scid (m_chs m)) as [u|] eqn:Et; [|auto].
  destruct (hget m u) as [c|] eqn:Hu; [|auto].
  destruct (chs_self m u c h scid I Hu Et) as [-> ->].
  destruct (c_kind c) eqn:Ek.
  - destruct (c_st c) eqn:Es; auto.
    destruct (Z.eqb dcid (c_dcid c) && Z.eqb (c_scid c) (c_scid c)); cbn [negb fst]; auto.
    apply (inv_le_closed m u c false); auto; congruence.
  - destruct (c_st c) eqn:Es; auto.
    destruct (Z.eqb dcid (c_dcid c) && Z.eqb (c_scid c) (c_scid c)); cbn [negb fst] in *; auto.
    apply inv_cl_disc_rsp; auto.
Qed.

Lemma inv_recv_credit m h cid n : Inv m -> Inv (fst (recv_credit m h cid n)).
Proof.
  intros I. unfold recv_credit.
  destruct (tget h cid (m_le m)) as [u|] eqn:Et; [|auto].
  destruct (hget m u) as [c|] eqn:Hu; [|auto]. cbn [fst].
  unfold process_output. cbn.
  pose proof (inv_chan_facts m u c I Hu) as (F1 & F2 & F3 & F4 & F5).
  replace (set_out (set_out c (c_credits c + n) (c_pending c) (c_drained c)) _ _ _)
    with (set_out c (c_credits c + n - po_sent (set_out c (c_credits c + n) (c_pending c) (c_drained c)))
                    (c_pending c - po_sent (set_out c (c_credits c + n) (c_pending c) (c_drained c)))
                    (if Z.eqb (c_pending c - po_sent (set_out c (c_credits c + n) (c_pending c) (c_drained c))) 0
                        && (0 <? c_credits c + n - po_sent (set_out c (c_credits c + n) (c_pending c) (c_drained c)))
                     then true else c_drained c)) by reflexivity.
  apply inv_out; auto.
  intros Hd. destruct (_ && _); [discriminate|]. destruct (F3 Hd) as (A & _ & B). auto.
Qed.

Lemma inv_write m u k : Inv m -> Inv (fst (do_write m u k)).
Proof.
  intros I. unfold do_write.
  destruct (hget m u) as [c|] eqn:Hu; [|auto].
  destruct (c_kind c) eqn:Ek; [|auto]. destruct (c_st c) eqn:Es; auto. cbn [fst].
  unfold process_output. cbn.
  match goal with |- Inv (hupd m u (fun _ => set_out _ ?a ?b ?d)) =>
    change (Inv (hupd m u (fun _ => set_out c a b d))) end.
  apply inv_out; auto.
Qed.

Lemma inv_grant m u n : Inv m -> Inv (fst (do_grant m u n)).
Proof.
  intros I. unfold do_grant. destruct (hget m u); cbn; auto using inv_next_id.
Qed.

Lemma inv_recv_le_rsp m h id dcid credits result :
  Inv m -> le_rsp_ok m h id dcid result = true ->
  Inv (fst (recv_le_rsp m h id dcid credits result)).
Proof.
  intros I Hok. unfold recv_le_rsp. unfold le_rsp_ok in Hok. cbn in Hok. unfold target_kind in Hok.
  destruct (tget h id (m_reqs m)) as [scid|] eqn:Er; [|auto].
  pose proof (inv_reqs_del m h id I) as I1.
  cbn [m_chs with_reqs].
  destruct (reqs_ok m I _ _ _ Er) as [u [c (R1 & Hu & Ek & Es & Eref)]].
  rewrite R1 in *. change (hget (with_reqs m (tdel h id (m_reqs m))) u) with (hget m u).
  rewrite Hu in *. rewrite Ek in Hok. cbn in Hok.
  destruct (chs_self m u c h scid I Hu R1) as [-> ->].
  pose proof (inv_chan_facts m u c I Hu) as F. pose proof F as (F1 & F2 & F3 & F4 & F5).
  assert (Hin : in_use m u c = true) by (eapply reg_in_use; eauto).
  assert (El : c_live c = true) by (eapply in_use_live; eauto).
  assert (Hdw : c_dw c = None) by (apply no_dw_unless; auto; now rewrite Ek, Es).
  destruct (c_cw c) as [w|] eqn:Hcw; [|auto].
  destruct (Z.eqb_spec result R_OK) as [->|Hr]; cbn [fst].
  - (* accepted *)
    cbn in Hok. apply negb_true_iff, memz_false in Hok.
    unfold le_register. acc. rewrite Hu, Z.eqb_refl. cbn [option_map].
    set (c' := set_cw (set_st (set_out (set_dcid c dcid) credits (c_pending c) (c_drained c)) SConnected) None).
    change (c_conn c') with (c_conn c). change (c_dcid c') with dcid.
    refine (inv_chan_step m _ u c c' O_RESULT O_ERROR false I Hu _ _ _ _ _ _ _ _ _ _ _ _ _ _ _ _ _ _ _ _);
      subst c'; cbn; auto; try discriminate; t_same Hu.
    + unfold chan_facts; cbn. rewrite Hdw, Ek, El.
      split; [discriminate|split; [discriminate|split; [auto|split; [discriminate|reflexivity]]]].
    + acc. unfold in_use; cbn. rewrite El. reflexivity.
    + acc. unfold le_reg; cbn. rewrite Ek, Es, El. reflexivity.
    + unfold le_reg. rewrite Ek, Es. cbn. rewrite andb_false_r. discriminate.
    + intros _ _. now apply tkeys_fresh.
    + intros E. congruence.
    + acc. rewrite Eref. reflexivity.
    + intros w'. autorewrite with accw. rewrite Hcw, Hdw. cbn. rewrite wget_wres.
      rewrite andb_true_r, Z.eqb_sym. reflexivity.
  - (* refused *)
    apply (inv_closed_gen m _ u c (set_cw (set_st c SConnError) None) O_ERROR O_ERROR false I Hu Hin);
      cbn; auto; try discriminate; t_same Hu.
    + intros Hd. destruct (F3 Hd) as (_ & _ & B). congruence.
    + acc. unfold le_reg. rewrite Ek, Es. cbn. rewrite andb_false_r. reflexivity.
    + congruence.
    + acc. rewrite Eref. reflexivity.
    + intros w'. autorewrite with accw. rewrite Hcw, Hdw. cbn. rewrite wget_wres, Z.eqb_sym. reflexivity.
Qed.

Lemma find_cl_spec m h cid u c : find_cl m h cid = Some (u, c) ->
  tget h cid (m_chs m) = Some u /\ hget m u = Some c /\ c_kind c = KCl.
Proof.
  unfold find_cl. destruct (tget h cid (m_chs m)) as [u0|]; [|discriminate].
  destruct (hget m u0) as [c0|] eqn:E; [|discriminate]. destruct (c_kind c0) eqn:K; [discriminate|].
  intros [= <- <-]. auto.
Qed.

(* a classic channel found through the table: what the invariant says about it *)
Lemma cl_found m h cid u c : Inv m -> find_cl m h cid = Some (u, c) ->
  hget m u = Some c /\ c_kind c = KCl /\ c_conn c = h /\ c_scid c = cid /\ in_use m u c = true /\ c_live c = true /\
  le_reg c = false.
Proof.
  intros I H. destruct (find_cl_spec _ _ _ _ _ H) as (A & B & C).
  destruct (chs_self m u c h cid I B A) as [-> ->].
  assert (in_use m u c = true) by (eapply reg_in_use; eauto).
  repeat split; auto. eapply in_use_live; eauto. unfold le_reg. now rewrite C.
Qed.

(* configuration finished: the channel is open and connect() returns *)
Lemma inv_cl_open m u c :
  Inv m -> hget m u = Some c -> c_kind c = KCl -> in_use m u c = true ->
  (c_st c = SWaitConfigReq \/ c_st c = SWaitConfigRsp) ->
  Inv (hupd (wres_opt m (c_cw c) O_RESULT) u (fun c => set_cw (set_st c SOpen) None)).
Proof.
  intros I Hu Ek Hin Es.
  pose proof (inv_chan_facts m u c I Hu) as F. pose proof F as (F1 & F2 & F3 & F4 & F5).
  assert (El : c_live c = true) by (eapply in_use_live; eauto).
  assert (Hdw : c_dw c = None) by (apply no_dw_unless; auto; rewrite Ek; destruct Es as [-> | ->]; reflexivity).
  refine (inv_chan_step m _ u c (set_cw (set_st c SOpen) None) O_RESULT O_ERROR true I Hu _ _ _ _ _ _ _ _ _ _ _ _ _ _ _ _ _ _ _ _);
    cbn; auto; try discriminate; t_same Hu.
  - unfold chan_facts; cbn. rewrite Hdw, El, Ek. split; [discriminate|split; [discriminate|split; [|split; [discriminate|reflexivity]]]].
    intros Hd. destruct (F3 Hd) as (K & _). congruence.
  - acc. unfold in_use at 1; cbn. rewrite El, Hin. reflexivity.
  - acc. unfold le_reg; cbn. rewrite Ek. reflexivity.
  - unfold le_reg; cbn. rewrite Ek. discriminate.
  - intros E. destruct Es; congruence.
  - intros _ K. congruence.
  - intros w. autorewrite with accw. rewrite Hdw. cbn. rewrite andb_true_r. reflexivity.
Qed.

(* a state change that keeps the channel registered and its waiters untouched *)
Lemma inv_cl_st m u c s d :
  Inv m -> hget m u = Some c -> c_kind c = KCl -> in_use m u c = true ->
  reg_st s = true -> le_open_st s = false ->
  (c_cw c <> None -> cw_st KCl s = true) -> (c_dw c <> None -> dw_st KCl s = true) ->
  Inv (hupd m u (fun c => set_st (set_dcid c d) s)).
Proof.
  intros I Hu Ek Hin Hs Hlo Hc Hd.
  pose proof (inv_chan_facts m u c I Hu) as F. pose proof F as (F1 & F2 & F3 & F4 & F5).
  assert (El : c_live c = true) by (eapply in_use_live; eauto).
  apply (inv_hupd_fun m u c _ Hu).
  apply inv_upd_same with (c := c); cbn; auto.
  - unfold le_reg. rewrite Ek. discriminate.
  - unfold in_use at 1; cbn. rewrite El, Hin. destruct s; try discriminate; reflexivity.
  - unfold le_reg; cbn. now rewrite Ek.
  - unfold chan_facts; cbn. rewrite Ek, El. split; [|split; [|split; [|split; [discriminate|cbn; now rewrite Hlo]]]].
    + intros w Hw. split; auto. apply Hc. congruence.
    + intros w Hw. split; auto. apply Hd. congruence.
    + intros Hdr. destruct (F3 Hdr) as (K & _). congruence.
  - intros E. pose proof (init_in_use_le m u c I Hu E Hin). congruence.
  - intros K. congruence.
Qed.

Lemma inv_recv_conn_rsp m h id dcid scid result :
  Inv m -> Inv (fst (recv_conn_rsp m h id dcid scid result)).
Proof.
  intros I. unfold recv_conn_rsp.
  destruct (find_cl m h scid) as [[u c]|] eqn:Ef; [|auto].
  destruct (cl_found m h scid u c I Ef) as (Hu & Ek & Ec & Esc & Hin & El & Hle).
  pose proof (inv_chan_facts m u c I Hu) as F. pose proof F as (F1 & F2 & F3 & F4 & F5).
  destruct (c_st c) eqn:Es; auto.
  assert (Hdw : c_dw c = None) by (apply no_dw_unless; auto; now rewrite Ek, Es).
  destruct (Z.eqb result R_OK); cbn [fst].
  - apply (inv_cl_st (next_id m h) u c SWaitConfigReqRsp dcid); auto using inv_next_id.
  - destruct (Z.eqb result R_PENDING); cbn [fst]; auto.
    assert (Hcw : exists w, c_cw c = Some w).
    { unfold in_use in Hin. rewrite Es in Hin. destruct (c_cw c); eauto. rewrite andb_false_r in Hin. discriminate. }
    destruct Hcw as [w Hcw].
    assert (Hp : wpending (hupd m u (fun c => set_st c SClosed)) (c_cw c) = true).
    { pose proof (wpending_cw m u c w I Hu Hcw) as P. rewrite Hcw in *. cbn in *.
      rewrite wout_wget in *. acc. exact P. }
    rewrite Hp. cbn [fst]. unfold cl_connect_failed.
    apply (inv_closed_gen m _ u c (set_cw (set_st c SClosed) None) O_ERROR O_ERROR true I Hu Hin);
      cbn; auto; try discriminate; t_same Hu.
    + intros Hd. destruct (F3 Hd) as (K & _). congruence.
    + acc. now rewrite Hle.
    + congruence.
    + intros _ K. congruence.
    + intros w'. autorewrite with accw. rewrite Hdw. cbn. destruct (is_uid (c_cw c) w'); reflexivity.
Qed.

Lemma inv_cl_st0 m u c s :
  Inv m -> hget m u = Some c -> c_kind c = KCl -> in_use m u c = true ->
  reg_st s = true -> le_open_st s = false ->
  (c_cw c <> None -> cw_st KCl s = true) -> (c_dw c <> None -> dw_st KCl s = true) ->
  Inv (hupd m u (fun c => set_st c s)).
Proof.
  intros I Hu Ek Hin Hs Hlo Hc Hd.
  apply (inv_hupd_ext m u c (fun c0 => set_st (set_dcid c0 (c_dcid c)) s)); [auto|now destruct c|now apply (inv_cl_st m u c)].
Qed.

Lemma cw_none_of_wpending m u c : Inv m -> hget m u = Some c -> wpending m (c_cw c) = false -> c_cw c = None.
Proof. apply wpending_none. Qed.

Lemma inv_recv_conf_rsp m h id scid result sugg : Inv m -> Inv (fst (recv_conf_rsp m h id scid result sugg)).
Proof.
  intros I. unfold recv_conf_rsp.
  destruct (find_cl m h scid) as [[u c]|] eqn:Ef; [|auto].
  destruct (cl_found m h scid u c I Ef) as (Hu & Ek & Ec & Esc & Hin & El & Hle).
  pose proof (inv_chan_facts m u c I Hu) as F.
  assert (Hdw : cl_abortable_st (c_st c) = false -> c_dw c = None).
  { intros E. apply no_dw_unless; auto. rewrite Ek. destruct (c_st c); auto; discriminate. }
  destruct (Z.eqb result 0).
  - destruct (c_st c) eqn:Es; cbn [fst]; auto.
    + apply (inv_cl_st0 m u c SWaitConfigReq); auto; rewrite Hdw by (now rewrite Es); congruence.
    + apply inv_cl_open; auto.
  - destruct (Z.eqb result CONF_UNACCEPTABLE); cbn [fst]; auto.
    destruct (Z.eqb sugg 0); cbn [fst]; auto using inv_next_id.
Qed.

Lemma inv_recv_conf_req m h id dcid rfc bad : Inv m -> Inv (fst (recv_conf_req m h id dcid rfc bad)).
Proof.
  intros I. unfold recv_conf_req.
  destruct (find_cl m h dcid) as [[u c]|] eqn:Ef; [|auto].
  destruct (cl_found m h dcid u c I Ef) as (Hu & Ek & Ec & Esc & Hin & El & Hle).
  pose proof (inv_chan_facts m u c I Hu) as F. pose proof F as (F1 & F2 & F3 & F4 & F5).
  destruct (match c_st c with SWaitConfigReqRsp | SWaitConfigReq => true | _ => false end) eqn:Ecfg;
    cbn [negb fst]; [|auto].
  assert (Hdw : c_dw c = None).
  { apply no_dw_unless; auto. rewrite Ek. destruct (c_st c); auto; discriminate. }
  destruct ((0 <=? rfc) && negb (Z.eqb rfc (c_mode c))).
  - (* mode mismatch *)
    cbn [fst].
    destruct (wpending m (c_cw c)) eqn:Ew.
    + unfold cl_connect_failed.
      apply (inv_closed_gen m _ u c (set_st (set_cw (set_st c SWaitDisconnect) None) SOrphan)
                            O_ERROR O_ERROR true I Hu Hin); cbn; auto; try discriminate; t_same Hu.
      * intros Hd. destruct (F3 Hd) as (K & _). congruence.
      * acc. now rewrite Hle.
      * intros E. rewrite E in Ecfg. discriminate.
      * intros _ K. congruence.
      * intros w'. autorewrite with accw. rewrite Hdw. cbn. destruct (is_uid (c_cw c) w'); reflexivity.
    + assert (Hcw : c_cw c = None) by (eapply wpending_none; eauto).
      rewrite Hcw. cbn [wres_opt].
      apply (inv_cl_st0 (next_id m h) u c SWaitDisconnect); auto using inv_next_id; congruence.
  - destruct bad; cbn [fst]; auto.
    destruct (c_st c) eqn:Es; try discriminate; cbn [fst].
    + apply (inv_cl_st0 m u c SWaitConfigRsp); auto; congruence.
    + apply inv_cl_open; auto.
Qed.

Lemma inv_close m u : Inv m -> Inv (fst (do_close m u)).
Proof.
  intros I. unfold do_close.
  destruct (hget m u) as [c|] eqn:Hu; [|auto].
  destruct (negb _) eqn:Eok; cbn [fst].
  { apply inv_wnew_done; auto. discriminate. }
  apply negb_false_iff in Eok.
  pose proof (inv_chan_facts m u c I Hu) as F. pose proof F as (F1 & F2 & F3 & F4 & F5).
  set (w := wuid m).
  set (f := fun c0 : chan => match c_kind c0 with
                              | KLe => flush_output (set_st (set_dw c0 (Some w)) SDisconnecting)
                              | KCl => set_st (set_dw c0 (Some w)) SWaitDisconnect end).
  assert (Hopen : le_open_st (c_st c) = true \/ cl_abortable_st (c_st c) = true).
  { destruct (c_kind c), (c_st c); try discriminate; auto. }
  assert (El : c_live c = true) by (eapply live_of_open; eauto).
  assert (Hin : in_use m u c = true).
  { unfold in_use. rewrite El. destruct (c_kind c), (c_st c); try discriminate; auto. }
  assert (Hcw : c_cw c = None).
  { apply no_cw_unless; auto. destruct (c_kind c), (c_st c); try discriminate; auto. }
  assert (Hdw : c_dw c = None).
  { apply no_dw_unless; auto. destruct (c_kind c), (c_st c); try discriminate; auto. }
  assert (Ef : c_kind (f c) = c_kind c /\ c_conn (f c) = c_conn c /\ c_scid (f c) = c_scid c /\
               c_dcid (f c) = c_dcid c /\ c_live (f c) = true /\ c_cw (f c) = None /\ c_dw (f c) = Some w /\
               c_ref (f c) = c_ref c /\ dw_st (c_kind c) (c_st (f c)) = true /\ reg_st (c_st (f c)) = true /\
               le_reg (f c) = le_reg c /\ (c_drained (f c) = false -> c_kind c = KCl /\ c_drained c = false) /\
               kind_st (c_kind c) (c_st (f c)) = true).
  { subst f. cbn. unfold le_reg. destruct (c_kind c) eqn:Ek, (c_st c); try discriminate; cbn;
      rewrite ?Ek, ?El; repeat split; auto; try discriminate. }
  destruct Ef as (E1 & E2 & E3 & E4 & E5 & E6 & E7 & E8 & E9 & E10 & E11 & E12 & E13).
  assert (Hin' : in_use m u (f c) = true).
  { unfold in_use. rewrite E5. destruct (c_st (f c)); try discriminate; auto. }
  apply (inv_frame1 m _ u (f c) I).
  - t_heap Hu.
  - unfold chan_facts. rewrite E6, E7, E5, E1. split; [discriminate|split; [|split; [|split; [discriminate|exact E13]]]].
    + intros w0 _. auto.
    + intros Hd. destruct (E12 Hd) as [K Hd']. destruct (F3 Hd') as (K' & _). congruence.
  - acc. rewrite E2, E3, (in_use_pend m), Hin', <- Hin by (acc; reflexivity). now apply chs_filed.
  - acc. rewrite E2, E4, E11. now apply le_filed.
  - acc. reflexivity.
  - intros h id w0 us H Hm. destruct (pend_ok m I _ _ _ _ H) as (_ & _ & B). destruct (B u Hm) as [c0 (A & _ & _ & S & _)].
    rewrite Hu in A. inversion A; subst c0. destruct (c_kind c), (c_st c); discriminate.
  - acc. apply (nd_reqs m I).
  - intros h id k H. acc in H. destruct (reqs_ok m I _ _ _ H) as [u0 [c0 (R1 & R2 & R3 & R4 & R5)]].
    exists u0, c0. acc. destruct (Z.eqb_spec u0 u); [|auto].
    subst. rewrite Hu in R2. inversion R2; subst c0. destruct (c_kind c), (c_st c); discriminate.
  - intros w0 x Hx. left. acc. now rewrite (wget_old m w0 x Hx).
  - intros w0 x Hx _. acc. now rewrite (wget_old m w0 x Hx).
  - intros w0 x' Hn Hx Hp. acc in Hx.
    destruct (Z.eqb_spec w0 (wuid m)); [|congruence]. inversion Hx; subst x' w0.
    unfold owner_ok. cbn. exists (f c). split; auto. acc. now rewrite Z.eqb_refl, Hu.
  - intros c0 w0 x' H0. rewrite Hu in H0. inversion H0; subst c0. congruence.
  - intros c0 w0 x' H0. rewrite Hu in H0. inversion H0; subst c0. congruence.
  - intros w0. rewrite E6. discriminate.
  - intros w0. rewrite E7. intros [= <-]. exists (mkW O_PENDING WClose (c_conn c) u).
    acc. subst w. rewrite Z.eqb_refl. rewrite E2. repeat split; auto.
Qed.

Section NewChan.
  Variables (m m' : mgr) (c' : chan) (reg : bool) (newreq : option Z) (neww : option waiter).
  Let u := huid m.
  Let h := c_conn c'.
  Let k := c_scid c'.
  Hypothesis I : Inv m.
  Hypothesis Hheap : forall u', hget m' u' = if Z.eqb u' u then Some c' else hget m u'.
  Hypothesis Hfacts : chan_facts c'.
  Hypothesis Hlive : c_live c' = true.
  Hypothesis Hfresh : tget h k (m_chs m) = None.
  Hypothesis Hchs : m_chs m' = if reg then tset h k u (m_chs m) else m_chs m.
  Hypothesis Hpend : m_pend m' = m_pend m.
  Hypothesis Hreg : in_use m u c' = reg.
  Hypothesis Hle : m_le m' = if le_reg c' then tset h (c_dcid c') u (m_le m) else m_le m.
  Hypothesis Hlefresh : le_reg c' = true -> tget h (c_dcid c') (m_le m) = None.
  Hypothesis Hreqs : m_reqs m' = match newreq with Some id => tset h id k (m_reqs m) | None => m_reqs m end.
  Hypothesis Hnewreq : forall id, newreq = Some id ->
                       c_kind c' = KLe /\ c_st c' = SConnecting /\ c_ref c' = id /\ reg = true.
  Hypothesis Hw : forall w, wget m' w = if Z.eqb w (wuid m) then neww else wget m w.
  Hypothesis Hcw : forall w, c_cw c' = Some w -> w = wuid m /\ neww = Some (mkW O_PENDING WOpen h u).
  Hypothesis Hdw : c_dw c' = None.
  Hypothesis Hneww : forall x, neww = Some x -> w_out x = O_PENDING ->
                     x = mkW O_PENDING WOpen h u /\ c_cw c' = Some (wuid m).

  Lemma inv_new_chan : Inv m'.
  Proof.
    assert (Hnone : hget m u = None) by apply hget_huid.
    assert (Hiu : forall u0 c0, in_use m' u0 c0 = in_use m u0 c0) by (intros; now apply in_use_pend).
    assert (Hnochs : forall h1 k1, tget h1 k1 (m_chs m) = Some u -> False).
    { intros h1 k1 H. destruct (chs_pt m I _ _ _ H) as [c0 (A & _)]. congruence. }
    assert (Hnole : forall h1 k1, tget h1 k1 (m_le m) = Some u -> False).
    { intros h1 k1 H. destruct (le_pt m I _ _ _ H) as [c0 (A & _)]. congruence. }
    assert (CH : filed (m_chs m) (m_chs m') u h k (in_use m' u c')).
    { rewrite Hiu, Hreg, Hchs. apply (filed_step _ u h k false k reg); [|discriminate|auto].
      apply filed_absent; [apply (nd_chs m I)|intros h1 k1 H; eapply Hnochs; eauto]. }
    assert (LE : filed (m_le m) (m_le m') u h (c_dcid c') (le_reg c')).
    { rewrite Hle. apply (filed_step _ u h (c_dcid c') false); [|discriminate|auto].
      apply filed_absent; [apply (nd_le m I)|intros h1 k1 H; eapply Hnole; eauto]. }
    assert (CH2 := proj1 (proj2 CH)).
    apply (inv_frame1 m m' u c' I); auto.
    - (* PE3 *) intros h1 id w us H Hin. destruct (pend_ok m I _ _ _ _ H) as (_ & _ & B).
      destruct (B u Hin) as [c0 (A & _)]. congruence.
    - (* RQ1 *) rewrite Hreqs. destruct newreq; [apply NoDup_tset|]; apply (nd_reqs m I).
    - (* RQ2 *) intros h1 id k1 H. rewrite Hreqs in H.
      assert (Hold : tget h1 id (m_reqs m) = Some k1 ->
                     exists u0 c0, tget h1 k1 (m_chs m') = Some u0 /\ hget m' u0 = Some c0 /\ c_kind c0 = KLe /\
                                   c_st c0 = SConnecting /\ c_ref c0 = id).
      { intros Ho. destruct (reqs_ok m I _ _ _ Ho) as [u0 [c0 (R1 & R2 & R3 & R4 & R5)]].
        exists u0, c0. rewrite Hheap. assert (u0 <> u) by (intros ->; congruence).
        destruct (Z.eqb_spec u0 u); [congruence|]. repeat split; auto.
        now apply CH2. }
      destruct newreq as [id0|]; auto.
      apply tget_tset_inv in H. destruct H as [(-> & -> & ->)|[_ H]]; [|auto].
      destruct (Hnewreq id0 eq_refl) as (A & B & C & D).
      exists u, c'. rewrite Hheap, Z.eqb_refl, Hchs, D, tget_tset, !Z.eqb_refl. auto.
    - (* W1 *) intros w x Hx. left. now rewrite Hw, (wget_old m w x Hx).
    - (* W2 *) intros w x Hx _. now rewrite Hw, (wget_old m w x Hx).
    - (* W4 *) intros w x' Hn Hx Hp. rewrite Hw in Hx. destruct (Z.eqb_spec w (wuid m)); [|congruence]. subst w.
      destruct (Hneww x' Hx Hp) as [-> Hc]. unfold owner_ok. cbn. exists c'. now rewrite Hheap, Z.eqb_refl.
    - (* W5c *) intros c0 w x' H0. congruence.
    - (* W5d *) intros c0 w x' H0. congruence.
    - (* W6c *) intros w Hc. destruct (Hcw w Hc) as [-> Hn]. exists (mkW O_PENDING WOpen h u).
      rewrite Hw, Z.eqb_refl. repeat split; auto.
    - (* W6d *) intros w. rewrite Hdw. discriminate.
  Qed.
End NewChan.

Lemma tdel_absent {V} h k (t : table V) : tget h k t = None -> tdel h k t = t.
Proof.
  unfold tdel. induction t as [|e t IH]; cbn; auto.
  destruct (key_is h k e) eqn:E; [discriminate|]. intros H. cbn. now rewrite IH.
Qed.

Lemma tdel_tset {V} h k v (t : table V) : tdel h k (tset h k v t) = tdel h k t.
Proof.
  unfold tset. unfold tdel at 1. cbn [filter]. unfold key_is at 1. cbn. rewrite !Z.eqb_refl. cbn. apply tdel_tdel.
Qed.

Lemma free_fresh {V} h (t : table V) lo hi n x :
  In x (find_free_n lo hi (tkeys h t) n) -> tget h x t = None.
Proof. intros H. now apply tkeys_fresh, (find_free_n_spec lo hi _ n). Qed.

Lemma find_free_le_spec used x : find_free_le used = Some x -> le_cid_lo <= x <= le_cid_hi /\ ~ In x used.
Proof. apply find_free_hd. Qed.
Lemma find_free_bredr_spec used x : find_free_bredr used = Some x -> bredr_cid_lo <= x <= bredr_cid_hi /\ ~ In x used.
Proof. apply find_free_hd. Qed.

Lemma find_free_le_fresh {V} h (t : table V) x : find_free_le (tkeys h t) = Some x -> tget h x t = None.
Proof. intros H. now apply tkeys_fresh, find_free_le_spec. Qed.
Lemma find_free_bredr_fresh {V} h (t : table V) x : find_free_bredr (tkeys h t) = Some x -> tget h x t = None.
Proof. intros H. now apply tkeys_fresh, find_free_bredr_spec. Qed.

(* a fresh uid is in no pending request *)
Lemma in_use_new_init m c0 : Inv m -> c_st c0 = SInit -> in_use m (huid m) c0 = false.
Proof.
  intros I E. unfold in_use. rewrite E.
  destruct (tget (c_conn c0) (c_ref c0) (m_pend m)) as [[w us]|] eqn:Ep; [|apply andb_false_r].
  destruct (memz (huid m) us) eqn:Em; [|apply andb_false_r].
  apply memz_In in Em. destruct (pend_ok m I _ _ _ _ Ep) as (_ & _ & B). destruct (B _ Em) as [c1 (A & _)].
  rewrite hget_huid in A. discriminate.
Qed.

Lemma inv_open_cl m h psm mode : Inv m -> Inv (fst (open_cl m h psm mode)).
Proof.
  intros I. unfold open_cl.
  destruct (find_free_bredr (tkeys h (m_chs m))) as [scid|] eqn:Ef; cbn [fst].
  2:{ apply inv_wnew_done; auto. discriminate. }
  apply find_free_bredr_fresh in Ef.
  set (c0 := mkChan KCl h scid 0 SClosed mode 0 0 true None None 0 true).
  set (c' := set_st (set_cw c0 (Some (wuid m))) SWaitConnectRsp).
  apply (inv_new_chan m _ c' true None (Some (mkW O_PENDING WOpen h (huid m))) I); cbn; auto.
  - intros u'. autorewrite with acc. destruct (Z.eqb_spec u' (huid m)); subst; cbn; reflexivity.
  - unfold chan_facts; cbn. split; [auto|split; [discriminate|split; [discriminate|split; [discriminate|reflexivity]]]].
  - acc. reflexivity.
  - acc. reflexivity.
  - acc. reflexivity.
  - discriminate.
  - acc. reflexivity.
  - discriminate.
  - intros w. acc. reflexivity.
  - intros w [= <-]. auto.
  - intros x [= <-] _. auto.
Qed.

Arguments tset : simpl never.
Arguments tdel : simpl never.
Arguments tdrop : simpl never.
Arguments tget : simpl never.

Lemma inv_open_le m h psm credits : Inv m -> Inv (fst (open_le m h psm credits)).
Proof.
  intros I. unfold open_le.
  destruct (find_free_le (tkeys h (m_chs m))) as [scid|] eqn:Ef; cbn [fst].
  2:{ apply inv_wnew_done; auto. discriminate. }
  apply find_free_le_fresh in Ef.
  set (c0 := mkChan KLe h scid 0 SInit 0 0 0 true None None 0 true).
  cbn [m_reqs next_id with_ids with_chs hnew with_heap].
  destruct (tget h (nid (with_chs (hnew m c0) (tset h scid (huid m) (m_chs (hnew m c0)))) h) (m_reqs m)) eqn:Er; cbn [fst].
  - (* identifier still in use: the channel object is created and dropped *)
    apply (inv_new_chan m _ c0 false None (Some (mkW O_ERROR WOpen h (huid m))) I); cbn; auto.
    + intros u'. acc. reflexivity.
    + unfold chan_facts; cbn. split; [discriminate|split; [discriminate|split; [discriminate|split; [discriminate|reflexivity]]]].
    + rewrite tdel_tset. now apply tdel_absent.
    + change (in_use m (huid m) c0 = false). now apply in_use_new_init.
    + discriminate.
    + discriminate.
    + intros w. acc. reflexivity.
    + discriminate.
    + intros x [= <-]. discriminate.
  - set (i := nid (with_chs (hnew m c0) (tset h scid (huid m) (m_chs (hnew m c0)))) h) in *.
    set (c' := set_ref (set_st (set_cw c0 (Some (wuid m))) SConnecting) i).
    apply (inv_new_chan m _ c' true (Some i) (Some (mkW O_PENDING WOpen h (huid m))) I); cbn; auto.
    + intros u'. autorewrite with acc. destruct (Z.eqb_spec u' (huid m)); subst; cbn; reflexivity.
    + unfold chan_facts; cbn. split; [auto|split; [discriminate|split; [discriminate|split; [discriminate|reflexivity]]]].
    + acc. reflexivity.
    + acc. reflexivity.
    + acc. reflexivity.
    + discriminate.
    + acc. reflexivity.
    + intros id [= <-]. auto.
    + intros w. acc. reflexivity.
    + intros w [= <-]. auto.
    + intros x [= <-] _. auto.
Qed.

Lemma inv_accept_le m h local scid credits :
  Inv m -> tget h local (m_chs m) = None -> tget h scid (m_le m) = None ->
  let c' := mkChan KLe h local scid SConnected 0 credits 0 true None None 0 true in
  let m1 := hnew m c' in
  let m2 := with_chs m1 (tset h local (huid m) (m_chs m1)) in
  Inv (with_le m2 (tset h scid (huid m) (m_le m2))).
Proof.
  intros I Hc Hl c' m1 m2.
  apply (inv_new_chan m _ c' true None None I); subst m2 m1 c'; cbn; auto.
  - intros u'. acc. reflexivity.
  - unfold chan_facts; cbn. split; [discriminate|split; [discriminate|split; [auto|split; [discriminate|reflexivity]]]].
  - discriminate.
  - intros w. acc. destruct (Z.eqb_spec w (wuid m)); subst; auto using wget_wuid.
  - discriminate.
  - discriminate.
Qed.

Lemma inv_recv_conn_req m h id psm scid : Inv m -> Inv (fst (recv_conn_req m h id psm scid)).
Proof.
  intros I. unfold recv_conn_req.
  destruct (srv_get psm (m_clsrv m)) as [mode|]; [|auto].
  destruct (find_free_bredr (tkeys h (m_chs m))) as [local|] eqn:Ef; cbn [fst]; [|auto].
  apply find_free_bredr_fresh in Ef.
  set (c' := mkChan KCl h local scid SWaitConfigReqRsp mode 0 0 true None None 0 true).
  apply (inv_new_chan m _ c' true None None I); cbn; auto.
  - intros u'. acc. reflexivity.
  - unfold chan_facts; cbn. split; [discriminate|split; [discriminate|split; [discriminate|split; [discriminate|reflexivity]]]].
  - discriminate.
  - discriminate.
  - intros w. acc. destruct (Z.eqb_spec w (wuid m)); subst; auto using wget_wuid.
  - discriminate.
  - discriminate.
Qed.

Lemma inv_accept_list h credits pairs : forall m,
  Inv m -> NoDup (map fst pairs) -> NoDup (map snd pairs) ->
  (forall s d, In (s, d) pairs -> tget h s (m_chs m) = None /\ tget h d (m_le m) = None) ->
  Inv (fst (new_le_chans m h SConnected credits 0 true pairs)).
Proof.
  induction pairs as [|[s d] ps IH]; intros m I N1 N2 Hf; cbn [new_le_chans fst]; auto.
  inversion N1 as [|? ? Hn1 N1']; subst. inversion N2 as [|? ? Hn2 N2']; subst.
  destruct (Hf s d (or_introl eq_refl)) as [Hs Hd].
  pose proof (inv_accept_le m h s d credits I Hs Hd) as I2. cbn zeta in I2.
  match goal with |- Inv (fst (let '(m3, us) := new_le_chans ?mm _ _ _ _ _ _ in _)) =>
    specialize (IH mm I2 N1' N2'); destruct (new_le_chans mm h SConnected credits 0 true ps) as [m3 us] eqn:E end.
  cbn [fst] in *. apply IH.
  intros s' d' Hin. destruct (Hf s' d' (or_intror Hin)) as [A B]. cbn.
  rewrite !tget_tset, !tget_tdel.
  assert (s' <> s) by (intros ->; apply Hn1; change s with (fst (s, d')); now apply in_map).
  assert (d' <> d) by (intros ->; apply Hn2; change d with (snd (s', d)); now apply in_map).
  rewrite !Z.eqb_refl. destruct (Z.eqb_spec s' s), (Z.eqb_spec d' d); try congruence. cbn. auto.
Qed.

Lemma inv_recv_le_req m h id psm scid credits okp : Inv m -> Inv (fst (recv_le_req m h id psm scid credits okp)).
Proof.
  intros I. unfold recv_le_req.
  destruct (srv_get psm (m_lesrv m)); [|auto].
  destruct (negb okp); [auto|].
  destruct (memz scid (tkeys h (m_le m))) eqn:Em; [auto|].
  destruct (find_free_le (tkeys h (m_chs m))) as [local|] eqn:Ef; [|auto]. cbn [fst].
  apply inv_accept_list; auto.
  - cbn. constructor; auto. constructor.
  - cbn. constructor; auto. constructor.
  - intros s d [[= <- <-]|[]]. split.
    + now apply find_free_le_fresh.
    + now apply tkeys_fresh, memz_false.
Qed.

Lemma in_combine_fst {A B} (l1 : list A) (l2 : list B) x : In x (map fst (combine l1 l2)) -> In x l1.
Proof. rewrite in_map_iff. intros [[a b] [<- H]]. eapply in_combine_l; eauto. Qed.
Lemma in_combine_snd {A B} (l1 : list A) (l2 : list B) x : In x (map snd (combine l1 l2)) -> In x l2.
Proof. rewrite in_map_iff. intros [[a b] [<- H]]. eapply in_combine_r; eauto. Qed.

Lemma NoDup_combine_fst {A B} (l1 : list A) (l2 : list B) : NoDup l1 -> NoDup (map fst (combine l1 l2)).
Proof.
  revert l2. induction l1 as [|a l1 IH]; intros [|b l2] H; cbn; try constructor.
  - inversion H; subst. intros Hi. apply in_combine_fst in Hi. auto.
  - inversion H; subst. auto.
Qed.
Lemma NoDup_combine_snd {A B} (l1 : list A) (l2 : list B) : NoDup l2 -> NoDup (map snd (combine l1 l2)).
Proof.
  revert l2. induction l1 as [|a l1 IH]; intros [|b l2] H; cbn; try constructor.
  - inversion H; subst. intros Hi. apply in_combine_snd in Hi. auto.
  - inversion H; subst. auto.
Qed.

Lemma inv_recv_enh_req m h id psm credits scids okp :
  Inv m -> frame_ok m h (FEnhReq id psm credits scids okp) = true ->
  Inv (fst (recv_enh_req m h id psm credits scids okp)).
Proof.
  intros I Hok. cbn in Hok. apply nodupz_NoDup in Hok. unfold recv_enh_req.
  destruct (srv_get psm (m_lesrv m)); [|auto].
  destruct (negb okp); [auto|].
  destruct (any_mem scids (tkeys h (m_le m))) eqn:Em; [auto|].
  destruct (find_free_le_n (tkeys h (m_chs m)) (length scids)) as [|l0 locals] eqn:Ef; [auto|]. cbn [fst].
  apply inv_accept_list; auto.
  - apply NoDup_combine_fst. rewrite <- Ef. unfold find_free_le_n. destruct (length scids); [constructor|].
    apply find_free_n_NoDup.
  - now apply NoDup_combine_snd.
  - intros s d Hin. split.
    + apply in_combine_l in Hin. rewrite <- Ef in Hin. unfold find_free_le_n in Hin.
      destruct (length scids); [destruct Hin|]. eapply free_fresh; eauto.
    + apply in_combine_r in Hin. rewrite any_mem_false in Em. now apply tkeys_fresh, Em.
Qed.

Definition down_us (m : mgr) (h : Z) : list Z :=
  map snd (tconn h (m_chs m)) ++ map snd (tconn h (m_le m)).

Lemma hget_map_from (f : Z -> chan -> chan) m u l :
  m_heap m = l ->
  (if u <? 0 then None else nth_error (map_from f 0 l) (Z.to_nat u)) = option_map (f u) (hget m u).
Proof.
  intros <-. unfold hget. destruct (Z.ltb_spec u 0); auto.
  rewrite nth_error_map_from. rewrite Z.add_0_l, Z2Nat.id by lia. reflexivity.
Qed.

Lemma hget_down m h u : hget (do_down m h) u = option_map (down_chan h (down_us m h) u) (hget m u).
Proof. unfold do_down, hget at 1. cbn [m_heap]. now apply hget_map_from. Qed.

Lemma wget_down m h w :
  wget (do_down m h) w =
  option_map (fun x => if memz w (down_cancels m h (down_us m h)) then wres1 O_CANCELLED x
                       else if memz w (down_results m (down_us m h)) then wres1 O_RESULT x else x) (wget m w).
Proof.
  unfold do_down, wget at 1. cbn [m_w]. unfold wget. destruct (Z.ltb_spec w 0); auto.
  rewrite nth_error_map_from. rewrite Z.add_0_l, Z2Nat.id by lia. reflexivity.
Qed.

Lemma nth_hget m n c : nth_error (m_heap m) n = Some c <-> hget m (Z.of_nat n) = Some c.
Proof. unfold hget. destruct (Z.ltb_spec (Z.of_nat n) 0); [lia|]. now rewrite Nat2Z.id. Qed.

Lemma hget_nth m u c : hget m u = Some c -> exists n, u = Z.of_nat n /\ nth_error (m_heap m) n = Some c.
Proof.
  intros H. pose proof (hget_bound m u c H). exists (Z.to_nat u). split; [lia|].
  unfold hget in H. destruct (Z.ltb_spec u 0); [lia|auto].
Qed.

Lemma In_opt_list o (w : Z) : In w (opt_list o) <-> o = Some w.
Proof. destruct o; cbn; split; intros H; try tauto; try discriminate; [destruct H as [<-|[]]; auto|inversion H; auto]. Qed.

Lemma down_cancels_spec m h us w :
  In w (down_cancels m h us) <->
  (exists u c, hget m u = Some c /\ c_cw c = Some w /\
               match c_kind c with KLe => In u us | KCl => c_conn c = h end) \/
  (exists id us', In (h, id, (w, us')) (m_pend m)).
Proof.
  unfold down_cancels. rewrite in_app_iff, In_flat_map_from, in_map_iff. split.
  - intros [[n [c [Hn Hi]]]|[[[h' id] [w' us']] [Hw Hi]]].
    + left. exists (Z.of_nat n), c. rewrite Z.add_0_l in Hi. split; [now apply nth_hget|].
      destruct (c_kind c).
      * destruct (memz (Z.of_nat n) us) eqn:E; [|destruct Hi]. apply memz_In in E. apply In_opt_list in Hi. auto.
      * destruct (Z.eqb_spec (c_conn c) h); [|destruct Hi]. apply In_opt_list in Hi. auto.
    + right. cbn in Hw. subst w'. apply In_tconn in Hi. cbn in Hi. destruct Hi as [Hi ->]. eauto.
  - intros [[u [c (Hu & Hc & Hk)]]|[id [us' Hi]]].
    + left. destruct (hget_nth m u c Hu) as [n [-> Hn]]. exists n, c. split; auto. rewrite Z.add_0_l.
      destruct (c_kind c).
      * apply memz_In in Hk. rewrite Hk. now apply In_opt_list.
      * subst h. rewrite Z.eqb_refl. now apply In_opt_list.
    + right. exists (h, id, (w, us')). split; auto. apply In_tconn. auto.
Qed.

Lemma down_results_spec m us w :
  In w (down_results m us) <-> exists u c, hget m u = Some c /\ c_dw c = Some w /\ In u us.
Proof.
  unfold down_results. rewrite In_flat_map_from. split.
  - intros [n [c [Hn Hi]]]. exists (Z.of_nat n), c. rewrite Z.add_0_l in Hi. split; [now apply nth_hget|].
    destruct (memz (Z.of_nat n) us) eqn:E; [|destruct Hi]. apply memz_In in E. apply In_opt_list in Hi. auto.
  - intros [u [c (Hu & Hc & Hk)]]. destruct (hget_nth m u c Hu) as [n [-> Hn]]. exists n, c. split; auto.
    rewrite Z.add_0_l. apply memz_In in Hk. rewrite Hk. now apply In_opt_list.
Qed.

Lemma in_use_le_open m u c : c_live c = true -> le_open_st (c_st c) = true -> in_use m u c = true.
Proof. intros A B. unfold in_use. rewrite A. destruct (c_st c); try discriminate; reflexivity. Qed.

Lemma down_us_spec m h u : Inv m ->
  (In u (down_us m h) <-> exists c, hget m u = Some c /\ c_conn c = h /\ in_use m u c = true).
Proof.
  intros I. unfold down_us. rewrite in_app_iff, !in_map_iff. split.
  - intros [[[[h' k] u'] [Hs Hi]]|[[[h' k] u'] [Hs Hi]]]; cbn in Hs; subst u'; apply In_tconn in Hi; cbn in Hi;
      destruct Hi as [Hi ->].
    + apply (In_tget _ _ _ _ (nd_chs m I)) in Hi. destruct (chs_pt m I _ _ _ Hi) as [c (A & B & C)].
      exists c. repeat split; auto. apply (ch_reg m I u c A). now rewrite B, C.
    + apply (In_tget _ _ _ _ (nd_le m I)) in Hi. destruct (le_pt m I _ _ _ Hi) as [c (A & B & C & D & E & F)].
      exists c. repeat split; auto. now apply in_use_le_open.
  - intros [c (A & B & C)]. left. apply (ch_reg m I u c A) in C. apply tget_In in C.
    exists (c_conn c, c_scid c, u). split; auto. apply In_tconn. auto.
Qed.

(* what abort()/cancellation leaves of a channel of the lost connection *)
Lemma down_chan_facts m h u c : Inv m -> hget m u = Some c -> c_conn c = h ->
  let c' := down_chan h (down_us m h) u c in
  c_kind c' = c_kind c /\ c_conn c' = c_conn c /\ c_scid c' = c_scid c /\ c_live c' = false /\
  c_cw c' = None /\ c_dw c' = None /\ c_drained c' = true /\
  le_open_st (c_st c') = false /\ cl_abortable_st (c_st c') = false.
Proof.
  intros I Hu Hc. pose proof (inv_chan_facts m u c I Hu) as (F1 & F2 & F3 & F4 & F5).
  pose proof (down_us_spec m h u I) as Hus.
  unfold down_chan. rewrite Hc, Z.eqb_refl.
  destruct (memz u (down_us m h)) eqn:Em.
  - (* filed under the handle: aborted *)
    unfold aborted. destruct (c_kind c) eqn:Ek; cbn; rewrite ?Ek; cbn.
    + unfold kind_st in F5. apply negb_true_iff in F5.
      destruct (le_open_st (c_st c)) eqn:Eo; cbn; repeat split; auto.
    + unfold kind_st in F5. apply negb_true_iff in F5.
      assert (Hd : c_drained c = true).
      { destruct (c_drained c) eqn:Ed; auto. destruct (F3 eq_refl) as (K & _). congruence. }
      destruct (cl_abortable_st (c_st c)) eqn:Eo; cbn; repeat split; auto.
  - (* not in use *)
    apply memz_false in Em.
    assert (Hnu : in_use m u c = false).
    { destruct (in_use m u c) eqn:E; auto. exfalso. apply Em. apply Hus. eauto. }
    assert (Hcw : c_kind c = KLe -> c_cw c = None).
    { intros Ek. destruct (c_cw c) as [w|] eqn:Ec; auto. destruct (F1 w eq_refl) as [A B].
      rewrite Ek in B. unfold in_use in Hnu. rewrite A, Ec in Hnu. destruct (c_st c); discriminate. }
    assert (Hdw : c_dw c = None).
    { destruct (c_dw c) as [w|] eqn:Ec; auto. destruct (F2 w eq_refl) as [A B].
      unfold in_use in Hnu. rewrite A in Hnu. destruct (c_kind c), (c_st c); discriminate. }
    assert (Hdr : c_drained c = true).
    { destruct (c_drained c) eqn:Ed; auto. destruct (F3 eq_refl) as (K & A & B).
      unfold in_use in Hnu. rewrite A, B in Hnu. discriminate. }
    assert (Hlo : le_open_st (c_st c) = false).
    { destruct (le_open_st (c_st c)) eqn:E; auto. assert (c_live c = true) by (eapply live_of_open; eauto).
      rewrite (in_use_le_open m u c) in Hnu; auto. }
    assert (Hca : cl_abortable_st (c_st c) = false).
    { destruct (cl_abortable_st (c_st c)) eqn:E; auto. assert (A : c_live c = true) by (eapply live_of_open; eauto).
      unfold in_use in Hnu. rewrite A in Hnu. destruct (c_st c); discriminate. }
    destruct (c_kind c) eqn:Ek; cbn; rewrite ?Ek; repeat split; auto.
Qed.

Lemma down_chan_other m h u c : Inv m -> hget m u = Some c -> c_conn c <> h ->
  down_chan h (down_us m h) u c = c.
Proof.
  intros I Hu Hc. unfold down_chan.
  destruct (Z.eqb_spec (c_conn c) h); [congruence|].
  assert (Em : memz u (down_us m h) = false).
  { apply memz_false. intros Hi. apply (down_us_spec m h u I) in Hi. destruct Hi as [c0 (A & B & _)]. congruence. }
  rewrite Em. destruct (c_kind c); reflexivity.
Qed.

(* waiters of channels of other connections and of other connections' requests are not touched *)
Lemma down_notouch m h w x : Inv m -> wget m w = Some x -> w_conn x <> h ->
  ~ In w (down_cancels m h (down_us m h)) /\ ~ In w (down_results m (down_us m h)).
Proof.
  intros I Hx Hn. split.
  - rewrite down_cancels_spec. intros [[u [c (Hu & Hc & Hk)]]|[id [us' Hi]]].
    + destruct (ch_cw m I u c w Hu Hc) as (_ & _ & [x0 (A & _ & _ & B & _)]).
      rewrite Hx in A. inversion A; subst x0.
      assert (c_conn c = h); [|congruence].
      destruct (c_kind c); auto. apply (down_us_spec m h u I) in Hk. destruct Hk as [c0 (A0 & B0 & _)]. congruence.
    + apply (In_tget _ _ _ _ (nd_pend m I)) in Hi. destruct (pend_ok m I _ _ _ _ Hi) as [[x0 (A & _ & _ & B & _)] _].
      congruence.
  - rewrite down_results_spec. intros [u [c (Hu & Hc & Hk)]].
    destruct (ch_dw m I u c w Hu Hc) as (_ & _ & [x0 (A & _ & _ & B & _)]).
    rewrite Hx in A. inversion A; subst x0.
    apply (down_us_spec m h u I) in Hk. destruct Hk as [c0 (A0 & B0 & _)]. congruence.
Qed.

Lemma inv_down m h : Inv m -> Inv (do_down m h).
Proof.
  intros I.
  set (chg := fun u => match hget m u with
                       | Some c => if Z.eqb (c_conn c) h then Some (down_chan h (down_us m h) u c) else None
                       | None => None end).
  assert (Hchg_some : forall u c', chg u = Some c' ->
            exists c, hget m u = Some c /\ c_conn c = h /\ c' = down_chan h (down_us m h) u c).
  { intros u c'. unfold chg. destruct (hget m u) as [c|]; [|discriminate].
    destruct (Z.eqb_spec (c_conn c) h); [|discriminate]. intros [= <-]. eauto. }
  assert (Hchg_none : forall u c, chg u = None -> hget m u = Some c -> c_conn c <> h).
  { intros u c. unfold chg. intros H Hu. rewrite Hu in H. destruct (Z.eqb_spec (c_conn c) h); [discriminate|auto]. }
  assert (Hmw : forall w x, wget m w = Some x ->
            wget (do_down m h) w = Some x \/
            (w_out x = O_PENDING /\ exists o, o <> O_PENDING /\ wget (do_down m h) w = Some (wres1 o x) /\
              (In w (down_cancels m h (down_us m h)) \/ In w (down_results m (down_us m h))))).
  { intros w x Hx. rewrite wget_down, Hx. cbn. 
    destruct (Z.eq_dec (w_out x) O_PENDING) as [Hp|Hp].
    - destruct (memz w (down_cancels m h (down_us m h))) eqn:E1.
      + right. split; auto. exists O_CANCELLED. repeat split; try discriminate; auto. left. now apply memz_In.
      + destruct (memz w (down_results m (down_us m h))) eqn:E2; [|auto].
        right. split; auto. exists O_RESULT. repeat split; try discriminate; auto. right. now apply memz_In.
    - left. rewrite !wres1_notpending by auto. repeat destruct (memz _ _); auto. }
  assert (Hkeepw : forall w x, wget m w = Some x ->
            ~ In w (down_cancels m h (down_us m h)) -> ~ In w (down_results m (down_us m h)) -> wget (do_down m h) w = Some x).
  { intros w x Hx N1 N2. rewrite wget_down, Hx. cbn. 
    apply memz_false in N1, N2. now rewrite N1, N2. }
  apply (inv_frame m (do_down m h) chg I).
  - (* heap *) intros u. rewrite hget_down.  unfold chg. destruct (hget m u) as [c|] eqn:Hu; cbn; auto.
    destruct (Z.eqb_spec (c_conn c) h); auto. f_equal. now apply down_chan_other.
  - (* facts *) intros u c' E. destruct (Hchg_some u c' E) as [c (Hu & Hc & ->)].
    destruct (down_chan_facts m h u c I Hu Hc) as (A1 & A2 & A3 & A4 & A5 & A6 & A7 & A8 & A9). 
    unfold chan_facts. rewrite A5, A6, A7, A8, A9.
    split; [discriminate|split; [discriminate|split; [discriminate|split; [auto|]]]].
    unfold kind_st. rewrite A8, A9. now destruct (c_kind _).
  - (* CH1 *) apply NoDup_tdrop, (nd_chs m I).
  - (* CH2 *) intros h' k u E. cbn [do_down m_chs]. rewrite tget_tdrop. destruct (Z.eqb_spec h' h); [|tauto].
    subst. split; [discriminate|]. intros H. exfalso. destruct (chs_pt m I _ _ _ H) as [c (A & B & _)].
    now apply (Hchg_none u c E A).
  - (* CH3 *) intros h' k u c' E. cbn [do_down m_chs]. rewrite tget_tdrop. destruct (Z.eqb_spec h' h); [discriminate|].
    intros H. exfalso. destruct (Hchg_some u c' E) as [c (Hu & Hc & _)].
    destruct (chs_self m u c h' k I Hu H). congruence.
  - (* CH4 *) intros u c' E. destruct (Hchg_some u c' E) as [c (Hu & Hc & ->)].
    destruct (down_chan_facts m h u c I Hu Hc) as (A1 & A2 & A3 & A4 & _). 
    cbn [do_down m_chs]. rewrite tget_tdrop, A2, Hc, Z.eqb_refl. unfold in_use. rewrite A4. cbn. split; discriminate.
  - (* LE1 *) apply NoDup_tdrop, (nd_le m I).
  - (* LE2 *) intros h' k u E. cbn [do_down m_le]. rewrite tget_tdrop. destruct (Z.eqb_spec h' h); [|tauto].
    subst. split; [discriminate|]. intros H. exfalso. destruct (le_pt m I _ _ _ H) as [c (A & B & _)].
    now apply (Hchg_none u c E A).
  - (* LE3 *) intros h' k u c' E. cbn [do_down m_le]. rewrite tget_tdrop. destruct (Z.eqb_spec h' h); [discriminate|].
    intros H. exfalso. destruct (Hchg_some u c' E) as [c (Hu & Hc & _)].
    destruct (le_self m u c h' k I Hu H) as (A & _). congruence.
  - (* LE4 *) intros u c' E _ Hl. destruct (Hchg_some u c' E) as [c (Hu & Hc & ->)].
    destruct (down_chan_facts m h u c I Hu Hc) as (A1 & A2 & A3 & A4 & _).  congruence.
  - (* PE1 *) apply NoDup_tdrop, (nd_pend m I).
  - (* PE2 *) intros h' id w us' H. cbn [do_down m_pend] in H. rewrite tget_tdrop in H.
    destruct (Z.eqb_spec h' h); [discriminate|]. left. split; auto.
    destruct (pend_ok m I _ _ _ _ H) as [[x (A & _ & _ & B & _)] _].
    rewrite A. destruct (down_notouch m h w x I A) as [N1 N2]; [congruence|]. now apply Hkeepw.
  - (* PE3 *) intros h' id w us' u c' H Hin E. cbn [do_down m_pend] in H. rewrite tget_tdrop in H.
    destruct (Z.eqb_spec h' h); [discriminate|]. exfalso.
    destruct (Hchg_some u c' E) as [c (Hu & Hc & _)].
    destruct (pend_ok m I _ _ _ _ H) as (_ & _ & B). destruct (B u Hin) as [c0 (A0 & _ & B0 & _)]. congruence.
  - (* PE4 *) intros u c E Hu. pose proof (Hchg_none u c E Hu) as Hn.
    unfold in_use. cbn [do_down m_pend]. rewrite tget_tdrop. destruct (Z.eqb_spec (c_conn c) h); [congruence|reflexivity].
  - (* RQ1 *) apply NoDup_tdrop, (nd_reqs m I).
  - (* RQ2 *) intros h' id k H. cbn [do_down m_reqs] in H. rewrite tget_tdrop in H.
    destruct (Z.eqb_spec h' h); [discriminate|].
    destruct (reqs_ok m I _ _ _ H) as [u0 [c0 (R1 & R2 & R3 & R4 & R5)]]. exists u0, c0.
    destruct (chs_self m u0 c0 h' k I R2 R1) as [Hc0 _].
    cbn [do_down m_chs]. rewrite tget_tdrop. destruct (Z.eqb_spec h' h); [congruence|].
    rewrite hget_down, R2. cbn.  rewrite (down_chan_other m h u0 c0 I R2) by congruence. auto.
  - (* W1 *) intros w x Hx. destruct (Hmw w x Hx) as [H|(Hp & o & Ho & H & _)]; auto.
    right. exists (wres1 o x). split; auto. rewrite wres1_out; auto.
  - (* W2 *) intros u c w E Hu Hw. pose proof (Hchg_none u c E Hu) as Hn.
    assert (Hx : exists x, wget m w = Some x /\ w_conn x = c_conn c).
    { destruct Hw as [Hw|Hw].
      - destruct (ch_cw m I u c w Hu Hw) as (_ & _ & [x (A & _ & _ & B & _)]). eauto.
      - destruct (ch_dw m I u c w Hu Hw) as (_ & _ & [x (A & _ & _ & B & _)]). eauto. }
    destruct Hx as [x [Hx Hcx]]. rewrite Hx. destruct (down_notouch m h w x I Hx) as [N1 N2]; [congruence|]. now apply Hkeepw.
  - (* W4 *) intros w x' Hn Hx. rewrite wget_down, Hn in Hx. discriminate.
  - (* W5c *) intros u c c' w x' E Hu Hc Hx Hp. exfalso.
    destruct (Hchg_some u c' E) as [c0 (Hu0 & Hconn & _)]. rewrite Hu in Hu0. inversion Hu0; subst c0.
    destruct (ch_cw m I u c w Hu Hc) as (Al & Ast & [x (A & B & _)]).
    assert (Hin : In w (down_cancels m h (down_us m h))).
    { apply down_cancels_spec. left. exists u, c. repeat split; auto.
      destruct (c_kind c) eqn:Ek; auto. apply (down_us_spec m h u I). exists c. repeat split; auto.
      unfold in_use. rewrite Al, Hc. destruct (c_st c); try discriminate; auto. }
    rewrite wget_down, A in Hx. cbn in Hx.  apply memz_In in Hin. rewrite Hin in Hx.
    inversion Hx; subst x'. rewrite wres1_out in Hp by auto. discriminate.
  - (* W5d *) intros u c c' w x' E Hu Hc Hx Hp. exfalso.
    destruct (Hchg_some u c' E) as [c0 (Hu0 & Hconn & _)]. rewrite Hu in Hu0. inversion Hu0; subst c0.
    destruct (ch_dw m I u c w Hu Hc) as (Al & Ast & [x (A & B & _)]).
    assert (Hin : In w (down_results m (down_us m h))).
    { apply down_results_spec. exists u, c. repeat split; auto.
      apply (down_us_spec m h u I). exists c. repeat split; auto.
      unfold in_use. rewrite Al. destruct (c_kind c), (c_st c); try discriminate; auto. }
    rewrite wget_down, A in Hx. cbn in Hx.  apply memz_In in Hin. rewrite Hin in Hx.
    destruct (memz w (down_cancels m h (down_us m h))); inversion Hx; subst x'; rewrite wres1_out in Hp by auto; discriminate.
  - (* W5p *) intros h' id w us' x' H Hx Hp. cbn [do_down m_pend]. rewrite tget_tdrop.
    destruct (Z.eqb_spec h' h); [|eauto]. exfalso. subst h'.
    destruct (pend_ok m I _ _ _ _ H) as [[x (A & B & _)] _].
    assert (Hin : In w (down_cancels m h (down_us m h))).
    { apply down_cancels_spec. right. exists id, us'. now apply tget_In. }
    rewrite wget_down, A in Hx. cbn in Hx.  apply memz_In in Hin. rewrite Hin in Hx.
    inversion Hx; subst x'. rewrite wres1_out in Hp by auto. discriminate.
  - (* W6c *) intros u c' w E Hc. destruct (Hchg_some u c' E) as [c (Hu & Hconn & ->)].
    destruct (down_chan_facts m h u c I Hu Hconn) as (_ & _ & _ & _ & A5 & _).  congruence.
  - (* W6d *) intros u c' w E Hc. destruct (Hchg_some u c' E) as [c (Hu & Hconn & ->)].
    destruct (down_chan_facts m h u c I Hu Hconn) as (_ & _ & _ & _ & _ & A6 & _).  congruence.
Qed.

Definition chg0 : Z -> option chan := fun _ => None.

(* the future of a new enhanced request, with no channel yet *)
Lemma inv_pend_new m h i :
  Inv m -> tget h i (m_pend m) = None ->
  let m1 := wnew (next_id m h) O_PENDING WOpenEnh h i in
  Inv (with_pend m1 (tset h i (wuid m, []) (m_pend m1))).
Proof.
  intros I Hn m1. subst m1.
  apply (inv_frame m _ chg0 I);
    try (unfold chg0; intros; match goal with H : None = Some _ |- _ => discriminate H end).
  - (* heap *) intros u. reflexivity.
  - (* CH1 *) apply (nd_chs m I).
  - (* CH2 *) intros; tauto.
  - (* LE1 *) apply (nd_le m I).
  - (* LE2 *) intros; tauto.
  - apply NoDup_tset, (nd_pend m I).
  - intros h' id w us H. cbn [m_pend with_pend] in H. apply tget_tset_inv in H.
    destruct H as [(-> & -> & [= -> ->])|[_ H]].
    + right. split; [|split; [constructor|intros u []]].
      exists (mkW O_PENDING WOpenEnh h i). acc. rewrite Z.eqb_refl. repeat split; auto.
    + left. split; auto. destruct (pend_ok m I _ _ _ _ H) as [[x (A & _)] _]. acc.
      now rewrite (wget_old m w x A).
  - intros u c _ Hu. unfold in_use. acc.
    destruct (Z.eqb_spec (c_conn c) h), (Z.eqb_spec (c_ref c) i); cbn; auto.
    rewrite e, e0, Hn. destruct (c_st c); reflexivity.
  - apply (nd_reqs m I).
  - intros h' id k H. destruct (reqs_ok m I _ _ _ H) as [u0 [c0 R]]. exists u0, c0. now acc.
  - intros w x Hx. left. acc. now rewrite (wget_old m w x Hx).
  - intros u c w _ Hu Hw. acc.
    assert (exists x, wget m w = Some x) as [x Hx].
    { destruct Hw as [Hw|Hw]; [destruct (ch_cw m I u c w Hu Hw) as (_ & _ & [x (A & _)])
                              |destruct (ch_dw m I u c w Hu Hw) as (_ & _ & [x (A & _)])]; eauto. }
    now rewrite (wget_old m w x Hx).
  - intros w x' Hnone Hx Hp. acc in Hx.
    destruct (Z.eqb_spec w (wuid m)); [|congruence]. inversion Hx; subst. unfold owner_ok. cbn.
    exists []. acc. now rewrite !Z.eqb_refl.
  - intros h' id w us x' H _ _. acc.
    destruct (Z.eqb_spec h' h), (Z.eqb_spec id i); subst; cbn; eauto. congruence.
Qed.

Lemma NoDup_snoc {A} (l : list A) x : NoDup l -> ~ In x l -> NoDup (l ++ [x]).
Proof.
  induction l as [|y l IH]; cbn; intros N Hn; [constructor; [intros []|constructor]|].
  inversion N; subst. constructor.
  - rewrite in_app_iff. cbn. intuition.
  - apply IH; auto.
Qed.

Ltac chg1_tac :=
  repeat match goal with
         | H : chg1 _ _ ?u0 = Some ?c0 |- _ =>
             apply chg1_some in H; let A := fresh in let B := fresh in destruct H as [A B]; subst u0; subst c0
         | H : chg1 _ _ _ = None |- _ => apply chg1_none in H
         end.

(* one more channel of the pending request *)
Lemma inv_add_init m h i scid w us :
  Inv m -> tget h i (m_pend m) = Some (w, us) -> tget h scid (m_chs m) = None ->
  let c0 := mkChan KLe h scid 0 SInit 0 0 0 true None None i true in
  let m1 := hnew m c0 in
  let m2 := with_chs m1 (tset h scid (huid m) (m_chs m1)) in
  Inv (pend_add m2 h i (huid m)).
Proof.
  intros I Hp Hfresh c0 m1 m2. set (u := huid m).
  assert (Hnone : hget m u = None) by apply hget_huid.
  assert (Hnochs : forall h1 k1, tget h1 k1 (m_chs m) = Some u -> False).
  { intros h1 k1 H. destruct (chs_pt m I _ _ _ H) as [c1 (A & _)]. congruence. }
  assert (Hnole : forall h1 k1, tget h1 k1 (m_le m) = Some u -> False).
  { intros h1 k1 H. destruct (le_pt m I _ _ _ H) as [c1 (A & _)]. congruence. }
  destruct (pend_ok m I _ _ _ _ Hp) as (Wi & Nd & Mem).
  assert (Hnotin : ~ In u us).
  { intros Hi. destruct (Mem u Hi) as [c1 (A & _)]. congruence. }
  unfold pend_add. subst m2 m1. cbn [m_pend with_chs hnew with_heap]. rewrite Hp.
  apply (inv_frame m _ (chg1 u c0) I).
  - (* heap *) intros u'. unfold chg1. acc. fold u. destruct (Z.eqb u' u); reflexivity.
  - (* facts *) intros u0 c' E. chg1_tac. unfold chan_facts; cbn.
    split; [discriminate|split; [discriminate|split; [discriminate|split; [discriminate|reflexivity]]]].
  - (* CH1 *) acc. apply NoDup_tset, (nd_chs m I).
  - (* CH2 *) intros h' k u0 E. chg1_tac. cbn [m_chs with_pend with_chs hnew with_heap]. apply (rel_tset _ _ _ u); auto.
  - (* CH3 *) intros h' k u0 c' E H. chg1_tac. cbn [m_chs with_pend with_chs hnew with_heap] in H.
    apply tget_tset_inv in H. destruct H as [(-> & -> & _)|[_ H]]; [auto|exfalso; eauto].
  - (* CH4 *) intros u0 c' E. chg1_tac. cbn [c_conn c_scid c0]. acc. rewrite !Z.eqb_refl. cbn.
    unfold in_use. cbn [c_live c_st c_conn c_ref c0]. acc. rewrite !Z.eqb_refl. cbn.
    assert (memz u (us ++ [u]) = true) by (apply memz_In, in_or_app; right; now left). rewrite H. tauto.
  - (* LE1 *) acc. apply (nd_le m I).
  - (* LE2 *) intros h' k u0 E. acc. tauto.
  - (* LE3 *) intros h' k u0 c' E H. chg1_tac. acc in H. exfalso; eauto.
  - (* LE4 *) intros u0 c' E _ _ H. chg1_tac. discriminate.
  - (* PE1 *) acc. apply NoDup_tset, (nd_pend m I).
  - (* PE2 *) intros h' id w' us' H. cbn [m_pend with_pend] in H. apply tget_tset_inv in H.
    destruct H as [(-> & -> & [= -> ->])|[_ H]]; [right|left; split; auto]. split; [|split].
    + destruct Wi as [x Hx]. exists x. now acc.
    + apply NoDup_snoc; auto.
    + intros u0 Hin E. chg1_tac. apply in_app_or in Hin. destruct Hin as [Hin|[<-|[]]]; [|congruence].
      destruct (Mem u0 Hin) as [c1 Hc1]. exists c1. unfold member_ok. tauto.
  - (* PE3 *) intros h' id w' us' u0 c' H Hin E. chg1_tac. cbn [m_pend with_pend] in H. apply tget_tset_inv in H.
    destruct H as [(-> & -> & _)|[_ H]]; [unfold member_ok; cbn; tauto|].
    exfalso. destruct (pend_ok m I _ _ _ _ H) as (_ & _ & B). destruct (B u Hin) as [c1 (A & _)]. congruence.
  - (* PE4 *) intros u0 c E Hu. chg1_tac. unfold in_use. acc.
    destruct (Z.eqb_spec (c_conn c) h), (Z.eqb_spec (c_ref c) i); cbn; auto.
    rewrite e, e0, Hp. destruct (c_st c); auto. f_equal.
    assert (memz u0 (us ++ [u]) = memz u0 us); [|auto].
    apply bool_iff. rewrite !memz_In, in_app_iff. cbn. intuition congruence.
  - (* RQ1 *) acc. apply (nd_reqs m I).
  - (* RQ2 *) intros h' id k H. acc in H.
    destruct (reqs_ok m I _ _ _ H) as [u1 [c1 (R1 & R2 & R3)]]. exists u1, c1.
    assert (u1 <> u) by (intros ->; congruence).
    rewrite hget_with_pend, hget_with_chs, hget_hnew. fold u.
    destruct (Z.eqb_spec u1 u); [congruence|]. repeat split; try tauto.
    cbn [m_chs with_pend with_chs hnew with_heap]. apply (rel_tset _ _ _ u); auto.
  - (* W1 *) intros w0 x Hx. left. now acc.
  - (* W2 *) intros u0 c w0 _ _ _. now acc.
  - (* W4 *) intros w0 x' Hn Hx. acc in Hx. congruence.
  - (* W5c *) intros u0 c c' w0 x' E Hu. chg1_tac. congruence.
  - (* W5d *) intros u0 c c' w0 x' E Hu. chg1_tac. congruence.
  - (* W5p *) intros h' id w0 us0 x' H _ _. acc.
    destruct (Z.eqb_spec h' h), (Z.eqb_spec id i); subst; cbn; eauto.
    rewrite Hp in H. inversion H; subst. eauto.
  - (* W6c *) intros u0 c' w0 E. chg1_tac. discriminate.
  - (* W6d *) intros u0 c' w0 E. chg1_tac. discriminate.
Qed.

Lemma inv_new_enh_chans h i scids : forall m w us,
  Inv m -> tget h i (m_pend m) = Some (w, us) -> NoDup scids ->
  (forall s, In s scids -> tget h s (m_chs m) = None) ->
  Inv (new_enh_chans m h i scids).
Proof.
  induction scids as [|s rest IH]; intros m w us I Hp Nd Hf; cbn [new_enh_chans]; auto.
  inversion Nd as [|? ? Hn Nd']; subst.
  pose proof (inv_add_init m h i s w us I Hp (Hf s (or_introl eq_refl))) as I2. cbn zeta in I2.
  eapply IH; eauto.
  - unfold pend_add. cbn [m_pend with_chs hnew with_heap]. rewrite Hp. cbn [m_pend with_pend].
    rewrite tget_tset, !Z.eqb_refl. reflexivity.
  - intros s' Hs'. unfold pend_add. cbn [m_pend with_chs hnew with_heap]. rewrite Hp. cbn [m_chs with_pend with_chs].
    rewrite tget_tset, tget_tdel. assert (s' <> s) by (intros ->; auto).
    destruct (Z.eqb_spec s' s); [congruence|]. rewrite andb_false_r. apply Hf. now right.
Qed.

Lemma inv_open_enh m h psm n credits :
  Inv m -> ev_ok m (EOpen h K_ENH psm n 0 credits) = true -> Inv (fst (open_enh m h psm n credits)).
Proof.
  intros I Hok. cbn in Hok. unfold open_enh.
  destruct (find_free_le_n (tkeys h (m_chs m)) (Z.to_nat n)) as [|s0 rest] eqn:Ef; cbn [fst].
  { apply inv_wnew_done; auto. discriminate. }
  destruct (tget h (nid m h) (m_pend m)) eqn:Ep; [discriminate|].
  pose proof (inv_pend_new m h (nid m h) I Ep) as I1. cbn zeta in I1.
  eapply inv_new_enh_chans; eauto.
  - cbn [m_pend with_pend]. rewrite tget_tset, !Z.eqb_refl. reflexivity.
  - rewrite <- Ef. unfold find_free_le_n. destruct (Z.to_nat n); [constructor|apply find_free_n_NoDup].
  - intros s Hs. cbn [m_chs with_pend wnew with_w next_id with_ids]. rewrite <- Ef in Hs. unfold find_free_le_n in Hs.
    destruct (Z.to_nat n); [destruct Hs|]. eapply free_fresh; eauto.
Qed.

(* the response reaches one channel of the request *)
Lemma member_facts m h i w us u : Inv m -> tget h i (m_pend m) = Some (w, us) -> In u us ->
  exists c, hget m u = Some c /\ member_ok c h i /\ in_use m u c = true /\
            tget h (c_scid c) (m_chs m) = Some u.
Proof.
  intros I Hp Hin. destruct (pend_ok m I _ _ _ _ Hp) as (_ & _ & B). destruct (B u Hin) as [c (A & M)].
  assert (Hiu : in_use m u c = true).
  { destruct M as (_ & M2 & M3 & M4 & M5 & _). unfold in_use. rewrite M5, M3, M2, M4, Hp. cbn. now apply memz_In. }
  exists c. repeat split; try tauto. destruct M as (_ & <- & _). now apply (ch_reg m I u c A).
Qed.

Lemma inv_enh_step m h i w u us' (ok : bool) d credits (hasd : bool) :
  Inv m -> tget h i (m_pend m) = Some (w, u :: us') ->
  (ok = true -> hasd = true /\ tget h d (m_le m) = None) ->
  let m1 := pend_set m h i us' in
  let f := fun c => if ok then set_st (set_out (set_dcid c d) credits (c_pending c) (c_drained c)) SConnected
                    else set_st c SConnError in
  let m2 := if hasd then hupd m1 u f else m1 in
  let m3 := if ok then le_register m2 [u] else chs_unregister m2 [u] in
  Inv m3 /\ m_pend m3 = tset h i (w, us') (m_pend m) /\
  m_le m3 = (if ok then tset h d u (m_le m) else m_le m).
Proof.
  intros I Hp Hok m1 f m2 m3.
  destruct (member_facts m h i w (u :: us') u I Hp (or_introl eq_refl)) as [c (Hu & M & Hin & Hreg)].
  destruct M as (Mk & Mc & Ms & Mr & Ml & Mcw & Mdw).
  destruct (pend_ok m I _ _ _ _ Hp) as (Wi & Nd & Mem). apply NoDup_cons_iff in Nd. destruct Nd as [Hnotin Nd'].
  pose proof (inv_chan_facts m u c I Hu) as (F1 & F2 & F3 & F4 & F5).
  set (c' := if hasd then f c else c).
  assert (Ec' : c_kind c' = KLe /\ c_conn c' = c_conn c /\ c_scid c' = c_scid c /\ c_live c' = true /\
                c_cw c' = None /\ c_dw c' = None /\ c_ref c' = c_ref c).
  { subst c' f. destruct hasd, ok; cbn; repeat split; auto. }
  destruct Ec' as (E1 & E2 & E3 & E4 & E5 & E6 & E7).
  assert (Hm2 : forall u', hget m2 u' = if Z.eqb u' u then Some c' else hget m u').
  { intros u'. subst m2 m1 c'. unfold pend_set. rewrite Hp. destruct hasd; acc;
      destruct (Z.eqb_spec u' u); subst; rewrite ?Hu; reflexivity. }
  assert (Em2 : m2 = let mp := with_pend m (tset h i (w, us') (m_pend m)) in if hasd then hupd mp u f else mp)
    by (subst m2 m1; unfold pend_set; now rewrite Hp).
  assert (Em3 : m3 = if ok then with_le m2 (tset (c_conn c') (c_dcid c') u (m_le m2))
                     else with_chs m2 (tdel (c_conn c') (c_scid c') (m_chs m2)))
    by (subst m3; destruct ok; cbn [le_register chs_unregister]; now rewrite (Hm2 u), Z.eqb_refl).
  assert (V : (forall u', hget m3 u' = if Z.eqb u' u then Some c' else hget m u') /\
              m_pend m3 = tset h i (w, us') (m_pend m) /\
              m_chs m3 = (if ok then m_chs m else tdel (c_conn c) (c_scid c) (m_chs m)) /\
              m_le m3 = (if ok then tset (c_conn c) (c_dcid c') u (m_le m) else m_le m) /\
              m_reqs m3 = m_reqs m /\ forall w0, wget m3 w0 = wget m w0).
  { rewrite Em3. destruct ok;
      (repeat split; [intros u'; acc; apply Hm2|intros; acc; rewrite ?E2, ?E3, Em2; cbv zeta; destruct hasd; acc; reflexivity..]). }
  destruct V as (Hm3heap & Hpend3 & Hchs3 & Hle3 & Hreqs3 & Hw3).
  clearbody m3. clear Em3 Em2 m2 m1 Hm2.
  assert (Hst' : if ok then c_st c' = SConnected /\ c_dcid c' = d /\ c_drained c' = c_drained c
                 else (c_st c' = SConnError \/ c_st c' = SInit) /\ c_drained c' = c_drained c).
  { subst c' f. destruct ok.
    - destruct (Hok eq_refl) as [-> _]. cbn. auto.
    - destruct hasd; cbn; auto. }
  clearbody c'.
  assert (Hdr : c_drained c = true).
  { destruct (c_drained c) eqn:Ed; auto. destruct (F3 eq_refl) as (_ & _ & B). congruence. }
  assert (Hnole : forall h1 k1, tget h1 k1 (m_le m) = Some u -> False).
  { intros h1 k1 H. destruct (le_self m u c h1 k1 I Hu H) as (_ & _ & R). unfold le_reg in R.
    rewrite Mk, Ms in R. cbn in R. rewrite andb_false_r in R. discriminate. }
  split; [|split; [exact Hpend3|]].
  2:{ rewrite Hle3. destruct ok; auto. destruct Hst' as (_ & -> & _). now rewrite Mc. }
  apply (inv_frame m m3 (chg1 u c') I).
  - (* heap *) intros u'. rewrite Hm3heap. unfold chg1. destruct (Z.eqb u' u); reflexivity.
  - (* facts *) intros u0 c0 E. chg1_tac. unfold chan_facts. rewrite E5, E6, E4, E1.
    split; [discriminate|split; [discriminate|split; [|split; [discriminate|]]]].
    + destruct ok; [destruct Hst' as (A & _ & B)|destruct Hst' as (_ & B)]; rewrite B, Hdr; discriminate.
    + destruct ok; [destruct Hst' as (A & _)|destruct Hst' as ([A|A] & _)]; rewrite A; reflexivity.
  - (* CH1 *) rewrite Hchs3. destruct ok; [|apply NoDup_tdel]; apply (nd_chs m I).
  - (* CH2 *) intros h' k u0 E. chg1_tac. rewrite Hchs3. destruct ok; [tauto|].
    apply (rel_tdel _ _ _ u); auto. now rewrite Mc.
  - (* CH3 *) intros h' k u0 c0 E H. chg1_tac. rewrite Hchs3 in H. rewrite E2, E3. destruct ok.
    + eapply chs_self; eauto.
    + apply tget_tdel_inv in H. eapply chs_self; [eauto..|apply H].
  - (* CH4 *) intros u0 c0 E. chg1_tac. rewrite Hchs3, E2, E3. unfold in_use. rewrite E4. destruct ok.
    + destruct Hst' as (A & _). rewrite A, Mc. cbn. tauto.
    + rewrite tget_tdel, !Z.eqb_refl. cbn. destruct Hst' as ([A|A] & _); rewrite A; cbn; [split; discriminate|].
      rewrite Hpend3, E2, E7, Mc, Mr, tget_tset, !Z.eqb_refl. cbn.
      apply memz_false in Hnotin. rewrite Hnotin. split; discriminate.
  - (* LE1 *) rewrite Hle3. destruct ok; [apply NoDup_tset|]; apply (nd_le m I).
  - (* LE2 *) intros h' k u0 E. chg1_tac. rewrite Hle3. destruct ok; [|tauto].
    apply (rel_tset _ _ _ u); auto. destruct Hst' as (_ & -> & _). destruct (Hok eq_refl) as [_ B]. rewrite Mc. auto.
  - (* LE3 *) intros h' k u0 c0 E H. chg1_tac. rewrite Hle3 in H. destruct ok; [|exfalso; eauto].
    destruct Hst' as (A & B & _). apply tget_tset_inv in H. destruct H as [(-> & -> & _)|[_ H]]; [|exfalso; eauto].
    rewrite A. repeat split; auto.
  - (* LE4 *) intros u0 c0 E _ _ Ho. chg1_tac. rewrite Hle3. destruct ok.
    + rewrite E2, tget_tset, !Z.eqb_refl. reflexivity.
    + destruct Hst' as ([A|A] & _); rewrite A in Ho; discriminate.
  - (* PE1 *) rewrite Hpend3. apply NoDup_tset, (nd_pend m I).
  - (* PE2 *) intros h' id w' us0 H. rewrite Hpend3 in H. apply tget_tset_inv in H. rewrite Hw3.
    destruct H as [(-> & -> & [= -> ->])|[_ H]]; [|left; split; auto].
    right. split; [|split; [exact Nd'|]].
    + destruct Wi as [x Hx]. exists x. now rewrite Hw3.
    + intros u0 Hi _. destruct (Mem u0 (or_intror Hi)) as [c1 Hc1]. exists c1. unfold member_ok. tauto.
  - (* PE3 *) intros h' id w' us0 u0 c0 H Hi E. chg1_tac. exfalso. rewrite Hpend3 in H. apply tget_tset_inv in H.
    destruct H as [(-> & -> & [= -> ->])|[Hne H]]; [auto|].
    destruct (pend_ok m I _ _ _ _ H) as (_ & _ & B). destruct (B u Hi) as [c1 (A & _ & C & _ & R & _)].
    rewrite Hu in A. injection A as <-. destruct Hne; congruence.
  - (* PE4 *) intros u0 c0 E Hu0. chg1_tac. unfold in_use. rewrite Hpend3, tget_tset, tget_tdel.
    destruct (Z.eqb_spec (c_conn c0) h), (Z.eqb_spec (c_ref c0) i); cbn; auto.
    rewrite e, e0, Hp. destruct (c_st c0); auto. cbn. destruct (Z.eqb_spec u0 u); [congruence|reflexivity].
  - (* RQ1 *) rewrite Hreqs3. apply (nd_reqs m I).
  - (* RQ2 *) intros h' id k H. rewrite Hreqs3 in H. destruct (reqs_ok m I _ _ _ H) as [u1 [c1 (R1 & R2 & R3 & R4 & R5)]].
    assert (u1 <> u) by (intros ->; congruence). exists u1, c1. rewrite Hm3heap.
    destruct (Z.eqb_spec u1 u); [congruence|]. repeat split; auto.
    rewrite Hchs3. destruct ok; auto. apply (rel_tdel _ _ _ u); auto. now rewrite Mc.
  - (* W1 *) intros w0 x Hx. left. now rewrite Hw3.
  - (* W2 *) intros. apply Hw3.
  - (* W4 *) intros w0 x' Hn Hx. rewrite Hw3 in Hx. congruence.
  - (* W5c *) intros u0 c0 c1 w0 x' E Hu0 Hc. chg1_tac. congruence.
  - (* W5d *) intros u0 c0 c1 w0 x' E Hu0 Hc. chg1_tac. congruence.
  - (* W5p *) intros h' id w0 us0 x' H _ _. rewrite Hpend3, tget_tset, tget_tdel.
    destruct (Z.eqb_spec h' h), (Z.eqb_spec id i); subst; cbn; eauto.
    rewrite Hp in H. inversion H; subst. eauto.
  - (* W6c *) intros u0 c0 w0 E Hc. chg1_tac. congruence.
  - (* W6d *) intros u0 c0 w0 E Hc. chg1_tac. congruence.
Qed.

(* the request is answered: its entry is dropped and its future completed *)
Lemma inv_pend_done m h i w o :
  Inv m -> tget h i (m_pend m) = Some (w, []) -> o <> O_PENDING ->
  Inv (wres (with_pend m (tdel h i (m_pend m))) w o).
Proof.
  intros I Hp Ho.
  destruct (pend_ok m I _ _ _ _ Hp) as ([x (Hx & Hxp & Hxk & Hxc & Hxr)] & _ & _).
  assert (Hother : forall w0 x0, wget m w0 = Some x0 -> w_kind x0 <> WOpenEnh \/ w_conn x0 <> h \/ w_ref x0 <> i ->
                     wget (wres (with_pend m (tdel h i (m_pend m))) w o) w0 = Some x0).
  { intros w0 x0 H0 Hd. acc. destruct (Z.eqb_spec w0 w); auto. subst.
    rewrite Hx in H0. inversion H0; subst. intuition congruence. }
  apply (inv_frame m _ chg0 I);
    try (unfold chg0; intros; match goal with H : None = Some _ |- _ => discriminate H end).
  - intros u. now acc.
  - acc. apply (nd_chs m I).
  - intros; acc; tauto.
  - acc. apply (nd_le m I).
  - intros; acc; tauto.
  - acc. apply NoDup_tdel, (nd_pend m I).
  - intros h' id w' us H. acc in H.
    destruct (Z.eqb h' h && Z.eqb id i) eqn:E; [discriminate|]. left. split; auto.
    destruct (pend_ok m I _ _ _ _ H) as ([x0 (A & _ & _ & B & C)] & _). rewrite A. apply Hother; auto.
    apply andb_false_iff in E. rewrite !Z.eqb_neq in E. subst. intuition.
  - intros u c _ Hu. unfold in_use. acc.
    destruct (Z.eqb_spec (c_conn c) h), (Z.eqb_spec (c_ref c) i); cbn; auto.
    rewrite e, e0, Hp. destruct (c_st c); reflexivity.
  - acc. apply (nd_reqs m I).
  - intros h' id k H. acc in H. destruct (reqs_ok m I _ _ _ H) as [u0 [c0 R]]. exists u0, c0.
    now acc.
  - intros w0 x0 H0. acc. destruct (Z.eqb_spec w0 w); auto. subst. rewrite H0. cbn.
    right. eexists; split; eauto. rewrite Hx in H0. inversion H0; subst. rewrite wres1_out; auto.
  - intros u c w0 _ Hu Hw.
    assert (exists x0, wget m w0 = Some x0 /\ w_kind x0 <> WOpenEnh) as [x0 [H0 Hk]].
    { destruct Hw as [Hw|Hw]; [destruct (ch_cw m I u c w0 Hu Hw) as (_ & _ & [x0 (A & _ & B & _)])
                              |destruct (ch_dw m I u c w0 Hu Hw) as (_ & _ & [x0 (A & _ & B & _)])];
        exists x0; split; auto; congruence. }
    rewrite H0. apply Hother; auto.
  - intros w0 x' Hn H0. acc in H0. destruct (Z.eqb w0 w); rewrite Hn in H0; discriminate.
  - intros h' id w0 us x' H H0 Hp0. acc.
    destruct (Z.eqb_spec h' h), (Z.eqb_spec id i); subst; cbn; eauto.
    exfalso. rewrite Hp in H. inversion H; subst. acc in H0. rewrite Z.eqb_refl, Hx in H0.
    cbn in H0. inversion H0; subst. rewrite wres1_out in Hp0; auto.
Qed.

Lemma inv_enh_each h i ok credits : forall us m dcids w,
  Inv m -> tget h i (m_pend m) = Some (w, us) ->
  (ok = true -> length dcids = length us /\ NoDup dcids /\ forall d, In d dcids -> tget h d (m_le m) = None) ->
  Inv (enh_each m h i us dcids ok credits) /\
  tget h i (m_pend (enh_each m h i us dcids ok credits)) = Some (w, []).
Proof.
  induction us as [|u us' IH]; intros m dcids w I Hp Hok; cbn [enh_each]; [auto|].
  destruct dcids as [|d ds].
  - (* no CID for this channel *)
    assert (ok = false) by (destruct ok; auto; destruct (Hok eq_refl) as [L _]; discriminate). subst ok.
    destruct (inv_enh_step m h i w u us' false 0 credits false I Hp) as (I3 & P3 & L3); [discriminate|].
    cbn [tl]. apply IH; auto; [|discriminate]. cbn zeta in P3. rewrite P3, tget_tset, !Z.eqb_refl. reflexivity.
  - destruct (inv_enh_step m h i w u us' ok d credits true I Hp) as (I3 & P3 & L3).
    { intros E. destruct (Hok E) as (_ & _ & F). split; auto. apply F. now left. }
    cbn [tl]. cbn zeta in *. apply IH; auto.
    + rewrite P3, tget_tset, !Z.eqb_refl. reflexivity.
    + intros E. destruct (Hok E) as (L & N & F). inversion N; subst. cbn in L. split; [lia|split; [auto|]].
      intros d' Hd'. rewrite L3, tget_tset, tget_tdel. destruct (Z.eqb_spec d' d); [subst; tauto|].
      rewrite andb_false_r. apply F. now right.
Qed.

Lemma inv_recv_enh_rsp m h id credits result dcids :
  Inv m -> enh_rsp_ok m h id result dcids = true ->
  Inv (fst (recv_enh_rsp m h id credits result dcids)).
Proof.
  intros I Hok. unfold recv_enh_rsp. unfold enh_rsp_ok in Hok. cbn in Hok.
  destruct (tget h id (m_pend m)) as [[w us]|] eqn:Hp; [|auto]. cbn [fst].
  destruct (inv_enh_each h id (Z.eqb result R_OK) credits us m dcids w I Hp) as [I1 P1].
  { intros E. rewrite E in Hok. cbn in Hok. apply andb_true_iff in Hok. destruct Hok as [Hok H3].
    apply andb_true_iff in Hok. destruct Hok as [H1 H2].
    apply Nat.eqb_eq in H1. apply nodupz_NoDup in H2. apply negb_true_iff in H3. rewrite any_mem_false in H3.
    repeat split; auto. intros d Hd. now apply tkeys_fresh, H3. }
  apply inv_pend_done; auto. destruct (Z.eqb result R_OK); discriminate.
Qed.

Lemma wget_m_eq m w : wget_m m w = wget m w.
Proof. reflexivity. Qed.

Lemma inv_cancel m w : Inv m -> Inv (do_cancel m w).
Proof.
  intros I. unfold do_cancel. rewrite wget_m_eq.
  destruct (wget m w) as [x|] eqn:Hx; [|auto].
  destruct (Z.eqb_spec (w_out x) O_PENDING) as [Hp|Hp]; cbn [negb]; [|auto].
  pose proof (w_own m I w x Hx Hp) as O.
  destruct (w_kind x) eqn:Ek.
  - (* create_le_credit_based_channel / create_classic_channel *)
    destruct O as [c [Hu Hcw]]. rewrite Hu, Hcw. cbn [is_uid]. rewrite Z.eqb_refl.
    pose proof (inv_chan_facts m (w_ref x) c I Hu) as F. pose proof F as (F1 & F2 & F3 & F4 & F5).
    destruct (F1 w Hcw) as [El Hs].
    destruct (c_kind c) eqn:Ekc.
    + assert (Es : c_st c = SConnecting) by (destruct (c_st c); try discriminate; auto).
      apply (inv_le_abandon m (w_ref x) c w (fun c => set_cw c None)); auto.
    + (* classic: the channel keeps its state and is no longer managed *)
      set (u := w_ref x) in *.
      assert (Hin : in_use m u c = true).
      { unfold in_use. rewrite El, Hcw. destruct (c_st c); try discriminate; reflexivity. }
      assert (Hdw : c_dw c = None).
      { apply no_dw_unless; auto. rewrite Ekc. destruct (c_st c); try discriminate; reflexivity. }
      assert (Hle : le_reg c = false) by (unfold le_reg; now rewrite Ekc).
      refine (inv_chan_step m _ u c (set_live (set_cw c None) false) O_CANCELLED O_ERROR true I Hu
                _ _ _ _ _ _ _ _ _ _ _ _ _ _ _ _ _ _ _ _); cbn; auto; try discriminate; t_same Hu.
      * intros K; congruence.
      * unfold chan_facts; cbn. rewrite Hdw, Ekc.
        split; [discriminate|split; [discriminate|split; [|split]]].
        -- intros Hd. destruct (F3 Hd) as (K & _). congruence.
        -- intros _. destruct (c_st c); try discriminate; auto.
        -- exact F5.
      * acc. now rewrite Hin.
      * acc. unfold le_reg; cbn. now rewrite Ekc.
      * unfold le_reg at 2; cbn. rewrite Ekc. discriminate.
      * intros E. rewrite E in Hs. discriminate.
      * intros _ K; congruence.
      * intros w0. autorewrite with accw. rewrite wget_wres, Hcw, Hdw. cbn. rewrite andb_true_r, Z.eqb_sym. reflexivity.
  - (* create_enhanced_credit_based_channels *)
    destruct O as [us Hus]. rewrite Hus, Z.eqb_refl. unfold enh_finish.
    destruct (inv_enh_each (w_conn x) (w_ref x) false 0 us m [] w I Hus) as [I1 P1]; [discriminate|].
    apply inv_pend_done; auto. discriminate.
  - (* disconnect() *)
    destruct O as [c [Hu Hdw]]. rewrite Hu, Hdw. cbn [is_uid]. rewrite Z.eqb_refl.
    pose proof (inv_chan_facts m (w_ref x) c I Hu) as F. pose proof F as (F1 & F2 & F3 & F4 & F5).
    destruct (F2 w Hdw) as [El Hs]. set (u := w_ref x) in *.
    assert (Hcw : c_cw c = None).
    { apply no_cw_unless; auto. destruct (c_kind c), (c_st c); try discriminate; reflexivity. }
    refine (inv_chan_step m _ u c (set_dw c None) O_ERROR O_CANCELLED true I Hu
              _ _ _ _ _ _ _ _ _ _ _ _ _ _ _ _ _ _ _ _); cbn; auto; try discriminate; t_same Hu.
    + unfold chan_facts; cbn. split; [exact F1|split; [discriminate|split; [exact F3|split; [exact F4|exact F5]]]].
    + acc. change (in_use m u (set_dw c None)) with (in_use m u c). destruct (in_use m u c); reflexivity.
    + acc. change (le_reg (set_dw c None)) with (le_reg c). destruct (le_reg c); reflexivity.
    + change (le_reg (set_dw c None)) with (le_reg c). congruence.
    + intros w0. autorewrite with accw. rewrite wget_wres, Hcw, Hdw. cbn. rewrite andb_true_r, Z.eqb_sym. reflexivity.
Qed.

Lemma step_inv m e : Inv m -> ev_ok m e = true -> Inv (fst (step m e)).
Proof.
  intros I Hok. destruct e as [h kind psm n mode credits|u|u|w|u k|u n|h f|h]; cbn [step].
  - destruct (Z.eqb_spec kind K_LE); [apply inv_open_le; auto|].
    destruct (Z.eqb_spec kind K_ENH).
    + apply inv_open_enh; auto. subst kind. cbn in *. exact Hok.
    + apply inv_open_cl; auto.
  - now apply inv_close.
  - now apply inv_abort.
  - now apply inv_cancel.
  - now apply inv_write.
  - now apply inv_grant.
  - destruct f; cbn [recv]; cbn [ev_ok] in Hok.
    + now apply inv_recv_conn_req.
    + now apply inv_recv_conn_rsp.
    + now apply inv_recv_conf_req.
    + now apply inv_recv_conf_rsp.
    + now apply inv_recv_disc_req.
    + now apply inv_recv_disc_rsp.
    + now apply inv_recv_le_req.
    + now apply inv_recv_le_rsp.
    + now apply inv_recv_enh_req.
    + now apply inv_recv_enh_rsp.
    + now apply inv_recv_credit.
    + auto.
    + auto.
  - now apply inv_down.
Qed.

Lemma run_inv es : forall m, Inv m -> evs_ok m es = true -> Inv (fst (run m es)).
Proof.
  induction es as [|e es IH]; intros m I Hok; cbn [run]; auto.
  cbn [evs_ok] in Hok. apply andb_true_iff in Hok. destruct Hok as [H1 H2].
  pose proof (step_inv m e I H1) as I1.
  destruct (step m e) as [m1 out] eqn:E. cbn [fst] in *.
  specialize (IH m1 I1 H2). destruct (run m1 es) as [m2 outs]. exact IH.
Qed.

(* every state reachable from the initial manager by events that satisfy ev_ok *)
Theorem reachable_inv lesrv clsrv es :
  evs_ok (m_init lesrv clsrv) es = true -> Inv (fst (run (m_init lesrv clsrv) es)).
Proof. apply run_inv, inv_init. Qed.

Definition reachable (m : mgr) : Prop :=
  exists lesrv clsrv es, evs_ok (m_init lesrv clsrv) es = true /\ m = fst (run (m_init lesrv clsrv) es).

Lemma reachable_Inv m : reachable m -> Inv m.
Proof. intros (l & c & es & Hok & ->). now apply reachable_inv. Qed.

Lemma reachable_step m e : reachable m -> ev_ok m e = true -> reachable (fst (step m e)).
Proof.
  intros (l & c & es & Hok & ->) He. exists l, c, (es ++ [e]). 
  assert (Hrun : forall es m0, fst (run m0 (es ++ [e])) = fst (step (fst (run m0 es)) e)).
  { clear. induction es as [|e0 es IH]; intros m0; cbn.
    - destruct (step m0 e); reflexivity.
    - destruct (step m0 e0) as [m1 o1]. specialize (IH m1).
      destruct (run m1 (es ++ [e])) as [m2 o2]. destruct (run m1 es) as [m3 o3]. cbn in *. exact IH. }
  assert (Hoks : forall es m0, evs_ok m0 (es ++ [e]) = evs_ok m0 es && ev_ok (fst (run m0 es)) e).
  { clear. induction es as [|e0 es IH]; intros m0; cbn.
    - now rewrite andb_true_r.
    - rewrite IH. destruct (step m0 e0) as [m1 o1]. cbn. destruct (run m1 es) as [m3 o3]. cbn.
      now rewrite andb_assoc. }
  split; [|symmetry; apply Hrun]. rewrite Hoks, Hok, He. reflexivity.
Qed.

(* `channels` holds exactly the channel objects in use, each under its own connection
   and source CID *)
Theorem tables_exact_channels m : reachable m ->
  forall h k u, In (h, k, u) (m_chs m) <->
                exists c, hget m u = Some c /\ c_conn c = h /\ c_scid c = k /\ in_use m u c = true.
Proof.
  intros R. pose proof (reachable_Inv m R) as I. intros h k u. split.
  - intros Hi. apply (In_tget _ _ _ _ (nd_chs m I)) in Hi.
    destruct (chs_pt m I _ _ _ Hi) as [c (A & B & C)]. exists c. repeat split; auto.
    apply (ch_reg m I u c A). now rewrite B, C.
  - intros [c (A & B & C & D)]. apply (ch_reg m I u c A) in D. rewrite B, C in D. now apply tget_In.
Qed.

(* the pending-request tables hold only requests that are still awaited *)
Theorem tables_exact_requests m : reachable m ->
  (forall h id k, In (h, id, k) (m_reqs m) ->
     exists u c, In (h, k, u) (m_chs m) /\ hget m u = Some c /\ c_st c = SConnecting /\
                 exists w, c_cw c = Some w /\ wout m w = O_PENDING) /\
  (forall h id w us, In (h, id, (w, us)) (m_pend m) -> wout m w = O_PENDING).
Proof.
  intros R. pose proof (reachable_Inv m R) as I. split.
  - intros h id k Hi. apply (In_tget _ _ _ _ (nd_reqs m I)) in Hi.
    destruct (reqs_ok m I _ _ _ Hi) as [u [c (A & B & C & D & E)]]. exists u, c.
    destruct (chs_self m u c h k I B A) as [-> ->].
    repeat split; auto using tget_In.
    apply (ch_reg m I u c B) in A. unfold in_use in A. rewrite D in A.
    destruct (c_cw c) as [w|] eqn:Ec; [|rewrite andb_false_r in A; discriminate].
    exists w. split; auto. destruct (ch_cw m I u c w B Ec) as (_ & _ & [x (X1 & X2 & _)]).
    now rewrite wout_wget, X1.
  - intros h id w us Hi. apply (In_tget _ _ _ _ (nd_pend m I)) in Hi.
    destruct (pend_ok m I _ _ _ _ Hi) as ([x (X1 & X2 & _)] & _). now rewrite wout_wget, X1.
Qed.

Theorem cids_unique m : reachable m ->
  NoDup (map fst (m_chs m)) /\ NoDup (map fst (m_le m)) /\
  (forall h k h' k' u, In (h, k, u) (m_chs m) -> In (h', k', u) (m_chs m) -> h = h' /\ k = k') /\
  (forall h k h' k' u, In (h, k, u) (m_le m) -> In (h', k', u) (m_le m) -> h = h' /\ k = k').
Proof.
  intros R. pose proof (reachable_Inv m R) as I.
  split; [apply (nd_chs m I)|split; [apply (nd_le m I)|split]].
  - intros h k h' k' u H1 H2. apply (In_tget _ _ _ _ (nd_chs m I)) in H1, H2.
    destruct (chs_pt m I _ _ _ H1) as [c (A & <- & <-)]. destruct (chs_pt m I _ _ _ H2) as [c' (A' & <- & <-)].
    rewrite A in A'. now inversion A'.
  - intros h k h' k' u H1 H2. apply (In_tget _ _ _ _ (nd_le m I)) in H1, H2.
    destruct (le_pt m I _ _ _ H1) as [c (A & <- & <- & _)]. destruct (le_pt m I _ _ _ H2) as [c' (A' & <- & <- & _)].
    rewrite A in A'. now inversion A'.
Qed.

Lemma aget_adel h l : aget h (adel h l) = None.
Proof.
  unfold adel. induction l as [|[k v] l IH]; cbn; auto.
  destruct (Z.eqb_spec k h); cbn; auto. destruct (Z.eqb_spec k h); [congruence|auto].
Qed.

(* a pending future belongs to a channel that is still filed under its connection (or to a
   pending enhanced request of its connection): once the channel is gone nothing waits on it *)
Theorem waiters_released_channel m : reachable m ->
  forall w x, wget m w = Some x -> w_out x = O_PENDING ->
  match w_kind x with
  | WOpenEnh => exists us, In (w_conn x, w_ref x, (w, us)) (m_pend m)
  | _ => exists c k, hget m (w_ref x) = Some c /\ In (w_conn x, k, w_ref x) (m_chs m) /\ in_use m (w_ref x) c = true
  end.
Proof.
  intros R. pose proof (reachable_Inv m R) as I. intros w x Hx Hp.
  pose proof (w_own m I w x Hx Hp) as O.
  assert (Hc : forall c, hget m (w_ref x) = Some c -> c_live c = true -> reg_st (c_st c) = true \/ c_cw c <> None /\ (c_st c = SConnecting \/ c_st c = SWaitConnectRsp) ->
                         c_conn c = w_conn x ->
                         exists c0 k, hget m (w_ref x) = Some c0 /\ In (w_conn x, k, w_ref x) (m_chs m) /\ in_use m (w_ref x) c0 = true).
  { intros c Hu Hl Hs Hcn. assert (Hin : in_use m (w_ref x) c = true).
    { unfold in_use. rewrite Hl. destruct Hs as [Hs|[Hcw [Hs|Hs]]].
      - destruct (c_st c); try discriminate; auto.
      - rewrite Hs. destruct (c_cw c); [reflexivity|congruence].
      - rewrite Hs. destruct (c_cw c); [reflexivity|congruence]. }
    exists c, (c_scid c). repeat split; auto. rewrite <- Hcn. apply tget_In. now apply (ch_reg m I _ c Hu). }
  destruct (w_kind x) eqn:Ek.
  - destruct O as [c [Hu Hcw]]. destruct (ch_cw m I _ c w Hu Hcw) as (Hl & Hs & [x0 (X1 & _ & _ & X4 & _)]).
    rewrite Hx in X1. inversion X1; subst x0. apply (Hc c Hu Hl); auto.
    destruct (c_kind c), (c_st c); try discriminate; auto; right; split; auto; congruence.
  - destruct O as [us Hus]. exists us. now apply tget_In.
  - destruct O as [c [Hu Hdw]]. destruct (ch_dw m I _ c w Hu Hdw) as (Hl & Hs & [x0 (X1 & _ & _ & X4 & _)]).
    rewrite Hx in X1. inversion X1; subst x0. apply (Hc c Hu Hl); auto.
    left. destruct (c_kind c), (c_st c); try discriminate; auto.
Qed.

(* when the connection is lost nothing created for it is left pending, nothing of it
   stays in a table, and its identifier counter is forgotten *)
Theorem waiters_released_link m h : reachable m ->
  let m' := fst (step m (EDown h)) in
  (forall w x, wget m' w = Some x -> w_conn x = h -> w_out x <> O_PENDING) /\
  (forall u c, hget m' u = Some c -> c_conn c = h -> c_drained c = true /\ c_live c = false) /\
  tconn h (m_chs m') = [] /\ tconn h (m_le m') = [] /\ tconn h (m_reqs m') = [] /\ tconn h (m_pend m') = [] /\
  aget h (m_ids m') = None.
Proof.
  intros R. pose proof (reachable_Inv m R) as I.
  assert (R' : reachable (do_down m h)) by (apply (reachable_step m (EDown h)); auto).
  cbn [step fst]. cbv zeta.
  assert (Hc : tconn h (m_chs (do_down m h)) = []) by apply tconn_tdrop_same.
  assert (Hp : tconn h (m_pend (do_down m h)) = []) by apply tconn_tdrop_same.
  split; [|split; [|split; [exact Hc|split; [apply tconn_tdrop_same|split; [apply tconn_tdrop_same|split; [exact Hp|apply aget_adel]]]]]].
  - intros w x Hx Hcn Hpd. pose proof (waiters_released_channel _ R' w x Hx Hpd) as O.
    destruct (w_kind x);
      [destruct O as [c [k (_ & Hi & _)]]|destruct O as [us Hi]|destruct O as [c [k (_ & Hi & _)]]];
      eapply tconn_nil_In in Hi; eauto.
  - intros u c Hu Hcn. rewrite hget_down in Hu.
    destruct (hget m u) as [c0|] eqn:Hu0; [|discriminate]. cbn in Hu. inversion Hu; subst c.
    assert (Hc0 : c_conn c0 = h).
    { destruct (Z.eq_dec (c_conn c0) h); auto. rewrite (down_chan_other m h u c0 I Hu0) in Hcn; auto. }
    destruct (down_chan_facts m h u c0 I Hu0 Hc0) as (_ & _ & _ & A & _ & _ & B & _). auto.
Qed.

(* Because the tables hold exactly the channels in use (tables_exact), a CID is free as soon
   as its channel is closed.  Opening then fails locally only for a real lack of resources:
   the whole CID range is used by channels in use on THIS connection, or (LE) the next
   signalling identifier of THIS connection belongs to a request that is still pending. *)
Definition le_capacity : Z := le_cid_hi - le_cid_lo + 1.
Definition bredr_capacity : Z := bredr_cid_hi - bredr_cid_lo + 1.

Lemma find_free_le_some used : Z.of_nat (length used) < le_capacity -> exists x, find_free_le used = Some x.
Proof. apply find_free_hd_some. Qed.
Lemma find_free_bredr_some used : Z.of_nat (length used) < bredr_capacity -> exists x, find_free_bredr used = Some x.
Proof. apply find_free_hd_some. Qed.

(* create_le_credit_based_channel when a CID is free and the identifier is not that of a pending request *)
Lemma open_le_sent m h psm credits scid :
  find_free_le (tkeys h (m_chs m)) = Some scid -> tget h (nid m h) (m_reqs m) = None ->
  let m1 := fst (open_le m h psm credits) in
  snd (open_le m h psm credits) = [FLeReq (nid m h) psm scid credits true] /\
  hget m1 (huid m) = Some (mkChan KLe h scid 0 SConnecting 0 0 0 true (Some (wuid m)) None (nid m h) true) /\
  wget m1 (wuid m) = Some (mkW O_PENDING WOpen h (huid m)) /\
  m_chs m1 = tset h scid (huid m) (m_chs m) /\ m_le m1 = m_le m /\
  m_reqs m1 = tset h (nid m h) scid (m_reqs m).
Proof.
  intros Hs Hid. unfold open_le. rewrite Hs.
  change (nid (with_chs (hnew m _) _) h) with (nid m h).
  cbn [m_reqs next_id with_ids with_chs hnew with_heap]. rewrite Hid. cbn [fst snd].
  repeat split; [autorewrite with acc|acc..]; rewrite ?Z.eqb_refl; reflexivity.
Qed.

(* client side, LE credit-based: the request goes out with a CID no channel in use has *)
Theorem reopen_le_request m h psm credits : reachable m ->
  Z.of_nat (length (tkeys h (m_chs m))) < le_capacity ->
  tget h (nid m h) (m_reqs m) = None ->
  exists scid,
    snd (step m (EOpen h K_LE psm 1 0 credits)) = [FLeReq (nid m h) psm scid credits true] /\
    le_cid_lo <= scid <= le_cid_hi /\ tget h scid (m_chs m) = None /\
    let m1 := fst (step m (EOpen h K_LE psm 1 0 credits)) in
    wout m1 (wuid m) = O_PENDING /\ In (h, scid, huid m) (m_chs m1) /\
    tget h (nid m h) (m_reqs m1) = Some scid.
Proof.
  intros R Hcap Hid. destruct (find_free_le_some _ Hcap) as [scid Hs].
  destruct (open_le_sent m h psm credits scid Hs Hid) as (Hf & Hu & Hw & Hc & _ & Hr).
  destruct (find_free_le_spec _ _ Hs) as [Hrange Hfree%tkeys_fresh].
  exists scid. cbn [step]. rewrite Z.eqb_refl. repeat split; auto; try lia.
  - now rewrite wout_wget, Hw.
  - apply tget_In. rewrite Hc, tget_tset, !Z.eqb_refl. reflexivity.
  - rewrite Hr, tget_tset, !Z.eqb_refl. reflexivity.
Qed.

(* ... and when the peer accepts, create_l2cap_channel returns and the channel is filed *)
Theorem reopen_le_completes m h psm credits dcid credits' : reachable m ->
  Z.of_nat (length (tkeys h (m_chs m))) < le_capacity ->
  tget h (nid m h) (m_reqs m) = None ->
  let m1 := fst (step m (EOpen h K_LE psm 1 0 credits)) in
  tget h dcid (m_le m1) = None ->
  let m2 := fst (step m1 (ERecv h (FLeRsp (nid m h) dcid credits' R_OK true))) in
  wout m2 (wuid m) = O_RESULT /\
  exists c, hget m2 (huid m) = Some c /\ c_st c = SConnected /\ c_dcid c = dcid /\
            In (h, c_scid c, huid m) (m_chs m2) /\ In (h, dcid, huid m) (m_le m2).
Proof.
  intros R Hcap Hid m1 Hd m2. destruct (find_free_le_some _ Hcap) as [scid Hs].
  assert (E1 : m1 = fst (open_le m h psm credits)) by (unfold m1; cbn [step]; now rewrite Z.eqb_refl).
  destruct (open_le_sent m h psm credits scid Hs Hid) as (_ & Hu & Hw & Hc & Hl & Hr). rewrite <- E1 in *.
  subst m2. cbn [step recv]. change (eff_le R_OK true) with R_OK. unfold recv_le_rsp.
  rewrite Hr, tget_tset, !Z.eqb_refl. cbn [andb m_chs with_reqs]. rewrite Hc, tget_tset, !Z.eqb_refl. cbn [andb].
  change (hget (with_reqs m1 _) (huid m)) with (hget m1 (huid m)). rewrite Hu. cbn [c_cw fst].
  unfold le_register. acc. rewrite Hu, Z.eqb_refl. cbn [option_map].
  split.
  - rewrite wout_wget. acc. now rewrite Z.eqb_refl, Hw.
  - eexists. split; [acc; rewrite Z.eqb_refl, Hu; reflexivity|]. cbn. repeat split; auto.
    + apply tget_In. acc. rewrite Hc, tget_tset, !Z.eqb_refl. reflexivity.
    + apply tget_In. acc. now rewrite !Z.eqb_refl.
Qed.

(* server side: a request whose source CID no connected channel of the connection uses is
   accepted as long as a local CID is free *)
Theorem reopen_le_accept m h id psm scid credits srv : reachable m ->
  srv_get psm (m_lesrv m) = Some srv ->
  tget h scid (m_le m) = None ->
  Z.of_nat (length (tkeys h (m_chs m))) < le_capacity ->
  exists local,
    snd (step m (ERecv h (FLeReq id psm scid credits true))) = [FLeRsp id local srv R_OK true] /\
    le_cid_lo <= local <= le_cid_hi /\ tget h local (m_chs m) = None /\
    let m1 := fst (step m (ERecv h (FLeReq id psm scid credits true))) in
    In (h, local, huid m) (m_chs m1) /\ In (h, scid, huid m) (m_le m1).
Proof.
  intros R Hsrv Hle Hcap. destruct (find_free_le_some _ Hcap) as [local Hs].
  exists local. cbn [step recv]. unfold recv_le_req. rewrite Hsrv. cbn [negb].
  assert (Hm : memz scid (tkeys h (m_le m)) = false).
  { now apply memz_false, tkeys_fresh. }
  rewrite Hm, Hs. cbn [fst snd new_le_chans].
  assert (Hfree : tget h local (m_chs m) = None) by (eapply find_free_le_fresh; eauto).
  destruct (find_free_le_spec _ _ Hs) as [Hrange _].
  repeat split; auto; try lia.
  - apply tget_In. acc. now rewrite !Z.eqb_refl.
  - apply tget_In. acc. now rewrite !Z.eqb_refl.
Qed.

(* classic: create_classic_channel sends its request whenever a CID of the range is free *)
Theorem reopen_classic_request m h psm mode : reachable m ->
  Z.of_nat (length (tkeys h (m_chs m))) < bredr_capacity ->
  exists scid,
    snd (step m (EOpen h K_CL psm 1 mode 0)) = [FConnReq (nid m h) psm scid] /\
    bredr_cid_lo <= scid <= bredr_cid_hi /\ tget h scid (m_chs m) = None /\
    let m1 := fst (step m (EOpen h K_CL psm 1 mode 0)) in
    wout m1 (wuid m) = O_PENDING /\ In (h, scid, huid m) (m_chs m1).
Proof.
  intros R Hcap. destruct (find_free_bredr_some _ Hcap) as [scid Hs].
  exists scid. cbn [step]. change (Z.eqb K_CL K_LE) with false. change (Z.eqb K_CL K_ENH) with false. cbn iota.
  unfold open_cl. rewrite Hs. cbn [fst snd].
  assert (Hfree : tget h scid (m_chs m) = None) by (eapply find_free_bredr_fresh; eauto).
  destruct (find_free_bredr_spec _ _ Hs) as [Hrange _].
  repeat split; auto; try lia.
  - rewrite wout_wget. acc. now rewrite Z.eqb_refl.
  - apply tget_In. acc. now rewrite !Z.eqb_refl.
Qed.

(* what belongs to connection b: its entries in the five tables, its channel objects, the
   futures created for it *)
Record same_conn (b : Z) (m m' : mgr) : Prop := {
  sc_chs : forall k, tget b k (m_chs m') = tget b k (m_chs m);
  sc_le : forall k, tget b k (m_le m') = tget b k (m_le m);
  sc_reqs : forall k, tget b k (m_reqs m') = tget b k (m_reqs m);
  sc_pend : forall k, tget b k (m_pend m') = tget b k (m_pend m);
  sc_ids : aget b (m_ids m') = aget b (m_ids m);
  sc_heap : forall u c, c_conn c = b -> (hget m' u = Some c <-> hget m u = Some c);
  sc_w : forall w x, w_conn x = b -> (wget m' w = Some x <-> wget m w = Some x)
}.

Lemma sc_refl b m : same_conn b m m.
Proof. constructor; intros; tauto. Qed.

Lemma sc_trans b m1 m2 m3 : same_conn b m1 m2 -> same_conn b m2 m3 -> same_conn b m1 m3.
Proof.
  intros [a1 a2 a3 a4 a5 a6 a7] [b1 b2 b3 b4 b5 b6 b7]. constructor.
  - intros k. now rewrite b1.
  - intros k. now rewrite b2.
  - intros k. now rewrite b3.
  - intros k. now rewrite b4.
  - congruence.
  - intros u c Hc. rewrite (b6 u c Hc). auto.
  - intros w x Hx. rewrite (b7 w x Hx). auto.
Qed.

Lemma aget_adel_other b a l : b <> a -> aget b (adel a l) = aget b l.
Proof.
  intros Hn. unfold adel. induction l as [|[k v] l IH]; cbn; auto.
  destruct (Z.eqb_spec k a); cbn; subst.
  - destruct (Z.eqb_spec a b); [congruence|auto].
  - destruct (Z.eqb_spec k b); auto.
Qed.

Lemma ids_next_id_other m a b : b <> a -> aget b (m_ids (next_id m a)) = aget b (m_ids m).
Proof.
  intros Hn. unfold next_id. cbn. destruct (Z.eqb_spec a b); [congruence|]. now apply aget_adel_other.
Qed.

Lemma cw_conn m u c : Inv m -> hget m u = Some c -> forall w x, c_cw c = Some w -> wget m w = Some x -> w_conn x = c_conn c.
Proof. intros I Hu w x Hc Hx. destruct (ch_cw m I u c w Hu Hc) as (_ & _ & [x0 (A & _ & _ & B & _)]). congruence. Qed.
Lemma dw_conn m u c : Inv m -> hget m u = Some c -> forall w x, c_dw c = Some w -> wget m w = Some x -> w_conn x = c_conn c.
Proof. intros I Hu w x Hc Hx. destruct (ch_dw m I u c w Hu Hc) as (_ & _ & [x0 (A & _ & _ & B & _)]). congruence. Qed.

Lemma cl_found_conn m h cid u c : Inv m -> find_cl m h cid = Some (u, c) -> hget m u = Some c /\ c_conn c = h.
Proof. intros I H. destruct (cl_found m h cid u c I H) as (A & _ & B & _). auto. Qed.

(* The channel object at u / the future at w is not of connection b (or does not exist).  An
   operation at such an index preserves same_conn b, and same_conn b preserves the property:
   so along a sequence of operations it is enough to know it of the first state. *)
Definition hoff (b : Z) (m : mgr) (u : Z) : Prop := forall c, hget m u = Some c -> b <> c_conn c.
Definition woff (b : Z) (m : mgr) (w : Z) : Prop := forall x, wget m w = Some x -> b <> w_conn x.

Lemma hoff_sc b m m' u : same_conn b m m' -> hoff b m u -> hoff b m' u.
Proof. intros S H c Hc E. apply (H c); [|exact E]. now apply (sc_heap b m m' S u c (eq_sym E)). Qed.
Lemma woff_sc b m m' w : same_conn b m m' -> woff b m w -> woff b m' w.
Proof. intros S H x Hx E. apply (H x); [|exact E]. now apply (sc_w b m m' S w x (eq_sym E)). Qed.

(* each channel object / future is unchanged, or is not of connection b before and after *)
Lemma sc_intro b m m' :
  (forall k, tget b k (m_chs m') = tget b k (m_chs m)) ->
  (forall k, tget b k (m_le m') = tget b k (m_le m)) ->
  (forall k, tget b k (m_reqs m') = tget b k (m_reqs m)) ->
  (forall k, tget b k (m_pend m') = tget b k (m_pend m)) ->
  aget b (m_ids m') = aget b (m_ids m) ->
  (forall u, hget m' u = hget m u \/ (hoff b m u /\ hoff b m' u)) ->
  (forall w, wget m' w = wget m w \/ (woff b m w /\ woff b m' w)) ->
  same_conn b m m'.
Proof.
  intros H1 H2 H3 H4 H5 H6 H7. constructor; auto.
  - intros u c Hc. destruct (H6 u) as [E|[A B]]; [now rewrite E|].
    split; intros H; exfalso; [apply (B c H)|apply (A c H)]; auto.
  - intros w x Hx. destruct (H7 w) as [E|[A B]]; [now rewrite E|].
    split; intros H; exfalso; [apply (B x H)|apply (A x H)]; auto.
Qed.

(* Every primitive applied off connection b extends a same_conn b chain; the side conditions are
   about m0, the state the chain starts from. *)
Section Prim.
  Variables (b : Z) (m0 m : mgr).
  Hypothesis S : same_conn b m0 m.

  Lemma sc_with_chs t : (forall k, tget b k t = tget b k (m_chs m)) -> same_conn b m0 (with_chs m t).
  Proof. intros H. apply (sc_trans _ _ _ _ S), sc_intro; auto. Qed.
  Lemma sc_with_le t : (forall k, tget b k t = tget b k (m_le m)) -> same_conn b m0 (with_le m t).
  Proof. intros H. apply (sc_trans _ _ _ _ S), sc_intro; auto. Qed.
  Lemma sc_with_reqs t : (forall k, tget b k t = tget b k (m_reqs m)) -> same_conn b m0 (with_reqs m t).
  Proof. intros H. apply (sc_trans _ _ _ _ S), sc_intro; auto. Qed.
  Lemma sc_with_pend t : (forall k, tget b k t = tget b k (m_pend m)) -> same_conn b m0 (with_pend m t).
  Proof. intros H. apply (sc_trans _ _ _ _ S), sc_intro; auto. Qed.
  Lemma sc_next_id h : b <> h -> same_conn b m0 (next_id m h).
  Proof. intros H. apply (sc_trans _ _ _ _ S), sc_intro; auto. now apply ids_next_id_other. Qed.

  Lemma sc_hupd u f : hoff b m0 u -> (forall c, b <> c_conn c -> b <> c_conn (f c)) -> same_conn b m0 (hupd m u f).
  Proof.
    intros Hu Hf. pose proof (hoff_sc _ _ _ _ S Hu) as Hu'.
    apply (sc_trans _ _ _ _ S), sc_intro; intros; acc; auto.
    destruct (Z.eqb_spec u0 u) as [->|]; [right|left; reflexivity]. split; [exact Hu'|].
    intros c. rewrite hget_hupd, Z.eqb_refl. destruct (hget m u) as [c0|] eqn:E; [|discriminate].
    intros [= <-]. apply Hf, Hu', E.
  Qed.

  Lemma sc_hnew c : b <> c_conn c -> same_conn b m0 (hnew m c).
  Proof.
    intros Hc. apply (sc_trans _ _ _ _ S), sc_intro; intros; acc; auto.
    destruct (Z.eqb_spec u (huid m)) as [->|]; [right|left; reflexivity]. split; intros c0.
    - now rewrite hget_huid.
    - rewrite hget_hnew, Z.eqb_refl. now intros [= <-].
  Qed.

  Lemma sc_wnew o k h r : b <> h -> same_conn b m0 (wnew m o k h r).
  Proof.
    intros Hc. apply (sc_trans _ _ _ _ S), sc_intro; intros; acc; auto.
    destruct (Z.eqb_spec w (wuid m)) as [->|]; [right|left; reflexivity]. split; intros x.
    - now rewrite wget_wuid.
    - rewrite wget_wnew, Z.eqb_refl. now intros [= <-].
  Qed.

  Lemma sc_wres w o : woff b m0 w -> same_conn b m0 (wres m w o).
  Proof.
    intros Hw. pose proof (woff_sc _ _ _ _ S Hw) as Hw'.
    apply (sc_trans _ _ _ _ S), sc_intro; intros; acc; auto.
    destruct (Z.eqb_spec w0 w) as [->|]; [right|left; reflexivity]. split; [exact Hw'|].
    intros x. rewrite wget_wres, Z.eqb_refl. destruct (wget m w) as [x0|] eqn:E; [|discriminate].
    intros [= <-]. rewrite w_conn_wres1. apply Hw', E.
  Qed.

  Lemma sc_wres_opt ow o : (forall w, ow = Some w -> woff b m0 w) -> same_conn b m0 (wres_opt m ow o).
  Proof. destruct ow as [w|]; intros H; [apply sc_wres; auto|exact S]. Qed.

  Lemma sc_if (c : bool) m1 m2 : same_conn b m0 m1 -> same_conn b m0 m2 -> same_conn b m0 (if c then m1 else m2).
  Proof. now destruct c. Qed.
End Prim.

Lemma hoff_at b m u c : hget m u = Some c -> b <> c_conn c -> hoff b m u.
Proof. intros Hu Hn c0 H0. rewrite Hu in H0. now injection H0 as <-. Qed.
Lemma woff_at b m w x : wget m w = Some x -> b <> w_conn x -> woff b m w.
Proof. intros Hu Hn c0 H0. rewrite Hu in H0. now injection H0 as <-. Qed.
Lemma hoff_new b m : hoff b m (huid m).
Proof. intros c. now rewrite hget_huid. Qed.
Lemma woff_new b m : woff b m (wuid m).
Proof. intros c. now rewrite wget_wuid. Qed.

(* the futures of a channel are futures of its connection *)
Lemma cw_off b m u c : Inv m -> hget m u = Some c -> b <> c_conn c -> forall w, c_cw c = Some w -> woff b m w.
Proof. intros I Hu Hn w Hc x Hx. now rewrite (cw_conn m u c I Hu w x Hc Hx). Qed.
Lemma dw_off b m u c : Inv m -> hget m u = Some c -> b <> c_conn c -> forall w, c_dw c = Some w -> woff b m w.
Proof. intros I Hu Hn w Hc x Hx. now rewrite (dw_conn m u c I Hu w x Hc Hx). Qed.

Ltac sc_tget := intros; rewrite ?tget_tset_other, ?tget_tdel_other by assumption; reflexivity.

Lemma sc_occ b m0 m u c : same_conn b m0 m -> b <> c_conn c -> same_conn b m0 (on_channel_closed m u c).
Proof.
  intros S Hn. unfold on_channel_closed.
  apply sc_if; [apply sc_with_le|]; try (apply sc_if; [apply sc_with_chs|]); auto; sc_tget.
Qed.

Lemma sc_loa b m0 m u c : same_conn b m0 m -> b <> c_conn c -> same_conn b m0 (le_open_abandoned m u c).
Proof.
  intros S Hn. unfold le_open_abandoned.
  apply sc_if; [apply sc_with_chs|]; try (apply sc_if; [apply sc_with_reqs|]); auto; sc_tget.
Qed.

Lemma sc_cl_connect_failed b m0 m u c : same_conn b m0 m -> hoff b m0 u -> b <> c_conn c ->
  same_conn b m0 (cl_connect_failed m u c).
Proof. intros S Hu Hn. apply sc_with_chs; [apply sc_hupd; auto|sc_tget]. Qed.

Lemma sc_pend_set b m0 m h i us : same_conn b m0 m -> b <> h -> same_conn b m0 (pend_set m h i us).
Proof. intros S Hn. unfold pend_set. destruct (tget h i (m_pend m)) as [[w ?]|]; [apply sc_with_pend|]; auto; sc_tget. Qed.
Lemma sc_pend_add b m0 m h i u : same_conn b m0 m -> b <> h -> same_conn b m0 (pend_add m h i u).
Proof. intros S Hn. unfold pend_add. destruct (tget h i (m_pend m)) as [[w ?]|]; [apply sc_with_pend|]; auto; sc_tget. Qed.

Lemma sc_le_register b m0 us : forall m, same_conn b m0 m -> (forall u, In u us -> hoff b m0 u) ->
  same_conn b m0 (le_register m us).
Proof.
  induction us as [|u us IH]; intros m S H; cbn [le_register]; auto.
  apply IH; [|intros; apply H; now right].
  destruct (hget m u) as [c|] eqn:E; auto. apply sc_with_le; auto.
  pose proof (hoff_sc _ _ _ _ S (H u (or_introl eq_refl)) c E). sc_tget.
Qed.
Lemma sc_chs_unregister b m0 us : forall m, same_conn b m0 m -> (forall u, In u us -> hoff b m0 u) ->
  same_conn b m0 (chs_unregister m us).
Proof.
  induction us as [|u us IH]; intros m S H; cbn [chs_unregister]; auto.
  apply IH; [|intros; apply H; now right].
  destruct (hget m u) as [c|] eqn:E; auto. apply sc_with_chs; auto.
  pose proof (hoff_sc _ _ _ _ S (H u (or_introl eq_refl)) c E). sc_tget.
Qed.

(* A handler is a composition of primitives: sc_prims peels them off one by one, sc_side
   discharges what they ask of the first state (the index is of another connection, the
   function keeps the connection, the table is changed under another handle). *)
Ltac sc_prims :=
  repeat first
    [ assumption | apply sc_refl
    | apply sc_hupd | apply sc_hnew | apply sc_wnew | apply sc_wres_opt | apply sc_wres | apply sc_next_id
    | apply sc_cl_connect_failed | apply sc_occ | apply sc_loa
    | apply sc_with_chs | apply sc_with_le | apply sc_with_reqs | apply sc_with_pend
    | match goal with |- same_conn _ _ (if _ then _ else _) => apply sc_if end ].

Ltac sc_side :=
  first [ assumption | apply hoff_new | apply woff_new | eapply hoff_at; eassumption
        | eapply cw_off; eassumption | eapply dw_off; eassumption
        | intros ? ?; assumption | sc_tget ].

Ltac sc_go := sc_prims; try sc_side.

Lemma sc_write b m u k c : hget m u = Some c -> b <> c_conn c -> same_conn b m (fst (do_write m u k)).
Proof.
  intros Hu Hn. unfold do_write. rewrite Hu.
  destruct (c_kind c); [|apply sc_refl]. destruct (c_st c); try apply sc_refl. cbn [fst]. sc_go.
Qed.

Lemma sc_grant b m u n c : hget m u = Some c -> b <> c_conn c -> same_conn b m (fst (do_grant m u n)).
Proof. intros Hu Hn. unfold do_grant. rewrite Hu. cbn [fst]. sc_go. Qed.

Lemma sc_abort b m u c : Inv m -> hget m u = Some c -> b <> c_conn c -> same_conn b m (abort_chan m u).
Proof. intros I Hu Hn. unfold abort_chan. rewrite Hu. destruct (c_kind c); sc_go. Qed.

Lemma sc_close b m u c : Inv m -> hget m u = Some c -> b <> c_conn c -> same_conn b m (fst (do_close m u)).
Proof.
  intros I Hu Hn. unfold do_close. rewrite Hu. destruct (negb _); cbn [fst]; sc_go.
  intros c0 H. now destruct (c_kind c0).
Qed.

Lemma sc_recv_credit b m h cid n : Inv m -> b <> h -> same_conn b m (fst (recv_credit m h cid n)).
Proof.
  intros I Hn. unfold recv_credit.
  destruct (tget h cid (m_le m)) as [u|] eqn:Et; [|apply sc_refl].
  destruct (hget m u) as [c|] eqn:Hu; [|apply sc_refl]. cbn [fst].
  destruct (le_self m u c h cid I Hu Et) as (-> & _). sc_go.
Qed.

Lemma sc_recv_disc_req b m h id dcid scid : Inv m -> b <> h -> same_conn b m (fst (recv_disc_req m h id dcid scid)).
Proof.
  intros I Hn. unfold recv_disc_req.
  destruct (tget h dcid (m_chs m)) as [u|] eqn:Et; [|apply sc_refl].
  destruct (hget m u) as [c|] eqn:Hu; [|apply sc_refl].
  destruct (chs_self m u c h dcid I Hu Et) as [-> ->].
  destruct (negb _); [apply sc_refl|].
  destruct (c_kind c); cbn [fst]; sc_go.
Qed.

Lemma sc_recv_disc_rsp b m h id dcid scid : Inv m -> b <> h -> same_conn b m (fst (recv_disc_rsp m h id dcid scid)).
Proof.
  intros I Hn. unfold recv_disc_rsp.
  destruct (tget h scid (m_chs m)) as [u|] eqn:Et; [|apply sc_refl].
  destruct (hget m u) as [c|] eqn:Hu; [|apply sc_refl].
  destruct (chs_self m u c h scid I Hu Et) as [-> ->].
  destruct (c_kind c); (destruct (c_st c); try apply sc_refl; destruct (negb _); [apply sc_refl|]; cbn [fst]; sc_go).
Qed.

Lemma sc_recv_le_rsp b m h id dcid credits result :
  Inv m -> b <> h -> same_conn b m (fst (recv_le_rsp m h id dcid credits result)).
Proof.
  intros I Hn. unfold recv_le_rsp.
  destruct (tget h id (m_reqs m)) as [scid|] eqn:Er; [|apply sc_refl].
  assert (S0 : same_conn b m (with_reqs m (tdel h id (m_reqs m)))) by sc_go.
  cbn [m_chs with_reqs].
  destruct (tget h scid (m_chs m)) as [u|] eqn:Et; [|exact S0].
  change (hget (with_reqs m (tdel h id (m_reqs m))) u) with (hget m u).
  destruct (hget m u) as [c|] eqn:Hu; [|exact S0].
  destruct (chs_self m u c h scid I Hu Et) as [-> ->].
  destruct (c_cw c) as [w0|] eqn:Hcw; [|exact S0].
  pose proof (cw_off b m u c I Hu Hn w0 Hcw).
  destruct (Z.eqb result R_OK); cbn [fst]; [apply sc_le_register|]; sc_go.
  intros u0 [<-|[]]. sc_side.
Qed.

Lemma sc_recv_conn_rsp b m h id dcid scid result :
  Inv m -> b <> h -> same_conn b m (fst (recv_conn_rsp m h id dcid scid result)).
Proof.
  intros I Hn. unfold recv_conn_rsp.
  destruct (find_cl m h scid) as [[u c]|] eqn:Ef; [|apply sc_refl].
  destruct (cl_found_conn m h scid u c I Ef) as [Hu <-].
  destruct (c_st c); try apply sc_refl.
  destruct (Z.eqb result R_OK); cbn [fst]; [sc_go|].
  destruct (Z.eqb result R_PENDING); [apply sc_refl|].
  destruct (wpending _ _); cbn [fst]; sc_go.
Qed.

Lemma sc_recv_conf_rsp b m h id scid result sugg :
  Inv m -> b <> h -> same_conn b m (fst (recv_conf_rsp m h id scid result sugg)).
Proof.
  intros I Hn. unfold recv_conf_rsp.
  destruct (find_cl m h scid) as [[u c]|] eqn:Ef; [|apply sc_refl].
  destruct (cl_found_conn m h scid u c I Ef) as [Hu <-].
  destruct (Z.eqb result 0).
  - destruct (c_st c); try apply sc_refl; cbn [fst]; sc_go.
  - destruct (Z.eqb result CONF_UNACCEPTABLE); [|apply sc_refl].
    destruct (Z.eqb sugg 0); [apply sc_refl|]. cbn [fst]. sc_go.
Qed.

Lemma sc_recv_conf_req b m h id dcid rfc bad :
  Inv m -> b <> h -> same_conn b m (fst (recv_conf_req m h id dcid rfc bad)).
Proof.
  intros I Hn. unfold recv_conf_req.
  destruct (find_cl m h dcid) as [[u c]|] eqn:Ef; [|apply sc_refl].
  destruct (cl_found_conn m h dcid u c I Ef) as [Hu <-].
  destruct (negb _); [apply sc_refl|].
  destruct (_ && _); [cbn [fst]; sc_go|].
  destruct bad; [apply sc_refl|].
  assert (S1 : same_conn b m (hupd m u (fun c => set_st c SWaitConfigRsp))) by sc_go.
  assert (S2 : same_conn b m (hupd (wres_opt m (c_cw c) O_RESULT) u (fun c => set_cw (set_st c SOpen) None))) by sc_go.
  destruct (c_st c); assumption.
Qed.

Lemma sc_open_cl b m h psm mode : b <> h -> same_conn b m (fst (open_cl m h psm mode)).
Proof. intros Hn. unfold open_cl. destruct (find_free_bredr _); cbn [fst]; sc_go. Qed.

Lemma sc_open_le b m h psm credits : b <> h -> same_conn b m (fst (open_le m h psm credits)).
Proof.
  intros Hn. unfold open_le. destruct (find_free_le _); cbn [fst]; [|sc_go].
  destruct (tget _ _ _); cbn [fst]; sc_go.
Qed.

Lemma sc_recv_conn_req b m h id psm scid : b <> h -> same_conn b m (fst (recv_conn_req m h id psm scid)).
Proof.
  intros Hn. unfold recv_conn_req. destruct (srv_get _ _); [|apply sc_refl].
  destruct (find_free_bredr _); cbn [fst]; sc_go.
Qed.

Lemma sc_new_le_chans b h st credits r regle pairs : forall m, b <> h ->
  same_conn b m (fst (new_le_chans m h st credits r regle pairs)).
Proof.
  induction pairs as [|[s d] ps IH]; intros m Hn; cbn [new_le_chans fst]; [apply sc_refl|].
  match goal with |- same_conn b m (fst (let '(m3, us) := new_le_chans ?mm _ _ _ _ _ _ in _)) =>
    specialize (IH mm Hn); destruct (new_le_chans mm h st credits r regle ps) as [m3 us] eqn:E end.
  cbn [fst] in *. eapply sc_trans; [|exact IH]. sc_go.
Qed.

Lemma sc_recv_le_req b m h id psm scid credits okp : b <> h -> same_conn b m (fst (recv_le_req m h id psm scid credits okp)).
Proof.
  intros Hn. unfold recv_le_req. destruct (srv_get _ _); [|apply sc_refl].
  destruct (negb okp); [apply sc_refl|].
  destruct (memz _ _); [apply sc_refl|]. destruct (find_free_le _); cbn [fst]; [|apply sc_refl].
  now apply sc_new_le_chans.
Qed.

Lemma sc_recv_enh_req b m h id psm credits scids okp : b <> h -> same_conn b m (fst (recv_enh_req m h id psm credits scids okp)).
Proof.
  intros Hn. unfold recv_enh_req. destruct (srv_get _ _); [|apply sc_refl].
  destruct (negb okp); [apply sc_refl|].
  destruct (any_mem _ _); [apply sc_refl|]. destruct (find_free_le_n _ _); cbn [fst]; [apply sc_refl|].
  now apply sc_new_le_chans.
Qed.

Lemma sc_new_enh_chans b h i scids : forall m, b <> h -> same_conn b m (new_enh_chans m h i scids).
Proof.
  induction scids as [|s rest IH]; intros m Hn; cbn [new_enh_chans]; [apply sc_refl|].
  eapply sc_trans; [|apply IH; auto]. apply sc_pend_add; sc_go.
Qed.

Lemma sc_open_enh b m h psm n credits : b <> h -> same_conn b m (fst (open_enh m h psm n credits)).
Proof.
  intros Hn. unfold open_enh. destruct (find_free_le_n _ _); cbn [fst]; [sc_go|].
  eapply sc_trans; [|apply sc_new_enh_chans; auto]. sc_go.
Qed.

Lemma sc_enh_each b m0 h i ok credits : b <> h -> forall us m dcids,
  same_conn b m0 m -> (forall u, In u us -> hoff b m0 u) ->
  same_conn b m0 (enh_each m h i us dcids ok credits).
Proof.
  intros Hn. induction us as [|u us' IH]; intros m dcids S H; cbn [enh_each]; auto.
  pose proof (H u (or_introl eq_refl)) as Hu.
  apply IH; [|intros; apply H; now right].
  assert (S2 : same_conn b m0 match dcids with
                | d :: _ => hupd (pend_set m h i us') u
                              (fun c => if ok then set_st (set_out (set_dcid c d) credits (c_pending c) (c_drained c)) SConnected
                                        else set_st c SConnError)
                | [] => pend_set m h i us' end).
  { destruct dcids; [|apply sc_hupd; auto]; try apply sc_pend_set; auto. intros c0 H0. now destruct ok. }
  destruct ok; [apply sc_le_register|apply sc_chs_unregister]; auto; intros u0 [<-|[]]; auto.
Qed.

Lemma sc_enh_finish b m h id w us dcids ok credits o : b <> h ->
  Inv m -> tget h id (m_pend m) = Some (w, us) ->
  same_conn b m (enh_finish m h id w us dcids ok credits o).
Proof.
  intros Hn I Hp. unfold enh_finish. destruct (pend_ok m I _ _ _ _ Hp) as ([x (Hx & _ & _ & Hxc & _)] & _ & Hus).
  apply sc_wres; [apply sc_with_pend; [apply sc_enh_each; auto using sc_refl|sc_tget]|].
  - intros u Hu. destruct (Hus u Hu) as [c (Hc & _ & Hcc & _)]. apply (hoff_at b m u c); congruence.
  - apply (woff_at b m w x); congruence.
Qed.

Lemma sc_recv_enh_rsp b m h id credits result dcids :
  Inv m -> b <> h -> same_conn b m (fst (recv_enh_rsp m h id credits result dcids)).
Proof.
  intros I Hn. unfold recv_enh_rsp.
  destruct (tget h id (m_pend m)) as [[w us]|] eqn:Hp; [|apply sc_refl]. now apply sc_enh_finish.
Qed.

Lemma sc_cancel b m w x : Inv m -> wget m w = Some x -> b <> w_conn x -> same_conn b m (do_cancel m w).
Proof.
  intros I Hx Hn. unfold do_cancel. rewrite wget_m_eq, Hx.
  destruct (Z.eqb_spec (w_out x) O_PENDING) as [Hp|Hp]; cbn [negb]; [|apply sc_refl].
  pose proof (w_own m I w x Hx Hp) as O. pose proof (woff_at b m w x Hx Hn) as Hw.
  destruct (w_kind x) eqn:Ek.
  - destruct O as [c [Hu Hcw]]. rewrite Hu, Hcw. cbn [is_uid]. rewrite Z.eqb_refl.
    rewrite (cw_conn m _ c I Hu w x Hcw Hx) in Hn. destruct (c_kind c); sc_go.
  - destruct O as [us Hus]. rewrite Hus, Z.eqb_refl. now apply sc_enh_finish.
  - destruct O as [c [Hu Hdw]]. rewrite Hu, Hdw. cbn [is_uid]. rewrite Z.eqb_refl.
    rewrite (dw_conn m _ c I Hu w x Hdw Hx) in Hn. sc_go.
Qed.

Lemma sc_down b m h : Inv m -> b <> h -> same_conn b m (do_down m h).
Proof.
  intros I Hn. apply sc_intro; try (intros k; cbn [do_down m_chs m_le m_reqs m_pend]; now apply tget_tdrop_other).
  - cbn [do_down m_ids]. now apply aget_adel_other.
  - intros u. rewrite hget_down. destruct (hget m u) as [c|] eqn:Hu; [|left; reflexivity]. cbn.
    destruct (Z.eq_dec (c_conn c) h) as [Hc|Hc].
    + right. destruct (down_chan_facts m h u c I Hu Hc) as (_ & A & _).
      split; [apply (hoff_at b m u c)|intros c0; rewrite hget_down, Hu; intros [= <-]]; congruence.
    + left. now rewrite (down_chan_other m h u c I Hu Hc).
  - intros w. rewrite wget_down. destruct (wget m w) as [x|] eqn:Hx; [|left; reflexivity]. cbn.
    destruct (Z.eq_dec (w_conn x) h) as [Hc|Hc].
    + right. split; [apply (woff_at b m w x); congruence|].
      intros x0. rewrite wget_down, Hx. intros [= <-]. repeat destruct (memz _ _); rewrite ?w_conn_wres1; congruence.
    + left. destruct (down_notouch m h w x I Hx Hc) as [N1 N2]. apply memz_false in N1, N2. now rewrite N1, N2.
Qed.

(* the connection an event is about *)
Definition ev_conn (m : mgr) (e : event) : option Z :=
  match e with
  | EOpen h _ _ _ _ _ => Some h
  | ERecv h _ => Some h
  | EDown h => Some h
  | EClose u | EAbort u | EWrite u _ | EGrant u _ => option_map c_conn (hget m u)
  | ECancel w => option_map w_conn (wget m w)
  end.

(* no hypothesis on the event is needed, and of the state only the invariant *)
Lemma step_same_conn m e a b : Inv m -> ev_conn m e = Some a -> b <> a -> same_conn b m (fst (step m e)).
Proof.
  intros I Ha Hn.
  destruct e as [h kind psm n mode credits|u|u|w|u k|u n|h f|h]; cbn [step ev_conn] in *.
  - injection Ha as ->. destruct (Z.eqb kind K_LE); [now apply sc_open_le|].
    destruct (Z.eqb kind K_ENH); [now apply sc_open_enh|now apply sc_open_cl].
  - destruct (hget m u) as [c|] eqn:Hu; [|discriminate]. injection Ha as <-. eapply sc_close; eauto.
  - destruct (hget m u) as [c|] eqn:Hu; [|discriminate]. injection Ha as <-. eapply sc_abort; eauto.
  - destruct (wget m w) as [x|] eqn:Hx; [|discriminate]. injection Ha as <-. eapply sc_cancel; eauto.
  - destruct (hget m u) as [c|] eqn:Hu; [|discriminate]. injection Ha as <-. eapply sc_write; eauto.
  - destruct (hget m u) as [c|] eqn:Hu; [|discriminate]. injection Ha as <-. eapply sc_grant; eauto.
  - injection Ha as ->. destruct f; cbn [recv].
    + now apply sc_recv_conn_req.
    + now apply sc_recv_conn_rsp.
    + now apply sc_recv_conf_req.
    + now apply sc_recv_conf_rsp.
    + now apply sc_recv_disc_req.
    + now apply sc_recv_disc_rsp.
    + now apply sc_recv_le_req.
    + now apply sc_recv_le_rsp.
    + now apply sc_recv_enh_req.
    + now apply sc_recv_enh_rsp.
    + now apply sc_recv_credit.
    + apply sc_refl.
    + apply sc_refl.
  - injection Ha as ->. now apply sc_down.
Qed.

Theorem links_independent m e a b : reachable m -> ev_ok m e = true ->
  ev_conn m e = Some a -> b <> a -> same_conn b m (fst (step m e)).
Proof. intros R _. apply step_same_conn, reachable_Inv, R. Qed.

(* an event that addresses no channel object changes nothing *)
Lemma ev_conn_none m e : ev_conn m e = None -> step m e = (m, []).
Proof.
  destruct e; cbn; try discriminate;
    try (destruct (hget m _) eqn:E; try discriminate; intros _;
         unfold do_close, abort_chan, do_write, do_grant; rewrite E; reflexivity).
  destruct (wget m w) eqn:E; try discriminate. intros _. unfold do_cancel. rewrite wget_m_eq, E. reflexivity.
Qed.
