(* Proofs about Model/DataQueueFail.v: the queue when hand-overs can raise. *)
From Coq Require Import ZArith List Bool Lia.
From BV Require Import Model.DataQueue Model.DataQueueFail Proofs.DataQueue.
Import ListNotations.
Open Scope Z_scope.

(* the plain model is the failing model with no failure *)
Lemma q_step_f_nofail fails s o : (forall p, fails p = false) ->
  q_step_f fails s o = (q_step s o, false).
Proof.
  intros Hf. rewrite q_step_pre. unfold q_step_f. destruct (q_pre s o) as [t|]; [|reflexivity].
  unfold run_check_f, run_check. rewrite (check_queue_f_nofail fails _ Hf).
  destruct (check_queue (q_max t) (q_inflight t) (q_conns t) (q_wait t)) as [[[i c] w'] snt]. reflexivity.
Qed.

(* the hand-over of every packet sent returned *)
Definition sent_ok (fails : Z -> bool) (sent : list (Z * Z)) : Prop :=
  Forall (fun ph => fails (fst ph) = false) sent.

(* the invariant that survives failing hand-overs: everything of [inv] except work conservation
   (an operation that raised left the loop early: the next operation pumps the queue again) *)
Record inv_f (s : qstate) : Prop := {
  invf_sum : q_inflight s = sum_conns (q_conns s);
  invf_nonneg : conns_nonneg (q_conns s);
  invf_nodup : NoDup (handles (q_conns s));
  invf_bound : q_inflight s <= q_max s;
  invf_drained : drained_ok (q_conns s)
}.

Lemma inv_f_acct s : inv_f s <-> acct s.
Proof.
  split; [intros [A B C D E]; repeat split; assumption|intros (A & B & C & D & E); constructor; assumption].
Qed.

Lemma inv_inv_f s : inv s -> inv_f s.
Proof. intros H. apply inv_f_acct, inv_acct, H. Qed.

Lemma run_check_f_inv fails t : inv_f t -> inv_f (fst (fst (run_check_f fails t))).
Proof.
  intros [Hs Hn Hd Hb Hdr]. unfold run_check_f.
  pose proof (check_queue_f_spec fails (q_max t) (q_wait t) (q_inflight t) (q_conns t)) as H.
  destruct (check_queue_f fails (q_max t) (q_inflight t) (q_conns t) (q_wait t)) as [[[[i c] w'] snt] r].
  destruct H as (Hi & -> & Hle & _ & _). destruct (bumps_acct snt (q_conns t)) as (Hsum & Hnn & Hnd & Hdd).
  cbn. constructor; cbn; auto; lia.
Qed.

Lemma step_inv_f fails s o : op_ok o -> inv_f s -> inv_f (fst (fst (q_step_f fails s o))).
Proof.
  intros Hok Hi. unfold q_step_f. destruct (q_pre s o) as [t|] eqn:E; [|exact Hi].
  apply run_check_f_inv, inv_f_acct. apply inv_f_acct in Hi. exact (pre_acct s o t Hok Hi E).
Qed.

Lemma run_inv_f fails ops : forall s, ops_ok ops -> inv_f s -> inv_f (fst (q_run_f fails s ops)).
Proof.
  induction ops as [|o ops IH]; intros s Hok Hi; cbn [q_run_f]; [exact Hi|].
  inversion Hok as [|? ? Ho Hos]; subst.
  pose proof (step_inv_f fails s o Ho Hi) as H. destruct (q_step_f fails s o) as [[s1 o1] r1]. cbn in H.
  specialize (IH s1 Hos H). destruct (q_run_f fails s1 ops) as [s2 outs]. exact IH.
Qed.

(* per step: credits are taken for exactly the packets whose hand-over returned; the packet whose
   hand-over raised is dropped (it is the only one), order is kept, nothing is invented *)
Lemma step_f_accounting fails s o t :
  q_pre s o = Some t ->
  let '(s', sent, r) := q_step_f fails s o in
  q_inflight s' = q_inflight t + Z.of_nat (length sent) /\
  sum_conns (q_conns s') = sum_conns (q_conns t) + Z.of_nat (length sent) /\
  sent_ok fails sent /\
  (if r then exists p h, q_wait t = sent ++ (p, h) :: q_wait s' /\ fails p = true /\ q_inflight s' < q_max s'
   else q_wait t = sent ++ q_wait s' /\ (q_wait s' <> [] -> q_max s' <= q_inflight s')).
Proof.
  intros E. unfold q_step_f. rewrite E. unfold run_check_f.
  pose proof (check_queue_f_spec fails (q_max t) (q_wait t) (q_inflight t) (q_conns t)) as H.
  destruct (check_queue_f fails (q_max t) (q_inflight t) (q_conns t) (q_wait t)) as [[[[i c] w'] snt] r].
  destruct H as (Hi & -> & _ & Hok & Hr). cbn. repeat split; try assumption. apply bumps_acct.
Qed.
