(* Proofs about Model/Rfcomm.v, the credit-based data path of one RFCOMM DLC.  process_tx
   is characterised once (one iteration, the loop, the whole call); [dinv] is the invariant
   of one direction and is kept by the four things that can happen to a direction; [inv] is
   [dinv] both ways, and the results about reachable states are read off it.  Draining is
   by a potential that every delivery lowers. *)
From Coq Require Import ZArith List Bool Lia.
From BV Require Import Model.Rfcomm.
Import ListNotations.
Open Scope Z_scope.

Definition wf_params_b (P : params) : bool :=
  (0 <=? p_threshold P) && (p_threshold P <? p_max_credits P) && (p_max_credits P <=? 255).

Definition wf_params (P : params) : Prop :=
  0 <= p_threshold P /\ p_threshold P < p_max_credits P /\ p_max_credits P <= 255.

Lemma wf_params_b_ok P : wf_params_b P = true -> wf_params P.
Proof.
  unfold wf_params_b, wf_params. rewrite !andb_true_iff, !Z.leb_le, Z.ltb_lt. tauto.
Qed.

Definition frame_data (f : frame) : list Z := if f_pf f then tl (f_info f) else f_info f.
Definition frame_credits (f : frame) : Z := if f_pf f then hd 0 (f_info f) else 0.
Definition has_data (f : frame) : bool := negb (is_nil (frame_data f)).

Fixpoint flight_data (fs : list frame) : list Z :=
  match fs with [] => [] | f :: r => frame_data f ++ flight_data r end.
Fixpoint n_data (fs : list frame) : Z :=
  match fs with [] => 0 | f :: r => (if has_data f then 1 else 0) + n_data r end.
Fixpoint sum_credits (fs : list frame) : Z :=
  match fs with [] => 0 | f :: r => frame_credits f + sum_credits r end.

Lemma flight_data_app a b : flight_data (a ++ b) = flight_data a ++ flight_data b.
Proof. induction a; cbn; [reflexivity|]. now rewrite IHa, app_assoc. Qed.
Lemma n_data_app a b : n_data (a ++ b) = n_data a + n_data b.
Proof. induction a; cbn [n_data app]; lia. Qed.
Lemma sum_credits_app a b : sum_credits (a ++ b) = sum_credits a + sum_credits b.
Proof. induction a; cbn [sum_credits app]; lia. Qed.
Lemma n_data_nonneg a : 0 <= n_data a.
Proof. induction a; cbn [n_data]; [lia|]. destruct (has_data a); lia. Qed.

(* the frame respects the DLC's payload limit and is well-formed on the wire:
   a frame with the p/f bit has a credit byte 1..255; a frame without it carries data *)
Definition frame_wf (mtu : Z) (f : frame) : Prop :=
  Z.of_nat (length (f_info f)) <= mtu /\
  0 <= frame_credits f <= 255 /\
  (f_pf f = true -> f_info f <> [] /\ 0 < frame_credits f) /\
  (f_pf f = false -> f_info f <> []).

Lemma take_split n l : take n l ++ skipn (length (take n l)) l = l.
Proof.
  unfold take. set (k := Z.to_nat n).
  destruct (Nat.le_gt_cases k (length l)) as [H|H].
  - rewrite firstn_length_le by exact H. apply firstn_skipn.
  - rewrite firstn_all2 by lia. rewrite skipn_all. apply app_nil_r.
Qed.

Lemma take_nonempty n l : 1 <= n -> l <> [] -> take n l <> [].
Proof.
  unfold take. intros Hn Hl. destruct l as [|x l]; [congruence|].
  destruct (Z.to_nat n) eqn:E; [lia|]. cbn. congruence.
Qed.

Lemma take_length n l : 0 <= n -> Z.of_nat (length (take n l)) <= n.
Proof. unfold take. intros Hn. rewrite firstn_length. lia. Qed.

Lemma skip_take_shorter n l :
  1 <= n -> l <> [] -> (length (skipn (length (take n l)) l) < length l)%nat.
Proof.
  intros Hn Hl. pose proof (take_nonempty n l Hn Hl) as Hne.
  pose proof (take_split n l) as Hs. apply (f_equal (@length Z)) in Hs.
  rewrite app_length in Hs. destruct (take n l); [congruence|]. cbn [length] in *. lia.
Qed.

Lemma is_nil_false {A} (l : list A) : is_nil l = false <-> l <> [].
Proof. destruct l; cbn; split; congruence. Qed.
Lemma is_nil_true {A} (l : list A) : is_nil l = true <-> l = [].
Proof. destruct l; cbn; split; congruence. Qed.

Definition need_eff (need : Z) : Z := if 0 <? need then need else 0.

(* the parts of the potential [phi] (below) that the transmit loop touches: 3 per byte still
   buffered; a frame weighs 2 if it carries data, 1 if it carries credits only *)
Definition fw (f : frame) : Z := if has_data f then 2 else 1.
Fixpoint weight (fs : list frame) : Z :=
  match fs with [] => 0 | f :: r => fw f + weight r end.
Definition blen (d : dlc) : Z := Z.of_nat (length (d_tx_buf d)).

(* one iteration: the frame carries the credits owed and, when data can be sent, a
   non-empty slice of the buffer against one transmit credit *)
Lemma ptx_iter_some d need d1 fr :
  2 <= d_mtu d -> 0 <= d_tx_credits d -> need <= 255 ->
  ptx_iter d need = Some (d1, fr) ->
  d_mtu d1 = d_mtu d /\
  frame_data fr ++ d_tx_buf d1 = d_tx_buf d /\
  d_tx_credits d1 = d_tx_credits d - (if has_data fr then 1 else 0) /\
  0 <= d_tx_credits d1 /\
  d_rx_credits d1 = d_rx_credits d + need_eff need /\
  frame_credits fr = need_eff need /\
  frame_wf (d_mtu d) fr /\
  if has_data fr then (length (d_tx_buf d1) < length (d_tx_buf d))%nat
  else 0 < need /\ d_tx_buf d1 = d_tx_buf d.
Proof.
  intros Hmtu Htx Hneed. unfold ptx_iter, need_eff.
  destruct (is_nil (d_tx_buf d)) eqn:Eb; [|apply is_nil_false in Eb];
    (destruct (0 <? d_tx_credits d) eqn:Et; [apply Z.ltb_lt in Et|]);
    (destruct (0 <? need) eqn:En; [apply Z.ltb_lt in En|]);
    cbn [negb andb orb]; try discriminate; intros [= <- <-].
  (* a frame that only carries credits *)
  1, 2, 5: unfold frame_wf, has_data, frame_data, frame_credits; cbn;
    repeat split; try lia; congruence.
  (* a slice of the buffer, with or without a credit byte in front *)
  all: match goal with |- context [take ?n _] =>
         pose proof (take_nonempty n _ ltac:(lia) Eb) as Hne;
         pose proof (take_length n (d_tx_buf d) ltac:(lia)) as Hl;
         pose proof (skip_take_shorter n _ ltac:(lia) Eb) as Hs;
         pose proof (take_split n (d_tx_buf d)) as Hsp
       end;
    unfold frame_wf, has_data, frame_data, frame_credits;
    cbn [f_pf f_info tl hd length d_mtu d_tx_credits d_rx_credits d_tx_buf] in *;
    rewrite (proj2 (is_nil_false _) Hne); cbn [negb];
    repeat split; try assumption; try lia; congruence.
Qed.

Lemma ptx_iter_none d need :
  ptx_iter d need = None -> (0 <? need) = false /\ (d_tx_buf d = [] \/ d_tx_credits d <= 0).
Proof.
  unfold ptx_iter.
  destruct (is_nil (d_tx_buf d)) eqn:Eb; [apply is_nil_true in Eb|];
    (destruct (0 <? d_tx_credits d) eqn:Et; [|apply Z.ltb_ge in Et]);
    destruct (0 <? need); cbn [negb andb orb]; try discriminate; auto.
Qed.

Lemma ptx_loop_spec : forall fuel d need,
  2 <= d_mtu d -> 0 <= d_tx_credits d -> need <= 255 ->
  (length (d_tx_buf d) + 1 + (if (0 <? need)%Z then 1 else 0) <= fuel)%nat ->
  let '(d', frs, ok) := ptx_loop fuel d need in
  ok = true /\
  d_mtu d' = d_mtu d /\
  flight_data frs ++ d_tx_buf d' = d_tx_buf d /\
  d_tx_credits d' = d_tx_credits d - n_data frs /\
  0 <= d_tx_credits d' /\
  d_rx_credits d' = d_rx_credits d + need_eff need /\
  sum_credits frs = need_eff need /\
  (d_tx_buf d' = [] \/ d_tx_credits d' = 0) /\
  Forall (frame_wf (d_mtu d)) frs /\
  weight frs + 3 * blen d' <= 3 * blen d + (if 0 <? need then 1 else 0).
Proof.
  induction fuel as [|fuel IH]; intros d need Hmtu Htx Hneed Hfuel; [exfalso; lia|].
  cbn [ptx_loop]. destruct (ptx_iter d need) as [[d1 fr]|] eqn:Ei.
  - apply ptx_iter_some in Ei as (Em & Ed & Et & Et0 & Er & Ec & Ew & Hsz); try assumption.
    (* the rest of the loop runs without credits to give; a credit-only frame is paid for
       by the extra unit of fuel that [0 < need] brought *)
    specialize (IH d1 0). change (0 <? 0) with false in IH.
    assert (Hf : (length (d_tx_buf d1) + 1 + 0 <= fuel)%nat).
    { destruct (has_data fr); [lia|]. destruct Hsz as [Hn ->].
      rewrite (proj2 (Z.ltb_lt 0 need) Hn) in Hfuel. lia. }
    specialize (IH ltac:(lia) Et0 ltac:(lia) Hf).
    destruct (ptx_loop fuel d1 0) as [[d2 frs] ok].
    destruct IH as (Hok & Hm & Hd & Ht & Ht0 & Hr & Hs & Hz & Hw & Hwt).
    change (need_eff 0) with 0 in *. rewrite Em in *.
    cbn [flight_data n_data sum_credits weight]. unfold fw, blen in *.
    repeat split; try assumption; try lia.
    + rewrite <- app_assoc, Hd. exact Ed.
    + constructor; assumption.
    + destruct (has_data fr); [destruct (0 <? need); lia|]. destruct Hsz as [Hn E].
      rewrite E in *. rewrite (proj2 (Z.ltb_lt 0 need) Hn). lia.
  - apply ptx_iter_none in Ei as [En Hz]. unfold need_eff. rewrite En.
    repeat split; cbn; try lia; [|constructor]. destruct Hz; [left; assumption|right; lia].
Qed.

Definition owes (P : params) (rx : Z) : Z := if rx <=? p_threshold P then 2 else 0.

(* after process_tx the receive ledger is above the threshold *)
Lemma process_tx_spec P d :
  wf_params P -> 2 <= d_mtu d -> 0 <= d_tx_credits d -> 0 <= d_rx_credits d ->
  let '(d', frs, ok) := process_tx P d in
  ok = true /\
  d_mtu d' = d_mtu d /\
  flight_data frs ++ d_tx_buf d' = d_tx_buf d /\
  d_tx_credits d' = d_tx_credits d - n_data frs /\
  0 <= d_tx_credits d' /\
  d_rx_credits d' = d_rx_credits d + sum_credits frs /\
  0 <= sum_credits frs /\
  p_threshold P < d_rx_credits d' /\
  (d_tx_buf d' = [] \/ d_tx_credits d' = 0) /\
  Forall (frame_wf (d_mtu d)) frs /\
  weight frs + 3 * blen d' + owes P (d_rx_credits d') + (if d_rx_credits d <=? p_threshold P then 1 else 0)
  <= 3 * blen d + owes P (d_rx_credits d).
Proof.
  intros (HP1 & HP2 & HP3) Hmtu Htx Hrx. unfold process_tx.
  assert (Hn : needed P d = if d_rx_credits d <=? p_threshold P then p_max_credits P - d_rx_credits d else 0)
    by reflexivity.
  pose proof (ptx_loop_spec (S (S (length (d_tx_buf d)))) d (needed P d) Hmtu Htx) as H.
  destruct (ptx_loop (S (S (length (d_tx_buf d)))) d (needed P d)) as [[d' frs] ok].
  unfold need_eff, owes in *. rewrite Hn in H.
  (* at or below the threshold the loop starts with credits to give, above it with none *)
  destruct (d_rx_credits d <=? p_threshold P) eqn:E;
    [apply Z.leb_le in E; rewrite (proj2 (Z.ltb_lt 0 (p_max_credits P - d_rx_credits d))) in H by lia
    |apply Z.leb_gt in E; change (0 <? 0) with false in H].
  all: destruct H as (Hok & Hm & Hd & Ht & Ht0 & Hr & Hs & Hz & Hw & Hwt); [lia..|];
    rewrite (proj2 (Z.leb_gt (d_rx_credits d') _)) by lia;
    repeat split; try assumption; lia.
Qed.

(* on_uih_frame at a receiver that has a credit left: the credits the frame brings are
   added, data costs one receive credit, then process_tx *)
Lemma dlc_on_uih_eq P R f :
  1 <= d_rx_credits R ->
  dlc_on_uih P R f =
  let '(R', frs, ok) :=
    process_tx P (mkDlc (d_mtu R) (d_tx_credits R + frame_credits f)
                        (d_rx_credits R - (if has_data f then 1 else 0)) (d_tx_buf R)) in
  (R', frs, frame_data f, ok).
Proof.
  intros Hrx. unfold dlc_on_uih, has_data, frame_data, frame_credits.
  rewrite (proj2 (Z.ltb_lt 0 _)) by lia.
  destruct (f_pf f); cbn beta iota; destruct (is_nil _); cbn [negb];
    rewrite ?Z.add_0_r, ?Z.sub_0_r; reflexivity.
Qed.

(* The invariant of one direction of the two-party system.
   S is the sender of this direction, R its receiver, fwd the frames in flight
   S -> R, back the frames in flight R -> S (they carry the credits for this
   direction), wr everything written at S so far, rc everything R's sink got. *)
Record dinv (P : params) (S R : dlc) (fwd back : list frame) (wr rc : list Z) : Prop := mkDinv {
  di_stream : rc ++ flight_data fwd ++ d_tx_buf S = wr;
  di_ledger : d_tx_credits S + n_data fwd + sum_credits back = d_rx_credits R;
  di_tx : 0 <= d_tx_credits S;
  di_idle : d_tx_buf S = [] \/ d_tx_credits S = 0;
  di_rx : 1 <= d_rx_credits R;
  di_back : Forall (fun f => 0 <= frame_credits f) back;
  di_fwd : Forall (frame_wf (d_mtu S)) fwd;
  di_mtu : 2 <= d_mtu S
}.

Lemma frame_wf_credits mtu fs :
  Forall (frame_wf mtu) fs -> Forall (fun f => 0 <= frame_credits f) fs.
Proof. intros H. eapply Forall_impl; [|exact H]. intros f (_ & Hc & _). lia. Qed.

(* a: the sender writes *)
Lemma dinv_sender_write P S R fwd back wr rc data :
  wf_params P -> dinv P S R fwd back wr rc -> 0 <= d_rx_credits S ->
  let '(S', frs, ok) := dlc_write P S data in
  ok = true /\ dinv P S' R (fwd ++ frs) back (wr ++ data) rc /\
  d_rx_credits S' = d_rx_credits S + sum_credits frs /\ 0 <= sum_credits frs /\
  p_threshold P < d_rx_credits S' /\ Forall (frame_wf (d_mtu S)) frs /\ d_mtu S' = d_mtu S.
Proof.
  intros HP [Hst Hl Htx Hid Hrx Hb Hf Hm] HrS. unfold dlc_write.
  set (S1 := mkDlc (d_mtu S) (d_tx_credits S) (d_rx_credits S) (d_tx_buf S ++ data)).
  pose proof (process_tx_spec P S1 HP ltac:(cbn; lia) ltac:(cbn; lia) ltac:(cbn; lia)) as H.
  destruct (process_tx P S1) as [[S' frs] ok].
  destruct H as (Hok & Hm' & Hd & Ht & Ht0 & Hr & Hs & Hthr & Hz & Hw & _).
  cbn [d_mtu d_tx_credits d_rx_credits d_tx_buf S1] in *.
  repeat split; try assumption; try lia.
  - rewrite flight_data_app, <- !app_assoc, Hd, <- Hst, <- !app_assoc. reflexivity.
  - rewrite n_data_app. lia.
  - rewrite Hm'. apply Forall_app. split; assumption.
Qed.

(* b: the receiver of this direction writes (it may grant credits) *)
Lemma dinv_receiver_emit P S R R' fwd back wr rc frs :
  dinv P S R fwd back wr rc ->
  d_rx_credits R' = d_rx_credits R + sum_credits frs -> 0 <= sum_credits frs ->
  Forall (fun f => 0 <= frame_credits f) frs ->
  dinv P S R' fwd (back ++ frs) wr rc.
Proof.
  intros [Hst Hl Htx Hid Hrx Hb Hf Hm] Hr Hs Hc.
  constructor; try assumption.
  - rewrite sum_credits_app. lia.
  - lia.
  - apply Forall_app. split; assumption.
Qed.

(* c: the head of fwd is delivered to the receiver *)
Lemma dinv_deliver_fwd P S R f fwd back wr rc :
  wf_params P -> dinv P S R (f :: fwd) back wr rc ->
  2 <= d_mtu R -> 0 <= d_tx_credits R -> 0 <= frame_credits f ->
  let '(R', frs, data, ok) := dlc_on_uih P R f in
  ok = true /\ data = frame_data f /\
  dinv P S R' fwd (back ++ frs) wr (rc ++ data) /\
  (has_data f = true -> 0 < d_rx_credits R) /\
  (* what the step means for the other direction, where R is the sender *)
  d_mtu R' = d_mtu R /\
  flight_data frs ++ d_tx_buf R' = d_tx_buf R /\
  d_tx_credits R' = d_tx_credits R + frame_credits f - n_data frs /\
  0 <= d_tx_credits R' /\
  (d_tx_buf R' = [] \/ d_tx_credits R' = 0) /\
  Forall (frame_wf (d_mtu R)) frs.
Proof.
  intros HP [Hst Hl Htx Hid Hrx Hb Hf Hm] HmR HtR Hcf. rewrite dlc_on_uih_eq by exact Hrx.
  set (R1 := mkDlc _ _ _ _).
  pose proof (process_tx_spec P R1 HP ltac:(cbn; lia) ltac:(cbn; lia)
                ltac:(cbn; destruct (has_data f); lia)) as H.
  destruct (process_tx P R1) as [[R' frs] ok].
  destruct H as (Hok & Hm' & Hd & Ht & Ht0 & Hr & Hs & Hthr & Hz & Hw & _).
  cbn [d_mtu d_tx_credits d_rx_credits d_tx_buf R1] in *.
  pose proof (Forall_inv_tail Hf) as Hf'.
  destruct HP as (HP1 & HP2 & HP3).
  repeat split; try assumption; try lia.
  - cbn [flight_data] in Hst. rewrite <- Hst, <- !app_assoc. reflexivity.
  - cbn [n_data] in Hl. rewrite sum_credits_app. destruct (has_data f); lia.
  - apply Forall_app. split; [exact Hb|]. apply (frame_wf_credits (d_mtu R)). exact Hw.
Qed.

(* d: the head of back is delivered to the sender (credits arrive) *)
Lemma dinv_deliver_back P S S' R f fwd back wr rc frs :
  dinv P S R fwd (f :: back) wr rc ->
  d_mtu S' = d_mtu S ->
  flight_data frs ++ d_tx_buf S' = d_tx_buf S ->
  d_tx_credits S' = d_tx_credits S + frame_credits f - n_data frs ->
  0 <= d_tx_credits S' ->
  (d_tx_buf S' = [] \/ d_tx_credits S' = 0) ->
  Forall (frame_wf (d_mtu S)) frs ->
  dinv P S' R (fwd ++ frs) back wr rc.
Proof.
  intros [Hst Hl Htx Hid Hrx Hb Hf Hm] Hm' Hd Ht Ht0 Hz Hw.
  pose proof (Forall_inv Hb) as Hc. pose proof (Forall_inv_tail Hb) as Hb'. cbn beta in Hc.
  constructor; try assumption.
  - rewrite flight_data_app, <- app_assoc, Hd. exact Hst.
  - rewrite n_data_app. cbn [sum_credits] in Hl. lia.
  - rewrite Hm'. apply Forall_app. split; assumption.
  - lia.
Qed.

Fixpoint writes_a (ls : list label) : list Z :=
  match ls with
  | [] => [] | WriteA d :: r => d ++ writes_a r | _ :: r => writes_a r end.
Fixpoint writes_b (ls : list label) : list Z :=
  match ls with
  | [] => [] | WriteB d :: r => d ++ writes_b r | _ :: r => writes_b r end.

Record inv (P : params) (wa wb : list Z) (s : sys) : Prop := mkInv {
  inv_ab : dinv P (s_a s) (s_b s) (s_ab s) (s_ba s) wa (s_rcv_b s);
  inv_ba : dinv P (s_b s) (s_a s) (s_ba s) (s_ab s) wb (s_rcv_a s);
  inv_ok : s_ok s = true
}.

Definition label_writes_a (l : label) := match l with WriteA d => d | _ => [] end.
Definition label_writes_b (l : label) := match l with WriteB d => d | _ => [] end.

(* The two ends play the same part: what is proved about WriteA and DeliverAB holds of
   WriteB and DeliverBA in the system with the ends exchanged *)
Definition swap (s : sys) : sys :=
  mkSys (s_b s) (s_a s) (s_ba s) (s_ab s) (s_rcv_b s) (s_rcv_a s) (s_ok s).

Definition swap_label (l : label) : label :=
  match l with
  | WriteA d => WriteB d | WriteB d => WriteA d | DeliverAB => DeliverBA | DeliverBA => DeliverAB
  end.

Lemma step_swap P s l : step P (swap s) (swap_label l) = swap (step P s l).
Proof.
  destruct l as [data|data| |]; cbn [step swap swap_label s_a s_b s_ab s_ba].
  - destruct (dlc_write P (s_a s) data) as [[d' frs] ok]; reflexivity.
  - destruct (dlc_write P (s_b s) data) as [[d' frs] ok]; reflexivity.
  - destruct (s_ab s) as [|f r]; [reflexivity|].
    destruct (dlc_on_uih P (s_b s) f) as [[[d' frs] data] ok]; reflexivity.
  - destruct (s_ba s) as [|f r]; [reflexivity|].
    destruct (dlc_on_uih P (s_a s) f) as [[[d' frs] data] ok]; reflexivity.
Qed.

Lemma inv_swap P wa wb s : inv P wa wb s <-> inv P wb wa (swap s).
Proof. split; intros [Hab Hba Hok]; constructor; assumption. Qed.

Lemma write_a_inv P wa wb s data :
  wf_params P -> inv P wa wb s -> inv P (wa ++ data) wb (step P s (WriteA data)).
Proof.
  intros HP [Hab Hba Hok]. cbn [step].
  pose proof (dinv_sender_write P _ _ _ _ _ _ data HP Hab
                ltac:(pose proof (di_rx _ _ _ _ _ _ _ Hba); lia)) as H.
  destruct (dlc_write P (s_a s) data) as [[a' frs] ok].
  destruct H as (Hok' & Hd & Hr & Hs & _ & Hw & _).
  constructor; cbn.
  - exact Hd.
  - eapply dinv_receiver_emit; eauto. eapply frame_wf_credits; eauto.
  - rewrite Hok, Hok'. reflexivity.
Qed.

Lemma deliver_ab_inv P wa wb s :
  wf_params P -> inv P wa wb s -> inv P wa wb (step P s DeliverAB).
Proof.
  intros HP [Hab Hba Hok]. cbn [step]. destruct (s_ab s) as [|f rest] eqn:Eab.
  - constructor; rewrite ?Eab; assumption.
  - assert (Hcf : 0 <= frame_credits f).
    { pose proof (di_back _ _ _ _ _ _ _ Hba) as Hb. inversion Hb; assumption. }
    pose proof (dinv_deliver_fwd P _ _ _ _ _ _ _ HP Hab (di_mtu _ _ _ _ _ _ _ Hba)
                  (di_tx _ _ _ _ _ _ _ Hba) Hcf) as H.
    destruct (dlc_on_uih P (s_b s) f) as [[[b' frs] data] ok].
    destruct H as (Hok' & Hdata & Hd & _ & Hm & Hfl & Ht & Ht0 & Hz & Hw).
    constructor; cbn.
    + exact Hd.
    + eapply dinv_deliver_back; eauto.
    + rewrite Hok, Hok'. reflexivity.
Qed.

Lemma step_inv P wa wb s l :
  wf_params P -> inv P wa wb s ->
  inv P (wa ++ label_writes_a l) (wb ++ label_writes_b l) (step P s l).
Proof.
  intros HP Hi. destruct l as [data|data| |]; cbn [label_writes_a label_writes_b];
    rewrite ?app_nil_r.
  - apply write_a_inv; assumption.
  - apply inv_swap. rewrite <- (step_swap P s (WriteB data)).
    apply write_a_inv; [|apply inv_swap in Hi]; assumption.
  - apply deliver_ab_inv; assumption.
  - apply inv_swap. rewrite <- (step_swap P s DeliverBA).
    apply deliver_ab_inv; [|apply inv_swap in Hi]; assumption.
Qed.

Lemma writes_a_cons l ls : writes_a (l :: ls) = label_writes_a l ++ writes_a ls.
Proof. destruct l; reflexivity. Qed.
Lemma writes_b_cons l ls : writes_b (l :: ls) = label_writes_b l ++ writes_b ls.
Proof. destruct l; reflexivity. Qed.

Lemma writes_a_app l1 l2 : writes_a (l1 ++ l2) = writes_a l1 ++ writes_a l2.
Proof.
  induction l1 as [|l r IH]; [reflexivity|]. cbn [app]. now rewrite !writes_a_cons, IH, app_assoc.
Qed.
Lemma writes_b_app l1 l2 : writes_b (l1 ++ l2) = writes_b l1 ++ writes_b l2.
Proof.
  induction l1 as [|l r IH]; [reflexivity|]. cbn [app]. now rewrite !writes_b_cons, IH, app_assoc.
Qed.

Lemma run_app P s l1 l2 : run P s (l1 ++ l2) = run P (run P s l1) l2.
Proof. revert s. induction l1; intros s; cbn; auto. Qed.

Lemma run_inv P ls : forall wa wb s,
  wf_params P -> inv P wa wb s ->
  inv P (wa ++ writes_a ls) (wb ++ writes_b ls) (run P s ls).
Proof.
  induction ls as [|l ls IH]; intros wa wb s HP Hi; cbn [run].
  - cbn. now rewrite !app_nil_r.
  - rewrite writes_a_cons, writes_b_cons, !app_assoc.
    apply IH; [exact HP|]. apply step_inv; assumption.
Qed.

Lemma ptx_loop_mtu fuel : forall d need, d_mtu (fst (fst (ptx_loop fuel d need))) = d_mtu d.
Proof.
  induction fuel as [|fuel IH]; intros d need; [reflexivity|]. cbn [ptx_loop].
  destruct (ptx_iter d need) as [[d1 fr]|] eqn:E; [|reflexivity].
  specialize (IH d1 0). destruct (ptx_loop fuel d1 0) as [[d2 frs] ok]. cbn [fst] in *.
  rewrite IH. unfold ptx_iter in E. destruct (_ || _); [|discriminate].
  destruct (0 <? need); [destruct (_ && _)|]; injection E as <- _; reflexivity.
Qed.

Lemma dlc_write_mtu P d data : d_mtu (fst (fst (dlc_write P d data))) = d_mtu d.
Proof. exact (ptx_loop_mtu _ _ _). Qed.

Lemma dlc_on_uih_mtu P d f : d_mtu (fst (fst (fst (dlc_on_uih P d f)))) = d_mtu d.
Proof.
  unfold dlc_on_uih, process_tx. destruct (f_pf f); cbn beta iota zeta;
    match goal with |- context [ptx_loop ?n ?x ?k] =>
      pose proof (ptx_loop_mtu n x k) as H; destruct (ptx_loop n x k) as [[d' frs] ok] end;
    exact H.
Qed.

Lemma step_mtu P s l :
  d_mtu (s_a (step P s l)) = d_mtu (s_a s) /\ d_mtu (s_b (step P s l)) = d_mtu (s_b s).
Proof.
  destruct l as [data|data| |]; cbn [step].
  - pose proof (dlc_write_mtu P (s_a s) data) as H.
    destruct (dlc_write P (s_a s) data) as [[a' frs] ok]. split; [exact H|reflexivity].
  - pose proof (dlc_write_mtu P (s_b s) data) as H.
    destruct (dlc_write P (s_b s) data) as [[b' frs] ok]. split; [reflexivity|exact H].
  - destruct (s_ab s) as [|f rest]; [split; reflexivity|].
    pose proof (dlc_on_uih_mtu P (s_b s) f) as H.
    destruct (dlc_on_uih P (s_b s) f) as [[[b' frs] data] ok]. split; [reflexivity|exact H].
  - destruct (s_ba s) as [|f rest]; [split; reflexivity|].
    pose proof (dlc_on_uih_mtu P (s_a s) f) as H.
    destruct (dlc_on_uih P (s_a s) f) as [[[a' frs] data] ok]. split; [exact H|reflexivity].
Qed.

Lemma run_mtu P ls : forall s,
  d_mtu (s_a (run P s ls)) = d_mtu (s_a s) /\ d_mtu (s_b (run P s ls)) = d_mtu (s_b s).
Proof.
  induction ls as [|l ls IH]; intros s; [split; reflexivity|]. cbn [run].
  destruct (IH (step P s l)) as [Ea Eb], (step_mtu P s l) as [Fa Fb]. split; congruence.
Qed.

Definition wf_pn_b (p : pn) : bool :=
  (23 <=? pn_mfs p) && (pn_mfs p <=? 32767) && (1 <=? pn_credits p) && (pn_credits p <=? 7).
Definition wf_l2cap_mtu_b (m : Z) : bool := (48 <=? m) && (m <=? 65535).

Definition wf_setup_b (ini rsp : pn) (mtu_i mtu_r : Z) : bool :=
  wf_pn_b ini && wf_pn_b rsp && wf_l2cap_mtu_b mtu_i && wf_l2cap_mtu_b mtu_r.

Lemma wf_pn_b_ok p : wf_pn_b p = true ->
  23 <= pn_mfs p <= 32767 /\ 1 <= pn_credits p <= 7.
Proof. unfold wf_pn_b. rewrite !andb_true_iff, !Z.leb_le. tauto. Qed.

(* such a pair survives the 16-bit / 3-bit fields of the PN message *)
Lemma pn_wire_id' p : 1 <= pn_credits p <= 7 -> 23 <= pn_mfs p <= 32767 -> pn_wire p = p.
Proof.
  intros Hc Hm. unfold pn_wire. destruct p as [m c]. cbn in *.
  rewrite !Z.mod_small by lia. reflexivity.
Qed.

Lemma pn_wire_id p : wf_pn_b p = true -> pn_wire p = p.
Proof. intros H. apply wf_pn_b_ok in H. now apply pn_wire_id'. Qed.

Lemma wf_setup_b_ok ini rsp mtu_i mtu_r :
  wf_setup_b ini rsp mtu_i mtu_r = true ->
  wf_pn_b ini = true /\ wf_pn_b rsp = true /\ 48 <= mtu_i <= 65535 /\ 48 <= mtu_r <= 65535.
Proof.
  unfold wf_setup_b, wf_l2cap_mtu_b. rewrite !andb_true_iff, !Z.leb_le. tauto.
Qed.

(* what the theorems need of a data link: initial credits 1..7 on each side, and each
   side's maximum frame size acceptable to the other in the sense of
   Multiplexer.acceptable_frame_size - exactly the links the code lets come up *)
Definition credits_ok_b (p : pn) : bool := (1 <=? pn_credits p) && (pn_credits p <=? 7).

Definition wf_link_b (ini rsp : pn) (mtu_i mtu_r : Z) : bool :=
  credits_ok_b ini && credits_ok_b rsp &&
  acceptable (pn_mfs ini) mtu_i && acceptable (pn_mfs rsp) mtu_r.

Lemma acceptable_ok n m : acceptable n m = true -> 23 <= n <= 32767 /\ 28 <= m.
Proof. unfold acceptable. rewrite andb_true_iff, !Z.leb_le. lia. Qed.

Lemma wf_link_b_ok ini rsp mtu_i mtu_r :
  wf_link_b ini rsp mtu_i mtu_r = true ->
  (1 <= pn_credits ini <= 7) /\ (1 <= pn_credits rsp <= 7) /\
  (23 <= pn_mfs ini <= 32767) /\ (23 <= pn_mfs rsp <= 32767) /\ 28 <= mtu_i /\ 28 <= mtu_r.
Proof.
  unfold wf_link_b, credits_ok_b. rewrite !andb_true_iff, !Z.leb_le.
  intros [[[Hi Hr] Ai] Ar]. apply acceptable_ok in Ai, Ar. lia.
Qed.

(* the parameter ranges of the property text are a special case *)
Lemma wf_setup_implies_link ini rsp mtu_i mtu_r :
  wf_setup_b ini rsp mtu_i mtu_r = true -> wf_link_b ini rsp mtu_i mtu_r = true.
Proof.
  intros H. apply wf_setup_b_ok in H as (Hi & Hr & Hmi & Hmr).
  apply wf_pn_b_ok in Hi, Hr. unfold wf_link_b, credits_ok_b, acceptable.
  repeat (apply andb_true_intro; split); apply Z.leb_le; lia.
Qed.

(* on such a link the PN fields carry the configured pairs unchanged *)
Lemma setup_eq ini rsp mtu_i mtu_r :
  wf_link_b ini rsp mtu_i mtu_r = true ->
  setup ini rsp mtu_i mtu_r = mkSys (mk_dlc rsp ini mtu_r) (mk_dlc ini rsp mtu_i) [] [] [] [] true.
Proof.
  intros H. apply wf_link_b_ok in H as (Hci & Hcr & Hmi & Hmr & _).
  unfold setup. rewrite !pn_wire_id' by assumption. reflexivity.
Qed.

Lemma setup_inv P ini rsp mtu_i mtu_r :
  wf_link_b ini rsp mtu_i mtu_r = true -> inv P [] [] (setup ini rsp mtu_i mtu_r).
Proof.
  intros H. rewrite (setup_eq _ _ _ _ H).
  apply wf_link_b_ok in H as (Hci & Hcr & Hmi & Hmr & Hli & Hlr).
  constructor; cbn; [| |reflexivity]; constructor; cbn; try lia; auto.
Qed.

Section Reachable.
  Variable P : params.
  Variables ini rsp : pn.
  Variables mtu_i mtu_r : Z.
  Hypothesis HP : wf_params_b P = true.
  Hypothesis Hwf : wf_link_b ini rsp mtu_i mtu_r = true.

  Let s0 := setup ini rsp mtu_i mtu_r.

  Lemma reach_inv ls : inv P (writes_a ls) (writes_b ls) (run P s0 ls).
  Proof.
    apply (run_inv P ls [] [] s0 (wf_params_b_ok P HP)). apply setup_inv. exact Hwf.
  Qed.

  (* stream_exact: received ++ in flight ++ not yet sent = written, both directions *)
  Lemma stream_exact ls :
    let s := run P s0 ls in
    s_rcv_b s ++ flight_data (s_ab s) ++ d_tx_buf (s_a s) = writes_a ls /\
    s_rcv_a s ++ flight_data (s_ba s) ++ d_tx_buf (s_b s) = writes_b ls.
  Proof.
    destruct (reach_inv ls) as [Hab Hba _]. split; [apply Hab|apply Hba].
  Qed.

  (* the data path never runs out of the fuel the model gives process_tx *)
  Lemma fuel_ok ls : s_ok (run P s0 ls) = true.
  Proof. apply (reach_inv ls). Qed.

  (* payload_le_max: every frame in flight fits the receiver's declared maximum
     frame size and the L2CAP MTU the receiver announced minus the 5-byte envelope;
     frames with the credit bit carry a credit byte 1..255 *)
  Lemma payload_le_max ls :
    let s := run P s0 ls in
    Forall (fun f => Z.of_nat (length (f_info f)) <= Z.min (pn_mfs rsp) (mtu_r - 5)
                     /\ frame_wf (d_mtu (s_a s0)) f) (s_ab s) /\
    Forall (fun f => Z.of_nat (length (f_info f)) <= Z.min (pn_mfs ini) (mtu_i - 5)
                     /\ frame_wf (d_mtu (s_b s0)) f) (s_ba s).
  Proof.
    destruct (reach_inv ls) as [Hab Hba _]. destruct (run_mtu P ls s0) as [Ea Eb].
    pose proof (di_fwd _ _ _ _ _ _ _ Hab) as Ha. pose proof (di_fwd _ _ _ _ _ _ _ Hba) as Hb.
    rewrite Ea in Ha. rewrite Eb in Hb.
    unfold s0 in *. rewrite (setup_eq _ _ _ _ Hwf) in *. cbn [s_a s_b mk_dlc d_mtu] in *.
    split; (eapply Forall_impl; [|eassumption]); intros f Hf; (split; [apply Hf|exact Hf]).
  Qed.

  (* credit_safe: the ledger invariant; a sender's credit count is never negative
     (process_tx only spends a credit it has), the receiver's count is at least 1, and
     a data frame at the head of a channel always finds a receive credit *)
  Lemma credit_safe ls :
    let s := run P s0 ls in
    d_tx_credits (s_a s) + n_data (s_ab s) + sum_credits (s_ba s) = d_rx_credits (s_b s) /\
    d_tx_credits (s_b s) + n_data (s_ba s) + sum_credits (s_ab s) = d_rx_credits (s_a s) /\
    0 <= d_tx_credits (s_a s) /\ 0 <= d_tx_credits (s_b s) /\
    1 <= d_rx_credits (s_a s) /\ 1 <= d_rx_credits (s_b s).
  Proof.
    destruct (reach_inv ls) as [Hab Hba _].
    repeat split; first [apply Hab|apply Hba].
  Qed.

  (* progress: with both channels empty nothing is left unsent; everything written
     has been handed to the peer's sink *)
  Lemma progress ls :
    let s := run P s0 ls in
    s_ab s = [] -> s_ba s = [] ->
    d_tx_buf (s_a s) = [] /\ d_tx_buf (s_b s) = [] /\
    s_rcv_b s = writes_a ls /\ s_rcv_a s = writes_b ls.
  Proof.
    cbn zeta. intros Eab Eba. destruct (reach_inv ls) as [Hab Hba _].
    destruct Hab as [Hst Hl Htx Hid Hrx _ _ _]. destruct Hba as [Hst' Hl' Htx' Hid' Hrx' _ _ _].
    rewrite Eab, Eba in *. cbn [n_data sum_credits flight_data app] in *.
    assert (Ba : d_tx_buf (s_a (run P s0 ls)) = []) by (destruct Hid; [assumption|lia]).
    assert (Bb : d_tx_buf (s_b (run P s0 ls)) = []) by (destruct Hid'; [assumption|lia]).
    rewrite Ba in Hst. rewrite Bb in Hst'. rewrite app_nil_r in *. auto.
  Qed.
End Reachable.

(* Draining terminates.  The potential adds, to the weights above, 2 for a receiver whose
   ledger is at or below the threshold (it owes a credit frame).  Every enabled delivery
   lowers it by at least 1, so from any reachable state a bounded number of deliveries
   empties both channels. *)
Lemma weight_app a b : weight (a ++ b) = weight a + weight b.
Proof. induction a; cbn [weight app]; lia. Qed.
Lemma weight_nonneg a : 0 <= weight a.
Proof. induction a as [|f r IH]; cbn [weight]; [lia|]. unfold fw. destruct (has_data f); lia. Qed.

Lemma on_uih_weight P R f :
  wf_params P -> 2 <= d_mtu R -> 0 <= d_tx_credits R -> 0 <= frame_credits f -> 1 <= d_rx_credits R ->
  let '(R', frs, data, ok) := dlc_on_uih P R f in
  weight frs + 3 * blen R' + owes P (d_rx_credits R') + 1
  <= 3 * blen R + owes P (d_rx_credits R) + fw f.
Proof.
  intros HP HmR HtR Hcf Hrx. rewrite dlc_on_uih_eq by exact Hrx.
  set (R1 := mkDlc _ _ _ _).
  pose proof (process_tx_spec P R1 HP ltac:(cbn; lia) ltac:(cbn; lia)
                ltac:(cbn; destruct (has_data f); lia)) as H.
  destruct (process_tx P R1) as [[R' frs] ok].
  destruct H as (_ & _ & _ & _ & _ & _ & _ & _ & _ & _ & H).
  unfold blen in *. cbn [R1 d_tx_buf d_rx_credits] in H.
  unfold owes, fw in *.
  destruct (has_data f), (d_rx_credits R' <=? p_threshold P),
    (d_rx_credits R <=? p_threshold P) eqn:E; destruct (_ <=? p_threshold P) eqn:E1 in H;
    rewrite ?Z.leb_le, ?Z.leb_gt in E, E1; lia.
Qed.

Definition phi (P : params) (s : sys) : Z :=
  3 * blen (s_a s) + 3 * blen (s_b s) + weight (s_ab s) + weight (s_ba s)
  + owes P (d_rx_credits (s_a s)) + owes P (d_rx_credits (s_b s)).

Lemma phi_nonneg P s : 0 <= phi P s.
Proof.
  unfold phi, blen, owes. pose proof (weight_nonneg (s_ab s)). pose proof (weight_nonneg (s_ba s)).
  destruct (_ <=? _); destruct (_ <=? _); lia.
Qed.

(* an enabled delivery lowers the potential *)
Lemma deliver_ab_phi P wa wb s f rest :
  wf_params P -> inv P wa wb s -> s_ab s = f :: rest -> phi P (step P s DeliverAB) + 1 <= phi P s.
Proof.
  intros HP [Hab Hba Hok] E. cbn [step]. rewrite E.
  assert (Hcf : 0 <= frame_credits f).
  { pose proof (di_back _ _ _ _ _ _ _ Hba) as Hb. rewrite E in Hb. inversion Hb; assumption. }
  pose proof (on_uih_weight P (s_b s) f HP (di_mtu _ _ _ _ _ _ _ Hba) (di_tx _ _ _ _ _ _ _ Hba) Hcf
                (di_rx _ _ _ _ _ _ _ Hab)) as H.
  destruct (dlc_on_uih P (s_b s) f) as [[[b' frs] data] ok].
  unfold phi. cbn [s_a s_b s_ab s_ba]. rewrite E, weight_app. cbn [weight]. lia.
Qed.

Lemma phi_swap P s : phi P (swap s) = phi P s.
Proof. unfold phi. cbn [swap s_a s_b s_ab s_ba]. lia. Qed.

Lemma deliver_ba_phi P wa wb s f rest :
  wf_params P -> inv P wa wb s -> s_ba s = f :: rest -> phi P (step P s DeliverBA) + 1 <= phi P s.
Proof.
  intros HP Hi E. rewrite <- (phi_swap P s), <- (phi_swap P (step P s DeliverBA)).
  rewrite <- (step_swap P s DeliverBA). apply inv_swap in Hi.
  exact (deliver_ab_phi P wb wa (swap s) f rest HP Hi E).
Qed.

Fixpoint drain_sched (n : nat) : list label :=
  match n with O => [] | S k => DeliverAB :: DeliverBA :: drain_sched k end.

Lemma writes_a_drain n : writes_a (drain_sched n) = [].
Proof. induction n; cbn; auto. Qed.
Lemma writes_b_drain n : writes_b (drain_sched n) = [].
Proof. induction n; cbn; auto. Qed.

Lemma drain_quiescent_stays P n : forall s, s_ab s = [] -> s_ba s = [] -> run P s (drain_sched n) = s.
Proof.
  induction n as [|n IH]; intros s Ea Eb; [reflexivity|].
  cbn [drain_sched run step]. rewrite Ea. rewrite Eb. apply IH; assumption.
Qed.

(* one round of the draining schedule keeps the invariant and, unless both channels
   were empty already, lowers the potential *)
Lemma round_phi P wa wb s :
  wf_params P -> inv P wa wb s ->
  let s2 := step P (step P s DeliverAB) DeliverBA in
  inv P wa wb s2 /\ ((s_ab s = [] /\ s_ba s = []) \/ phi P s2 + 1 <= phi P s).
Proof.
  intros HP Hi. cbn zeta. set (s1 := step P s DeliverAB).
  pose proof (deliver_ab_inv P wa wb s HP Hi) as Hi1. fold s1 in Hi1.
  pose proof (step_inv P wa wb s1 DeliverBA HP Hi1) as Hi2.
  cbn [label_writes_a label_writes_b] in Hi2. rewrite !app_nil_r in Hi2.
  split; [exact Hi2|].
  assert (D2 : phi P (step P s1 DeliverBA) <= phi P s1).
  { destruct (s_ba s1) as [|g r'] eqn:Eb; [cbn [step]; rewrite Eb; lia|].
    pose proof (deliver_ba_phi P wa wb s1 g r' HP Hi1 Eb). lia. }
  destruct (s_ab s) as [|f r] eqn:Ea.
  - assert (E1 : s1 = s) by (unfold s1; cbn [step]; rewrite Ea; reflexivity).
    rewrite E1 in *. destruct (s_ba s) as [|g r'] eqn:Eb; [left; auto|right].
    exact (deliver_ba_phi P wa wb s g r' HP Hi Eb).
  - right. pose proof (deliver_ab_phi P wa wb s f r HP Hi Ea). fold s1 in H. lia.
Qed.

Lemma drains P : forall n wa wb s,
  wf_params P -> inv P wa wb s -> phi P s <= Z.of_nat n ->
  let s' := run P s (drain_sched n) in s_ab s' = [] /\ s_ba s' = [].
Proof.
  induction n as [|n IH]; intros wa wb s HP Hi Hphi; cbn zeta;
    destruct (round_phi P wa wb s HP Hi) as [Hi2 [[Ea Eb]|Hd]].
  1, 3: rewrite drain_quiescent_stays by assumption; auto.
  - pose proof (phi_nonneg P (step P (step P s DeliverAB) DeliverBA)). lia.
  - cbn [drain_sched run]. apply (IH wa wb _ HP Hi2). lia.
Qed.

(* progress, second half: from every reachable state, a bounded number of deliveries
   (and nothing else) empties both channels, at which point everything written has
   been handed to the peer's sink *)
Lemma drains_reachable P ini rsp mtu_i mtu_r ls :
  wf_params_b P = true -> wf_link_b ini rsp mtu_i mtu_r = true ->
  exists n,
    let s := run P (setup ini rsp mtu_i mtu_r) (ls ++ drain_sched n) in
    s_ab s = [] /\ s_ba s = [] /\ s_rcv_b s = writes_a ls /\ s_rcv_a s = writes_b ls.
Proof.
  intros HP Hwf.
  pose proof (reach_inv P ini rsp mtu_i mtu_r HP Hwf ls) as Hi.
  set (s1 := run P (setup ini rsp mtu_i mtu_r) ls) in *.
  exists (Z.to_nat (phi P s1)). cbn zeta. rewrite run_app. fold s1.
  pose proof (phi_nonneg P s1) as Hp.
  destruct (drains P (Z.to_nat (phi P s1)) _ _ s1 (wf_params_b_ok P HP) Hi ltac:(lia)) as [Ea Eb].
  split; [exact Ea|]. split; [exact Eb|].
  pose proof (progress P ini rsp mtu_i mtu_r HP Hwf (ls ++ drain_sched (Z.to_nat (phi P s1)))) as Hpr.
  cbn zeta in Hpr. rewrite run_app in Hpr. fold s1 in Hpr.
  destruct (Hpr Ea Eb) as (_ & _ & Hb & Ha).
  rewrite writes_a_app, writes_a_drain, app_nil_r in Hb.
  rewrite writes_b_app, writes_b_drain, app_nil_r in Ha. auto.
Qed.

(* in every reachable state in which data is queued at either end, a delivery is enabled:
   the wire is not idle (both ends never wait for each other) *)
Lemma no_mutual_wait P ini rsp mtu_i mtu_r ls :
  wf_params_b P = true -> wf_link_b ini rsp mtu_i mtu_r = true ->
  let s := run P (setup ini rsp mtu_i mtu_r) ls in
  d_tx_buf (s_a s) <> [] \/ d_tx_buf (s_b s) <> [] -> s_ab s <> [] \/ s_ba s <> [].
Proof.
  intros HP Hwf. cbn zeta. intros Hq.
  destruct (s_ab (run P (setup ini rsp mtu_i mtu_r) ls)) eqn:Ea; [|left; discriminate].
  destruct (s_ba (run P (setup ini rsp mtu_i mtu_r) ls)) eqn:Eb; [|right; discriminate].
  exfalso. destruct (progress P ini rsp mtu_i mtu_r HP Hwf ls Ea Eb) as (Ba & Bb & _).
  destruct Hq as [Hq|Hq]; contradiction.
Qed.

(* the seeded rule "withhold the credits owed while out of tx credits with data queued"
   deadlocks bulk transfers in both directions: frame size 23, 1 initial credit each way,
   1200 / 1400 bytes written at the two ends before anything is delivered *)
Definition withhold_witness : list label :=
  [WriteA (repeat 7 1200); WriteB (repeat 9 1400)] ++ drain_sched 200.

Lemma seeded_withhold_deadlocks :
  let s := run_seeded (mkParams 32 16) (setup (mkPn 23 1) (mkPn 23 1) 48 48) withhold_witness in
  s_ab s = [] /\ s_ba s = [] /\ d_tx_buf (s_a s) <> [] /\ d_tx_buf (s_b s) <> [].
Proof. vm_compute. repeat split; discriminate. Qed.

Lemma withhold_witness_ok :
  let s := run (mkParams 32 16) (setup (mkPn 23 1) (mkPn 23 1) 48 48) withhold_witness in
  s_ab s = [] /\ s_ba s = [] /\ s_rcv_b s = repeat 7 1200 /\ s_rcv_a s = repeat 9 1400.
Proof. vm_compute. repeat split. Qed.
