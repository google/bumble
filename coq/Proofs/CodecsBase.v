(* A boolean evaluated over a whole finite range ([forallb ... = true] by [vm_compute]) holds of every
   member; octet layouts with constant shifts and masks become linear arithmetic. *)
From Coq Require Import ZArith List Bool Lia.
From BV Require Import Base.Bytes Proofs.Bytes Model.CodecsBase.
Import ListNotations.
Open Scope Z_scope.

Lemma zrange_from_In : forall n lo x,
  In x (zrange_from lo n) <-> lo <= x < lo + Z.of_nat n.
Proof.
  induction n as [|n IH]; intros lo x.
  - cbn. lia.
  - cbn [zrange_from In]. rewrite IH. lia.
Qed.

Lemma zrange_In : forall n x, In x (zrange n) <-> 0 <= x < Z.of_nat n.
Proof. intros. unfold zrange. rewrite zrange_from_In. lia. Qed.

Lemma zlt_iff : forall n v, zlt n v = true <-> 0 <= v < n.
Proof. intros. unfold zlt. rewrite andb_true_iff, Z.leb_le, Z.ltb_lt. tauto. Qed.

(* lifting: a boolean checked on the whole range holds for every member *)
Lemma forall_range : forall (n : nat) (f : Z -> bool),
  forallb f (zrange n) = true -> forall x, 0 <= x < Z.of_nat n -> f x = true.
Proof.
  intros n f H x Hx. rewrite forallb_forall in H. apply H. apply zrange_In. exact Hx.
Qed.

Lemma forall2_range : forall (n m : nat) (f : Z -> Z -> bool),
  forall2b (zrange n) (zrange m) f = true ->
  forall x y, 0 <= x < Z.of_nat n -> 0 <= y < Z.of_nat m -> f x y = true.
Proof.
  intros n m f H x y Hx Hy. unfold forall2b in H.
  pose proof (forall_range n _ H x Hx) as H1. cbv beta in H1.
  exact (forall_range m _ H1 y Hy).
Qed.

Lemma byte_range : forall b, byte_ok b = true <-> 0 <= b < Z.of_nat 256.
Proof. intro b. rewrite byte_ok_iff. cbn. lia. Qed.

Lemma zlist_eqb_eq : forall a b, zlist_eqb a b = true <-> a = b.
Proof.
  induction a as [|x a IH]; intros [|y b]; cbn; split; intro H; try reflexivity; try discriminate.
  - apply andb_true_iff in H as [H1 H2]. apply Z.eqb_eq in H1. apply IH in H2. subst. reflexivity.
  - inversion H; subst. rewrite Z.eqb_refl. cbn. apply IH. reflexivity.
Qed.

Lemma lenZ_app : forall (A : Type) (a b : list A), lenZ (a ++ b) = lenZ a + lenZ b.
Proof. intros. unfold lenZ. rewrite app_length. lia. Qed.

Lemma lenZ_nonneg : forall (A : Type) (a : list A), 0 <= lenZ a.
Proof. intros. unfold lenZ. lia. Qed.

Lemma bytes_ok_forall : forall bs, bytes_ok bs = true <-> (forall b, In b bs -> 0 <= b < 256).
Proof.
  intro bs. unfold bytes_ok. rewrite forallb_forall. split; intros H b Hb.
  - apply byte_ok_iff. auto.
  - apply byte_ok_iff. auto.
Qed.

(* Bit fields at constant offsets: shifts become multiplication and division by constants (masks are
   rewritten by the caller, [rewrite (Z.land_ones _ k)]), and the rest is linear arithmetic. *)
Ltac bits_lia :=
  rewrite ?Z.shiftr_div_pow2, ?Z.shiftl_mul_pow2 by lia; Z.div_mod_to_equations; lia.

(* inversion lemmas that do not reduce the terms (unlike [inversion] / [injection]) *)
Lemma some_inv : forall (A : Type) (a a' : A), Some a = Some a' -> a = a'.
Proof. intros. congruence. Qed.
Lemma some_pair_inv : forall (A B : Type) (a a' : A) (b b' : B),
  Some (a, b) = Some (a', b') -> a = a' /\ b = b'.
Proof. intros. split; congruence. Qed.
Lemma some_quad_inv : forall (A B C D : Type) (a a' : A) (b b' : B) (c c' : C) (d d' : D),
  Some (a, b, c, d) = Some (a', b', c', d') -> a = a' /\ b = b' /\ c = c' /\ d = d'.
Proof. intros. repeat split; congruence. Qed.
