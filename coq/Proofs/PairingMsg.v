(* Lemmas about the message-level model Model/PairingMsg.v (property C13): every schedule of
   deliveries and user answers keeps the invariant [minv]; the exploration that establishes it is
   a verified reachability check. *)
From Coq Require Import ZArith List Bool Lia.
From BV Require Import Gen.C13Tables Model.Pairing Model.PairingMsg.
Import ListNotations.
Open Scope Z_scope.

Lemma zl_eqb_eq : forall a b, zl_eqb a b = true -> a = b.
Proof.
  induction a as [|x a IH]; destruct b as [|y b]; simpl; try discriminate; auto.
  intro H. apply andb_true_iff in H. destruct H as [H1 H2].
  apply Z.eqb_eq in H1. subst. f_equal. auto.
Qed.

Lemma mside_eqb_eq : forall a b, mside_eqb a b = true -> a = b.
Proof.
  intros a b H. unfold mside_eqb in H.
  repeat match goal with
  | H : _ && _ = true |- _ => apply andb_true_iff in H; destruct H
  end.
  repeat match goal with
  | H : (_ =? _) = true |- _ => apply Z.eqb_eq in H
  | H : Bool.eqb _ _ = true |- _ => apply eqb_prop in H
  | H : zl_eqb _ _ = true |- _ => apply zl_eqb_eq in H
  end.
  destruct a, b; simpl in *; subst; reflexivity.
Qed.

Lemma mstate_eqb_forget : forall a b, mstate_eqb a b = true -> forget a = forget b.
Proof.
  intros a b H. unfold mstate_eqb in H.
  apply andb_true_iff in H. destruct H as [H H4].
  apply andb_true_iff in H. destruct H as [H H3].
  apply andb_true_iff in H. destruct H as [H1 H2].
  apply mside_eqb_eq in H1. apply mside_eqb_eq in H2. apply zl_eqb_eq in H3. apply zl_eqb_eq in H4.
  destruct a, b; simpl in *; subst; reflexivity.
Qed.

Lemma forget_idem : forall s, forget (forget s) = forget s.
Proof. destruct s; reflexivity. Qed.

Lemma enabled_forget : forall l s, enabled l (forget s) = enabled l s.
Proof. destruct l, s; reflexivity. Qed.

Lemma minv_forget : forall c s, minv c (forget s) = minv c s.
Proof. destruct s; reflexivity. Qed.

Lemma deliver_forget : forall c me s, forget (deliver c me (forget s)) = forget (deliver c me s).
Proof.
  intros c me s. unfold deliver. change (clear_sent (forget s)) with (clear_sent s).
  destruct s as [mi mr qi qr si sr]; destruct me; cbn [clear_sent forget q_i q_r m_i m_r];
    [destruct qi|destruct qr]; reflexivity.
Qed.

Lemma user_forget : forall c me s, forget (user c me (forget s)) = forget (user c me s).
Proof.
  intros c me s. unfold user. change (clear_sent (forget s)) with (clear_sent s).
  destruct s as [mi mr qi qr si sr]; destruct me;
    cbn [clear_sent forget get m_i m_r]; [destruct (d_prompt mi =? P_NONE)|destruct (d_prompt mr =? P_NONE)];
    reflexivity.
Qed.

Lemma mstep_forget : forall c s l, forget (mstep c (forget s) l) = forget (mstep c s l).
Proof.
  intros c s l. unfold mstep. rewrite enabled_forget.
  destruct (enabled l s); [|apply forget_idem].
  destruct l; auto using deliver_forget, user_forget.
Qed.

Lemma zl_eqb_refl : forall a, zl_eqb a a = true.
Proof. induction a as [|x a IH]; [reflexivity|]. cbn [zl_eqb]. rewrite Z.eqb_refl. exact IH. Qed.

Lemma mstate_eqb_refl : forall s, mstate_eqb s s = true.
Proof.
  assert (S : forall x, mside_eqb x x = true)
    by (intro x; unfold mside_eqb; rewrite !Z.eqb_refl, !eqb_reflx, zl_eqb_refl; reflexivity).
  intro s. unfold mstate_eqb. rewrite !S, !zl_eqb_refl. reflexivity.
Qed.

Lemma smem_forget : forall s l, smem (forget s) l = true -> exists x, In x l /\ forget x = forget s.
Proof.
  induction l as [|x l IH]; cbn [smem In]; intro H; [discriminate|].
  apply orb_true_iff in H. destruct H as [H|H].
  - exists x. split; [auto|]. apply mstate_eqb_forget in H. rewrite forget_idem in H. auto.
  - destruct (IH H) as (y & Hy & E). exists y; auto.
Qed.

Lemma smem_add_all : forall t xs acc, smem t acc = true \/ In t xs -> smem t (add_all xs acc) = true.
Proof.
  intros t xs. induction xs as [|x xs IH]; intros acc H; cbn [add_all].
  - destruct H as [H|[]]. exact H.
  - destruct (smem x acc) eqn:E; apply IH; cbn [smem].
    + destruct H as [H|[<-|H]]; auto.
    + destruct H as [H|[<-|H]]; [left; rewrite H; apply orb_true_r|left; rewrite mstate_eqb_refl; reflexivity|auto].
Qed.

(* number of labels of a schedule that were enabled when their turn came *)
Fixpoint effective (c : mcfg) (s : mstate) (sched : list label) : nat :=
  match sched with
  | [] => O
  | l :: rest => (if enabled l s then 1 else 0) + effective c (mstep c s l) rest
  end.

Lemma layers_cons : forall c fuel fr ls t, layers c fuel fr = Some ls -> smem t fr = true ->
  exists f ls', ls = fr :: ls' /\ layers c f (add_all (flat_map (successors c) fr) []) = Some ls'.
Proof.
  intros c fuel fr ls t H Ht. destruct fr as [|x fr']; [discriminate|].
  destruct fuel as [|f]; [discriminate|]. cbn [layers] in H.
  destruct (layers c f (add_all (flat_map (successors c) (x :: fr')) [])) as [ls'|] eqn:E; [|discriminate].
  injection H as <-. eauto.
Qed.

(* The layers are closed by construction: a state of layer k steps into layer k+1.  So a predicate
   that holds of every state of every layer (and does not look at the output fields) holds along
   every schedule, and the number of layers bounds the effective steps. *)
Lemma layers_run : forall c P, (forall s, P (forget s) = P s) ->
  forall sched fuel fr ls s,
  layers c fuel fr = Some ls -> forallb (forallb P) ls = true -> smem (forget s) fr = true ->
  P (fold_left (mstep c) sched s) = true /\ (effective c s sched < length ls)%nat.
Proof.
  intros c P HP sched. induction sched as [|l rest IH]; intros fuel fr ls s HL Hall Hs;
    destruct (layers_cons _ _ _ _ _ HL Hs) as (f & ls' & -> & HL');
    destruct (smem_forget _ _ Hs) as (x & Hx & E);
    cbn [forallb] in Hall; apply andb_true_iff in Hall; destruct Hall as [H0 Hall'].
  - split; [|simpl; lia]. rewrite forallb_forall in H0.
    cbn [fold_left]. rewrite <- HP, <- E, HP. exact (H0 x Hx).
  - cbn [fold_left effective]. destruct (enabled l s) eqn:He.
    + assert (Hnext : smem (forget (mstep c s l)) (add_all (flat_map (successors c) fr) []) = true).
      { apply smem_add_all. right. rewrite <- mstep_forget, <- E, mstep_forget.
        apply in_flat_map. exists x. split; [exact Hx|].
        unfold successors. apply in_flat_map. exists l. split; [destruct l; simpl; auto|].
        rewrite <- enabled_forget, E, enabled_forget, He. simpl. auto. }
      destruct (IH _ _ _ _ HL' Hall' Hnext) as (A & B). split; [exact A|]. simpl. lia.
    + replace (mstep c s l) with s by (unfold mstep; rewrite He; reflexivity).
      exact (IH _ _ _ _ HL (proj2 (andb_true_iff _ _) (conj H0 Hall')) Hs).
Qed.

Lemma layers_length : forall c fuel fr ls, layers c fuel fr = Some ls -> (length ls <= fuel)%nat.
Proof.
  intros c fuel. induction fuel as [|f IH]; intros fr ls H.
  - destruct fr; simpl in H; [injection H as <-; simpl; lia|discriminate].
  - destruct fr as [|x fr'].
    + simpl in H. injection H as <-. simpl. lia.
    + cbn [layers] in H.
      destruct (layers c f (add_all (flat_map (successors c) (x :: fr')) [])) as [ls'|] eqn:E; [|discriminate].
      injection H as <-. simpl. specialize (IH _ _ E). lia.
Qed.

(* the exploration of [c], with [P] evaluated on every state it reaches *)
Definition all_reached (fuel : nat) (P : mstate -> bool) (c : mcfg) : bool :=
  match layers c fuel [forget minit] with Some ls => forallb (forallb P) ls | None => false end.

Lemma all_reached_sound : forall fuel P c, (forall s, P (forget s) = P s) -> all_reached fuel P c = true ->
  forall sched, P (mrun c sched) = true /\ (effective c minit sched < fuel)%nat.
Proof.
  intros fuel P c HP H sched. unfold all_reached in H.
  destruct (layers c fuel [forget minit]) as [ls|] eqn:E; [|discriminate].
  destruct (layers_run c P HP sched _ _ _ minit E H) as (A & B).
  - cbn [smem]. rewrite mstate_eqb_refl. reflexivity.
  - split; [exact A|]. exact (Nat.lt_le_trans _ _ _ B (layers_length _ _ _ _ E)).
Qed.

Lemma layers_closed_minv : forall c ls, layers_closed c ls = true -> forallb (forallb (minv c)) ls = true.
Proof.
  intros c ls. induction ls as [|l0 rest IH]; intro H; [reflexivity|].
  cbn [layers_closed] in H. apply andb_true_iff in H. destruct H as [H Hrest].
  apply andb_true_iff in H. destruct H as [H _]. cbn [forallb]. rewrite H. exact (IH Hrest).
Qed.

(* Every schedule - any interleaving of deliveries and user answers, any length - keeps the
   invariant, and takes fewer effective steps than the fuel the exploration ran with. *)
Lemma explore_fuel_sound : forall fuel c, explore_fuel fuel c = true ->
  forall sched, minv c (mrun c sched) = true /\ (effective c minit sched < fuel)%nat.
Proof.
  intros fuel c H. apply all_reached_sound; [apply minv_forget|].
  unfold explore_fuel in H. unfold all_reached.
  destruct (layers c fuel [forget minit]) as [ls|]; [|discriminate]. exact (layers_closed_minv _ _ H).
Qed.

Lemma explore_sound : forall c, explore_ok c = true ->
  forall sched, minv c (mrun c sched) = true /\ (effective c minit sched < FUEL)%nat.
Proof. intros c H. exact (explore_fuel_sound FUEL c H). Qed.

(* With passkey entry or legacy pairing no side is asked to confirm, so the users' yes/no is not
   read; with legacy pairing no DHKey check is sent, so whether one is altered is not read; a side
   that displays the passkey is never asked to type one; of the masks only the ID and SIGN bits
   (and ENC with legacy pairing) are read.  [norm] fixes those fields; [unread] is the invariant
   that keeps them unread. *)
Definition no_confirm (c : mcfg) : bool := is_pk c || negb (g_sc c).
Definition kd_mask (sc : bool) : Z := if sc then 6 else 7.

Definition norm (c : mcfg) : mcfg :=
  mkMcfg (g_sc c) (g_method c) (g_disp_i c) (g_disp_r c) (g_accept c) (g_subset_ok c)
         (no_confirm c || g_user_i c) (no_confirm c || g_user_r c)
         (if g_disp_i c then EntryOk else g_entry_i c) (if g_disp_r c then EntryOk else g_entry_r c)
         (g_bad_ci c) (g_bad_cr c) (g_sc c && g_bad_di c) (g_sc c && g_bad_dr c)
         (Z.land (g_ikd c) (kd_mask (g_sc c))) (Z.land (g_rkd c) (kd_mask (g_sc c))).

Definition known_prompt (x : mside) : bool :=
  (d_prompt x =? P_NONE) || (d_prompt x =? P_ACCEPT) || (d_prompt x =? P_DISPLAY) || (d_prompt x =? P_INPUT).

Definition unread (c : mcfg) (s : mstate) : bool :=
  (negb (no_confirm c) || known_prompt (m_i s) && known_prompt (m_r s))
  && (g_sc c || negb (mem M_DHCHECK (q_i s)) && negb (mem M_DHCHECK (q_r s)))
  && (negb (g_disp_i c) || negb (d_prompt (m_i s) =? P_INPUT))
  && (negb (g_disp_r c) || negb (d_prompt (m_r s) =? P_INPUT)).

Lemma kd_relevant : forall sc kd,
  distributed sc false (Z.land kd (kd_mask sc)) = distributed sc false kd /\
  expected sc false (Z.land kd (kd_mask sc)) = expected sc false kd.
Proof.
  assert (F : forall kd k b, Z.land k b = b -> has_flag (Z.land kd k) b = has_flag kd b).
  { intros kd k b H. unfold has_flag. rewrite <- Z.land_assoc, H. reflexivity. }
  intros [] kd; unfold distributed, expected, kd_mask; cbn [andb negb];
    rewrite ?(F kd _ KD_ENC_KEY), ?(F kd _ KD_ID_KEY), ?(F kd _ KD_SIGN_KEY); auto.
Qed.

Lemma deliver_norm : forall c me s, unread c s = true -> deliver (norm c) me s = deliver c me s.
Proof.
  intros [sc m d1 d2 acc sub ui ur ei er bci bcr bdi bdr ikd rkd] me s Q.
  destruct (kd_relevant sc ikd) as [Di _]. destruct (kd_relevant sc rkd) as [Dr Er].
  unfold norm, deliver, on_response, on_enc, on_key, complete, on_dhcheck, check_dhkey.
  cbn [g_sc g_disp_i g_disp_r g_bad_di g_bad_dr g_ikd g_rkd]. rewrite Di, Dr, Er.
  destruct sc; [destruct d1, d2; reflexivity|].
  (* legacy: the DHKey check is only looked at when a DHKey Check is delivered *)
  unfold unread in Q. cbn [g_sc orb] in Q.
  apply andb_true_iff in Q. destruct Q as [Q _]. apply andb_true_iff in Q. destruct Q as [Q _].
  apply andb_true_iff in Q. destruct Q as [_ Q].
  apply andb_true_iff in Q. destruct Q as [Qi Qr]. apply negb_true_iff in Qi, Qr.
  cbn [andb clear_sent q_i q_r].
  destruct me; [destruct (q_i s) as [|x q]|destruct (q_r s) as [|x q]]; try reflexivity; cbn [mem] in Qi, Qr;
    [apply orb_false_iff in Qi; destruct Qi as [Q' _]|apply orb_false_iff in Qr; destruct Qr as [Q' _]];
    rewrite Z.eqb_sym in Q'; rewrite Q'; destruct d1, d2; reflexivity.
Qed.

Lemma user_norm : forall c me s, unread c s = true -> user (norm c) me s = user c me s.
Proof.
  intros [sc m d1 d2 acc sub ui ur ei er bci bcr bdi bdr ikd rkd] me s Q.
  unfold unread, no_confirm, is_pk, known_prompt in Q. cbn [g_sc g_method g_disp_i g_disp_r] in Q.
  apply andb_true_iff in Q. destruct Q as [Q Ir]. apply andb_true_iff in Q. destruct Q as [Q Ii].
  apply andb_true_iff in Q. destruct Q as [Q _].
  unfold norm, user, no_confirm, is_pk, entry_of.
  cbn [g_sc g_method g_disp_r g_accept g_user_i g_user_r g_entry_i g_entry_r g_ikd].
  rewrite (proj2 (kd_relevant sc ikd)).
  (* the typed passkey is only looked at under the INPUT prompt, the user's yes/no only when the
     pending prompt is none of the other four *)
  destruct me; cbn [get clear_sent m_i m_r].
  - destruct (d_prompt (m_i s) =? P_NONE); [reflexivity|].
    destruct (d_prompt (m_i s) =? P_ACCEPT); [reflexivity|].
    destruct (d_prompt (m_i s) =? P_DISPLAY); [reflexivity|].
    destruct (d_prompt (m_i s) =? P_INPUT).
    + destruct d1; [discriminate Ii|reflexivity].
    + destruct ((m =? PM_PASSKEY) || negb sc); [discriminate Q|reflexivity].
  - destruct (d_prompt (m_r s) =? P_NONE); [reflexivity|].
    destruct (d_prompt (m_r s) =? P_ACCEPT); [reflexivity|].
    destruct (d_prompt (m_r s) =? P_DISPLAY); [reflexivity|].
    destruct (d_prompt (m_r s) =? P_INPUT).
    + destruct d2; [discriminate Ir|reflexivity].
    + destruct ((m =? PM_PASSKEY) || negb sc); [|reflexivity].
      rewrite andb_false_r in Q. discriminate Q.
Qed.

Lemma mstep_norm : forall c s l, unread c s = true -> mstep (norm c) s l = mstep c s l.
Proof.
  intros c s l Q. unfold mstep. destruct (enabled l s); [|reflexivity].
  destruct l; auto using deliver_norm, user_norm.
Qed.

Lemma minv_norm : forall c s, minv (norm c) s = minv c s.
Proof.
  intros [sc m d1 d2 acc sub ui ur ei er bci bcr bdi bdr ikd rkd] s.
  unfold minv. replace (must_fail (norm _)) with (must_fail (mkMcfg sc m d1 d2 acc sub ui ur ei er bci bcr bdi bdr ikd rkd)); [reflexivity|].
  unfold must_fail, norm, no_confirm, is_pk. cbn [g_sc g_method g_disp_i g_disp_r g_accept g_subset_ok g_user_i g_user_r g_entry_i g_entry_r g_bad_ci g_bad_cr g_bad_di g_bad_dr].
  destruct sc, (m =? PM_PASSKEY), d1, d2; reflexivity.
Qed.

Lemma norm_runs : forall c sched s,
  (forall sched', unread c (fold_left (mstep (norm c)) sched' s) = true) ->
  fold_left (mstep c) sched s = fold_left (mstep (norm c)) sched s /\
  effective c s sched = effective (norm c) s sched.
Proof.
  intros c sched. induction sched as [|l rest IH]; intros s H; [auto|]. cbn [fold_left effective].
  rewrite <- (mstep_norm c s l (H [])).
  destruct (IH (mstep (norm c) s l) (fun sched' => H (l :: sched'))) as [A B]. rewrite A, B. auto.
Qed.

Definition explored (fuel : nat) (c : mcfg) : bool := all_reached fuel (fun s => minv c s && unread c s) c.

Lemma explored_norm : forall fuel c, explored fuel (norm c) = true -> forall sched,
  minv c (mrun c sched) = true /\ (effective c minit sched < fuel)%nat.
Proof.
  intros fuel c H sched.
  assert (R : forall sched', (minv (norm c) (mrun (norm c) sched') && unread c (mrun (norm c) sched') = true)
                             /\ (effective (norm c) minit sched' < fuel)%nat).
  { apply (all_reached_sound fuel (fun s => minv (norm c) s && unread c s)); [destruct s; reflexivity|].
    destruct c; exact H. }
  destruct (norm_runs c sched minit (fun sched' => proj2 (proj1 (andb_true_iff _ _) (proj1 (R sched'))))) as [A B].
  unfold mrun. rewrite A, B, <- minv_norm.
  destruct (R sched) as [R1 R2]. apply andb_true_iff in R1. exact (conj (proj1 R1) R2).
Qed.

(* [family] with the unread fields fixed *)
Definition kds (sc : bool) : list Z := if sc then [0; 2; 4; 6] else [0; 1; 2; 3; 4; 5; 6; 7].

Definition honest_read (sh : bool * Z * bool * bool) : list mcfg :=
  let '(sc, _, _, _) := sh in flat_map (fun a => map (fun b => honest sh a b) (kds sc)) (kds sc).

Definition faulty_read (sh : bool * Z * bool * bool) : list mcfg :=
  let '(sc, m, di, dr) := sh in
  let es := if is_pk_shape sh then entries else [EntryOk] in
  let us := if (m =? PM_PASSKEY) || negb sc then [true] else bools in
  let ds := if sc then bools else [false] in
  flat_map (fun acc => flat_map (fun sub => flat_map (fun ui => flat_map (fun ur =>
  flat_map (fun ei => flat_map (fun er =>
  flat_map (fun ci => flat_map (fun cr => flat_map (fun di => map (fun dr =>
    mk sh acc sub ui ur ei er ci cr di dr (Z.land 7 (kd_mask sc)) (Z.land 5 (kd_mask sc))) ds) ds) bools) bools)
    (if dr then [EntryOk] else es)) (if di then [EntryOk] else es)) us) us) bools) bools.

Definition family_read : list mcfg :=
  flat_map (fun sh => honest_read sh ++ faulty_read sh ++ map norm (wrong_bits sh)) shapes.

Lemma kds_In : forall a sc, In a masks16 -> In (Z.land a (kd_mask sc)) (kds sc).
Proof.
  intros a sc H. unfold masks16 in H. cbn [seq map] in H.
  repeat (destruct H as [<-|H]; [destruct sc; vm_compute; auto 10|]). destruct H.
Qed.

Lemma family_norm : forall c, In c family -> In (norm c) family_read.
Proof.
  intros c H. apply in_flat_map in H. destruct H as (sh & Hsh & H).
  apply in_flat_map. exists sh. split; [exact Hsh|]. destruct sh as [[[sc m] d1] d2].
  apply in_app_or in H. destruct H as [H|H]; [|apply in_app_or in H; destruct H as [H|H]];
    apply in_or_app; [left|right; apply in_or_app; left|right; apply in_or_app; right; exact (in_map norm _ _ H)].
  - apply in_flat_map in H. destruct H as (a & Ha & H). apply in_map_iff in H. destruct H as (b & <- & Hb).
    unfold honest_read. apply in_flat_map. exists (Z.land a (kd_mask sc)). split; [exact (kds_In _ _ Ha)|].
    apply in_map_iff. exists (Z.land b (kd_mask sc)). split; [|exact (kds_In _ _ Hb)].
    unfold norm, honest, mk, no_confirm. cbn [g_sc g_user_i g_user_r g_disp_i g_disp_r g_entry_i g_entry_r g_bad_di g_bad_dr].
    rewrite !orb_true_r, !andb_false_r. destruct d1, d2; reflexivity.
  - unfold faulty in H.
    repeat (apply in_flat_map in H; destruct H as (? & ? & H)).
    apply in_map_iff in H. destruct H as (dr & <- & _).
    unfold faulty_read, norm, no_confirm, is_pk, mk.
    cbn [g_sc g_method g_disp_i g_disp_r g_accept g_subset_ok g_user_i g_user_r g_entry_i g_entry_r g_bad_ci g_bad_cr g_bad_di g_bad_dr g_ikd g_rkd].
    assert (B : forall b, In b bools) by (intros []; simpl; auto).
    assert (U : forall u, In ((m =? PM_PASSKEY) || negb sc || u)
                             (if (m =? PM_PASSKEY) || negb sc then [true] else bools))
      by (intro u; destruct ((m =? PM_PASSKEY) || negb sc); [simpl; auto|apply B]).
    assert (D : forall d, In (sc && d) (if sc then bools else [false]))
      by (intro d; destruct sc; [apply B|simpl; auto]).
    assert (E : forall (d : bool) v vs, In v vs -> In (if d then EntryOk else v) (if d then [EntryOk] else vs))
      by (intros [] v vs Hv; simpl; auto).
    repeat (apply in_flat_map; eexists; split; cycle 1).
    apply in_map_iff; eexists; split; [reflexivity|]. all: auto.
Qed.

Lemma family_explored : forallb (explored FUEL) family_read = true.
Proof. vm_cast_no_check (eq_refl true). Qed.

Lemma family_sound : forall c, In c family -> forall sched,
  minv c (mrun c sched) = true /\ (effective c minit sched < FUEL)%nat.
Proof.
  intros c H. pose proof family_explored as E. rewrite forallb_forall in E.
  exact (explored_norm FUEL c (E _ (family_norm c H))).
Qed.

Definition entry_eqb (a b : entry) : bool :=
  match a, b with
  | EntryOk, EntryOk | EntryNone, EntryNone => true
  | EntryWrong j, EntryWrong k => j =? k
  | _, _ => false
  end.

(* nested tests, not a conjunction: the VM evaluates both arguments of [&&], and almost every
   comparison fails on one of the first fields *)
Definition mcfg_eqb (a b : mcfg) : bool :=
  if negb (entry_eqb (g_entry_i a) (g_entry_i b)) then false
  else if negb (entry_eqb (g_entry_r a) (g_entry_r b)) then false
  else if negb (g_method a =? g_method b) then false
  else if negb (g_ikd a =? g_ikd b) then false
  else if negb (g_rkd a =? g_rkd b) then false
  else if xorb (g_sc a) (g_sc b) then false
  else if xorb (g_disp_i a) (g_disp_i b) then false
  else if xorb (g_disp_r a) (g_disp_r b) then false
  else if xorb (g_accept a) (g_accept b) then false
  else if xorb (g_subset_ok a) (g_subset_ok b) then false
  else if xorb (g_user_i a) (g_user_i b) then false
  else if xorb (g_user_r a) (g_user_r b) then false
  else if xorb (g_bad_ci a) (g_bad_ci b) then false
  else if xorb (g_bad_cr a) (g_bad_cr b) then false
  else if xorb (g_bad_di a) (g_bad_di b) then false
  else negb (xorb (g_bad_dr a) (g_bad_dr b)).

Lemma mcfg_eqb_eq : forall a b, mcfg_eqb a b = true -> a = b.
Proof.
  assert (E : forall x y, negb (entry_eqb x y) = false -> x = y).
  { intros [| |j] [| |k] H; try discriminate; try reflexivity.
    apply negb_false_iff, Z.eqb_eq in H. congruence. }
  intros a b H. unfold mcfg_eqb in H.
  repeat match type of H with (if ?t then false else _) = true =>
    destruct t eqn:?; [discriminate|] end.
  apply negb_true_iff in H.
  repeat match goal with
  | H : negb (_ =? _) = false |- _ => apply negb_false_iff, Z.eqb_eq in H
  | H : xorb _ _ = false |- _ => apply xorb_eq in H
  | H : negb (entry_eqb _ _) = false |- _ => apply E in H
  end.
  destruct a, b; simpl in *; subst; reflexivity.
Qed.

(* the distinct elements of [l], added to [acc] *)
Fixpoint distinct (l acc : list mcfg) : list mcfg :=
  match l with
  | [] => acc
  | x :: l' => distinct l' (if existsb (mcfg_eqb x) acc then acc else x :: acc)
  end.

Lemma distinct_In : forall x l acc, In x l \/ In x acc -> In x (distinct l acc).
Proof.
  intros x l. induction l as [|y l IH]; intros acc H; cbn [distinct].
  - destruct H as [[]|H]. exact H.
  - apply IH. destruct H as [[<-|H]|H]; auto; right.
    + destruct (existsb (mcfg_eqb y) acc) eqn:E; [|left; reflexivity].
      apply existsb_exists in E. destruct E as (z & Hz & E). apply mcfg_eqb_eq in E. subst. exact Hz.
    + destruct (existsb (mcfg_eqb y) acc); [|right]; exact H.
Qed.

Definition abstractions : list mcfg :=
  flat_map (fun x => let '(ci, cr, e) := x in match abs_of ci cr e with Some c => [c] | None => [] end)
           concrete.

(* many runs of [concrete] map to the same message-level configuration: each is explored once *)
Lemma concrete_checked :
  forallb (fun x => let '(ci, cr, e) := x in agrees ci cr e) concrete
  && forallb (fun c => all_reached FUEL (minv c) c) (distinct abstractions []) = true.
Proof. vm_cast_no_check (eq_refl true). Qed.

(* For every configuration of the family and EVERY schedule: no model assumption is violated,
   never one side completed and the other failed, whenever nothing is enabled both sides have
   ended (no deadlock), a run that must fail never completes and one that need not never fails,
   two failures carry the same reason, and the run has fewer than 400 effective steps. *)
Lemma schedules_ok : forall c, In c family -> forall sched,
  let s := mrun c sched in
  d_err (m_i s) = false /\ d_err (m_r s) = false /\
  ~ (d_out (m_i s) = 1 /\ d_out (m_r s) = 2) /\ ~ (d_out (m_i s) = 2 /\ d_out (m_r s) = 1) /\
  (quiescent s = true -> d_out (m_i s) <> 0 /\ d_out (m_r s) <> 0) /\
  (must_fail c = true -> d_out (m_i s) <> 1 /\ d_out (m_r s) <> 1) /\
  (must_fail c = false -> d_out (m_i s) <> 2 /\ d_out (m_r s) <> 2) /\
  (d_out (m_i s) = 2 -> d_out (m_r s) = 2 -> d_reason (m_i s) = d_reason (m_r s)) /\
  (effective c minit sched < FUEL)%nat.
Proof.
  intros c Hin sched s. destruct (family_sound c Hin sched) as (H & Hsteps). fold s in H.
  assert (N : forall x y a b, negb (x =? a) && negb (y =? b) = true -> x <> a /\ y <> b).
  { intros x y a b E. apply andb_true_iff in E. destruct E as [A B].
    apply negb_true_iff, Z.eqb_neq in A. apply negb_true_iff, Z.eqb_neq in B. auto. }
  (* the conjuncts of [minv], in order *)
  unfold minv in H.
  apply andb_true_iff in H. destruct H as [H Reasons]. apply andb_true_iff in H. destruct H as [H Fail].
  apply andb_true_iff in H. destruct H as [H Quiet]. apply andb_true_iff in H. destruct H as [H C2].
  apply andb_true_iff in H. destruct H as [H C1]. apply andb_true_iff in H. destruct H as [E1 E2].
  apply negb_true_iff in E1, E2, C1, C2.
  split; [exact E1|]. split; [exact E2|].
  split. { intros [A B]. rewrite A, B in C1. discriminate. }
  split. { intros [A B]. rewrite A, B in C2. discriminate. }
  split. { intro Q. rewrite Q in Quiet. exact (N _ _ _ _ Quiet). }
  split. { intro M. rewrite M in Fail. exact (N _ _ _ _ Fail). }
  split. { intro M. rewrite M in Fail. exact (N _ _ _ _ Fail). }
  split; [|exact Hsteps]. intros A B. rewrite A, B in Reasons. apply Z.eqb_eq. exact Reasons.
Qed.

(* The concrete family (all capability pairs x SC x MITM on each side x 18 environments): the
   value-level model (Model/Pairing.v) ends exactly as the message-level model does, and the
   message-level configuration it maps to keeps the invariant under every schedule. *)
Lemma concrete_agrees : forall ci cr e, In (ci, cr, e) concrete ->
  agrees ci cr e = true /\
  forall c, abs_of ci cr e = Some c -> forall sched, minv c (mrun c sched) = true.
Proof.
  intros ci cr e Hin. pose proof concrete_checked as F. apply andb_true_iff in F. destruct F as [A B].
  rewrite forallb_forall in A, B. split; [exact (A _ Hin)|]. intros c Hc sched.
  refine (proj1 (all_reached_sound _ _ c (minv_forget c) (B c _) sched)).
  apply distinct_In. left. apply in_flat_map. exists (ci, cr, e). split; [exact Hin|].
  rewrite Hc. left. reflexivity.
Qed.

(* the honest shapes are in the family (non-vacuity of [In c family]) *)
Lemma family_nonempty : In (honest (true, PM_PASSKEY, true, false) 7 5) family.
Proof.
  unfold family. apply in_flat_map. exists (true, PM_PASSKEY, true, false). split.
  - unfold shapes. simpl. auto 10.
  - apply in_or_app. left. unfold honest_all. apply in_flat_map. exists 7. split.
    + unfold masks16. simpl. auto 20.
    + apply in_map_iff. exists 5. split; [reflexivity|]. unfold masks16. simpl. auto 20.
Qed.

Lemma find_drop : forall h l, find_session h (drop_session h l) = None.
Proof.
  induction l as [|s l IH]; simpl; [reflexivity|].
  destruct (ms_handle s =? h) eqn:E; [assumption|]. simpl. rewrite E. assumption.
Qed.

Lemma forallb_drop : forall f h l, forallb f l = true -> forallb f (drop_session h l) = true.
Proof.
  induction l as [|s l IH]; simpl; intro H; [reflexivity|].
  apply andb_true_iff in H. destruct H as [H1 H2].
  destruct (ms_handle s =? h); [auto|]. simpl. rewrite H1. auto.
Qed.

Lemma drop_other : forall f h l,
  (forall s, ms_handle s <> h -> f s = true -> True) ->
  forallb f (drop_session h l) = true -> True.
Proof. auto. Qed.

(* after the connection went down no session is registered under its handle *)
Lemma disconnect_ends_session : forall g h,
  find_session h (mg_sessions (mgr_step g (OpDisconnect h))) = None.
Proof. intros g h. cbn [mgr_step mg_sessions]. apply find_drop. Qed.

Lemma epoch_after_disconnect : forall g h h',
  epoch_of (mgr_step g (OpDisconnect h)) h' = if h' =? h then epoch_of g h + 1 else epoch_of g h'.
Proof.
  intros g h h'. unfold epoch_of at 1. cbn [mgr_step mg_epochs assoc].
  destruct (h' =? h) eqn:E; [reflexivity|]. reflexivity.
Qed.

Lemma forallb_drop_epoch : forall g h e l,
  forallb (fun s => ms_epoch s =? epoch_of g (ms_handle s)) l = true ->
  forallb (fun s => ms_epoch s =? (if ms_handle s =? h then e else epoch_of g (ms_handle s)))
          (drop_session h l) = true.
Proof.
  induction l as [|s l IH]; simpl; intro H; [reflexivity|].
  apply andb_true_iff in H. destruct H as [H1 H2].
  destruct (ms_handle s =? h) eqn:E; [auto|]. simpl. rewrite E, H1. auto.
Qed.

Lemma forallb_ext' : forall (A : Type) (f g : A -> bool) l,
  (forall x, f x = g x) -> forallb f l = forallb g l.
Proof. intros A f g l H. induction l as [|x l IH]; simpl; [reflexivity|]. rewrite H, IH. reflexivity. Qed.

(* no sequence of pairings, ends and disconnections leaves a session bound to a closed connection *)
Lemma mgr_step_ok : forall g o, mgr_ok g = true -> mgr_ok (mgr_step g o) = true.
Proof.
  intros g o H. unfold mgr_ok in *. destruct o as [h|h req|h failed|h].
  - cbn [mgr_step new_session mg_sessions forallb ms_epoch ms_handle].
    change (epoch_of (mkMgr _ (mg_epochs g) _) ?x) with (epoch_of g x).
    rewrite Z.eqb_refl. cbn [andb]. apply forallb_drop. assumption.
  - cbn [mgr_step]. destruct (find_session h (mg_sessions g)); [assumption|].
    destruct req; [|assumption].
    cbn [new_session mg_sessions forallb ms_epoch ms_handle].
    change (epoch_of (mkMgr _ (mg_epochs g) _) ?x) with (epoch_of g x).
    rewrite Z.eqb_refl. cbn [andb]. apply forallb_drop. assumption.
  - cbn [mgr_step]. destruct (find_session h (mg_sessions g)) as [s|] eqn:F; [|assumption].
    assert (Hs : ms_epoch s =? epoch_of g h = true).
    { clear - H F. induction (mg_sessions g) as [|x l IH]; simpl in *; [discriminate|].
      apply andb_true_iff in H. destruct H as [H1 H2].
      destruct (ms_handle x =? h) eqn:E; [|auto]. injection F as <-. apply Z.eqb_eq in E. rewrite <- E. assumption. }
    destruct failed; cbn [mg_sessions forallb ms_epoch ms_handle];
      change (epoch_of (mkMgr _ (mg_epochs g) _) ?x) with (epoch_of g x).
    + apply forallb_drop. assumption.
    + rewrite Hs. cbn [andb]. apply forallb_drop. assumption.
  - change (mg_sessions (mgr_step g (OpDisconnect h))) with (drop_session h (mg_sessions g)).
    rewrite (forallb_ext' _ _ (fun s => ms_epoch s =? (if ms_handle s =? h then epoch_of g h + 1 else epoch_of g (ms_handle s)))).
    + apply (forallb_drop_epoch g h (epoch_of g h + 1)). exact H.
    + intro s. rewrite epoch_after_disconnect. reflexivity.
Qed.

Lemma mgr_always_ok : forall ops, mgr_ok (mgr_run ops) = true.
Proof.
  intro ops. unfold mgr_run.
  assert (G : forall g, mgr_ok g = true -> mgr_ok (fold_left mgr_step ops g) = true).
  { induction ops as [|o ops IH]; intros g H; [exact H|]. simpl. apply IH. apply mgr_step_ok. exact H. }
  apply G. reflexivity.
Qed.

(* a pairing on a reused handle starts from a fresh session: after a disconnection the next
   Manager.pair or Pairing Request registers a session that did not exist before *)
Lemma fresh_session_after_disconnect : forall g h,
  (forall s, In s (mg_sessions g) -> ms_id s < mg_next g) ->
  let g1 := mgr_step g (OpDisconnect h) in
  (exists s, find_session h (mg_sessions (mgr_step g1 (OpPair h))) = Some s /\ ms_id s = mg_next g /\ ms_completed s = false) /\
  (exists s, find_session h (mg_sessions (mgr_step g1 (OpPdu h true))) = Some s /\ ms_id s = mg_next g /\ ms_completed s = false).
Proof.
  intros g h _ g1. split.
  - cbn [g1 mgr_step new_session mg_sessions find_session ms_handle mg_next]. rewrite Z.eqb_refl. eauto.
  - change (mgr_step g1 (OpPdu h true)) with
      (match find_session h (mg_sessions g1) with Some _ => g1 | None => new_session g1 h end).
    unfold g1 at 1. rewrite disconnect_ends_session.
    cbn [g1 mgr_step new_session mg_sessions find_session ms_handle mg_next]. rewrite Z.eqb_refl. eauto.
Qed.

(* seeded change C13-e: sparing completed sessions at disconnection breaks the invariant, and the
   next Pairing Request on the reused handle is handed to the stale session *)
Lemma spare_completed_refuted :
  let g := fold_left mgr_step_spare [OpPdu 1 true; OpEnded 1 false; OpDisconnect 1] mgr0 in
  mgr_ok g = false /\
  exists s, find_session 1 (mg_sessions (mgr_step_spare g (OpPdu 1 true))) = Some s /\ ms_completed s = true.
Proof. vm_compute. split; [reflexivity|eauto]. Qed.
