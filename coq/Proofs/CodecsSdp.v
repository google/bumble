(* Round trips of the SDP DataElement codec.  Value side: one lemma says
   what parse_next does on a whole element [header :: size field ++ value]; from it, by induction on the
   value, what parsing a serialised element gives for every nesting budget ([encode_parse_exact]).  Bytes
   side: by induction on the fuel, a parse that met only canonical encodings re-encodes to the bytes it
   consumed ([parse_encode]). *)
From Coq Require Import ZArith List Bool Lia.
From BV Require Import Base.Bytes Proofs.Bytes Proofs.BitFields Model.CodecsBase Proofs.CodecsBase Model.CodecsSdp.
Import ListNotations.
Open Scope Z_scope.

Section ElemInd.
  Variable P : elem -> Prop.
  Hypothesis HNil : P ENil.
  Hypothesis HUInt : forall s v, P (EUInt s v).
  Hypothesis HSInt : forall s v, P (ESInt s v).
  Hypothesis HUuid : forall b, P (EUuid b).
  Hypothesis HText : forall b, P (EText b).
  Hypothesis HBool : forall b, P (EBool b).
  Hypothesis HSeq : forall l, Forall P l -> P (ESeq l).
  Hypothesis HAlt : forall l, Forall P l -> P (EAlt l).
  Hypothesis HUrl : forall b, P (EUrl b).
  Hypothesis HOther : forall t b, P (EOther t b).
  Fixpoint elem_ind2 (e : elem) : P e :=
    let fix go (l : list elem) : Forall P l :=
      match l with
      | [] => Forall_nil P
      | x :: r => Forall_cons x (elem_ind2 x) (go r)
      end in
    match e with
    | ENil => HNil
    | EUInt s v => HUInt s v
    | ESInt s v => HSInt s v
    | EUuid b => HUuid b
    | EText b => HText b
    | EBool b => HBool b
    | ESeq l => HSeq l (go l)
    | EAlt l => HAlt l (go l)
    | EUrl b => HUrl b
    | EOther t b => HOther t b
    end.
End ElemInd.

Lemma encode_seq : forall l,
  encode (ESeq l) = match encode_list l with Some d => var_header 6 d | None => None end.
Proof. intro l. reflexivity. Qed.
Lemma encode_alt : forall l,
  encode (EAlt l) = match encode_list l with Some d => var_header 7 d | None => None end.
Proof. intro l. reflexivity. Qed.
Lemma elem_depth_seq : forall l, elem_depth (ESeq l) = S (list_depth l).
Proof. intro l. reflexivity. Qed.
Lemma elem_depth_alt : forall l, elem_depth (EAlt l) = S (list_depth l).
Proof. intro l. reflexivity. Qed.
Lemma elem_bytes_ok_seq : forall l, elem_bytes_ok (ESeq l) = list_bytes_ok l.
Proof. intro l. reflexivity. Qed.
Lemma elem_bytes_ok_alt : forall l, elem_bytes_ok (EAlt l) = list_bytes_ok l.
Proof. intro l. reflexivity. Qed.

Lemma takeZ_firstn : forall z d, takeZ z d = firstn (Z.to_nat z) d.
Proof.
  intros z d. unfold takeZ, lenZ. destruct (Z_le_gt_dec z (Z.of_nat (length d))) as [H|H].
  - rewrite Z.min_l by lia. reflexivity.
  - rewrite Z.min_r by lia. rewrite Nat2Z.id. rewrite firstn_all. symmetry. apply firstn_all2. lia.
Qed.
Lemma dropZ_skipn : forall z d, dropZ z d = skipn (Z.to_nat z) d.
Proof.
  intros z d. unfold dropZ, lenZ. destruct (Z_le_gt_dec z (Z.of_nat (length d))) as [H|H].
  - rewrite Z.min_l by lia. reflexivity.
  - rewrite Z.min_r by lia. rewrite Nat2Z.id. rewrite skipn_all. symmetry. apply skipn_all2. lia.
Qed.
Lemma whole_nat : forall vs (body : list Z), (vs <=? lenZ body) = (Z.to_nat vs <=? length body)%nat.
Proof.
  intros vs body. unfold lenZ. destruct (Z.leb_spec vs (Z.of_nat (length body))); symmetry;
    [apply Nat.leb_le|apply Nat.leb_gt]; lia.
Qed.
Lemma consumed_nat : forall hs vs, Z.to_nat (1 + Z.of_nat hs + Z.max 0 vs) = S (hs + Z.to_nat vs).
Proof. intros. lia. Qed.

(* parse_next on a container, with the list loop as the top-level [parse_list] *)
Lemma parse_next_unfold : forall k depth b d1,
  parse_next (S k) depth (b :: d1) =
  let d := b :: d1 in
  let ty := Z.shiftr b 3 in
  let idx := Z.land b 7 in
  match size_of_header ty idx d1 with
  | None => PErr
  | Some (hs, vs) =>
      let body := skipn hs d1 in
      let n := Z.to_nat vs in
      let consumed := 1 + Z.of_nat hs + Z.max 0 vs in
      let raw := firstn (S (hs + n)) d in
      let value := firstn n body in
      let whole := (n <=? length body)%nat in
      if ty =? 0 then POk ENil consumed raw ((idx =? 0))
      else if ty =? 1 then
        if int_size_ok vs && whole then POk (EUInt vs (be_decode value)) consumed raw (idx <=? 3) else PErr
      else if ty =? 2 then
        if int_size_ok vs && whole then POk (ESInt vs (bes_decode value)) consumed raw (idx <=? 3) else PErr
      else if ty =? 3 then
        let m := lenZ value in
        if (m =? 2) || (m =? 4) || (m =? 16)
        then POk (EUuid (rev value)) consumed raw (whole && ((idx =? 1) || (idx =? 2) || (idx =? 4)))
        else PErr
      else if ty =? 4 then POk (EText value) consumed raw (whole && var_canon idx vs)
      else if ty =? 5 then
        match body with
        | [] => PErr
        | x :: _ => POk (EBool (x =? 1)) consumed raw ((idx =? 0) && ((x =? 0) || (x =? 1)))
        end
      else if (ty =? 6) || (ty =? 7) then
        match depth with
        | O => PErr
        | S dep =>
            match parse_list k dep k body vs with
            | LOk l used cn =>
                POk (if ty =? 6 then ESeq l else EAlt l) consumed raw
                    (whole && var_canon idx vs && cn && (used =? vs))
            | LErr => PErr
            | LFuel => PFuel
            end
        end
      else if ty =? 8 then POk (EUrl value) consumed raw (whole && var_canon idx vs)
      else POk (EOther ty value) consumed raw false
  end.
Proof.
  intros k depth b d1. cbn [parse_next]. cbv zeta.
  destruct (size_of_header (Z.shiftr b 3) (Z.land b 7) d1) as [[hs vs]|]; [|reflexivity].
  rewrite !takeZ_firstn, !whole_nat, !consumed_nat.
  destruct (Z.shiftr b 3 =? 0); [reflexivity|].
  destruct (Z.shiftr b 3 =? 1); [reflexivity|].
  destruct (Z.shiftr b 3 =? 2); [reflexivity|].
  destruct (Z.shiftr b 3 =? 3); [reflexivity|].
  destruct (Z.shiftr b 3 =? 4); [reflexivity|].
  destruct (Z.shiftr b 3 =? 5); [reflexivity|].
  destruct ((Z.shiftr b 3 =? 6) || (Z.shiftr b 3 =? 7)); [|reflexivity].
  destruct depth as [|dep]; [reflexivity|].
  match goal with
  | |- match ?F ?a1 ?a2 ?a3 with _ => _ end = match parse_list k dep k ?bd ?bg with _ => _ end =>
      assert (E : forall fuel body budget, F fuel body budget = parse_list k dep fuel body budget)
  end.
  { induction fuel as [|k' IH]; intros body budget.
    - reflexivity.
    - cbn [parse_list]. destruct (budget <=? 0); [reflexivity|].
      destruct (parse_next k dep body) as [e c raw cn| |]; try reflexivity.
      destruct (budget - c <? 0); [reflexivity|].
      rewrite IH. reflexivity. }
  rewrite E. reflexivity.
Qed.

Lemma hdr_fwd : forall ty idx, 0 <= ty < 32 -> 0 <= idx < 8 ->
  Z.shiftr (hdr ty idx) 3 = ty /\ Z.land (hdr ty idx) 7 = idx.
Proof. intros ty idx _ Hi. split; [apply (pack_shiftr 3)|apply (pack_land 3)]; lia. Qed.

Lemma hdr_back : forall b, byte_ok b = true ->
  hdr (Z.shiftr b 3) (Z.land b 7) = b /\ 0 <= Z.shiftr b 3 < 32 /\ 0 <= Z.land b 7 < 8.
Proof.
  intros b Hb. apply byte_ok_iff in Hb.
  split; [apply (unpack 3); lia|]. split; [apply (shiftr_range 3 5); lia|apply (land_range 3); lia].
Qed.

Lemma firstn_S_cons : forall (A : Type) n (x : A) l, firstn (S n) (x :: l) = x :: firstn n l.
Proof. reflexivity. Qed.
Lemma firstn_len_app : forall (A : Type) (a b : list A) n, n = length a -> firstn n (a ++ b) = a.
Proof. intros. subst. apply firstn_app_exact. Qed.
Lemma skipn_len_app : forall (A : Type) (a b : list A) n, n = length a -> skipn n (a ++ b) = b.
Proof. intros. subst. apply skipn_app_exact. Qed.
Lemma leb_len_app : forall (A : Type) (a b : list A), (length a <=? length (a ++ b))%nat = true.
Proof. intros. apply Nat.leb_le. rewrite app_length. lia. Qed.
Lemma be_encode_2_shape : forall n, exists b0 b1, be_encode 2 n = [b0; b1].
Proof.
  intro n. pose proof (be_encode_length 2 n) as H.
  destruct (be_encode 2 n) as [|b0 [|b1 [|? ?]]]; try discriminate. eauto.
Qed.
Lemma be_encode_4_shape : forall n, exists b0 b1 b2 b3, be_encode 4 n = [b0; b1; b2; b3].
Proof.
  intro n. pose proof (be_encode_length 4 n) as H.
  destruct (be_encode 4 n) as [|b0 [|b1 [|b2 [|b3 [|? ?]]]]]; try discriminate. eauto 6.
Qed.

Lemma var_header_shape : forall ty data b rest,
  var_header ty data = Some b ->
  exists idx sz,
    b = hdr ty idx :: sz ++ data /\ 5 <= idx <= 7 /\
    size_of_header ty idx (sz ++ data ++ rest) = Some (length sz, lenZ data) /\
    var_canon idx (lenZ data) = true.
Proof.
  intros ty data b rest H. unfold var_header in H.
  pose proof (lenZ_nonneg _ data) as Hn.
  destruct (lenZ data <=? 255) eqn:E1.
  - apply some_inv in H. subst b. apply Z.leb_le in E1.
    exists 5, [lenZ data]. repeat split; lia.
  - apply Z.leb_gt in E1. destruct (lenZ data <=? 65535) eqn:E2.
    + apply some_inv in H. subst b. apply Z.leb_le in E2.
      exists 6, (be_encode 2 (lenZ data)). repeat split; try lia.
      * destruct (be_encode_2_shape (lenZ data)) as [b0 [b1 Eb]].
        pose proof (be_decode_encode 2 (lenZ data) ltac:(unfold pow256; cbn; lia)) as D.
        rewrite Eb in *. cbn [app length size_of_header Z.eqb]. cbn. f_equal. f_equal. exact D.
      * unfold var_canon. replace (255 <? lenZ data) with true by (symmetry; apply Z.ltb_lt; lia).
        reflexivity.
    + apply Z.leb_gt in E2. destruct (lenZ data <=? 4294967295) eqn:E3; [|discriminate].
      apply some_inv in H. subst b. apply Z.leb_le in E3.
      exists 7, (be_encode 4 (lenZ data)). repeat split; try lia.
      * destruct (be_encode_4_shape (lenZ data)) as [b0 [b1 [b2 [b3 Eb]]]].
        pose proof (be_decode_encode 4 (lenZ data) ltac:(unfold pow256; cbn; lia)) as D.
        rewrite Eb in *. cbn [app length size_of_header Z.eqb]. cbn. f_equal. f_equal. exact D.
      * unfold var_canon. replace (65535 <? lenZ data) with true by (symmetry; apply Z.ltb_lt; lia).
        reflexivity.
Qed.

Lemma lenZ_to_nat : forall (A : Type) (l : list A), Z.to_nat (lenZ l) = length l.
Proof. intros. unfold lenZ. apply Nat2Z.id. Qed.

Lemma int_size_cases : forall s, int_size_ok s = true -> s = 1 \/ s = 2 \/ s = 4 \/ s = 8.
Proof.
  intros s H. unfold int_size_ok in H. rewrite !orb_true_iff, !Z.eqb_eq in H. tauto.
Qed.

(* the four integer sizes with their size index, as the serialiser and the parser see them *)
Lemma int_size_index : forall s, int_size_ok s = true ->
  exists i n, fixed_index s = Some i /\ 0 <= i <= 3 /\ Z.to_nat s = S n /\
    forall ty d, (ty =? 0) = false -> size_of_header ty i d = Some (O, s).
Proof.
  intros s H. destruct (int_size_cases s H) as [-> | [-> | [-> | ->]]];
    [exists 0|exists 1|exists 2|exists 3]; eexists; (split; [reflexivity|split; [lia|split; [reflexivity|]]]);
    intros ty d Hty; cbn [size_of_header Z.eqb Pos.eqb]; try rewrite Hty; reflexivity.
Qed.

Lemma int_header_inv : forall ty idx d1 hs vs, (ty =? 0) = false -> 0 <= idx <= 3 ->
  size_of_header ty idx d1 = Some (hs, vs) -> hs = O /\ fixed_index vs = Some idx.
Proof.
  intros ty idx d1 hs vs Hty Hidx H.
  assert (C : idx = 0 \/ idx = 1 \/ idx = 2 \/ idx = 3) by lia.
  destruct C as [-> | [-> | [-> | ->]]]; cbn [size_of_header Z.eqb Pos.eqb] in H; try rewrite Hty in H;
    apply some_pair_inv in H as [<- <-]; split; reflexivity.
Qed.

(* an element whose value is all there, followed by anything: header octet, size field [sz] (empty for
   the fixed sizes) announcing the length of [value], then [value] *)
Lemma parse_whole : forall ty idx s sz value tail k depth,
  0 <= ty < 32 -> 0 <= idx < 8 ->
  size_of_header ty idx (sz ++ value ++ tail) = Some (length sz, s) -> Z.to_nat s = length value ->
  parse_next (S k) depth (hdr ty idx :: sz ++ value ++ tail) =
  (let consumed := lenZ (hdr ty idx :: sz ++ value) in
   let raw := hdr ty idx :: sz ++ value in
   if ty =? 0 then POk ENil consumed raw ((idx =? 0))
   else if ty =? 1 then
     if int_size_ok s then POk (EUInt s (be_decode value)) consumed raw (idx <=? 3) else PErr
   else if ty =? 2 then
     if int_size_ok s then POk (ESInt s (bes_decode value)) consumed raw (idx <=? 3) else PErr
   else if ty =? 3 then
     let m := lenZ value in
     if (m =? 2) || (m =? 4) || (m =? 16)
     then POk (EUuid (rev value)) consumed raw ((idx =? 1) || (idx =? 2) || (idx =? 4))
     else PErr
   else if ty =? 4 then POk (EText value) consumed raw (var_canon idx s)
   else if ty =? 5 then
     match value ++ tail with
     | [] => PErr
     | x :: _ => POk (EBool (x =? 1)) consumed raw ((idx =? 0) && ((x =? 0) || (x =? 1)))
     end
   else if (ty =? 6) || (ty =? 7) then
     match depth with
     | O => PErr
     | S dep =>
         match parse_list k dep k (value ++ tail) s with
         | LOk l used cn =>
             POk (if ty =? 6 then ESeq l else EAlt l) consumed raw (var_canon idx s && cn && (used =? s))
         | LErr => PErr
         | LFuel => PFuel
         end
     end
   else if ty =? 8 then POk (EUrl value) consumed raw (var_canon idx s)
   else POk (EOther ty value) consumed raw false).
Proof.
  intros ty idx s sz value tail k depth Hty Hidx Hsoh Hlen.
  destruct (hdr_fwd ty idx Hty Hidx) as [Hh2 Hh3].
  rewrite parse_next_unfold. cbv zeta. rewrite Hh2, Hh3, Hsoh, Hlen.
  rewrite (skipn_len_app _ sz _ _ eq_refl), (firstn_len_app _ value tail _ eq_refl), leb_len_app, firstn_S_cons.
  rewrite app_assoc, (firstn_len_app _ (sz ++ value) tail) by (rewrite app_length; reflexivity).
  replace (1 + Z.of_nat (length sz) + Z.max 0 s) with (lenZ (hdr ty idx :: sz ++ value))
    by (unfold lenZ; cbn [length]; rewrite app_length; lia).
  cbn [andb]. rewrite !andb_true_r. reflexivity.
Qed.

(* a variable-length leaf (TEXT_STRING, URL) that was just encoded *)
Lemma parse_var_leaf : forall ty data b tail k depth mk,
  var_header ty data = Some b -> (ty = 4 \/ ty = 8) ->
  mk = (if ty =? 4 then EText data else EUrl data) ->
  parse_next (S k) depth (b ++ tail) = POk mk (lenZ b) b true.
Proof.
  intros ty data b tail k depth mk H Hty Hmk.
  destruct (var_header_shape ty data b tail H) as [idx [sz [-> [Hidx [Hsoh Hcan]]]]].
  cbn [app]. rewrite <- app_assoc.
  rewrite (parse_whole ty idx _ sz data tail k depth ltac:(lia) ltac:(lia) Hsoh (lenZ_to_nat _ _)).
  cbv zeta. rewrite Hcan. subst mk. destruct Hty as [-> | ->]; reflexivity.
Qed.

Lemma encode_parse_nil : forall tail k depth,
  parse_next (S k) depth ([hdr 0 0] ++ tail) = POk ENil 1 [hdr 0 0] true.
Proof.
  intros. change ([hdr 0 0] ++ tail) with (hdr 0 0 :: [] ++ [] ++ tail).
  rewrite (parse_whole 0 0 0 [] [] tail k depth); [reflexivity|lia|lia|reflexivity|reflexivity].
Qed.

Lemma encode_parse_bool : forall v tail k depth,
  parse_next (S k) depth ([hdr 5 0; bool_z v] ++ tail) = POk (EBool v) 2 [hdr 5 0; bool_z v] true.
Proof.
  intros. change ([hdr 5 0; bool_z v] ++ tail) with (hdr 5 0 :: [] ++ [bool_z v] ++ tail).
  rewrite (parse_whole 5 0 1 [] [bool_z v] tail k depth); [|lia|lia|reflexivity|reflexivity].
  destruct v; reflexivity.
Qed.

Lemma encode_parse_uint : forall s v b tail k depth,
  encode (EUInt s v) = Some b ->
  parse_next (S k) depth (b ++ tail) = POk (EUInt s v) (lenZ b) b true.
Proof.
  intros s v b tail k depth H. cbn [encode] in H.
  destruct ((0 <=? v) && int_size_ok s && u_range (Z.to_nat s) v) eqn:E; [|discriminate].
  rewrite !andb_true_iff in E. destruct E as [[Hv Hs] Hr]. apply u_range_iff in Hr.
  destruct (int_size_index s Hs) as [i [n [Ei [Hi [_ Hh]]]]]. rewrite Ei in H. apply some_inv in H. subst b.
  change ((?h :: ?x) ++ tail) with (h :: [] ++ x ++ tail). rewrite (parse_whole 1 i s [] _ tail k depth ltac:(lia) ltac:(lia) (Hh 1 _ eq_refl))
    by (rewrite be_encode_length; reflexivity).
  cbv zeta. cbn [Z.eqb Pos.eqb]. rewrite Hs, be_decode_encode by exact Hr.
  replace (i <=? 3) with true by (symmetry; apply Z.leb_le; lia). reflexivity.
Qed.

Lemma encode_parse_sint : forall s v b tail k depth,
  encode (ESInt s v) = Some b ->
  parse_next (S k) depth (b ++ tail) = POk (ESInt s v) (lenZ b) b true.
Proof.
  intros s v b tail k depth H. cbn [encode] in H.
  destruct (int_size_ok s && s_range (Z.to_nat s) v) eqn:E; [|discriminate].
  apply andb_true_iff in E as [Hs Hr].
  destruct (int_size_index s Hs) as [i [n [Ei [Hi [Hn Hh]]]]]. rewrite Ei in H. apply some_inv in H. subst b.
  change ((?h :: ?x) ++ tail) with (h :: [] ++ x ++ tail). rewrite (parse_whole 2 i s [] _ tail k depth ltac:(lia) ltac:(lia) (Hh 2 _ eq_refl))
    by (rewrite bes_encode_length; reflexivity).
  cbv zeta. cbn [Z.eqb Pos.eqb]. rewrite Hn in *. rewrite Hs, bes_decode_encode by exact Hr.
  replace (i <=? 3) with true by (symmetry; apply Z.leb_le; lia). reflexivity.
Qed.

Lemma uuid_size_index : forall n, (n =? 2) || (n =? 4) || (n =? 16) = true ->
  exists i, fixed_index n = Some i /\ (i =? 1) || (i =? 2) || (i =? 4) = true /\ 0 <= i < 5 /\
    forall ty d, size_of_header ty i d = Some (O, n).
Proof.
  intros n H. rewrite !orb_true_iff, !Z.eqb_eq in H.
  destruct H as [[-> | ->] | ->]; [exists 1|exists 2|exists 4]; repeat split; lia.
Qed.

Lemma uuid_header_inv : forall ty idx d1 hs vs, (idx =? 1) || (idx =? 2) || (idx =? 4) = true ->
  size_of_header ty idx d1 = Some (hs, vs) ->
  hs = O /\ fixed_index vs = Some idx /\ (vs =? 2) || (vs =? 4) || (vs =? 16) = true /\ 0 <= vs.
Proof.
  intros ty idx d1 hs vs Hi H. rewrite !orb_true_iff, !Z.eqb_eq in Hi.
  destruct Hi as [[-> | ->] | ->]; apply some_pair_inv in H as [<- <-]; repeat split; lia.
Qed.

Lemma encode_parse_uuid : forall u b tail k depth,
  encode (EUuid u) = Some b ->
  parse_next (S k) depth (b ++ tail) = POk (EUuid u) (lenZ b) b true.
Proof.
  intros u b tail k depth H. cbn [encode] in H.
  destruct ((lenZ u =? 2) || (lenZ u =? 4) || (lenZ u =? 16)) eqn:E; [|discriminate].
  destruct (uuid_size_index _ E) as [i [Ei [Hc [Hi Hh]]]]. rewrite Ei in H. apply some_inv in H. subst b.
  assert (Hrl : lenZ (rev u) = lenZ u) by (unfold lenZ; rewrite rev_length; reflexivity).
  change ((?h :: ?x) ++ tail) with (h :: [] ++ x ++ tail). rewrite (parse_whole 3 i (lenZ u) [] (rev u) tail k depth ltac:(lia) ltac:(lia) (Hh 3 _))
    by (rewrite lenZ_to_nat, rev_length; reflexivity).
  cbv zeta. cbn [Z.eqb Pos.eqb]. rewrite Hrl, E, Hc, rev_involutive. reflexivity.
Qed.

Lemma encode_list_app_len : forall l d, encode_list l = Some d -> True.
Proof. trivial. Qed.

Lemma var_header_length : forall ty data b, var_header ty data = Some b -> (length data < length b)%nat.
Proof.
  intros ty data b H. destruct (var_header_shape ty data b [] H) as [idx [sz [Hb _]]].
  subst b. cbn [length]. rewrite app_length. lia.
Qed.

Lemma encode_nonempty : forall e a, encode e = Some a -> (0 < length a)%nat.
Proof.
  intros e a Ea. destruct a; [exfalso|cbn; lia].
  destruct e; cbn [encode] in Ea; try discriminate;
    repeat match type of Ea with
           | (if ?c then _ else _) = _ => destruct c; try discriminate
           | match ?c with _ => _ end = _ => destruct c eqn:?; try discriminate
           end;
    apply var_header_length in Ea; cbn in Ea; lia.
Qed.

(* What parsing a serialised element gives, for any fuel above the input length, any nesting budget
   and any trailing data: the element back if its nesting is within the budget, an error if not. *)
Definition parses_exactly (e : elem) : Prop :=
  forall fuel depth tail b,
    encode e = Some b -> elem_bytes_ok e = true -> (length (b ++ tail) < fuel)%nat ->
    parse_next fuel depth (b ++ tail) = if (elem_depth e <=? depth)%nat then POk e (lenZ b) b true else PErr.

(* the list loop over the concatenated encodings of [l] stops with an error at the first member that is
   nested too deep *)
Lemma parse_list_encoded : forall l, Forall parses_exactly l ->
  forall pn dep fuel tail d,
    encode_list l = Some d -> list_bytes_ok l = true ->
    (length (d ++ tail) < pn)%nat -> (length l < fuel)%nat \/ (length d < fuel)%nat ->
    parse_list pn dep fuel (d ++ tail) (lenZ d) =
    if (list_depth l <=? dep)%nat then LOk l (lenZ d) true else LErr.
Proof.
  induction l as [|x r IH]; intros HF pn dep fuel tail d He Hok Hpn Hfuel.
  - cbn in He. apply some_inv in He. subst d. destruct fuel; reflexivity.
  - inversion HF as [|? ? Hx Hr]; subst.
    cbn [encode_list] in He.
    destruct (encode x) as [a|] eqn:Ea; [|discriminate].
    destruct (encode_list r) as [b|] eqn:Eb; [|discriminate].
    apply some_inv in He. subst d.
    cbn [list_bytes_ok] in Hok. apply andb_true_iff in Hok as [Hokx Hokr].
    pose proof (encode_nonempty x a Ea) as Hane.
    destruct fuel as [|k']; [destruct Hfuel; lia|].
    cbn [parse_list list_depth].
    replace (lenZ (a ++ b) <=? 0) with false.
    2:{ symmetry. apply Z.leb_gt. rewrite lenZ_app. unfold lenZ. lia. }
    rewrite <- app_assoc, (Hx pn dep (b ++ tail) a Ea Hokx) by (rewrite <- app_assoc in Hpn; exact Hpn).
    destruct (Nat.leb_spec (elem_depth x) dep) as [Hdx|Hdx].
    2:{ replace (Nat.max (elem_depth x) (list_depth r) <=? dep)%nat with false by (symmetry; apply Nat.leb_gt; lia).
        reflexivity. }
    rewrite dropZ_skipn, lenZ_to_nat, (skipn_len_app _ a (b ++ tail) (length a) eq_refl).
    replace (lenZ (a ++ b) - lenZ a) with (lenZ b) by (rewrite lenZ_app; lia).
    replace (lenZ b <? 0) with false by (symmetry; apply Z.ltb_ge; apply lenZ_nonneg).
    rewrite (IH Hr pn dep k' tail b eq_refl Hokr).
    + destruct (Nat.leb_spec (list_depth r) dep) as [Hdr|Hdr].
      * replace (Nat.max (elem_depth x) (list_depth r) <=? dep)%nat with true by (symmetry; apply Nat.leb_le; lia).
        cbn [andb]. f_equal. rewrite lenZ_app. reflexivity.
      * replace (Nat.max (elem_depth x) (list_depth r) <=? dep)%nat with false by (symmetry; apply Nat.leb_gt; lia).
        reflexivity.
    + rewrite !app_length in *. lia.
    + destruct Hfuel as [Hf | Hf]; [left; cbn [length] in Hf; lia|right; rewrite app_length in Hf; lia].
Qed.

Lemma parse_container : forall ty data b tail k depth,
  (ty = 6 \/ ty = 7) -> var_header ty data = Some b ->
  parse_next (S k) depth (b ++ tail) =
  match depth with
  | O => PErr
  | S dep =>
      match parse_list k dep k (data ++ tail) (lenZ data) with
      | LOk l used cn => POk (if ty =? 6 then ESeq l else EAlt l) (lenZ b) b (cn && (used =? lenZ data))
      | LErr => PErr
      | LFuel => PFuel
      end
  end.
Proof.
  intros ty data b tail k depth Hty H.
  destruct (var_header_shape ty data b tail H) as [idx [sz [-> [Hidx [Hsoh Hcan]]]]].
  cbn [app]. rewrite <- app_assoc.
  rewrite (parse_whole ty idx _ sz data tail k depth ltac:(lia) ltac:(lia) Hsoh (lenZ_to_nat _ _)).
  cbv zeta. rewrite Hcan. destruct Hty as [-> | ->]; reflexivity.
Qed.

Lemma container_parses_exactly : forall ty l, (ty = 6 \/ ty = 7) -> Forall parses_exactly l ->
  forall fuel depth tail b,
    match encode_list l with Some d => var_header ty d | None => None end = Some b ->
    list_bytes_ok l = true -> (length (b ++ tail) < fuel)%nat ->
    parse_next fuel depth (b ++ tail) =
    if (S (list_depth l) <=? depth)%nat then POk (if ty =? 6 then ESeq l else EAlt l) (lenZ b) b true else PErr.
Proof.
  intros ty l Hty HF fuel depth tail b He Hok Hfuel. destruct fuel as [|k]; [lia|].
  destruct (encode_list l) as [data|] eqn:El; [|discriminate].
  rewrite (parse_container ty data b tail k depth Hty He). destruct depth as [|dep]; [reflexivity|].
  pose proof (var_header_length _ _ _ He) as Hl. rewrite app_length in Hfuel.
  rewrite (parse_list_encoded l HF k dep k tail data El Hok) by (rewrite ?app_length; lia).
  cbn [Nat.leb]. destruct (list_depth l <=? dep)%nat; [rewrite Z.eqb_refl|]; reflexivity.
Qed.

Theorem encode_parse_exact : forall e, parses_exactly e.
Proof.
  induction e using elem_ind2; intros fuel depth tail b0 He Hok Hfuel;
    (destruct fuel as [|k]; [lia|]); cbn [elem_depth Nat.leb].
  - cbn [encode] in He. apply some_inv in He. subst b0. apply encode_parse_nil.
  - apply encode_parse_uint. exact He.
  - apply encode_parse_sint. exact He.
  - apply encode_parse_uuid. exact He.
  - cbn [encode] in He. apply (parse_var_leaf 4 b b0 tail k depth _ He); [left|]; reflexivity.
  - cbn [encode] in He. apply some_inv in He. subst b0. apply encode_parse_bool.
  - exact (container_parses_exactly 6 l (or_introl eq_refl) H (S k) depth tail b0 He Hok Hfuel).
  - exact (container_parses_exactly 7 l (or_intror eq_refl) H (S k) depth tail b0 He Hok Hfuel).
  - cbn [encode] in He. apply (parse_var_leaf 8 b b0 tail k depth _ He); [right|]; reflexivity.
  - discriminate.
Qed.

Corollary encode_parse : forall e fuel depth tail b,
  encode e = Some b -> elem_bytes_ok e = true -> (elem_depth e <= depth)%nat ->
  (length (b ++ tail) < fuel)%nat ->
  parse_next fuel depth (b ++ tail) = POk e (lenZ b) b true.
Proof.
  intros e fuel depth tail b He Hok Hdep Hfuel. rewrite (encode_parse_exact e fuel depth tail b He Hok Hfuel).
  apply Nat.leb_le in Hdep. rewrite Hdep. reflexivity.
Qed.

Corollary sdp_value_roundtrip : forall max_depth e b,
  elem_ok max_depth e = true -> encode e = Some b ->
  from_bytes max_depth b = POk e (lenZ b) b true.
Proof.
  intros max_depth e b Hok He. unfold elem_ok in Hok. rewrite !andb_true_iff in Hok.
  destruct Hok as [[Hb Hd] _]. apply Nat.leb_le in Hd.
  unfold from_bytes, sdp_fuel.
  rewrite <- (app_nil_r b) at 2. apply encode_parse; try assumption.
  rewrite app_nil_r. lia.
Qed.

Lemma bytes_ok_length_firstn : forall n (d : list Z), (n <= length d)%nat -> length (firstn n d) = n.
Proof. intros. apply firstn_length_le. assumption. Qed.

(* the size field of a received variable-length header: it is inside the data, announces a non-negative
   size, and in its minimal form it is the header the serialiser writes for data of that size *)
Lemma size_field : forall ty idx d1 hs vs,
  5 <= idx <= 7 -> bytes_ok d1 = true -> size_of_header ty idx d1 = Some (hs, vs) ->
  (hs <= length d1)%nat /\ 0 <= vs /\
  (var_canon idx vs = true -> forall data, lenZ data = vs ->
   var_header ty data = Some (hdr ty idx :: firstn hs d1 ++ data)).
Proof.
  intros ty idx d1 hs vs Hidx Hok H. unfold var_canon, var_header.
  assert (C : idx = 5 \/ idx = 6 \/ idx = 7) by lia. destruct C as [-> | [-> | ->]].
  - destruct d1 as [|s rest]; [discriminate|].
    change (size_of_header ty 5 (s :: rest)) with (Some (1%nat, s)) in H. apply some_pair_inv in H as [<- <-].
    rewrite bytes_ok_cons, andb_true_iff, byte_ok_iff in Hok.
    repeat split; [cbn [length]; lia|lia|]. intros _ data ->.
    replace (s <=? 255) with true by (symmetry; apply Z.leb_le; lia). reflexivity.
  - destruct d1 as [|b0 [|b1 rest]]; try discriminate.
    change (size_of_header ty 6 (b0 :: b1 :: rest)) with (Some (2%nat, be_decode [b0; b1])) in H.
    apply some_pair_inv in H as [<- <-].
    assert (Hb : bytes_ok [b0; b1] = true) by (rewrite !bytes_ok_cons, !andb_true_iff in *; tauto).
    pose proof (be_decode_range _ Hb) as R. change (pow256 (length [b0; b1])) with 65536 in R.
    repeat split; [cbn [length]; lia|lia|]. cbn [Z.eqb Pos.eqb orb andb]. rewrite ?orb_false_r. intros Hgt data Hl. apply Z.ltb_lt in Hgt.
    rewrite Hl. replace (be_decode [b0; b1] <=? 255) with false by (symmetry; apply Z.leb_gt; lia).
    replace (be_decode [b0; b1] <=? 65535) with true by (symmetry; apply Z.leb_le; lia).
    rewrite (be_encode_decode_n 2 [b0; b1] eq_refl Hb). reflexivity.
  - destruct d1 as [|b0 [|b1 [|b2 [|b3 rest]]]]; try discriminate.
    change (size_of_header ty 7 (b0 :: b1 :: b2 :: b3 :: rest)) with (Some (4%nat, be_decode [b0; b1; b2; b3])) in H.
    apply some_pair_inv in H as [<- <-].
    assert (Hb : bytes_ok [b0; b1; b2; b3] = true) by (rewrite !bytes_ok_cons, !andb_true_iff in *; tauto).
    pose proof (be_decode_range _ Hb) as R. change (pow256 (length [b0; b1; b2; b3])) with 4294967296 in R.
    repeat split; [cbn [length]; lia|lia|]. cbn [Z.eqb Pos.eqb orb andb]. rewrite ?orb_false_r. intros Hgt data Hl. apply Z.ltb_lt in Hgt.
    rewrite Hl. replace (be_decode [b0; b1; b2; b3] <=? 255) with false by (symmetry; apply Z.leb_gt; lia).
    replace (be_decode [b0; b1; b2; b3] <=? 65535) with false by (symmetry; apply Z.leb_gt; lia).
    replace (be_decode [b0; b1; b2; b3] <=? 4294967295) with true by (symmetry; apply Z.leb_le; lia).
    rewrite (be_encode_decode_n 4 [b0; b1; b2; b3] eq_refl Hb). reflexivity.
Qed.

Lemma firstn_add_skipn : forall (A : Type) a b (d : list A),
  firstn (a + b) d = firstn a d ++ firstn b (skipn a d).
Proof.
  induction a as [|a IH]; intros b d; [reflexivity|].
  destruct d as [|x d]; [cbn; rewrite firstn_nil; reflexivity|].
  cbn [Nat.add firstn skipn app]. rewrite IH. reflexivity.
Qed.

Lemma fixed_header_inv : forall ty idx d1 hs vs,
  0 <= idx <= 4 -> size_of_header ty idx d1 = Some (hs, vs) ->
  hs = O /\ vs = (if idx =? 0 then (if ty =? 0 then 0 else 1) else if idx =? 1 then 2
                  else if idx =? 2 then 4 else if idx =? 3 then 8 else 16).
Proof.
  intros ty idx d1 hs vs Hidx H.
  assert (C : idx = 0 \/ idx = 1 \/ idx = 2 \/ idx = 3 \/ idx = 4) by lia.
  destruct C as [-> | [-> | [-> | [-> | ->]]]]; cbn [size_of_header Z.eqb Pos.eqb] in H;
    apply some_pair_inv in H as [<- <-]; split; reflexivity.
Qed.

Lemma size_of_header_nonneg : forall ty idx d1 hs vs,
  bytes_ok d1 = true -> 0 <= idx < 8 -> size_of_header ty idx d1 = Some (hs, vs) -> 0 <= vs.
Proof.
  intros ty idx d1 hs vs Hok Hidx H. destruct (Z.le_gt_cases idx 4).
  - destruct (fixed_header_inv ty idx d1 hs vs ltac:(lia) H) as [_ ->]. repeat destruct (_ =? _); lia.
  - apply (size_field ty idx d1 hs vs ltac:(lia) Hok H).
Qed.

(* a canonical variable-length header re-encodes to itself *)
Lemma var_header_back : forall ty idx d1 hs vs,
  bytes_ok d1 = true -> size_of_header ty idx d1 = Some (hs, vs) -> var_canon idx vs = true ->
  (Z.to_nat vs <= length (skipn hs d1))%nat ->
  var_header ty (firstn (Z.to_nat vs) (skipn hs d1)) = Some (hdr ty idx :: firstn (hs + Z.to_nat vs) d1)
  /\ (hs <= length d1)%nat.
Proof.
  intros ty idx d1 hs vs Hok Hsoh Hcan Hwhole.
  assert (Hidx : 5 <= idx <= 7).
  { unfold var_canon in Hcan. rewrite !orb_true_iff, !andb_true_iff, !Z.eqb_eq in Hcan. lia. }
  destruct (size_field ty idx d1 hs vs Hidx Hok Hsoh) as [Hhs [Hvs Hvh]].
  split; [|exact Hhs]. rewrite firstn_add_skipn. apply Hvh; [exact Hcan|].
  unfold lenZ. rewrite firstn_length_le by exact Hwhole. lia.
Qed.

Lemma uint_back : forall idx vs value,
  int_size_ok vs = true -> fixed_index vs = Some idx ->
  bytes_ok value = true -> length value = Z.to_nat vs ->
  encode (EUInt vs (be_decode value)) = Some (hdr 1 idx :: value).
Proof.
  intros idx vs value Hs Hi Hok Hlen.
  pose proof (be_decode_range value Hok) as R. rewrite Hlen in R.
  cbn [encode]. rewrite Hs, Hi, (proj2 (u_range_iff _ _) R).
  replace (0 <=? be_decode value) with true by (symmetry; apply Z.leb_le; lia).
  rewrite <- Hlen, be_encode_decode by exact Hok. reflexivity.
Qed.

Lemma sint_back : forall idx vs value,
  int_size_ok vs = true -> fixed_index vs = Some idx ->
  bytes_ok value = true -> length value = Z.to_nat vs ->
  encode (ESInt vs (bes_decode value)) = Some (hdr 2 idx :: value).
Proof.
  intros idx vs value Hs Hi Hok Hlen.
  destruct (int_size_index vs Hs) as [_ [n [_ [_ [Hn _]]]]].
  destruct value as [|x value']; [rewrite Hn in Hlen; discriminate|]. set (value := x :: value') in *.
  assert (R : s_range (length value) (bes_decode value) = true).
  { apply to_signed_range. apply be_decode_range. exact Hok. }
  cbn [encode]. rewrite Hs, Hi, <- Hlen, R, bes_encode_decode by (try discriminate; exact Hok). reflexivity.
Qed.

Lemma POk_inv : forall e c r cn e' c' r' cn',
  POk e c r cn = POk e' c' r' cn' -> e = e' /\ c = c' /\ r = r' /\ cn = cn'.
Proof. intros. repeat split; congruence. Qed.

Definition pn_prop (pn : nat) : Prop :=
  forall depth d e c raw, bytes_ok d = true -> parse_next pn depth d = POk e c raw true ->
    encode e = Some raw /\ c = lenZ raw /\ raw = firstn (Z.to_nat c) d /\ c <= lenZ d /\
    elem_bytes_ok e = true /\ (elem_depth e <= depth)%nat.
Definition pl_prop (pn : nat) : Prop :=
  forall dep fuel d budget l used, bytes_ok d = true ->
    parse_list pn dep fuel d budget = LOk l used true ->
    0 <= used /\ (Z.to_nat used <= length d)%nat /\
    encode_list l = Some (firstn (Z.to_nat used) d) /\
    list_bytes_ok l = true /\ (list_depth l <= dep)%nat.

Lemma pl_from_pn : forall pn, pn_prop pn -> pl_prop pn.
Proof.
  intros pn Hpn dep fuel. induction fuel as [|k' IH]; intros d budget l used Hok H.
  - cbn [parse_list] in H. destruct (budget <=? 0); [|discriminate].
    inversion H; subst. repeat split; try reflexivity; cbn; lia.
  - cbn [parse_list] in H. destruct (budget <=? 0).
    { inversion H; subst. repeat split; try reflexivity; cbn; lia. }
    destruct (parse_next pn dep d) as [e c raw cn| |] eqn:Ep; try discriminate.
    destruct (budget - c <? 0); [discriminate|].
    rewrite dropZ_skipn in H.
    destruct (parse_list pn dep k' (skipn (Z.to_nat c) d) (budget - c)) as [l' used' cn'| |] eqn:El; try discriminate.
    inversion H; subst l used. clear H.
    match goal with H : cn && cn' = true |- _ => apply andb_true_iff in H as [-> ->] end.
    destruct (Hpn dep d e c raw Hok Ep) as [He [Hc [Hraw [Hcl [Hbe Hde]]]]].
    destruct (IH (skipn (Z.to_nat c) d) _ l' used' (bytes_ok_skipn _ _ Hok) El) as [Hu [Hul [Hel [Hbl Hdl]]]].
    rewrite skipn_length in Hul.
    assert (Hc0 : 0 <= c) by (rewrite Hc; apply lenZ_nonneg).
    unfold lenZ in Hcl.
    split; [lia|]. split; [rewrite Z2Nat.inj_add by lia; lia|].
    split; [|split].
    + cbn [encode_list]. rewrite He, Hel. rewrite Z2Nat.inj_add by lia.
      rewrite firstn_add_skipn. rewrite <- Hraw. reflexivity.
    + cbn [list_bytes_ok]. rewrite Hbe, Hbl. reflexivity.
    + cbn [list_depth]. lia.
Qed.

Lemma pn_step : forall k, pl_prop k -> pn_prop (S k).
Proof.
  intros k Hpl depth d e c raw Hok H.
  destruct d as [|b d1]; [discriminate|].
  rewrite parse_next_unfold in H. cbv zeta in H.
  rewrite bytes_ok_cons in Hok. apply andb_true_iff in Hok as [Hb Hd1].
  destruct (hdr_back b Hb) as [Hhdr [Hty Hidx]].
  set (ty := Z.shiftr b 3) in *. set (idx := Z.land b 7) in *.
  destruct (size_of_header ty idx d1) as [[hs vs]|] eqn:Hsoh; [|discriminate].
  set (body := skipn hs d1) in *. set (n := Z.to_nat vs) in *.
  assert (Hbody : bytes_ok body = true) by (apply bytes_ok_skipn; exact Hd1).
  assert (Hval : bytes_ok (firstn n body) = true) by (apply bytes_ok_firstn; exact Hbody).
  assert (Hraw1 : firstn (S (hs + n)) (b :: d1) = b :: firstn (hs + n) d1) by reflexivity.
  assert (Hvs0 : 0 <= vs) by (apply (size_of_header_nonneg ty idx d1 hs vs Hd1 Hidx Hsoh)).
  assert (Hcons : Z.to_nat (1 + Z.of_nat hs + Z.max 0 vs) = S (hs + n)) by (subst n; lia).
  (* common closing argument for elements whose raw form is b :: firstn (hs + n) d1 *)
  assert (Hclose : forall el, (hs <= length d1)%nat -> (n <= length body)%nat ->
            encode el = Some (b :: firstn (hs + n) d1) ->
            elem_bytes_ok el = true -> (elem_depth el <= depth)%nat ->
            encode el = Some (firstn (S (hs + n)) (b :: d1)) /\
            1 + Z.of_nat hs + Z.max 0 vs = lenZ (firstn (S (hs + n)) (b :: d1)) /\
            firstn (S (hs + n)) (b :: d1) = firstn (Z.to_nat (1 + Z.of_nat hs + Z.max 0 vs)) (b :: d1) /\
            1 + Z.of_nat hs + Z.max 0 vs <= lenZ (b :: d1) /\ elem_bytes_ok el = true /\ (elem_depth el <= depth)%nat).
  { intros el Hhs Hn He Hbo Hde. unfold body in Hn. rewrite skipn_length in Hn.
    rewrite Hcons. rewrite Hraw1. repeat split; auto.
    - unfold lenZ. cbn [length]. rewrite firstn_length_le by lia. subst n. lia.
    - unfold lenZ. cbn [length]. subst n. lia. }
  destruct (ty =? 0) eqn:T0.
  { (* NIL *)
    apply Z.eqb_eq in T0. apply POk_inv in H as [<- [<- [<- Hcn]]].
    apply Z.eqb_eq in Hcn; rename Hcn into I0.
    destruct (fixed_header_inv ty idx d1 hs vs ltac:(lia) Hsoh) as [Hhs Hvs].
    rewrite I0, T0 in Hvs. cbn in Hvs.
    apply Hclose; [lia|subst n vs; cbn; lia| |reflexivity|cbn; lia].
    subst n hs vs. cbn [encode Z.to_nat Nat.add firstn]. rewrite <- Hhdr, T0, I0. reflexivity. }
  destruct (ty =? 1) eqn:T1.
  { (* UNSIGNED_INTEGER *)
    apply Z.eqb_eq in T1.
    destruct (int_size_ok vs && (n <=? length body)%nat) eqn:Eg; [|discriminate].
    apply andb_true_iff in Eg as [Hs Hw]. apply Nat.leb_le in Hw.
    apply POk_inv in H as [<- [<- [<- Hcn]]].
    apply Z.leb_le in Hcn; rename Hcn into I3.
    destruct (int_header_inv ty idx d1 hs vs T0 ltac:(lia) Hsoh) as [Hhs Hfi].
    subst hs. cbn [skipn] in body. subst body.
    assert (Hlen : length (firstn n d1) = Z.to_nat vs) by (apply firstn_length_le; exact Hw).
    apply Hclose; [lia|exact Hw| |reflexivity|cbn; lia].
    rewrite <- Hhdr, T1. cbn [Nat.add]. apply uint_back; assumption. }
  destruct (ty =? 2) eqn:T2.
  { (* SIGNED_INTEGER *)
    apply Z.eqb_eq in T2.
    destruct (int_size_ok vs && (n <=? length body)%nat) eqn:Eg; [|discriminate].
    apply andb_true_iff in Eg as [Hs Hw]. apply Nat.leb_le in Hw.
    apply POk_inv in H as [<- [<- [<- Hcn]]].
    apply Z.leb_le in Hcn; rename Hcn into I3.
    destruct (int_header_inv ty idx d1 hs vs T0 ltac:(lia) Hsoh) as [Hhs Hfi].
    subst hs. cbn [skipn] in body. subst body.
    assert (Hlen : length (firstn n d1) = Z.to_nat vs) by (apply firstn_length_le; exact Hw).
    apply Hclose; [lia|exact Hw| |reflexivity|cbn; lia].
    rewrite <- Hhdr, T2. cbn [Nat.add]. apply sint_back; assumption. }
  destruct (ty =? 3) eqn:T3.
  { (* UUID *)
    apply Z.eqb_eq in T3. cbv zeta in H.
    destruct ((lenZ (firstn n body) =? 2) || (lenZ (firstn n body) =? 4) || (lenZ (firstn n body) =? 16)) eqn:Em;
      [|discriminate].
    apply POk_inv in H as [<- [<- [<- Hcn]]].
    apply andb_true_iff in Hcn as [Hw Hi].
    apply Nat.leb_le in Hw.
    destruct (uuid_header_inv ty idx d1 hs vs Hi Hsoh) as [Hhs [Hfi [Hsz _]]].
    subst hs. cbn [skipn] in body. subst body.
    assert (Hrl : lenZ (rev (firstn n d1)) = vs).
    { unfold lenZ. rewrite rev_length, firstn_length_le by exact Hw. subst n. lia. }
    apply Hclose; [lia|exact Hw| |cbn [elem_bytes_ok]; rewrite bytes_ok_rev; exact Hval|cbn; lia].
    rewrite <- Hhdr, T3. cbn [Nat.add encode]. rewrite Hrl, Hsz, Hfi, rev_involutive. reflexivity. }
  destruct (ty =? 4) eqn:T4.
  { (* TEXT_STRING *)
    apply Z.eqb_eq in T4. apply POk_inv in H as [<- [<- [<- Hcn]]].
    apply andb_true_iff in Hcn as [Hw Hcan].
    apply Nat.leb_le in Hw.
    destruct (var_header_back ty idx d1 hs vs Hd1 Hsoh Hcan Hw) as [Hvh Hhs].
    apply Hclose; [exact Hhs|exact Hw| |exact Hval|cbn; lia].
    cbn [encode]. rewrite <- T4, <- Hhdr. exact Hvh. }
  destruct (ty =? 5) eqn:T5.
  { (* BOOLEAN *)
    apply Z.eqb_eq in T5.
    destruct body as [|x body'] eqn:Eb; [discriminate|].
    apply POk_inv in H as [<- [<- [<- Hcn]]].
    apply andb_true_iff in Hcn as [I0 Hx].
    apply Z.eqb_eq in I0.
    destruct (fixed_header_inv ty idx d1 hs vs ltac:(lia) Hsoh) as [Hhs Hvs].
    rewrite I0 in Hvs. replace (ty =? 0) with false in Hvs by (symmetry; apply Z.eqb_neq; lia).
    cbn in Hvs.
    assert (Hxx : bool_z (x =? 1) = x).
    { rewrite orb_true_iff, !Z.eqb_eq in Hx. destruct Hx as [-> | ->]; reflexivity. }
    assert (Hd1x : d1 = x :: body') by (subst hs; exact Eb).
    apply Hclose; [lia|subst n vs; cbn; lia| |reflexivity|cbn; lia].
    subst n hs vs. rewrite Hd1x. cbn [encode Z.to_nat Pos.to_nat Pos.iter_op Nat.add firstn].
    rewrite Hxx. rewrite <- Hhdr, T5, I0. reflexivity. }
  destruct ((ty =? 6) || (ty =? 7)) eqn:T67.
  { (* SEQUENCE / ALTERNATIVE *)
    destruct depth as [|dep]; [discriminate|].
    destruct (parse_list k dep k body vs) as [l used cn| |] eqn:El; try discriminate.
    apply POk_inv in H as [<- [<- [<- Hcn]]].
    rewrite !andb_true_iff in Hcn; destruct Hcn as [[[Hw Hcan] Hcn'] Hu].
    apply Nat.leb_le in Hw. apply Z.eqb_eq in Hu. subst cn used.
    destruct (var_header_back ty idx d1 hs vs Hd1 Hsoh Hcan Hw) as [Hvh Hhs].
    destruct (Hpl dep k body vs l vs Hbody El) as [_ [_ [Hel [Hbl Hdl]]]].
    fold n in Hel.
    destruct (ty =? 6) eqn:T6.
    - apply Z.eqb_eq in T6. apply Hclose; [exact Hhs|exact Hw| | |].
      + rewrite encode_seq, Hel. rewrite <- T6, <- Hhdr. exact Hvh.
      + rewrite elem_bytes_ok_seq. exact Hbl.
      + rewrite elem_depth_seq. lia.
    - cbn [orb] in T67. apply Z.eqb_eq in T67. apply Hclose; [exact Hhs|exact Hw| | |].
      + rewrite encode_alt, Hel. rewrite <- T67, <- Hhdr. exact Hvh.
      + rewrite elem_bytes_ok_alt. exact Hbl.
      + rewrite elem_depth_alt. lia. }
  destruct (ty =? 8) eqn:T8.
  { (* URL *)
    apply Z.eqb_eq in T8. apply POk_inv in H as [<- [<- [<- Hcn]]].
    apply andb_true_iff in Hcn as [Hw Hcan].
    apply Nat.leb_le in Hw.
    destruct (var_header_back ty idx d1 hs vs Hd1 Hsoh Hcan Hw) as [Hvh Hhs].
    apply Hclose; [exact Hhs|exact Hw| |exact Hval|cbn; lia].
    cbn [encode]. rewrite <- T8, <- Hhdr. exact Hvh. }
  discriminate.
Qed.

(* bytes -> value -> bytes: a parse that met only canonical encodings yields an element
   whose (uncached) serialisation is exactly the bytes consumed *)
Theorem parse_encode : forall fuel depth d e c raw,
  bytes_ok d = true -> parse_next fuel depth d = POk e c raw true ->
  encode e = Some raw /\ c = lenZ raw /\ raw = firstn (Z.to_nat c) d /\ c <= lenZ d /\
  elem_bytes_ok e = true /\ (elem_depth e <= depth)%nat.
Proof.
  induction fuel as [|k IH]; [intros; discriminate|]. exact (pn_step k (pl_from_pn k IH)).
Qed.

(* with the _bytes cache the re-serialisation is the consumed slice in every case *)
Theorem parse_cache : forall fuel depth d e c raw cn,
  parse_next fuel depth d = POk e c raw cn -> raw = firstn (Z.to_nat c) d.
Proof.
  intros fuel depth d e c raw cn H. destruct fuel as [|k]; [discriminate|].
  destruct d as [|b d1]; [discriminate|].
  rewrite parse_next_unfold in H. cbv zeta in H.
  destruct (size_of_header _ _ d1) as [[hs vs]|]; [|discriminate].
  repeat match type of H with
         | (if ?c then _ else _) = _ => destruct c
         | match ?c with _ => _ end = _ => destruct c
         end; try discriminate; apply POk_inv in H as [_ [<- [<- _]]]; rewrite consumed_nat; reflexivity.
Qed.

(* fuel: S (length d) is always enough (never PFuel) *)
Lemma fuel_enough_aux : forall pn,
  (forall depth d, (length d < pn)%nat -> parse_next pn depth d <> PFuel) /\
  (forall dep fuel d budget, (length d < pn)%nat -> (length d < fuel)%nat ->
     parse_list pn dep fuel d budget <> LFuel).
Proof.
  induction pn as [|k [IHn IHl]].
  - split; intros; lia.
  - assert (A : forall depth d, (length d < S k)%nat -> parse_next (S k) depth d <> PFuel).
    { intros depth d Hl. destruct d as [|b d1]; [discriminate|].
      rewrite parse_next_unfold. cbv zeta.
      destruct (size_of_header _ _ d1) as [[hs vs]|]; [|discriminate].
      destruct depth as [|dep];
      repeat match goal with
             | |- (if ?c then _ else _) <> _ => destruct c
             | |- match ?c with _ :: _ => _ | [] => _ end <> _ => destruct c
             end; try discriminate.
      destruct (parse_list k dep k (skipn hs d1) vs) eqn:E; try discriminate.
      exfalso. apply (IHl dep k (skipn hs d1) vs); [| |exact E];
        rewrite skipn_length; cbn [length] in Hl; lia. }
    split; [exact A|].
    intros dep fuel. induction fuel as [|k' IHf]; intros d budget Hl Hf; [lia|].
    cbn [parse_list]. destruct (budget <=? 0); [discriminate|].
    destruct (parse_next (S k) dep d) as [e c raw cn| |] eqn:Ep; try discriminate.
    + destruct (budget - c <? 0); [discriminate|].
      rewrite dropZ_skipn.
      destruct (parse_list (S k) dep k' (skipn (Z.to_nat c) d) (budget - c)) eqn:El; try discriminate.
      exfalso.
      assert (Hc : (0 < Z.to_nat c)%nat).
      { destruct d as [|b d1]; [discriminate|]. rewrite parse_next_unfold in Ep. cbv zeta in Ep.
        destruct (size_of_header _ _ d1) as [[hs vs]|]; [|discriminate].
        repeat match type of Ep with
               | (if ?c then _ else _) = _ => destruct c
               | match ?c with _ => _ end = _ => destruct c
               end; try discriminate; apply POk_inv in Ep as [_ [<- _]]; lia. }
      assert (Hd : (0 < length d)%nat) by (destruct d; [discriminate|cbn; lia]).
      apply (IHf (skipn (Z.to_nat c) d) (budget - c)); [| |exact El]; rewrite skipn_length; lia.
    + exfalso. exact (A dep d Hl Ep).
Qed.

(* nesting deeper than the parser's limit is rejected, not mis-parsed: the value side
   of the round trip needs elem_depth <= max_depth *)
Lemma sdp_depth_refuted :
  exists e b, encode e = Some b /\ from_bytes 1 b = PErr.
Proof.
  exists (ESeq [ESeq [ENil]]). eexists. split; [vm_compute; reflexivity|]. vm_compute. reflexivity.
Qed.

(* an element that ends beyond the declared end of its container is rejected (D17b), never
   silently cut back to the container's end *)
Lemma parse_list_overrun_rejected : forall pn dep k' d budget e c raw cn,
  0 < budget -> parse_next pn dep d = POk e c raw cn -> budget < c ->
  parse_list pn dep (S k') d budget = LErr.
Proof.
  intros pn dep k' d budget e c raw cn Hb Hp Hc. cbn [parse_list].
  replace (budget <=? 0) with false by (symmetry; apply Z.leb_gt; lia).
  rewrite Hp. replace (budget - c <? 0) with true by (symmetry; apply Z.ltb_lt; lia). reflexivity.
Qed.
