(* Invariants of a finite-state labelled system by a certificate: a list R of states that
   holds the initial state and every successor of each of its members.  Whatever holds of
   every member of R then holds after every schedule.  How R was found does not matter;
   [explore] finds one by a worklist search. *)
From Coq Require Import PArith List Bool FMapPositive.
Import ListNotations.
Local Open Scope positive_scope.

(* Bit codes for keys: each pushes a self-delimiting code of its argument below the bits
   of p, so that keys composed of them differ for different states (which makes the search
   work; nothing proved relies on it).  Constructors only, no arithmetic: a key is
   evaluated for every transition *)
Definition bool_bits (b : bool) (p : positive) : positive := if b then p~1 else p~0.

Fixpoint nat_bits (n : nat) (p : positive) : positive :=
  match n with O => p~0 | S k => (nat_bits k p)~1 end.

Fixpoint list_bits {A} (e : A -> positive -> positive) (l : list A) (p : positive) : positive :=
  match l with [] => p~0 | x :: r => (e x (list_bits e r p))~1 end.

Section Explore.
  Context {St L : Type} (step : St -> L -> St) (labels : list L) (init : St).
  Variable eq_dec : forall a b : St, {a = b} + {a <> b}.
  (* any function will do for soundness: membership compares the states themselves.  Two
     states of R with the same key only make [certified] fail *)
  Variable key : St -> positive.

  Definition table := PositiveMap.t St.

  Definition add (s : St) (m : table) : table := PositiveMap.add (key s) s m.

  Definition has (m : table) (s : St) : bool :=
    match PositiveMap.find (key s) m with
    | Some x => if eq_dec s x then true else false
    | None => false
    end.

  Definition index (R : list St) : table := fold_right add (PositiveMap.empty St) R.

  Lemma has_index R s : has (index R) s = true -> In s R.
  Proof.
    unfold has. induction R as [|x R IH]; cbn [index fold_right].
    - rewrite PositiveMap.gempty. discriminate.
    - unfold add at 1. destruct (Pos.eq_dec (key s) (key x)) as [E|E].
      + rewrite E, PositiveMap.gss. destruct (eq_dec s x); [left; congruence|discriminate].
      + rewrite PositiveMap.gso by exact E. right. exact (IH H).
  Qed.

  Definition certified (R : list St) (Q : St -> bool) : bool :=
    let m := index R in
    has m init && forallb (fun s => Q s && forallb (fun l => has m (step s l)) labels) R.

  Lemma closed_run (R : list St) :
    (forall s l, In s R -> In (step s l) R) ->
    forall ls s, In s R -> In (fold_left step ls s) R.
  Proof.
    intros H ls. induction ls as [|l ls IH]; intros s Hs; [exact Hs|exact (IH _ (H s l Hs))].
  Qed.

  (* a label outside the list may only stutter *)
  Hypothesis labels_cover : forall s l, In l labels \/ step s l = s.

  Theorem certified_invariant R Q :
    certified R Q = true -> forall ls, Q (fold_left step ls init) = true.
  Proof.
    unfold certified. cbn zeta. rewrite andb_true_iff, forallb_forall.
    intros [Hi HR] ls.
    assert (Hin : In (fold_left step ls init) R).
    { apply closed_run; [|exact (has_index _ _ Hi)]. intros s l Hs.
      destruct (labels_cover s l) as [Hl| ->]; [|exact Hs].
      apply HR, andb_true_iff, proj2 in Hs. rewrite forallb_forall in Hs.
      exact (has_index _ _ (Hs l Hl)). }
    apply HR, andb_true_iff in Hin. exact (proj1 Hin).
  Qed.

  (* depth-first search from [todo]; [acc] lists what [seen] holds.  When the fuel runs
     out the result is not closed and [certified] fails *)
  Fixpoint explore (fuel : nat) (seen : table) (acc todo : list St) : list St :=
    match fuel, todo with
    | S k, s :: rest =>
        if has seen s then explore k seen acc rest
        else explore k (add s seen) (s :: acc) (map (step s) labels ++ rest)
    | _, _ => acc
    end.

  Definition search (fuel : nat) : list St := explore fuel (PositiveMap.empty St) [] [init].
End Explore.
