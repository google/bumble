(* Property C05: L2CAP PDUs of any size cross the ACL link intact for any buffer geometry.
   The statements, each an instance or an immediate consequence of a lemma of Proofs/Acl.v or
   Proofs/AclSrc.v, or (second half of the file) a comparison with the source shape that
   tools/translate/c05_shape.py writes to Gen/C05Shape.v, closed by evaluation; the model is Model/Acl.v
   (hand-written, tied to bumble by tools/harness/c05.py). *)
From Coq Require Import ZArith List Bool.
From BV Require Import Model.Acl Model.AclSrc Model.DataQueue Gen.C05Shape Proofs.DataQueue Proofs.Acl Proofs.AclSrc.
Import ListNotations.
Open Scope Z_scope.

(* ---- fragmentation (Host.send_acl_sdu towards the controller with first marker 0,
        Controller.on_link_acl_data towards the host with first marker 2) ----
   For every fragment size m >= 1 and every SDU of any length: the fragmenter succeeds; the
   fragments concatenate to the SDU; each has the connection handle, bc 0, data_total_length =
   its size, 1 <= size <= m; the first carries the start marker, all others 1; every fragment
   but the last is exactly m bytes; no packet at all iff the SDU is empty. *)
Theorem C05_fragments_fit_and_flagged : forall h pb m sdu, 1 <= m ->
  exists ps, fragment h pb m sdu = Some ps /\
             concat (map a_data ps) = sdu /\
             Forall (frag_ok h m) ps /\ flags_ok pb ps /\
             full_but_last (Z.to_nat m) (map a_data ps) /\
             (ps = [] <-> sdu = []).
Proof. exact fragment_spec. Qed.
Print Assumptions C05_fragments_fit_and_flagged.

(* ---- reassembly, RESYNC ----
   From EVERY assembler state (whatever preceded), the fragments of a well-formed PDU cut by
   ANY m >= 1 (also cuts that leave fewer than two bytes in the start fragment), with either start marker, deliver exactly that PDU, once, and leave the
   assembler in its initial state. *)
Theorem C05_reassembly_from_any_state : forall s h pb m pdu ps,
  1 <= m -> pb = 0 \/ pb = 2 -> pdu_wf pdu ->
  fragment h pb m pdu = Some ps ->
  asm_run s ps = (asm_init, [Deliver pdu]).
Proof. exact asm_fragment. Qed.
Print Assumptions C05_reassembly_from_any_state.

(* ... also with an arbitrary packet sequence in front: its effects come first, untouched *)
Theorem C05_resync_after_garbage : forall s junk h pb m pdu ps,
  1 <= m -> pb = 0 \/ pb = 2 -> pdu_wf pdu -> fragment h pb m pdu = Some ps ->
  asm_run s (junk ++ ps) = (asm_init, snd (asm_run s junk) ++ [Deliver pdu]).
Proof.
  intros s junk h pb m pdu ps Hm Hpb Hwf Hf. rewrite asm_run_app. destruct (asm_run s junk) as [s1 o1].
  rewrite (asm_fragment s1 h pb m pdu ps Hm Hpb Hwf Hf). reflexivity.
Qed.
Print Assumptions C05_resync_after_garbage.

(* Before fix D05b (start fragment shorter than the length field raised struct.error) this was
   false for m = 1; with the fix the same fragments deliver the PDU. *)
Theorem C05_reassembly_m1_before_d05b_refuted :
  exists pdu ps, pdu_wf pdu /\ fragment 1 0 1 pdu = Some ps /\
                 deliveries (snd (asm_run_before_d05b asm_init ps)) = [] /\
                 deliveries (snd (asm_run asm_init ps)) = [pdu].
Proof. exists [1; 0; 4; 0; 9]. eexists. split; [reflexivity|]. repeat split; vm_compute; reflexivity. Qed.
Print Assumptions C05_reassembly_m1_before_d05b_refuted.

(* soundness of deliveries: from ANY state, for ANY packets, whatever is handed to L2CAP has a
   length field that matches its size *)
Theorem C05_deliveries_are_wellformed : forall ps s d,
  In d (deliveries (snd (asm_run s ps))) -> pdu_wf d.
Proof. exact asm_run_delivers_wf. Qed.
Print Assumptions C05_deliveries_are_wellformed.

(* ---- streams: arbitrary packets, then a well-formed PDU, repeated ----
   Every well-formed PDU is delivered once, in order; what a malformed sequence causes is a
   function of that sequence alone, evaluated from the INITIAL state (for all but the first):
   it costs at most itself and can never corrupt a neighbour. *)
Theorem C05_stream_with_malformed_sequences : forall items s, Forall item_wf items ->
  deliveries (snd (asm_run s (flat_map item_packets items))) = stream_spec s items /\
  (items <> [] -> fst (asm_run s (flat_map item_packets items)) = asm_init).
Proof. exact asm_stream. Qed.
Print Assumptions C05_stream_with_malformed_sequences.

(* sequences of well-formed PDUs compose *)
Theorem C05_sequences_compose : forall h pb m pdus s,
  1 <= m -> pb = 0 \/ pb = 2 -> Forall pdu_wf pdus ->
  deliveries (snd (asm_run s (flat_map item_packets (map (clean h pb m) pdus)))) = pdus.
Proof. exact asm_sequence. Qed.
Print Assumptions C05_sequences_compose.

(* ---- the malformed sequences named by the property ---- *)
(* continuation without start: ignored *)
Theorem C05_continuation_without_start : forall ps l, Forall (fun p => a_pb p = 1) ps ->
  asm_run (None, l) ps = ((None, l), map (fun _ => ContNoStart) ps).
Proof. exact conts_without_start. Qed.
Print Assumptions C05_continuation_without_start.

(* a PDU whose start fragment was lost costs that PDU only *)
Theorem C05_lost_start : forall h pb m pdu p ps,
  1 <= m -> fragment h pb m pdu = Some (p :: ps) ->
  asm_run asm_init ps = (asm_init, map (fun _ => ContNoStart) ps).
Proof. exact lost_start. Qed.
Print Assumptions C05_lost_start.

(* data beyond the announced length: that PDU is dropped, the state is reset, trailing
   continuation fragments are ignored *)
Theorem C05_overflow_costs_one_pdu : forall s h pb b0 b1 rest r more,
  pb = 0 \/ pb = 2 ->
  let c0 := b0 :: b1 :: rest in
  (r <> [] -> blen (c0 ++ concat (removelast r)) < rd16 b0 b1 + 4) ->
  blen (c0 ++ concat r) > rd16 b0 b1 + 4 ->
  Forall (fun p => a_pb p = 1) more ->
  asm_run s (start h pb c0 :: map (cont h) r ++ more) =
  (asm_init, Overflow :: map (fun _ => ContNoStart) more).
Proof. exact overflow_costs_one_pdu. Qed.
Print Assumptions C05_overflow_costs_one_pdu.

(* a truncated PDU is dropped by the next start fragment; the next PDU is intact *)
Theorem C05_truncated_then_next : forall s h pb b0 b1 rest r h' pb' m pdu ps,
  pb = 0 \/ pb = 2 ->
  let c0 := b0 :: b1 :: rest in
  blen (c0 ++ concat r) < rd16 b0 b1 + 4 ->
  1 <= m -> pb' = 0 \/ pb' = 2 -> pdu_wf pdu -> fragment h' pb' m pdu = Some ps ->
  asm_run s ((start h pb c0 :: map (cont h) r) ++ ps) = (asm_init, [Deliver pdu]).
Proof.
  intros s h pb b0 b1 rest r h' pb' m pdu ps Hpb c0 Hlt Hm Hpb' Hwf Hf. subst c0.
  rewrite asm_run_app, truncated_run by assumption. rewrite (asm_fragment _ h' pb' m pdu ps Hm Hpb' Hwf Hf). reflexivity.
Qed.
Print Assumptions C05_truncated_then_next.

(* a delivery or an overflow always leaves the initial state (no stale data survives) *)
Theorem C05_delivery_resets : forall s p s' o,
  feed s p = (s', o) -> (exists d, In (Deliver d) o) \/ In Overflow o -> s' = asm_init.
Proof. exact feed_resets. Qed.
Print Assumptions C05_delivery_resets.

(* the property's sentence, at the receiving host: arbitrary packet sequences injected before
   each PDU; if they deliver nothing by themselves, L2CAP sees exactly the PDUs sent *)
Theorem C05_rx_with_faults : forall hB mB xs,
  1 <= mB -> Forall sendable (map snd xs) -> Forall (fun x => silent (fst x)) xs ->
  flat_map host_on_acl_pdu (deliveries (snd (asm_run asm_init (faulty_stream hB mB xs)))) = map snd xs.
Proof. exact rx_with_faults. Qed.
Print Assumptions C05_rx_with_faults.

(* ... and the named malformed sequences are such sequences *)
Theorem C05_silent_continuations : forall ps, Forall (fun p => a_pb p = 1) ps -> silent ps.
Proof. intros ps H. unfold silent, asm_init. rewrite conts_without_start by exact H. apply deliveries_conts. Qed.
Print Assumptions C05_silent_continuations.

Theorem C05_silent_overflow : forall h pb b0 b1 rest r more,
  pb = 0 \/ pb = 2 ->
  (r <> [] -> blen ((b0 :: b1 :: rest) ++ concat (removelast r)) < rd16 b0 b1 + 4) ->
  blen ((b0 :: b1 :: rest) ++ concat r) > rd16 b0 b1 + 4 ->
  Forall (fun p => a_pb p = 1) more ->
  silent (start h pb (b0 :: b1 :: rest) :: map (cont h) r ++ more).
Proof.
  intros h pb b0 b1 rest r more Hpb Hlt Hgt Hmore. unfold silent.
  rewrite (overflow_costs_one_pdu asm_init h pb b0 b1 rest r more Hpb Hlt Hgt Hmore). apply (deliveries_conts more).
Qed.
Print Assumptions C05_silent_overflow.

Theorem C05_silent_truncated : forall h pb b0 b1 rest r,
  pb = 0 \/ pb = 2 -> blen ((b0 :: b1 :: rest) ++ concat r) < rd16 b0 b1 + 4 ->
  silent (start h pb (b0 :: b1 :: rest) :: map (cont h) r).
Proof. intros h pb b0 b1 rest r Hpb Hlt. unfold silent. rewrite truncated_run by assumption. reflexivity. Qed.
Print Assumptions C05_silent_truncated.

(* ---- codecs on the path ---- *)
Theorem C05_l2cap_header_roundtrip : forall cid payload b,
  l2cap_to_bytes cid payload = Some b ->
  l2cap_from_bytes b = Some (cid, payload) /\ pdu_wf b /\ blen b = blen payload + 4.
Proof. exact l2cap_roundtrip. Qed.
Print Assumptions C05_l2cap_header_roundtrip.

Theorem C05_l2cap_sendable : forall cid payload,
  blen payload <= 65535 -> 0 <= cid <= 65535 -> exists b, l2cap_to_bytes cid payload = Some b.
Proof. exact l2cap_to_bytes_some. Qed.
Print Assumptions C05_l2cap_sendable.

Theorem C05_l2cap_fcs_roundtrip : forall cid payload b,
  l2cap_to_bytes_fcs cid payload = Some b ->
  exists f0 f1, l2cap_from_bytes b = Some (cid, payload ++ [f0; f1]) /\ pdu_wf b /\
                [f0; f1] = le16 (crc16 (le16 (blen payload + 2) ++ le16 cid ++ payload)).
Proof. exact l2cap_fcs_roundtrip. Qed.
Print Assumptions C05_l2cap_fcs_roundtrip.

(* HCI ACL header bit fields (handle 12 bits, pb 2 bits, bc 2 bits, length 16 bits) *)
Theorem C05_acl_header_roundtrip : forall p, acl_ok p ->
  exists b, acl_to_bytes p = Some b /\ acl_from_bytes b = Some p.
Proof. exact acl_wire_roundtrip. Qed.
Print Assumptions C05_acl_header_roundtrip.

(* ---- end to end: host A -> controller A -> link -> controller B -> host B ----
   For all handles, all fragment sizes 1..65535 on either side, every list of PDUs with
   0..65535 payload bytes: the peer's L2CAP layer sees exactly the PDUs sent, once, in order. *)
Theorem C05_relay_intact : forall hA mA hB mB pdus,
  0 <= hA < 4096 -> 0 <= hB < 4096 -> 1 <= mA <= 65535 -> 1 <= mB <= 65535 ->
  Forall sendable pdus ->
  relay hA mA hB mB pdus = Some pdus.
Proof. exact relay_intact. Qed.
Print Assumptions C05_relay_intact.

(* ... and every fragment on either HCI link fits, with the right markers *)
Theorem C05_relay_fragments_fit : forall h pb m pdu, 1 <= m ->
  Forall (frag_ok h m) (frags h pb m pdu) /\ flags_ok pb (frags h pb m pdu) /\
  concat (map a_data (frags h pb m pdu)) = pdu.
Proof.
  intros h pb m pdu Hm. destruct (fragment_spec h pb m pdu Hm) as (ps & Hf & Hcat & Hok & Hfl & _).
  unfold frags. rewrite Hf. auto.
Qed.
Print Assumptions C05_relay_fragments_fit.

(* the relay as it was before fix D05 (one ACL packet per PDU towards the host) loses a
   65532-byte PDU: struct.pack cannot encode data_total_length 65536 *)
Theorem C05_relay_unfragmented_refuted :
  relay_unfragmented 1 1021 2 [(62, pattern (Z.to_nat 65532) 7 1); (62, [1; 2; 3])] = Some [(62, [1; 2; 3])].
Proof. exact relay_unfragmented_refuted. Qed.
Print Assumptions C05_relay_unfragmented_refuted.

(* composition with the DataPacketQueue (C04): whatever else the queue does, once nothing of
   the connection is waiting, the controller was handed exactly the fragment list *)
Theorem C05_queue_hands_over_fragments : forall maxf ops h (pk : list acl) d,
  enqueued h ops = map (fun i => (Z.of_nat i, h)) (seq 0 (length pk)) ->
  flushes h ops = false ->
  filter (is_handle h) (q_wait (fst (q_run (q_init maxf) ops))) = [] ->
  map (fun ph => nth (Z.to_nat (fst ph)) pk d) (filter (is_handle h) (snd (q_run (q_init maxf) ops))) = pk.
Proof.
  intros maxf ops h pk d Henq Hfl Hw. destruct (handed_over maxf ops h pk d Henq Hfl) as [H1 H2].
  rewrite H1, (H2 Hw). apply firstn_all.
Qed.
Print Assumptions C05_queue_hands_over_fragments.

(* several connections share the queue: AT EVERY POINT of the drain, whatever is enqueued,
   completed or FLUSHED for other handles (a disconnection of another connection at any position
   of the history), what the controller was handed for h is a prefix of h's fragments in order;
   and all of them once nothing of h waits *)
Theorem C05_queue_other_connections_harmless : forall maxf ops h (pk : list acl) d,
  enqueued h ops = map (fun i => (Z.of_nat i, h)) (seq 0 (length pk)) ->
  Forall (fun o => match o with Flush h' => h' <> h | _ => True end) ops ->
  (exists k, map (fun ph => nth (Z.to_nat (fst ph)) pk d)
                 (filter (is_handle h) (snd (q_run (q_init maxf) ops))) = firstn k pk) /\
  (filter (is_handle h) (q_wait (fst (q_run (q_init maxf) ops))) = [] ->
   map (fun ph => nth (Z.to_nat (fst ph)) pk d)
       (filter (is_handle h) (snd (q_run (q_init maxf) ops))) = pk).
Proof.
  intros maxf ops h pk d Henq Hall. apply flushes_others in Hall.
  destruct (handed_over maxf ops h pk d Henq Hall) as [H1 H2].
  split; [eexists; exact H1|intros Hw; rewrite H1, (H2 Hw); apply firstn_all].
Qed.
Print Assumptions C05_queue_other_connections_harmless.

(* ---- isochronous SDUs ----
   For every ISO data packet length > 4 and every SDU: fragments concatenate to the SDU, each
   is non-empty with data_total_length <= max; markers 10 (single) or 00 01* 11; sequence
   number and SDU length on the first fragment only; the counter advances modulo 2^16. *)
Theorem C05_iso_sdu_fragments : forall h maxp seq sdu, 4 < maxp -> 0 <= seq ->
  exists ps, send_iso_sdu h maxp seq sdu = (Some ps, (seq + 1) mod 65536) /\
             concat (map i_frag ps) = sdu /\
             Forall (fun p => i_handle p = h /\ 1 <= blen (i_frag p) /\ 0 <= i_len p <= maxp) ps /\
             iso_shape true seq (blen sdu) ps.
Proof. exact send_iso_sdu_spec. Qed.
Print Assumptions C05_iso_sdu_fragments.

Theorem C05_iso_sequence_numbers : forall h maxp, 4 < maxp -> forall sdus seq, 0 <= seq < 65536 ->
  iso_seq_spec h maxp seq sdus (fst (send_iso_sdus h maxp seq sdus)) /\
  snd (send_iso_sdus h maxp seq sdus) = (seq + Z.of_nat (length sdus)) mod 65536.
Proof. exact send_iso_sdus_spec. Qed.
Print Assumptions C05_iso_sequence_numbers.

Theorem C05_iso_wire_roundtrip : forall p, iso_first_ok p \/ iso_cont_ok p ->
  exists b, iso_to_bytes p = Some b /\ iso_from_bytes b = Some p.
Proof. exact iso_wire_roundtrip. Qed.
Print Assumptions C05_iso_wire_roundtrip.

(* every packet of an SDU can be read back by the receiving host, field for field *)
Theorem C05_iso_sdu_wire_intact : forall h maxp seq sdu,
  0 <= h < 4096 -> 4 < maxp <= 65535 -> 0 <= seq <= 65535 -> blen sdu < 4096 ->
  exists ps, fst (send_iso_sdu h maxp seq sdu) = Some ps /\
             concat (map i_frag ps) = sdu /\
             Forall (fun p => exists b, iso_to_bytes p = Some b /\ iso_from_bytes b = Some p) ps.
Proof. exact iso_sdu_wire_intact. Qed.
Print Assumptions C05_iso_sdu_wire_intact.

(* a zero-length SDU has no fragment; it still consumes one sequence number *)
Theorem C05_iso_empty_sdu : forall h maxp seq, 0 <= seq ->
  send_iso_sdu h maxp seq [] = (Some [], (seq + 1) mod 65536).
Proof. intros h maxp seq _. unfold send_iso_sdu. cbn [iso_loop List.length]. rewrite land_ffff. reflexivity. Qed.
Print Assumptions C05_iso_empty_sdu.

(* the guard "SDU length < 2^12" of the wire round trip is needed *)
Theorem C05_iso_sdu_length_4096_refuted :
  exists p b, iso_to_bytes p = Some b /\ i_sdu_len p = Some 4096 /\
              option_map i_sdu_len (iso_from_bytes b) = Some (Some 0).
Proof.
  exists (mkIso 1 2 5 None (Some 0) (Some 4096) (Some 0) [7]). eexists.
  split; [reflexivity|]. split; vm_compute; reflexivity.
Qed.
Print Assumptions C05_iso_sdu_length_4096_refuted.


(* ==== the source, regenerated on every run (Gen/C05Shape.v), against the model ====
   Skeletons: control flow and canonical expression text of every anchored function are what
   Model/Acl.v was written from. An edit of one of these functions breaks its theorem. *)
Theorem C05_src_host_send_acl_sdu_skeleton_matches_source : sk_host_send_acl_sdu = exp_sk_host_send_acl_sdu.
Proof. vm_compute. reflexivity. Qed.
Print Assumptions C05_src_host_send_acl_sdu_skeleton_matches_source.

Theorem C05_src_host_send_l2cap_pdu_skeleton_matches_source : sk_host_send_l2cap_pdu = exp_sk_host_send_l2cap_pdu.
Proof. vm_compute. reflexivity. Qed.
Print Assumptions C05_src_host_send_l2cap_pdu_skeleton_matches_source.

Theorem C05_src_host_send_iso_sdu_skeleton_matches_source : sk_host_send_iso_sdu = exp_sk_host_send_iso_sdu.
Proof. vm_compute. reflexivity. Qed.
Print Assumptions C05_src_host_send_iso_sdu_skeleton_matches_source.

Theorem C05_src_host_on_l2cap_pdu_skeleton_matches_source : sk_host_on_l2cap_pdu = exp_sk_host_on_l2cap_pdu.
Proof. vm_compute. reflexivity. Qed.
Print Assumptions C05_src_host_on_l2cap_pdu_skeleton_matches_source.

Theorem C05_src_host_conn_on_hci_acl_data_packet_skeleton_matches_source : sk_host_conn_on_hci_acl_data_packet = exp_sk_host_conn_on_hci_acl_data_packet.
Proof. vm_compute. reflexivity. Qed.
Print Assumptions C05_src_host_conn_on_hci_acl_data_packet_skeleton_matches_source.

Theorem C05_src_host_conn_on_acl_pdu_skeleton_matches_source : sk_host_conn_on_acl_pdu = exp_sk_host_conn_on_acl_pdu.
Proof. vm_compute. reflexivity. Qed.
Print Assumptions C05_src_host_conn_on_acl_pdu_skeleton_matches_source.

Theorem C05_src_asm_init_skeleton_matches_source : sk_asm_init = exp_sk_asm_init.
Proof. vm_compute. reflexivity. Qed.
Print Assumptions C05_src_asm_init_skeleton_matches_source.

Theorem C05_src_asm_feed_packet_skeleton_matches_source : sk_asm_feed_packet = exp_sk_asm_feed_packet.
Proof. vm_compute. reflexivity. Qed.
Print Assumptions C05_src_asm_feed_packet_skeleton_matches_source.

Theorem C05_src_acl_from_bytes_skeleton_matches_source : sk_acl_from_bytes = exp_sk_acl_from_bytes.
Proof. vm_compute. reflexivity. Qed.
Print Assumptions C05_src_acl_from_bytes_skeleton_matches_source.

Theorem C05_src_acl_to_bytes_skeleton_matches_source : sk_acl_to_bytes = exp_sk_acl_to_bytes.
Proof. vm_compute. reflexivity. Qed.
Print Assumptions C05_src_acl_to_bytes_skeleton_matches_source.

Theorem C05_src_iso_from_bytes_skeleton_matches_source : sk_iso_from_bytes = exp_sk_iso_from_bytes.
Proof. vm_compute. reflexivity. Qed.
Print Assumptions C05_src_iso_from_bytes_skeleton_matches_source.

Theorem C05_src_iso_to_bytes_skeleton_matches_source : sk_iso_to_bytes = exp_sk_iso_to_bytes.
Proof. vm_compute. reflexivity. Qed.
Print Assumptions C05_src_iso_to_bytes_skeleton_matches_source.

Theorem C05_src_l2cap_from_bytes_skeleton_matches_source : sk_l2cap_from_bytes = exp_sk_l2cap_from_bytes.
Proof. vm_compute. reflexivity. Qed.
Print Assumptions C05_src_l2cap_from_bytes_skeleton_matches_source.

Theorem C05_src_l2cap_to_bytes_skeleton_matches_source : sk_l2cap_to_bytes = exp_sk_l2cap_to_bytes.
Proof. vm_compute. reflexivity. Qed.
Print Assumptions C05_src_l2cap_to_bytes_skeleton_matches_source.

Theorem C05_src_ctrl_conn_on_hci_acl_data_packet_skeleton_matches_source : sk_ctrl_conn_on_hci_acl_data_packet = exp_sk_ctrl_conn_on_hci_acl_data_packet.
Proof. vm_compute. reflexivity. Qed.
Print Assumptions C05_src_ctrl_conn_on_hci_acl_data_packet_skeleton_matches_source.

Theorem C05_src_ctrl_conn_on_acl_pdu_skeleton_matches_source : sk_ctrl_conn_on_acl_pdu = exp_sk_ctrl_conn_on_acl_pdu.
Proof. vm_compute. reflexivity. Qed.
Print Assumptions C05_src_ctrl_conn_on_acl_pdu_skeleton_matches_source.

Theorem C05_src_ctrl_on_hci_acl_data_packet_skeleton_matches_source : sk_ctrl_on_hci_acl_data_packet = exp_sk_ctrl_on_hci_acl_data_packet.
Proof. vm_compute. reflexivity. Qed.
Print Assumptions C05_src_ctrl_on_hci_acl_data_packet_skeleton_matches_source.

Theorem C05_src_ctrl_on_link_acl_data_skeleton_matches_source : sk_ctrl_on_link_acl_data = exp_sk_ctrl_on_link_acl_data.
Proof. vm_compute. reflexivity. Qed.
Print Assumptions C05_src_ctrl_on_link_acl_data_skeleton_matches_source.

Theorem C05_src_link_send_acl_data_skeleton_matches_source : sk_link_send_acl_data = exp_sk_link_send_acl_data.
Proof. vm_compute. reflexivity. Qed.
Print Assumptions C05_src_link_send_acl_data_skeleton_matches_source.

(* Semantics, for ALL values: the loop bounds / slices / flag expressions / comparison operators /
   header arithmetic found in the current source compute what the model computes. *)
Theorem C05_src_tx_loop_matches_source :
  loop_shape tx_atoms exp_tx_data tx_range_start tx_range_stop tx_range_step tx_loop_target tx_slice_lo tx_slice_hi tx_bc tx_len
  /\ nth 3 tx_atoms exp_empty = exp_tx_len_atom.
Proof. unfold loop_shape. repeat split; reflexivity. Qed.
Print Assumptions C05_src_tx_loop_matches_source.

Theorem C05_src_relay_loop_matches_source :
  loop_shape rl_atoms exp_rl_data rl_range_start rl_range_stop rl_range_step rl_loop_target rl_slice_lo rl_slice_hi rl_bc rl_len
  /\ nth 3 rl_atoms exp_empty = exp_rl_len_atom.
Proof. unfold loop_shape. repeat split; reflexivity. Qed.
Print Assumptions C05_src_relay_loop_matches_source.

(* range(0, len, m) with x[off : off + m] is the model's chunking *)
Theorem C05_src_chunks_are_slices : forall fuel m l cs, chunks fuel m l = Some cs ->
  forall k, (k < List.length cs)%nat -> nth k cs [] = firstn m (skipn (k * m) l).
Proof. exact chunks_nth. Qed.
Print Assumptions C05_src_chunks_are_slices.

Theorem C05_src_tx_pb_matches_source : forall h cs m k d n len, 1 <= m -> (k < List.length cs)%nat ->
  a_pb (nth k (mark_frags h 0 cs) d) = pxeval (env_of [n; m; Z.of_nat k * m; len]) tx_pb.
Proof. intros h. exact (pb_matches_model h 0). Qed.
Print Assumptions C05_src_tx_pb_matches_source.

Theorem C05_src_relay_pb_matches_source : forall h cs m k d n len, 1 <= m -> (k < List.length cs)%nat ->
  a_pb (nth k (mark_frags h 2 cs) d) = pxeval (env_of [n; m; Z.of_nat k * m; len]) rl_pb.
Proof. intros h. exact (pb_matches_model h 2). Qed.
Print Assumptions C05_src_relay_pb_matches_source.

(* the model's assembler step IS the interpretation of the five tests found in feed_packet
   (membership of pb in the start constants, == continuation, < 2, == length + 4, > length + 4) *)
Theorem C05_src_feed_matches_source : forall s p, feed s p = feed_src s p.
Proof. exact feed_matches_source. Qed.
Print Assumptions C05_src_feed_matches_source.

Theorem C05_src_feed_atoms_match_source :
  asm_atoms = exp_asm_atoms /\
  asm_unpack_args = exp_asm_unpack_args /\ asm_test_count = 6.
Proof. repeat split; reflexivity. Qed.
Print Assumptions C05_src_feed_atoms_match_source.

Theorem C05_src_acl_header_matches_source : forall pb bc handle x n len,
  aclhdr_atoms = exp_aclhdr_atoms /\
  aclhdr_formats = exp_aclhdr_formats /\
  pxeval (env_of [pb; bc; handle; x; n; len]) aclhdr_pack = acl_hdr handle pb bc /\
  pxeval (env_of [pb; bc; handle; x; n; len]) aclhdr_handle = Z.land x 4095 /\
  pxeval (env_of [pb; bc; handle; x; n; len]) aclhdr_pb = Z.land (Z.shiftr x 12) 3 /\
  pxeval (env_of [pb; bc; handle; x; n; len]) aclhdr_bc = Z.land (Z.shiftr x 14) 3 /\
  truthy (pxeval (env_of [pb; bc; handle; x; n; len]) aclhdr_len_check) = negb (n =? len).
Proof. exact aclhdr_matches_source. Qed.
Print Assumptions C05_src_acl_header_matches_source.

Theorem C05_src_l2cap_matches_source : forall n length,
  l2_atoms = exp_l2_atoms /\ l2_formats = exp_l2_formats /\
  truthy (pxeval (env_of [n; length]) l2_short_test) = (n <? 4) /\
  pxeval (env_of [n; length]) l2_slice_lo = 4 /\
  pxeval (env_of [n; length]) l2_slice_hi = 4 + length.
Proof. exact l2_matches_source. Qed.
Print Assumptions C05_src_l2cap_matches_source.

(* one iteration of the model's ISO loop is the source's iteration: header length, assert,
   min(...), last-fragment test, the four pb values, lengths, SDU length *)
Theorem C05_src_iso_loop_matches_source : forall f h maxp seq total first x rest,
  let l := x :: rest in
  let env0 := iso_env (blen l) 0 (b2z first) maxp 0 0 0 total seq in
  let hl := pxeval env0 iso_header_length in
  let env1 := iso_env (blen l) 0 (b2z first) maxp hl 0 0 total seq in
  let fl := pxeval env1 iso_fragment_length in
  let env2 := iso_env (blen l) 0 (b2z first) maxp hl fl 0 total seq in
  let last := b2z (truthy (pxeval env2 iso_is_last)) in
  let env3 := iso_env (blen l) 0 (b2z first) maxp hl fl last total seq in
  iso_loop (S f) h maxp seq total first l =
  if negb (truthy (pxeval env1 iso_assert_test)) then None
  else
    let fr := firstn (Z.to_nat fl) l in
    let pkt := if first
               then mkIso h (pxeval env3 iso_first_pb) (pxeval env3 iso_first_len) None (Some seq)
                          (Some (pxeval env3 iso_first_sdu_len)) (Some (pxeval env3 iso_first_psf)) fr
               else mkIso h (pxeval env3 iso_later_pb) (pxeval env3 iso_later_len) None None None None fr in
    match iso_loop f h maxp seq total false (skipn (Z.to_nat fl) l) with
    | Some r => Some (pkt :: r)
    | None => None
    end.
Proof. exact iso_loop_matches_source. Qed.
Print Assumptions C05_src_iso_loop_matches_source.

Theorem C05_src_iso_atoms_match_source : iso_atoms = exp_iso_atoms.
Proof. exact (proj1 (iso_matches_source 0 0 0 0 0 0 0 0 0)). Qed.
Print Assumptions C05_src_iso_atoms_match_source.

Theorem C05_src_iso_seq_matches_source : forall h maxp seq sdu ps,
  iso_loop (List.length sdu) h maxp seq (blen sdu) true sdu = Some ps ->
  snd (send_iso_sdu h maxp seq sdu) = pxeval (iso_env 0 0 0 0 0 0 0 0 seq) iso_seq_update.
Proof. exact iso_seq_matches_source. Qed.
Print Assumptions C05_src_iso_seq_matches_source.

Theorem C05_src_iso_header_matches_source : forall ts pb handle l f info w,
  let env := env_of [ts; pb; handle; l; f; info; w] in
  isohdr_atoms = exp_isohdr_atoms /\
  pxeval env isohdr_pack = iso_hdr ts pb handle /\
  pxeval env isohdr_info_pack = Z.lor l (Z.shiftl f 14) /\
  pxeval env isohdr_handle = Z.land info 4095 /\
  pxeval env isohdr_pb = Z.land (Z.shiftr info 12) 3 /\
  pxeval env isohdr_ts = Z.land (Z.shiftr info 14) 1 /\
  pxeval env isohdr_sdu_len = Z.land w 4095 /\
  pxeval env isohdr_psf = Z.land (Z.shiftr w 14) 3.
Proof. exact isohdr_matches_source. Qed.
Print Assumptions C05_src_iso_header_matches_source.

(* ---- non-vacuity ---- *)
Example C05_example_relay :
  relay 1 2 2 3 [(4, [10; 20; 30; 40; 50]); (5, []); (62, [7])] = Some [(4, [10; 20; 30; 40; 50]); (5, []); (62, [7])].
Proof. vm_compute. reflexivity. Qed.

Example C05_example_wf :
  Forall sendable [(4, [10; 20; 30; 40; 50]); (5, []); (62, [7])] /\ pdu_wf [1; 0; 4; 0; 9] /\
  item_wf (mkItem [mkAcl 1 1 0 2 [1; 2]] 1 0 2 [1; 0; 4; 0; 9]).
Proof.
  split; [|split].
  - repeat constructor; cbn; unfold blen; cbn; try discriminate.
  - reflexivity.
  - unfold item_wf. cbn. split; [discriminate|]. split; [left; reflexivity|reflexivity].
Qed.

Example C05_example_one_byte_fragments :
  relay 1 1 2 1 [(4, [10; 20; 30]); (5, [])] = Some [(4, [10; 20; 30]); (5, [])] /\
  silent [mkAcl 1 0 0 1 [9]; mkAcl 1 1 0 1 [0]; mkAcl 1 1 0 2 [4; 0]] /\
  silent [mkAcl 1 1 0 3 [1; 2; 3]].
Proof. vm_compute. repeat split. Qed.

Example C05_example_overflow :
  asm_run asm_init [mkAcl 1 0 0 5 [1; 0; 4; 0; 9]; mkAcl 1 0 0 4 [2; 0; 4; 0]; mkAcl 1 1 0 3 [1; 2; 3];
                    mkAcl 1 1 0 1 [9]; mkAcl 1 0 0 5 [1; 0; 4; 0; 8]]
  = (asm_init, [Deliver [1; 0; 4; 0; 9]; Overflow; ContNoStart; Deliver [1; 0; 4; 0; 8]]).
Proof. vm_compute. reflexivity. Qed.

(* the state "stale partial PDU, then a start fragment that is a complete PDU": the complete
   PDU is delivered, the stale data is gone, the orphan continuation that would have completed
   the stale PDU is ignored (instance of C05_reassembly_from_any_state) *)
Example C05_example_stale_partial :
  asm_run asm_init [mkAcl 1 2 0 6 [6; 0; 62; 0; 16; 17];            (* announces 10 bytes, carries 6 *)
                    mkAcl 1 2 0 7 [3; 0; 62; 0; 32; 33; 34];        (* complete single-fragment PDU *)
                    mkAcl 1 1 0 4 [48; 49; 50; 51]]                 (* would complete the stale one *)
  = (asm_init, [Deliver [3; 0; 62; 0; 32; 33; 34]; ContNoStart]).
Proof. vm_compute. reflexivity. Qed.

(* one buffer, connection 2 has three fragments backlogged behind connection 1's packet;
   connection 1 is flushed (disconnected) in the middle of the drain: 0, 1, 2 in order *)
Example C05_example_flush_of_other_connection :
  let ops := [Enqueue 0 2; Enqueue 100 1; Enqueue 1 2; Enqueue 101 1; Enqueue 2 2;
              Completed 1 2; Flush 1; Completed 1 2; Completed 1 2] in
  map fst (filter (is_handle 2) (snd (q_run (q_init 1) ops))) = [0; 1; 2] /\
  filter (is_handle 2) (q_wait (fst (q_run (q_init 1) ops))) = [].
Proof. vm_compute. split; reflexivity. Qed.

Example C05_example_iso :
  fst (send_iso_sdu 5 6 65535 [1; 2; 3; 4; 5]) =
  Some [mkIso 5 0 6 None (Some 65535) (Some 5) (Some 0) [1; 2];
        mkIso 5 3 3 None None None None [3; 4; 5]] /\
  snd (send_iso_sdu 5 6 65535 [1; 2; 3; 4; 5]) = 0.
Proof. vm_compute. split; reflexivity. Qed.
