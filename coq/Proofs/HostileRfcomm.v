(* C17 - the two credit-driven output loops of Model/HostileRfcomm.v, rfcomm.DLC.process_tx
   and l2cap LeCreditBasedChannel.process_output: each iteration spends a credit, so fuel
   credits + 1 (+1 for a pending grant) is enough and the credits never go negative. *)
From Coq Require Import ZArith List Bool Lia.
From BV Require Import Model.HostileRfcomm.
Import ListNotations.
Open Scope Z_scope.

(* The code as it is: an iteration sends one frame and goes on with no pending rx-credit
   grant; it has spent a credit it had, or it was entered for the grant alone. *)
Lemma process_tx_step : forall f mtu buf credits rxn,
  ((0 <? buf) && (0 <? credits)) || (0 <? rxn) = true ->
  exists buf' fr credits',
    (credits' = credits - 1 /\ 0 < credits \/ credits' = credits /\ 0 < rxn) /\
    process_tx true (S f) mtu buf credits rxn =
    match process_tx true f mtu buf' credits' 0 with
    | None => None
    | Some (st, frames) => Some (st, fr :: frames)
    end.
Proof.
  intros f mtu buf credits rxn C. cbn [process_tx]. rewrite C. destruct (0 <? rxn) eqn:R.
  - destruct ((0 <? buf) && (0 <? credits)) eqn:BC; do 3 eexists; (split; [|reflexivity]); lia.
  - rewrite orb_false_r in C. do 3 eexists. split; [|reflexivity]. lia.
Qed.

(* so the loop makes at most credits + 1 iterations whatever mtu is (0 and negative
   included) *)
Lemma process_tx_fuel_enough : forall fuel mtu buf credits rxn,
  0 <= credits ->
  credits + (if 0 <? rxn then 1 else 0) + 1 <= Z.of_nat fuel ->
  process_tx true fuel mtu buf credits rxn <> None.
Proof.
  induction fuel as [|f IH]; intros mtu buf credits rxn Hc Hf.
  - destruct (0 <? rxn); simpl in Hf; lia.
  - rewrite Nat2Z.inj_succ in Hf.
    destruct (((0 <? buf) && (0 <? credits)) || (0 <? rxn)) eqn:C;
      [|cbn [process_tx]; rewrite C; discriminate].
    destruct (process_tx_step f mtu buf credits rxn C) as (buf' & fr & c' & Hc' & ->).
    specialize (IH mtu buf' c' 0).
    destruct (process_tx true f mtu buf' c' 0) as [[st frs]|]; [discriminate|].
    exfalso. apply IH; [| |reflexivity]; destruct (0 <? rxn) eqn:R; simpl; lia.
Qed.

(* it never sends more frames than credits + 1 and never drives the credits negative *)
Lemma process_tx_bounds : forall fuel mtu buf credits rxn st frames,
  0 <= credits -> process_tx true fuel mtu buf credits rxn = Some (st, frames) ->
  Z.of_nat (length frames) <= credits + (if 0 <? rxn then 1 else 0) /\ 0 <= t_credits st <= credits.
Proof.
  induction fuel as [|f IH]; intros mtu buf credits rxn st frames Hc H; [discriminate|].
  destruct (((0 <? buf) && (0 <? credits)) || (0 <? rxn)) eqn:C.
  2:{ cbn [process_tx] in H. rewrite C in H. inversion H; subst. simpl. destruct (0 <? rxn); lia. }
  destruct (process_tx_step f mtu buf credits rxn C) as (buf' & fr & c' & Hc' & E). rewrite E in H.
  specialize (IH mtu buf' c' 0).
  destruct (process_tx true f mtu buf' c' 0) as [[st1 fr1]|]; [|discriminate].
  inversion H; subst. specialize (IH _ _ ltac:(lia) eq_refl). simpl in IH.
  cbn [length]. rewrite Nat2Z.inj_succ. destruct (0 <? rxn) eqn:R; lia.
Qed.

(* "spend a credit only for a non-empty payload" loops for ever as soon as mtu <= 0: with
   data buffered and one credit, no amount of fuel is enough *)
Lemma process_tx_payload_rule_refuted : forall fuel mtu buf credits,
  mtu <= 0 -> 0 < buf -> 0 < credits -> take mtu buf = 0 ->
  process_tx false fuel mtu buf credits 0 = None.
Proof.
  induction fuel as [|f IH]; intros mtu buf credits Hm Hb Hc Ht; [reflexivity|].
  cbn [process_tx].
  assert (B : (0 <? buf) = true) by (apply Z.ltb_lt; lia).
  assert (C : (0 <? credits) = true) by (apply Z.ltb_lt; lia).
  rewrite B, C. change (0 <? 0) with false. cbn [andb orb]. rewrite Ht.
  change (0 <? 0) with false. cbv beta iota zeta.
  rewrite Z.sub_0_r. rewrite (IH mtu buf credits Hm Hb Hc Ht). reflexivity.
Qed.

Lemma take_zero : forall buf, take 0 buf = 0 \/ buf < 0.
Proof. intros buf. unfold take. simpl. destruct (Z.min_spec 0 buf) as [[? ->]|[? ->]]; lia. Qed.

(* LE credit-based output: at most one PDU per credit, credits never negative, whatever the
   peer's MPS (an MPS of 0 burns every credit without progress - hence D17f/D17g - but still
   stops) *)
Lemma coc_output_spec : forall fuel mps sdu credits,
  0 <= credits -> credits + 1 <= Z.of_nat fuel ->
  exists rest c n, coc_output true fuel mps sdu credits = Some (rest, c, n) /\
                   0 <= c /\ n + c = credits /\ 0 <= n.
Proof.
  induction fuel as [|f IH]; intros mps sdu credits Hc Hf; [simpl in Hf; lia|].
  cbn [coc_output]. rewrite Nat2Z.inj_succ in Hf.
  destruct ((0 <? credits) && (0 <? sdu)) eqn:G.
  - apply andb_true_iff in G. destruct G as [G _]. apply Z.ltb_lt in G.
    destruct (IH mps (sdu - Z.min (Z.max mps 0) sdu) (credits - 1) ltac:(lia) ltac:(lia)) as [l [c [n [E [H1 [H2 H3]]]]]].
    rewrite E. exists l, c, (n + 1). repeat split; lia.
  - exists sdu, credits, 0. repeat split; lia.
Qed.
