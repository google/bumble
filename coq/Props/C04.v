(* Property C04: outbound data obeys controller buffer credits, stays FIFO and never
   stalls; the bridging pipe delivers exactly once in order.
   The statements; each proof is an [exact] of a lemma of Proofs/DataQueue*.v, Proofs/Pipe.v or
   Proofs/QueueRouting.v, a line or two from such lemmas, or (for the source shape and the examples) an
   evaluation. *)
From Coq Require Import ZArith List Bool.
From BV Require Import Model.DataQueue Model.DataQueueFail Model.Pipe Model.QueueRouting Proofs.DataQueue Proofs.DataQueueFail Proofs.Pipe Proofs.QueueRouting Gen.C04Shape.
Import ListNotations.
Open Scope Z_scope.

(* In every state reachable from the initial queue by any history of enqueue /
   flush / completion-report operations (any handles, any counts >= 0, including
   over-reports and unknown handles), for any buffer count:
   - the in-flight count equals the sum of per-connection counts, all >= 0,
   - it never exceeds max_in_flight,
   - a packet is waiting only if no credit is free (work conservation, also right
     after a flush),
   - every connection with no packet in flight has its drained event set. *)
Theorem C04_queue_invariant : forall maxf ops,
  0 <= maxf -> ops_ok ops -> inv (fst (q_run (q_init maxf) ops)).
Proof. intros maxf ops Hm Hok. exact (run_inv ops (q_init maxf) Hok (inv_init maxf Hm)). Qed.
Print Assumptions C04_queue_invariant.

(* Each step hands over a prefix of the specification FIFO: nothing reordered,
   duplicated, invented or lost except the waiting packets of a flushed handle. *)
Theorem C04_step_fifo : forall s o,
  let '(s', sent) := q_step s o in sent ++ q_wait s' = spec_wait (q_wait s) o.
Proof. exact step_fifo. Qed.
Print Assumptions C04_step_fifo.

(* Per connection, over a whole history without a flush of that connection:
   sent-for-h followed by waiting-for-h is exactly enqueued-for-h. *)
Theorem C04_fifo_per_connection : forall h ops s,
  flushes h ops = false ->
  let '(s', sent) := q_run s ops in
  filter (is_handle h) sent ++ filter (is_handle h) (q_wait s') =
  filter (is_handle h) (q_wait s) ++ enqueued h ops.
Proof. exact fifo_per_handle. Qed.
Print Assumptions C04_fifo_per_connection.

Theorem C04_flush_discards : forall s h,
  let '(s', sent) := q_step s (Flush h) in
  filter (is_handle h) (sent ++ q_wait s') = [].
Proof.
  intros s h. pose proof (step_fifo s (Flush h)) as H. destruct (q_step s (Flush h)) as [s' sent].
  rewrite H. apply filter_is_not_same.
Qed.
Print Assumptions C04_flush_discards.

(* Pipe: for every interleaving of write / pause / resume / pump steps, what reached
   the sink followed by what is still queued is exactly what was written, in order. *)
Theorem C04_pipe_exactly_once_in_order : forall threshold ops,
  let '(s', out) := p_run (p_init threshold) ops in
  sinks out ++ map fst (p_queue s') = writes ops.
Proof. intros threshold ops. exact (p_run_fifo ops (p_init threshold)). Qed.
Print Assumptions C04_pipe_exactly_once_in_order.

(* Pipe progress: in every reachable state with data queued and the pipe not paused,
   either the pump task is inside drain_sink (and PumpB returns it), or its next step
   writes the oldest packet. *)
Theorem C04_pipe_progress : forall threshold ops p len q,
  let s := fst (p_run (p_init threshold) ops) in
  p_queue s = (p, len) :: q -> p_paused s = false -> p_mid s = false ->
  snd (p_step s PumpA) = [Sink p] /\ p_queue (fst (p_step s PumpA)) = q.
Proof.
  intros threshold ops p len q s. apply pump_progress.
  apply p_run_ready. intros _. reflexivity.
Qed.
Print Assumptions C04_pipe_progress.

(* The shape of the code the models were read from, regenerated from the current source on every run
   (tools/translate/c04_shape.py): the queue is used first-in first-out (enqueue and _check_queue work on
   opposite ends of the deque), the send-while-credit loop has the modelled guard, hands over exactly one
   packet and bumps the global and the per-connection counter once per iteration, enqueue / flush /
   on_packets_completed all pump the queue, the pipe is first-in first-out and every operation re-evaluates
   check_pump(); Host.reset() builds each queue from the buffer length / count the controller reported and, when the
   controller reports no dedicated LE buffers (0/0), makes the LE queue the very same object as the BR/EDR queue (one
   credit pool, as the controller has one buffer pool). An edit that changes any of these facts breaks this obligation whether or not a generated
   history happens to expose it. *)
Definition side_eqb (a b : side) : bool :=
  match a, b with SLeft, SLeft | SRight, SRight => true | _, _ => false end.
Definition shape_ok (s : shape) : bool :=
  negb (side_eqb (q_in_side s) (q_out_side s)) && q_loop_guard_ok s &&
  Nat.eqb (q_sends_per_iteration s) 1 && Nat.eqb (q_increments_per_iteration s) 2 &&
  q_enqueue_pumps s && q_flush_pumps s && q_completed_pumps s &&
  negb (side_eqb (p_in_side s) (p_out_side s)) &&
  p_write_checks s && p_pause_checks s && p_resume_checks s && p_pump_checks s &&
  h_queues_from_reported_buffers s && h_le_shares_acl_queue_when_no_le_buffers s &&
  h_completed_event_visits_every_entry s && h_disconnection_flushes_all_queues s &&
  h_queue_lookup_is_stateless s && h_completed_event_uses_the_lookup s && h_remove_big_flushes_own_queue s.
Theorem C04_source_shape_is_the_modelled_shape : shape_ok shape_of_source = true.
Proof. vm_compute. reflexivity. Qed.
Print Assumptions C04_source_shape_is_the_modelled_shape.

(* ---- the host's queues together: routing of traffic and completion reports by handle ----
   Model/QueueRouting.v: any number of queues; links of any kind enter the link tables with a handle the
   controller is not using (HOpen), leave by a disconnection (HClose: the handle is flushed from every
   queue) or by the removal of their BIG (HCloseOwn: flushed from the link's own queue); traffic (HSend)
   and completion reports (HDone, any count >= 0, any handle) are routed by the CURRENT link tables.
   In every reachable state, for every history (including any re-use of handles by links of another kind
   on another queue):
   - every handle a queue holds anything for (waiting packets, per-connection in-flight state) is live and
     routed to that very queue,
   - every queue satisfies the queue invariant of C04_queue_invariant (credit bound, work conservation,...). *)
Theorem C04_routing_invariant : forall maxfs ops,
  Forall (fun m => 0 <= m) maxfs -> Forall hop_ok ops -> hinv (fst (h_run (h_init maxfs) ops)).
Proof. intros maxfs ops Hm Hok. exact (hinv_run ops (h_init maxfs) Hok (hinv_init maxfs Hm)). Qed.
Print Assumptions C04_routing_invariant.

(* Hence a completion report for a handle always reaches the queue that accounts that handle's packets
   (credits are returned where they were taken, never to another queue and never dropped). *)
Theorem C04_completion_reaches_accounting_queue : forall maxfs ops i q c n h,
  Forall (fun m => 0 <= m) maxfs -> Forall hop_ok ops ->
  let s := fst (h_run (h_init maxfs) ops) in
  nth_error (h_queues s) i = Some q -> find_conn h (q_conns q) = Some c ->
  fst (h_step s (HDone n h)) = mkH (h_links s) (fst (step_at i (Completed n h) (h_queues s))).
Proof.
  intros maxfs ops i q c n h Hm Hok s Hq Hc.
  exact (done_reaches_owner s i q c n h
           (hi_owned _ (hinv_run ops (h_init maxfs) Hok (hinv_init maxfs Hm))) Hq Hc).
Qed.
Print Assumptions C04_completion_reaches_accounting_queue.

(* A queue with no live link holds nothing and has every credit free: no buffer is ever left accounted
   to a link that is gone, so packets of later links cannot be left waiting for it. *)
Theorem C04_idle_queue_has_all_credits : forall maxfs ops i q,
  Forall (fun m => 0 <= m) maxfs -> Forall hop_ok ops ->
  let s := fst (h_run (h_init maxfs) ops) in
  nth_error (h_queues s) i = Some q -> (forall k, route k (h_links s) <> Some i) ->
  q_conns q = [] /\ q_wait q = [] /\ q_inflight q = 0.
Proof.
  intros maxfs ops i q Hm Hok s Hq Hidle.
  exact (idle_queue_is_empty s i q (hinv_run ops (h_init maxfs) Hok (hinv_init maxfs Hm)) Hq Hidle).
Qed.
Print Assumptions C04_idle_queue_has_all_credits.

(* A handle that is not live is known to no queue: whatever link re-uses it starts from nothing. *)
Theorem C04_closed_handle_leaves_nothing : forall maxfs ops i q h,
  Forall (fun m => 0 <= m) maxfs -> Forall hop_ok ops ->
  let s := fst (h_run (h_init maxfs) ops) in
  nth_error (h_queues s) i = Some q -> route h (h_links s) = None ->
  find_conn h (q_conns q) = None /\ filter (is_handle h) (q_wait q) = [].
Proof.
  intros maxfs ops i q h Hm Hok s Hq R.
  exact (closed_handle_unknown s i q h (hinv_run ops (h_init maxfs) Hok (hinv_init maxfs Hm)) Hq R).
Qed.
Print Assumptions C04_closed_handle_leaves_nothing.

(* Non-vacuity: a BIS on the ISO queue (index 1), its BIG removed, the handle re-used by an ACL link on
   queue 0 with one buffer: both packets get through as the completion report reaches queue 0. *)
Example C04_routing_nonvacuous :
  let '(s, sent) := h_run (h_init [1; 2])
      [HOpen 16 1; HSend 100 16; HDone 1 16; HCloseOwn 16; HOpen 16 0; HSend 200 16; HSend 201 16; HDone 1 16] in
  sent = [(100, 16); (200, 16); (201, 16)] /\ route 16 (h_links s) = Some 0%nat.
Proof. vm_compute. split; reflexivity. Qed.

(* ---- hand-overs that raise (a transport write error inside the send callback) ----
   Model/DataQueueFail.v: `fails p` says whether handing packet p to the controller raises.  For EVERY failure
   predicate and every history: the credit bound and in-flight = sum of per-connection counts (all >= 0) still hold,
   and per step credits are taken for exactly the packets whose hand-over returned; the packet whose hand-over raised
   is the only one dropped, order is kept; and the failing model with no failure is the plain model. *)
Theorem C04_failing_handover_invariant : forall fails maxf ops,
  0 <= maxf -> ops_ok ops -> inv_f (fst (q_run_f fails (q_init maxf) ops)).
Proof.
  intros fails maxf ops Hm Hok.
  exact (run_inv_f fails ops (q_init maxf) Hok (inv_inv_f _ (inv_init maxf Hm))).
Qed.
Print Assumptions C04_failing_handover_invariant.

Theorem C04_failed_handover_costs_no_credit : forall fails s o t,
  q_pre s o = Some t ->
  let '(s', sent, r) := q_step_f fails s o in
  q_inflight s' = q_inflight t + Z.of_nat (length sent) /\
  sum_conns (q_conns s') = sum_conns (q_conns t) + Z.of_nat (length sent) /\
  sent_ok fails sent /\
  (if r then exists p h, q_wait t = sent ++ (p, h) :: q_wait s' /\ fails p = true /\ q_inflight s' < q_max s'
   else q_wait t = sent ++ q_wait s' /\ (q_wait s' <> [] -> q_max s' <= q_inflight s')).
Proof. exact step_f_accounting. Qed.
Print Assumptions C04_failed_handover_costs_no_credit.

Theorem C04_no_failure_is_the_plain_model : forall fails s o,
  (forall p, fails p = false) -> q_step_f fails s o = (q_step s o, false).
Proof. exact q_step_f_nofail. Qed.
Print Assumptions C04_no_failure_is_the_plain_model.

(* Non-vacuity: with one buffer, the hand-over of packet 100 raises; 101 and 102 still get through. *)
Example C04_failing_nonvacuous :
  snd (q_run_f (in_list [100]) (q_init 1) [Enqueue 100 1; Enqueue 101 1; Enqueue 102 1; Completed 1 1]) =
  [([], true); ([(101, 1)], false); ([], false); ([(102, 1)], false)].
Proof. vm_compute. reflexivity. Qed.

(* Non-vacuity: a concrete history reaching a state with waiting packets. *)
Example C04_nonvacuous :
  let '(s, sent) := q_run (q_init 1) [Enqueue 10 1; Enqueue 11 2; Flush 1] in
  sent = [(10, 1); (11, 2)] /\ q_wait s = [] /\ q_inflight s = 1.
Proof. vm_compute. repeat split. Qed.
