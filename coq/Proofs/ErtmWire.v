(* Proofs about the wire format in Model/Ertm.v and about Model/Crc16.v. *)
From Coq Require Import ZArith List Bool Lia.
From BV Require Import Model.Crc16 Model.Ertm Proofs.ErtmSeg Proofs.BitFields.
Import ListNotations.
Open Scope Z_scope.

Definition frame_wf (f : frame) : Prop :=
  match f with
  | IFrame tx req s sdulen data _ =>
      0 <= tx < 64 /\ 0 <= req < 64 /\
      match s with START => 0 <= sdulen < 65536 | _ => sdulen = 0 end
  | SFrame func poll final req => 0 <= func < 4 /\ 0 <= req < 64
  end.

Lemma le16_dec v : 0 <= v < 65536 -> v mod 256 + 256 * ((v / 256) mod 256) = v.
Proof. intros H. Z.div_mod_to_equations. lia. Qed.

Lemma sar_of_code_code s : sar_of_code (sar_code s mod 4) = s.
Proof. now destruct s. Qed.
Lemma odd_b2z b : Z.odd (b2z b) = b.
Proof. now destruct b. Qed.

Lemma dec_enc_frame f : frame_wf f -> dec_frame (enc_frame f) = Some f.
Proof.
  destruct f as [tx req s sdulen data fin | func poll final req]; cbn [frame_wf enc_frame].
  - intros (Htx & Hreq & Hs). cbn [app dec_frame].
    (* first byte: 0 | TxSeq (6 bits) | F; second byte: ReqSeq (6 bits) | SAR *)
    assert (E : 2 * tx + 128 * b2z fin = (tx + 64 * b2z fin) * 2) by lia.
    rewrite (pack_hi (2 * tx)) by lia. rewrite E, Z.even_mul, Z.div_mul, orb_true_r by lia.
    rewrite pack_hi, !pack_lo, sar_of_code_code, odd_b2z by lia.
    destruct s; cbn [app le16]; try (subst sdulen; reflexivity).
    now rewrite le16_dec.
  - intros (Hf & Hreq).
    assert (Hr : req mod 128 = req) by (apply Z.mod_small; lia).
    cbn [dec_frame]. rewrite Hr.
    assert (Hc : func = 0 \/ func = 1 \/ func = 2 \/ func = 3) by lia.
    destruct Hc as [-> | [-> | [-> | ->]]]; destruct poll, final; reflexivity.
Qed.

Lemma dec_enc_pdu fcs cid payload :
  0 <= cid < 65536 -> zlen payload + 2 < 65536 ->
  dec_pdu fcs (enc_pdu fcs cid payload) = Some (cid, payload).
Proof.
  intros Hc Hl. unfold enc_pdu, dec_pdu. unfold zlen in Hl.
  destruct fcs; cbn [le16 app].
  - rewrite (le16_dec (Z.of_nat (length payload) + 2)) by lia. rewrite (le16_dec cid) by lia.
    set (c := crc16 _).
    assert (Hlen : Z.to_nat (Z.of_nat (length payload) + 2) = length (payload ++ le16 c))
      by (rewrite app_length; cbn [le16 length]; lia).
    rewrite Hlen, firstn_all, app_length. cbn [le16 length].
    replace (length payload + 2 - 2)%nat with (length payload) by lia.
    now rewrite Proofs.Bytes.firstn_app_exact.
  - rewrite Z.add_0_r. rewrite (le16_dec (Z.of_nat (length payload))) by lia.
    rewrite (le16_dec cid) by lia.
    rewrite Nat2Z.id, firstn_all. reflexivity.
Qed.

(* what the peer's ClassicChannel hands to its processor is the frame that was sent,
   provided both ends use the same FCS setting *)
Theorem wire_roundtrip fcs cid f :
  frame_wf f -> 0 <= cid < 65536 -> zlen (enc_frame f) + 2 < 65536 ->
  match dec_pdu fcs (enc_pdu fcs cid (enc_frame f)) with
  | Some (c, payload) => c = cid /\ dec_frame payload = Some f
  | None => False
  end.
Proof.
  intros Hf Hc Hl. rewrite dec_enc_pdu by assumption. split; [reflexivity|].
  now apply dec_enc_frame.
Qed.

Lemma nth_map_seq {A} (f : nat -> A) n k d : (k < n)%nat -> nth k (map f (seq 0 n)) d = f k.
Proof.
  intros H. rewrite (nth_indep _ d (f 0%nat)) by now rewrite map_length, seq_length.
  now rewrite map_nth, seq_nth.
Qed.

(* the table is the bitwise definition on the one-byte inputs *)
Lemma crc_table_entries : forall i, 0 <= i < 256 ->
  nth (Z.to_nat i) crc_table 0 = crc16 [i].
Proof.
  intros i Hi. unfold crc_table, crc16, crc_byte. cbn [fold_left].
  rewrite Z.lxor_0_l, nth_map_seq, Z2Nat.id by lia. reflexivity.
Qed.
