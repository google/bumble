(* ONE bumble endpoint (Model/Ertm.v) against an arbitrary peer.
   Whatever frames arrive (REJ, SREJ, RNR, polls, bogus acknowledgements, out-of-sequence or
   malformed I-frames, in any order, mixed with local writes and timer firings), for any
   peer MPS >= 1 and ANY advertised window >= 0 (also >= 64):
     - the transmit window never holds more than the peer's window,
     - the I-frames sent so far followed by the queued pdus are exactly the numbered
       segment stream of the SDUs written (so TxSeq = i mod 64, nothing repeated),
     - every supervisory frame sent is an RR.
   Nothing is claimed about what the sink receives from a hostile peer. *)
From Coq Require Import ZArith List Bool Lia.
From BV Require Import Model.Crc16 Model.Ertm Proofs.ErtmSeg Proofs.Ertm.
Import ListNotations.
Open Scope Z_scope.

Record sinv (pmps pwin : Z) (e : ep) (W : list (list Z)) (out : list frame) (done : list pdu)
  : Prop := {
  f_pmps : e_pmps e = pmps;
  f_pwin : e_pwin e = pwin;
  f_mps : 1 <= pmps;
  f_num : number 0 (segs_of pmps W) = done ++ e_txw e ++ e_pend e;
  f_next : e_next e = zlen (segs_of pmps W) mod 64;
  f_win : zlen (e_txw e) <= pwin;
  f_out : ikeys out = map pkey (done ++ e_txw e);
  f_sok : Forall sframe_ok out
}.

Definition sinvE m w e W out := exists done, sinv m w e W out done.

Lemma po_sinv m w e W out done e' o :
  sinv m w e W out done -> process_output e = (e', o) -> sinv m w e' W (out ++ o) done.
Proof.
  intros [] H.
  apply po_spec in H as (now & -> & Hp & Ht & Hmax & _ & (E1 & E2 & E3 & _) & _).
  rewrite Hp in f_num0. constructor; rewrite ?E1, ?E2, ?E3, ?Ht; auto.
  - now rewrite f_num0, <- !app_assoc.
  - rewrite Ht in Hmax. lia.
  - now rewrite ikeys_app, ikeys_iframes, f_out0, !map_app, <- !app_assoc.
  - apply Forall_app. split; [assumption|apply iframes_ok].
Qed.

Lemma update_ack_sinv m w e W out done n fin e' o :
  sinv m w e W out done -> update_ack e n fin = (e', o) -> sinvE m w e' W (out ++ o).
Proof.
  intros I H. unfold update_ack in H.
  set (k := (n - e_lack e) mod MAX_SEQ_NUM) in *.
  destruct (Z.ltb_spec (Z.of_nat (length (e_txw e))) k) as [Hlt|Hge].
  - injection H as <- <-. rewrite app_nil_r. now exists done.
  - pose proof I as [].
    assert (Hk0 : 0 <= k) by (unfold k, MAX_SEQ_NUM; apply Z.mod_pos_bound; lia).
    destruct (split_zlen (e_txw e) k) as (ta & tb & Et & Hta); [unfold zlen; lia|].
    rewrite Et, <- Hta, skipn_zlen_app in H. rewrite Et in f_num0, f_win0, f_out0.
    exists (done ++ ta). eapply po_sinv; [|exact H].
    constructor; cbn [e_pmps e_pwin e_next e_pend e_txw]; auto.
    + now rewrite f_num0, <- !app_assoc.
    + rewrite zlen_app in f_win0. pose proof (zlen_nonneg ta). lia.
    + now rewrite f_out0, <- !app_assoc.
Qed.

Lemma send_sdu_sinv m w e W out sdu e' o :
  sinvE m w e W out -> send_sdu e sdu = (e', o) -> sinvE m w e' (W ++ [sdu]) (out ++ o).
Proof.
  intros [done I] H. pose proof I as []. unfold send_sdu in H.
  rewrite f_next0, f_pmps0, (assign_number _ (zlen (segs_of m W))) in H. unfold MAX_SEQ_NUM in H.
  exists done. eapply po_sinv; [|exact H].
  constructor; cbn [e_pmps e_pwin e_next e_pend e_txw]; auto.
  - rewrite segs_of_app. cbn [segs_of flat_map]. rewrite app_nil_r.
    rewrite number_app, f_num0, Z.add_0_l. now rewrite <- !app_assoc.
  - rewrite segs_of_app. cbn [segs_of flat_map]. rewrite app_nil_r. now rewrite zlen_app.
Qed.

(* adding supervisory RR frames and touching only receiver / busy / timer fields *)
Lemma sinv_extra m w e W out done e' extra :
  sinv m w e W out done ->
  e_pmps e' = e_pmps e -> e_pwin e' = e_pwin e -> e_next e' = e_next e ->
  e_pend e' = e_pend e -> e_txw e' = e_txw e ->
  ikeys extra = [] -> Forall sframe_ok extra ->
  sinv m w e' W (out ++ extra) done.
Proof.
  intros [] E1 E2 E3 E4 E5 Hk Hok. constructor; rewrite ?E1, ?E2, ?E3, ?E4, ?E5; auto.
  - now rewrite ikeys_app, Hk, app_nil_r.
  - apply Forall_app. auto.
Qed.

Lemma on_frame_sinv m w e W out f e' o sdus :
  sinvE m w e W out -> on_frame e f = (e', o, sdus) -> sinvE m w e' W (out ++ o).
Proof.
  intros [done I] H. apply on_frame_split in H
    as (fin & e1 & o1 & extra & Hu & -> & _ & Hx & _ & E1 & E2 & E3 & _ & E5 & E6 & _).
  apply rr_only in Hx as [Hk Hx].
  destruct (update_ack_sinv _ _ _ _ _ _ _ _ _ _ I Hu) as [d1 I1].
  exists d1. rewrite app_assoc. eapply sinv_extra; eauto.
Qed.

Lemma timeout_sinv retx m w e W out e' o :
  sinvE m w e W out -> timeout retx e = (e', o) -> sinvE m w e' W (out ++ o).
Proof.
  intros [done I] H. apply timeout_spec in H as (Ho & E1 & E2 & E3 & _ & E5 & E6 & _).
  apply poll_only in Ho as [Hk Ho]. exists done. eapply sinv_extra; eauto.
Qed.

Definition ew_of (l : elabel) : list (list Z) := match l with EWrite w => [w] | _ => [] end.

Lemma estep_sinv m w e W out l e' o sdus :
  sinvE m w e W out -> estep e l = (e', o, sdus) -> sinvE m w e' (W ++ ew_of l) (out ++ o).
Proof.
  intros I H. destruct l as [sdu | f | payload | | ]; cbn [estep ew_of] in *; rewrite ?app_nil_r.
  - destruct (send_sdu e sdu) as [e1 o1] eqn:E. injection H as <- <- <-.
    eapply send_sdu_sinv; eauto.
  - eapply on_frame_sinv; eauto.
  - destruct (dec_frame payload) as [f|].
    + eapply on_frame_sinv; eauto.
    + injection H as <- <- <-. now rewrite app_nil_r.
  - destruct (retx_timeout e) as [e1 o1] eqn:E. injection H as <- <- <-.
    eapply (timeout_sinv true); eauto.
  - destruct (mon_timeout e) as [e1 o1] eqn:E. injection H as <- <- <-.
    eapply (timeout_sinv false); eauto.
Qed.

Lemma ewrites_cons l r : ewrites (l :: r) = ew_of l ++ ewrites r.
Proof. now destruct l. Qed.

Lemma erun_sinv m w ls : forall e W out e' o sdus,
  sinvE m w e W out -> erun e ls = (e', o, sdus) -> sinvE m w e' (W ++ ewrites ls) (out ++ o).
Proof.
  induction ls as [|l r IH]; intros e W out e' o sdus I H; cbn [erun] in H.
  - injection H as <- <- <-. now rewrite !app_nil_r.
  - destruct (estep e l) as [[e1 o1] sd1] eqn:E1.
    destruct (erun e1 r) as [[e2 o2] sd2] eqn:E2. injection H as <- <- <-.
    rewrite ewrites_cons, !app_assoc. eauto using estep_sinv.
Qed.

Theorem ertm_foreign_peer_safe pmps pwin ls :
  1 <= pmps -> 0 <= pwin ->
  let '(e, out, _) := erun (ep_init pmps pwin) ls in
  zlen (e_txw e) <= pwin /\
  (exists rest, map pkey (number 0 (segs_of pmps (ewrites ls))) = ikeys out ++ rest) /\
  map tx_of (ikeys out) = map (fun i => Z.of_nat i mod 64) (seq 0 (length (ikeys out))) /\
  Forall sframe_ok out.
Proof.
  intros Hm Hw.
  assert (I0 : sinvE pmps pwin (ep_init pmps pwin) [] []).
  { exists []. constructor; cbn; auto; lia. }
  destruct (erun (ep_init pmps pwin) ls) as [[e out] sdus] eqn:E.
  destruct (erun_sinv _ _ _ _ _ _ _ _ _ I0 E) as [done []]. cbn [app] in *.
  rewrite app_assoc in f_num0. destruct (sent_keys _ _ _ _ f_num0 f_out0). eauto.
Qed.
