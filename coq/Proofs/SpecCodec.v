(* Proofs/SpecCodec.v — round-trip theorems for the generic field codec of
   Model/SpecCodec.v, proved once per combinator and lifted to every spec list. *)
From Coq Require Import ZArith List Bool Lia.
From BV Require Import Base.Bytes Proofs.Bytes Model.SpecCodec.
Import ListNotations.
Open Scope Z_scope.

(* values -> bytes -> values, for self-delimiting specs, with anything after them *)
Definition rt_tight (c : codec) : Prop :=
  forall s prev v, wf c s = true -> tight c s = true -> inr c s prev v = true ->
  exists b, ser c s v = Some b /\
            forall tail, par c s prev (b ++ tail) = Some (v, length b).

(* values -> bytes -> values, for any well-formed spec in last position *)
Definition rt_last (c : codec) : Prop :=
  forall s prev v, wf c s = true -> inr c s prev v = true ->
  exists b n, ser c s v = Some b /\ par c s prev b = Some (v, n) /\ (n <= length b)%nat.

(* bytes -> values -> bytes: what was consumed comes back (followed by padding only for
   the padded spec) *)
Definition rt_bytes (c : codec) : Prop :=
  forall s prev bs v n, wf c s = true -> bytes_ok bs = true ->
  par c s prev bs = Some (v, n) -> (n <= length bs)%nat ->
  exists pad, ser c s v = Some (firstn n bs ++ pad) /\ (tight c s = true -> pad = []).

(* strict specs never accept input shorter than what they declare consumed *)
Definition rt_strict (c : codec) : Prop :=
  forall s prev bs v n, strict c s = true -> par c s prev bs = Some (v, n) ->
  (n <= length bs)%nat.

Definition codec_ok (c : codec) : Prop :=
  rt_tight c /\ rt_last c /\ rt_bytes c /\ rt_strict c.

(* [injection] and [inversion] normalise the equations they produce; this keeps them as written *)
Lemma Some_inj : forall (A : Type) (x y : A), Some x = Some y -> x = y.
Proof. intros A x y [= ->]. reflexivity. Qed.

Lemma firstn_len_app : forall (A : Type) n (a b : list A),
  length a = n -> firstn n (a ++ b) = a.
Proof. intros A n a b <-. apply firstn_app_exact. Qed.

Lemma len_leb_app : forall (A : Type) n (a b : list A),
  length a = n -> (n <=? length (a ++ b))%nat = true.
Proof. intros A n a b <-. apply Nat.leb_le. rewrite app_length. lia. Qed.

Lemma skipn_len_app : forall (A : Type) n (a b : list A),
  length a = n -> skipn n (a ++ b) = b.
Proof. intros A n a b <-. apply skipn_app_exact. Qed.

Lemma firstn_plus : forall (A : Type) n m (l : list A),
  firstn (n + m) l = firstn n l ++ firstn m (skipn n l).
Proof.
  induction n as [|n IH]; intros m l; [reflexivity|].
  destruct l as [|x l]; cbn [Nat.add firstn skipn app].
  - rewrite firstn_nil. reflexivity.
  - rewrite IH. reflexivity.
Qed.

Lemma skipn_skipn' : forall (A : Type) n m (l : list A),
  skipn m (skipn n l) = skipn (n + m) l.
Proof.
  induction n as [|n IH]; intros m l; [reflexivity|].
  destruct l as [|x l]; cbn [Nat.add skipn].
  - apply skipn_nil.
  - apply IH.
Qed.

Lemma forallb_repeat : forall (A : Type) (f : A -> bool) x n,
  f x = true -> forallb f (repeat x n) = true.
Proof. induction n; intro H; cbn; [reflexivity|]. rewrite H. auto. Qed.

Lemma adv_prev_app : forall b prev tail,
  adv_prev (length b) prev (b ++ tail) = last b prev.
Proof. intros. unfold adv_prev. rewrite firstn_app_exact. reflexivity. Qed.

Section SeqProofs.
  Variable c : codec.

  Lemma tight_seq_wf_seq : forall ss, tight_seq c ss = true -> wf_seq c ss = true.
  Proof.
    induction ss as [|s ss IH]; intro H; [reflexivity|].
    cbn in H. apply andb_true_iff in H as [H1 H2]. apply andb_true_iff in H1 as [Hw Ht].
    cbn [wf_seq]. destruct ss as [|s2 ss2]; [assumption|].
    rewrite Hw, Ht. cbn. apply IH. assumption.
  Qed.

  Lemma rows_tight : forall ss k,
    tight_seq c ss = true -> tight_seq (seq_codec c) (repeat ss k) = true.
  Proof.
    intros ss k H. unfold tight_seq at 1. apply forallb_repeat. cbn.
    rewrite H, (tight_seq_wf_seq ss H). reflexivity.
  Qed.

  Lemma par_seq_length : forall ss prev bs vs n,
    par_seq c ss prev bs = Some (vs, n) -> length vs = length ss.
  Proof.
    induction ss as [|s ss IH]; intros prev bs vs n H; cbn in H.
    - inversion H. reflexivity.
    - destruct (par c s prev bs) as [[v n1]|]; [|discriminate].
      destruct (par_seq c ss (adv_prev n1 prev bs) (skipn n1 bs)) as [[vs' m]|] eqn:E; [|discriminate].
      inversion H; subst. cbn. f_equal. eapply IH. eassumption.
  Qed.

  Lemma seq_tight : rt_tight c ->
    forall ss prev vs, tight_seq c ss = true -> inr_seq c ss prev vs = true ->
    exists b, ser_seq c ss vs = Some b /\
              forall tail, par_seq c ss prev (b ++ tail) = Some (vs, length b).
  Proof.
    intro HT. induction ss as [|s ss IH]; intros prev vs Ht Hi.
    - destruct vs; [|discriminate]. exists []. split; reflexivity.
    - destruct vs as [|v vs]; [discriminate|].
      cbn in Ht. apply andb_true_iff in Ht as [H1 Ht]. apply andb_true_iff in H1 as [Hw Hts].
      cbn [inr_seq] in Hi. apply andb_true_iff in Hi as [Hiv Hi].
      destruct (HT s prev v Hw Hts Hiv) as [b1 [Hs Hp]].
      rewrite Hs in Hi.
      destruct (IH (last b1 prev) vs Ht Hi) as [b2 [Hs2 Hp2]].
      exists (b1 ++ b2). split.
      + cbn [ser_seq]. rewrite Hs, Hs2. reflexivity.
      + intro tail. cbn [par_seq]. rewrite <- app_assoc. rewrite Hp.
        rewrite adv_prev_app, skipn_app_exact, Hp2, app_length. reflexivity.
  Qed.

  Lemma seq_last : rt_tight c -> rt_last c ->
    forall ss prev vs, wf_seq c ss = true -> inr_seq c ss prev vs = true ->
    exists b n, ser_seq c ss vs = Some b /\ par_seq c ss prev b = Some (vs, n) /\
                (n <= length b)%nat.
  Proof.
    intros HT HL. induction ss as [|s ss IH]; intros prev vs Hw Hi.
    - destruct vs; [|discriminate]. exists [], 0%nat. repeat split; reflexivity.
    - destruct vs as [|v vs]; [discriminate|].
      cbn [inr_seq] in Hi. apply andb_true_iff in Hi as [Hiv Hi].
      destruct ss as [|s2 ss2].
      + cbn [wf_seq] in Hw.
        destruct (HL s prev v Hw Hiv) as [b [n [Hs [Hp Hn]]]].
        rewrite Hs in Hi. destruct vs; [|discriminate].
        exists b, n. repeat split.
        * cbn [ser_seq]. rewrite Hs. rewrite app_nil_r. reflexivity.
        * cbn [par_seq]. rewrite Hp. rewrite Nat.add_0_r. reflexivity.
        * assumption.
      + cbn [wf_seq] in Hw. apply andb_true_iff in Hw as [H1 Hw].
        apply andb_true_iff in H1 as [Hws Hts].
        destruct (HT s prev v Hws Hts Hiv) as [b1 [Hs Hp]].
        rewrite Hs in Hi.
        destruct (IH (last b1 prev) vs Hw Hi) as [b2 [n2 [Hs2 [Hp2 Hn2]]]].
        exists (b1 ++ b2), (length b1 + n2)%nat. repeat split.
        * remember (s2 :: ss2) as ss'. cbn [ser_seq]. rewrite Hs, Hs2. reflexivity.
        * remember (s2 :: ss2) as ss'. cbn [par_seq]. rewrite Hp.
          rewrite adv_prev_app, skipn_app_exact, Hp2. reflexivity.
        * rewrite app_length. lia.
  Qed.

  Lemma seq_bytes : rt_bytes c ->
    forall ss prev bs vs n, wf_seq c ss = true -> bytes_ok bs = true ->
    par_seq c ss prev bs = Some (vs, n) -> (n <= length bs)%nat ->
    exists pad, ser_seq c ss vs = Some (firstn n bs ++ pad) /\
                (tight_seq c ss = true -> pad = []).
  Proof.
    intro HB. induction ss as [|s ss IH]; intros prev bs vs n Hw Hok Hp Hn.
    - cbn in Hp. inversion Hp; subst. exists []. split; reflexivity.
    - cbn [par_seq] in Hp.
      destruct (par c s prev bs) as [[v n1]|] eqn:E1; [|discriminate].
      destruct (par_seq c ss (adv_prev n1 prev bs) (skipn n1 bs)) as [[vs' m]|] eqn:E2; [|discriminate].
      inversion Hp; subst. clear Hp.
      assert (Hws : wf c s = true).
      { cbn [wf_seq] in Hw. destruct ss; [assumption|].
        apply andb_true_iff in Hw as [H1 _]. apply andb_true_iff in H1 as [H1 _]. assumption. }
      assert (Hn1 : (n1 <= length bs)%nat) by lia.
      destruct (HB s prev bs v n1 Hws Hok E1 Hn1) as [pad1 [Hs Hpad1]].
      destruct ss as [|s2 ss2].
      + cbn in E2. inversion E2; subst. exists pad1. split.
        * cbn [ser_seq]. rewrite Hs. rewrite app_nil_r, Nat.add_0_r. reflexivity.
        * intro Ht. cbn in Ht. rewrite andb_true_r in Ht.
          apply andb_true_iff in Ht as [_ Ht]. auto.
      + cbn [wf_seq] in Hw. apply andb_true_iff in Hw as [H1 Hw].
        apply andb_true_iff in H1 as [_ Hts].
        rewrite (Hpad1 Hts) in Hs. rewrite app_nil_r in Hs.
        assert (Hm : (m <= length (skipn n1 bs))%nat) by (rewrite skipn_length; lia).
        destruct (IH _ _ _ _ Hw (bytes_ok_skipn n1 bs Hok) E2 Hm) as [pad [Hs2 Hpad]].
        exists pad. split.
        * remember (s2 :: ss2) as ss'. cbn [ser_seq]. rewrite Hs, Hs2.
          rewrite firstn_plus, app_assoc. reflexivity.
        * intro Ht. apply Hpad. remember (s2 :: ss2) as ss'. cbn in Ht.
          apply andb_true_iff in Ht as [_ Ht]. assumption.
  Qed.

  Lemma seq_strict : rt_strict c ->
    forall ss prev bs vs n, strict_seq c ss = true ->
    par_seq c ss prev bs = Some (vs, n) -> (n <= length bs)%nat.
  Proof.
    intro HS. induction ss as [|s ss IH]; intros prev bs vs n Hst Hp.
    - cbn in Hp. inversion Hp. lia.
    - cbn [par_seq] in Hp. cbn in Hst. apply andb_true_iff in Hst as [Hs1 Hst].
      destruct (par c s prev bs) as [[v n1]|] eqn:E1; [|discriminate].
      destruct (par_seq c ss (adv_prev n1 prev bs) (skipn n1 bs)) as [[vs' m]|] eqn:E2; [|discriminate].
      inversion Hp; subst.
      pose proof (HS s prev bs v n1 Hs1 E1) as H1.
      pose proof (IH _ _ _ _ Hst E2) as H2. rewrite skipn_length in H2. lia.
  Qed.

  Lemma seq_codec_tight : rt_tight c -> rt_tight (seq_codec c).
  Proof.
    intros HT ss prev v Hw Ht Hi. destruct v as [| | |vs]; try discriminate.
    destruct (seq_tight HT ss prev vs Ht Hi) as [b [Hs Hp]].
    exists b. split; [exact Hs|]. intro tail. cbn. rewrite Hp. reflexivity.
  Qed.

  Theorem seq_codec_ok : codec_ok c -> codec_ok (seq_codec c).
  Proof.
    intros [HT [HL [HB HS]]]. repeat split.
    - exact (seq_codec_tight HT).
    - intros ss prev v Hw Hi. destruct v as [| | |vs]; try discriminate.
      destruct (seq_last HT HL ss prev vs Hw Hi) as [b [n [Hs [Hp Hn]]]].
      exists b, n. repeat split; [exact Hs| |exact Hn]. cbn. rewrite Hp. reflexivity.
    - intros ss prev bs v n Hw Hok Hp Hn. cbn in Hp.
      destruct (par_seq c ss prev bs) as [[vs n']|] eqn:E; [|discriminate].
      inversion Hp; subst.
      destruct (seq_bytes HB ss prev bs vs n Hw Hok E Hn) as [pad [Hs Hpad]].
      exists pad. split; [exact Hs | exact Hpad].
    - intros ss prev bs v n Hst Hp. cbn in Hp.
      destruct (par_seq c ss prev bs) as [[vs n']|] eqn:E; [|discriminate].
      inversion Hp; subst. eapply seq_strict; eassumption.
  Qed.
End SeqProofs.

(* a tight spec's [rt_last] instance follows from [rt_tight] *)
Lemma tight_gives_last : forall (c : codec) s prev v,
  (exists b, ser c s v = Some b /\ forall tail, par c s prev (b ++ tail) = Some (v, length b)) ->
  exists b n, ser c s v = Some b /\ par c s prev b = Some (v, n) /\ (n <= length b)%nat.
Proof.
  intros c s prev v [b [Hs Hp]]. exists b, (length b). repeat split; [exact Hs| |lia].
  specialize (Hp []). rewrite app_nil_r in Hp. exact Hp.
Qed.

(* An array group is self-delimiting as soon as its items are: only [rt_tight] of the item
   codec is needed, so this part also serves codecs for which no more is known. *)
Section FieldTight.
  Variable c : codec.
  Hypothesis HT : rt_tight c.

  Lemma arr_rt_tight : forall ss prev v,
    wf_field c (Arr ss) = true -> inr_field c (Arr ss) prev v = true ->
    exists b, ser_field c (Arr ss) v = Some b /\
              forall tail, par_field c (Arr ss) prev (b ++ tail) = Some (v, length b).
  Proof.
    intros ss prev v Hw Hi.
    assert (Ht : tight_seq c ss = true) by (cbn in Hw; destruct ss; [discriminate|exact Hw]).
    destruct v as [| | |rows]; try discriminate.
    cbn [inr_field] in Hi. apply andb_true_iff in Hi as [Hlen Hi].
    destruct (seq_tight (seq_codec c) (seq_codec_tight c HT) (repeat ss (length rows))
                (Z.of_nat (length rows)) rows (rows_tight c ss _ Ht) Hi) as [b [Hs Hp]].
    exists (Z.of_nat (length rows) :: b). split.
    - cbn [ser_field]. rewrite Hlen, Hs. reflexivity.
    - intro tail. cbn [par_field app]. rewrite Nat2Z.id, Hp. reflexivity.
  Qed.

  Lemma field_codec_tight : rt_tight (field_codec c).
  Proof.
    intros f prev v Hw Ht Hi. destruct f as [s|ss].
    - exact (HT s prev v Hw Ht Hi).
    - exact (arr_rt_tight ss prev v Hw Hi).
  Qed.

  Lemma field_codec_last : rt_last c -> rt_last (field_codec c).
  Proof.
    intros HL f prev v Hw Hi. destruct f as [s|ss].
    - exact (HL s prev v Hw Hi).
    - apply (tight_gives_last (field_codec c) (Arr ss)). exact (arr_rt_tight ss prev v Hw Hi).
  Qed.
End FieldTight.

Section FieldProofs.
  Variable c : codec.
  Hypothesis Hc : codec_ok c.

  Let rowc := seq_codec c.

  Lemma rowc_ok : codec_ok rowc.
  Proof. apply seq_codec_ok. exact Hc. Qed.

  Lemma arr_tight : forall ss prev v,
    wf_field c (Arr ss) = true -> inr_field c (Arr ss) prev v = true ->
    exists b, ser_field c (Arr ss) v = Some b /\
              forall tail, par_field c (Arr ss) prev (b ++ tail) = Some (v, length b).
  Proof. exact (arr_rt_tight c (proj1 Hc)). Qed.

  Theorem field_codec_ok : codec_ok (field_codec c).
  Proof.
    destruct Hc as [HT [HL [HB HS]]]. repeat split.
    - exact (field_codec_tight c HT).
    - exact (field_codec_last c HT HL).
    - intros f prev bs v n Hw Hok Hp Hn. destruct f as [s|ss].
      + exact (HB s prev bs v n Hw Hok Hp Hn).
      + assert (Ht : tight_seq c ss = true) by (cbn in Hw; destruct ss; [discriminate|exact Hw]).
        cbn [field_codec par par_field] in Hp.
        destruct bs as [|cnt r]; [discriminate|].
        fold rowc in Hp.
        destruct (par_seq rowc (repeat ss (Z.to_nat cnt)) cnt r) as [[rows m]|] eqn:E; [|discriminate].
        inversion Hp; subst. clear Hp.
        rewrite bytes_ok_cons in Hok. apply andb_true_iff in Hok as [Hcb Hok].
        apply byte_ok_iff in Hcb.
        pose proof (par_seq_length rowc _ _ _ _ _ E) as Hlen. rewrite repeat_length in Hlen.
        cbn [length] in Hn.
        destruct rowc_ok as [_ [_ [HBr _]]].
        pose proof (rows_tight c ss (Z.to_nat cnt) Ht) as Htr.
        destruct (seq_bytes rowc HBr _ _ _ _ _ (tight_seq_wf_seq rowc _ Htr) Hok E) as [pad [Hs Hpad]];
          [lia|].
        rewrite (Hpad Htr), app_nil_r in Hs.
        exists []. split; [|reflexivity].
        cbn [field_codec ser ser_field]. rewrite Hlen.
        assert ((Z.to_nat cnt <? 256)%nat = true) as -> by (apply Nat.ltb_lt; lia).
        fold rowc. rewrite Hs. rewrite Z2Nat.id by lia. rewrite app_nil_r. reflexivity.
    - intros f prev bs v n Hst Hp. destruct f as [s|ss].
      + exact (HS s prev bs v n Hst Hp).
      + cbn [field_codec par par_field] in Hp.
        destruct bs as [|cnt r]; [discriminate|].
        fold rowc in Hp.
        destruct (par_seq rowc (repeat ss (Z.to_nat cnt)) cnt r) as [[rows m]|] eqn:E; [|discriminate].
        inversion Hp; subst.
        destruct rowc_ok as [_ [_ [_ HSr]]].
        assert (strict_seq rowc (repeat ss (Z.to_nat cnt)) = true) as Hsr.
        { unfold strict_seq. apply forallb_repeat. exact Hst. }
        pose proof (seq_strict rowc HSr _ _ _ _ _ Hsr E). cbn [length]. lia.
  Qed.
End FieldProofs.

Lemma ser_a_UInt : forall n z, wf_a (UInt n) = true -> u_range n z = true ->
  ser_a (UInt n) (VInt z) = Some (le_encode n z).
Proof.
  intros n z Hw Hr. cbn [ser_a]. destruct (Nat.eqb n 3) eqn:E.
  - apply Nat.eqb_eq in E. subst n.
    assert (u_range 4 z = true) as ->.
    { apply u_range_iff in Hr. apply u_range_iff. pose proof (pow256_mono 3 4). lia. }
    rewrite le_encode_firstn by lia. reflexivity.
  - rewrite Hr. reflexivity.
Qed.

Lemma ser_a_coding : forall a b d,
  u_range 1 a = true -> u_range 2 b = true -> u_range 2 d = true ->
  ser_a CodingFmt (VList [VInt a; VInt b; VInt d]) =
  Some (le_encode 1 a ++ le_encode 2 b ++ le_encode 2 d).
Proof. intros a b d Ha Hb Hd. cbn [ser_a]. rewrite Ha, Hb, Hd. reflexivity. Qed.

Lemma A_tight : rt_tight A_codec.
Proof.
  intros s prev v Hw Ht Hi. cbn [A_codec wf tight inr ser par] in *.
  destruct s as [n|n|n|n|n| | |n e|k| |p| ]; cbn [tight_a] in Ht; try discriminate.
  - (* UInt *)
    destruct v as [z| | |]; try discriminate. cbn [inr_a] in Hi.
    exists (le_encode n z). split; [apply ser_a_UInt; assumption|].
    intro tail. cbn [par_a]. rewrite len_leb_app, firstn_len_app, le_encode_length by apply le_encode_length.
    rewrite le_decode_encode by (apply u_range_iff; assumption). reflexivity.
  - (* SInt *)
    destruct v as [z| | |]; try discriminate. cbn [inr_a] in Hi.
    exists (les_encode n z). split; [cbn [ser_a]; rewrite Hi; reflexivity|].
    intro tail. cbn [par_a]. rewrite len_leb_app, firstn_len_app, les_encode_length by apply les_encode_length.
    destruct n as [|n]; [cbn in Hw; discriminate|].
    rewrite les_decode_encode by assumption. reflexivity.
  - (* UIntBE *)
    destruct v as [z| | |]; try discriminate. cbn [inr_a] in Hi.
    exists (be_encode n z). split; [cbn [ser_a]; rewrite Hi; reflexivity|].
    intro tail. cbn [par_a]. rewrite len_leb_app, firstn_len_app, be_encode_length by apply be_encode_length.
    rewrite be_decode_encode by (apply u_range_iff; assumption). reflexivity.
  - (* FixedBytes *)
    destruct v as [|b| |]; try discriminate. cbn [inr_a] in Hi.
    apply andb_true_iff in Hi as [Hl _]. apply Nat.eqb_eq in Hl.
    exists b. split.
    + cbn [ser_a]. rewrite <- Hl, firstn_all, Nat.sub_diag. cbn. rewrite app_nil_r. reflexivity.
    + intro tail. cbn [par_a]. rewrite firstn_len_app by assumption. rewrite Hl. reflexivity.
  - (* FixedBytesPad *)
    destruct v as [|b| |]; try discriminate. cbn [inr_a] in Hi.
    apply andb_true_iff in Hi as [Hl _]. apply Nat.eqb_eq in Hl.
    exists b. split.
    + cbn [ser_a]. rewrite <- Hl, Nat.sub_diag. cbn. rewrite app_nil_r. reflexivity.
    + intro tail. cbn [par_a]. rewrite firstn_len_app by assumption. rewrite Hl. reflexivity.
  - (* VarLen *)
    destruct v as [|b| |]; try discriminate. cbn [inr_a] in Hi.
    apply andb_true_iff in Hi as [Hl _].
    exists (Z.of_nat (length b) :: b). split; [cbn [ser_a]; rewrite Hl; reflexivity|].
    intro tail. cbn [par_a app]. rewrite Nat2Z.id. rewrite firstn_app_exact. reflexivity.
  - (* Enum *)
    destruct v as [z| | |]; try discriminate. cbn [inr_a] in Hi.
    exists (encode_e e n z). split; [cbn [ser_a]; rewrite Hi; reflexivity|].
    intro tail. cbn [par_a].
    assert (length (encode_e e n z) = n) as Hl
      by (destruct e; [apply le_encode_length | apply be_encode_length]).
    rewrite firstn_len_app by assumption. rewrite Hl. f_equal. f_equal. f_equal.
    apply u_range_iff in Hi.
    destruct e; cbn; [apply le_decode_encode | apply be_decode_encode]; assumption.
  - (* Addr *)
    destruct v as [| |ty b|]; try discriminate. cbn [inr_a] in Hi.
    apply andb_true_iff in Hi as [Hi _]. apply andb_true_iff in Hi as [Hty Hl].
    apply Z.eqb_eq in Hty. apply Nat.eqb_eq in Hl. subst ty.
    exists b. split; [reflexivity|].
    intro tail. cbn [par_a]. rewrite len_leb_app, firstn_len_app, Hl by exact Hl. reflexivity.
  - (* AddrAfterType *)
    destruct v as [| |ty b|]; try discriminate. cbn [inr_a] in Hi.
    apply andb_true_iff in Hi as [Hi _]. apply andb_true_iff in Hi as [Hty Hl].
    apply Z.eqb_eq in Hty. apply Nat.eqb_eq in Hl. subst ty.
    exists b. split; [reflexivity|].
    intro tail. cbn [par_a]. rewrite len_leb_app, firstn_len_app, Hl by exact Hl. reflexivity.
  - (* CodingFmt *)
    destruct v as [| | |vs]; try discriminate.
    destruct vs as [|[a| | |] [|[b| | |] [|[d| | |] [|]]]]; try discriminate.
    cbn [inr_a] in Hi. pose proof Hi as Hi'.
    apply andb_true_iff in Hi as [Hi Hd]. apply andb_true_iff in Hi as [Ha Hb].
    exists (le_encode 1 a ++ le_encode 2 b ++ le_encode 2 d). split.
    + cbn [ser_a]. rewrite Hi'. reflexivity.
    + intro tail. cbn [par_a].
      rewrite len_leb_app by (rewrite !app_length, !le_encode_length; reflexivity).
      rewrite <- !app_assoc.
      change 3%nat with (1 + 2)%nat. rewrite <- skipn_skipn'.
      rewrite (firstn_len_app _ 1), (skipn_len_app _ 1), (firstn_len_app _ 2), (skipn_len_app _ 2),
        (firstn_len_app _ 2) by apply le_encode_length.
      rewrite !le_decode_encode by (apply u_range_iff; assumption).
      rewrite !app_length, !le_encode_length. reflexivity.
Qed.

Lemma A_last : rt_last A_codec.
Proof.
  intros s prev v Hw Hi.
  destruct (tight_a s) eqn:Ht.
  - apply (tight_gives_last A_codec). exact (A_tight s prev v Hw Ht Hi).
  - cbn [A_codec wf tight inr ser par] in *.
    destruct s; cbn [tight_a] in Ht; try discriminate.
    + (* Rest *)
      destruct v as [|b| |]; try discriminate.
      exists b, (length b). repeat split. lia.
    + (* LenPrefixedPadded *)
      destruct v as [|b| |]; try discriminate. cbn [inr_a] in Hi.
      apply andb_true_iff in Hi as [Hl _].
      exists (Z.of_nat (length b) :: b ++ zeros (p - (1 + length b))), (S (length b)).
      repeat split.
      * cbn [ser_a]. rewrite Hl. reflexivity.
      * cbn [par_a]. rewrite Nat2Z.id, firstn_app_exact. reflexivity.
      * cbn [length]. rewrite app_length. lia.
Qed.

Lemma A_bytes : rt_bytes A_codec.
Proof.
  intros s prev bs v n Hw Hok Hp Hn. cbn [A_codec wf tight inr ser par] in *.
  destruct s as [k|k|k|k|k| | |k e|ak| |p| ]; cbn [par_a] in Hp.
  - (* UInt *)
    destruct (k <=? length bs)%nat eqn:E; [|discriminate]. inversion Hp; subst. clear Hp.
    exists []. split; [|reflexivity]. rewrite app_nil_r.
    destruct (le_word_firstn n bs Hn Hok) as [He Hr].
    rewrite ser_a_UInt, He by assumption. reflexivity.
  - (* SInt *)
    destruct (k <=? length bs)%nat eqn:E; [|discriminate]. inversion Hp; subst. clear Hp.
    exists []. split; [|reflexivity]. rewrite app_nil_r.
    pose proof (firstn_length_le bs Hn) as Hl.
    assert (firstn n bs <> []) as Hne.
    { intro H0. rewrite H0 in Hl. cbn in Hl. subst n. cbn in Hw. discriminate. }
    pose proof (les_decode_range (firstn n bs) Hne (bytes_ok_firstn n bs Hok)) as Hr.
    rewrite Hl in Hr. cbn [ser_a]. rewrite Hr.
    rewrite <- Hl at 1. rewrite les_encode_decode by (try assumption; apply bytes_ok_firstn; assumption).
    reflexivity.
  - (* UIntBE *)
    destruct (k <=? length bs)%nat eqn:E; [|discriminate]. inversion Hp; subst. clear Hp.
    exists []. split; [|reflexivity]. rewrite app_nil_r.
    destruct (be_word_firstn n bs Hn Hok) as [He Hr].
    cbn [ser_a]. rewrite Hr, He. reflexivity.
  - (* FixedBytes *)
    inversion Hp; subst. clear Hp. exists []. split; [|reflexivity].
    cbn [ser_a]. rewrite firstn_length_le by assumption. rewrite Nat.sub_diag.
    rewrite firstn_firstn, Nat.min_id. reflexivity.
  - (* FixedBytesPad *)
    inversion Hp; subst. clear Hp. exists []. split; [|reflexivity].
    cbn [ser_a]. rewrite firstn_length_le by assumption. rewrite Nat.sub_diag. reflexivity.
  - (* VarLen *)
    destruct bs as [|l r]; [discriminate|]. inversion Hp; subst. clear Hp.
    rewrite bytes_ok_cons in Hok. apply andb_true_iff in Hok as [Hl Hok]. apply byte_ok_iff in Hl.
    cbn [length] in Hn. exists []. split; [|reflexivity].
    cbn [ser_a]. rewrite firstn_length_le by lia.
    assert ((Z.to_nat l <? 256)%nat = true) as -> by (apply Nat.ltb_lt; lia).
    rewrite Z2Nat.id by lia. rewrite app_nil_r. reflexivity.
  - (* Rest *)
    inversion Hp; subst. clear Hp. exists []. split; [|reflexivity].
    cbn [ser_a]. rewrite firstn_all, app_nil_r. reflexivity.
  - (* Enum *)
    inversion Hp; subst. clear Hp. exists []. split; [|reflexivity]. rewrite app_nil_r.
    cbn [ser_a]. destruct e; cbn [decode_e encode_e];
      [destruct (le_word_firstn n bs Hn Hok) as [He Hr] | destruct (be_word_firstn n bs Hn Hok) as [He Hr]];
      rewrite Hr, He; reflexivity.
  - (* Addr *)
    destruct (6 <=? length bs)%nat; [|discriminate]. inversion Hp; subst.
    exists []. split; [|reflexivity]. rewrite app_nil_r. reflexivity.
  - (* AddrAfterType *)
    destruct (6 <=? length bs)%nat; [|discriminate]. inversion Hp; subst.
    exists []. split; [|reflexivity]. rewrite app_nil_r. reflexivity.
  - (* LenPrefixedPadded *)
    destruct bs as [|l r]; [discriminate|]. inversion Hp; subst. clear Hp.
    rewrite bytes_ok_cons in Hok. apply andb_true_iff in Hok as [Hl Hok]. apply byte_ok_iff in Hl.
    cbn [length] in Hn.
    exists (zeros (p - (1 + Z.to_nat l))). split; [|cbn; discriminate].
    cbn [ser_a]. rewrite firstn_length_le by lia.
    assert ((Z.to_nat l <? 256)%nat = true) as -> by (apply Nat.ltb_lt; lia).
    rewrite Z2Nat.id by lia. reflexivity.
  - (* CodingFmt *)
    destruct (5 <=? length bs)%nat eqn:E; [|discriminate].
    apply Some_inj, pair_equal_spec in Hp as [<- <-]. apply Nat.leb_le in E.
    exists []. split; [|reflexivity]. rewrite app_nil_r.
    destruct (le_word_firstn 1 bs ltac:(lia) Hok) as [E1 R1].
    destruct (le_word_firstn 2 (skipn 1 bs)) as [E2 R2];
      [rewrite skipn_length; lia | apply bytes_ok_skipn, Hok |].
    destruct (le_word_firstn 2 (skipn 3 bs)) as [E3 R3];
      [rewrite skipn_length; lia | apply bytes_ok_skipn, Hok |].
    rewrite ser_a_coding, E1, E2, E3 by assumption.
    change (firstn 5 bs) with (firstn (1 + (2 + 2)) bs).
    rewrite (firstn_plus _ 1 (2 + 2) bs), (firstn_plus _ 2 2 (skipn 1 bs)), skipn_skipn'. reflexivity.
Qed.

Lemma A_strict : rt_strict A_codec.
Proof.
  (* every strict parser compares the size it declares with the length of the input first *)
  intros s prev bs v n Hst Hp. cbn [A_codec strict par] in *.
  destruct s; cbn [strict_a] in Hst; try discriminate; cbn [par_a] in Hp;
    try (destruct (_ <=? length bs)%nat eqn:E; [apply Nat.leb_le in E | discriminate]);
    inversion Hp; subst; lia.
Qed.

Theorem A_codec_ok : codec_ok A_codec.
Proof. repeat split; [apply A_tight | apply A_last | apply A_bytes | apply A_strict]. Qed.

Lemma Obj_codec_ok : codec_ok Obj_codec.
Proof. apply seq_codec_ok, field_codec_ok, A_codec_ok. Qed.

Lemma N_codec_ok : codec_ok N_codec.
Proof.
  destruct A_codec_ok as [AT [AL [AB AS]]].
  destruct Obj_codec_ok as [OT [OL [OB OS]]].
  assert (Hwf : forall fs, tight Obj_codec fs = true -> wf Obj_codec fs = true)
    by (intros fs H; apply (tight_seq_wf_seq (field_codec A_codec)); exact H).
  repeat split.
  - intros s prev v Hw Ht Hi. destruct s as [a|fs].
    + exact (AT a prev v Hw Ht Hi).
    + exact (OT fs prev v (Hwf fs Hw) Ht Hi).
  - intros s prev v Hw Hi. destruct s as [a|fs].
    + exact (AL a prev v Hw Hi).
    + exact (OL fs prev v (Hwf fs Hw) Hi).
  - intros s prev bs v n Hw Hok Hp Hn. destruct s as [a|fs].
    + exact (AB a prev bs v n Hw Hok Hp Hn).
    + exact (OB fs prev bs v n (Hwf fs Hw) Hok Hp Hn).
  - intros s prev bs v n Hst Hp. destruct s as [a|fs].
    + exact (AS a prev bs v n Hst Hp).
    + exact (OS fs prev bs v n Hst Hp).
Qed.

Lemma F_codec_ok : codec_ok F_codec.
Proof. apply field_codec_ok, N_codec_ok. Qed.

Lemma Top_codec_ok : codec_ok Top_codec.
Proof. apply seq_codec_ok, F_codec_ok. Qed.

(* The theorems users rely on, for EVERY field list and EVERY value list. *)

(* values -> bytes -> values, self-delimiting field lists, any trailing bytes *)
Theorem parse_serialize_tight : forall fs prev0 vs,
  tight_fields fs = true -> in_range fs prev0 vs = true ->
  exists b, serialize_fields fs vs = Some b /\
            forall tail, parse_fields fs prev0 (b ++ tail) = Some (vs, length b).
Proof.
  intros fs prev0 vs Ht Hi. destruct F_codec_ok as [FT _].
  exact (seq_tight F_codec FT fs prev0 vs Ht Hi).
Qed.

(* values -> bytes -> values, every well-formed field list ('*' or a padded field last) *)
Theorem parse_serialize : forall fs prev0 vs,
  wf_fields fs = true -> in_range fs prev0 vs = true ->
  exists b n, serialize_fields fs vs = Some b /\
              parse_fields fs prev0 b = Some (vs, n) /\ (n <= length b)%nat.
Proof.
  intros fs prev0 vs Hw Hi. destruct F_codec_ok as [FT [FL _]].
  exact (seq_last F_codec FT FL fs prev0 vs Hw Hi).
Qed.

(* bytes -> values -> bytes: the consumed bytes come back exactly (plus zero padding only
   when the list ends in a padded field) *)
Theorem serialize_parse : forall fs prev0 bs vs n,
  wf_fields fs = true -> bytes_ok bs = true ->
  parse_fields fs prev0 bs = Some (vs, n) -> (n <= length bs)%nat ->
  exists pad, serialize_fields fs vs = Some (firstn n bs ++ pad) /\
              (tight_fields fs = true -> pad = []).
Proof.
  intros fs prev0 bs vs n Hw Hok Hp Hn. destruct F_codec_ok as [_ [_ [FB _]]].
  exact (seq_bytes F_codec FB fs prev0 bs vs n Hw Hok Hp Hn).
Qed.

(* strict field lists: a successful parse never ran past the end of the input, i.e.
   too-short input is rejected, never turned into a partial value *)
Theorem strict_no_overrun : forall fs prev0 bs vs n,
  strict_fields fs = true -> parse_fields fs prev0 bs = Some (vs, n) -> (n <= length bs)%nat.
Proof.
  intros fs prev0 bs vs n Hs Hp. destruct F_codec_ok as [_ [_ [_ FS]]].
  exact (seq_strict F_codec FS fs prev0 bs vs n Hs Hp).
Qed.

(* the leniency of the real parser on short input is part of the model: a fixed byte
   array accepts a short slice and still declares its full size *)
Lemma lenient_witness :
  parse_fields [F1 (FixedBytes 8)] 0 [1; 2; 3] = Some ([VBytes [1; 2; 3]], 8%nat).
Proof. reflexivity. Qed.
