(* C14 - the Security Manager toolbox functions as written equal the Core specification
   formulas; two back ends that agree on e / aes_cmac agree on every toolbox function;
   a generated resolvable private address resolves under its key and has type bits 01. *)
From Coq Require Import ZArith List Bool Lia ZifyBool ZifyNat.
From BV Require Import Model.CryptoBytes Model.SmToolbox Proofs.CryptoBytes.
Import ListNotations.
Open Scope Z_scope.

Lemma xor_zip_rev : forall a b, length a = length b -> rev (xor_zip a b) = xor_zip (rev a) (rev b).
Proof.
  induction a as [|x a IH]; intros [|y b] H; simpl in *; try discriminate; auto.
  rewrite IH by lia. rewrite xor_zip_app by (rewrite !rev_length; lia). reflexivity.
Qed.

Lemma rev_zeros : forall n, rev (zeros n) = zeros n.
Proof.
  unfold zeros. induction n; [reflexivity|]. cbn [repeat rev]. rewrite IHn. symmetry. apply repeat_cons.
Qed.

Lemma lastn_rev : forall n l, lastn n (rev l) = rev (firstn n l).
Proof.
  intros n l. unfold lastn. rewrite rev_length, (firstn_skipn_rev n l), rev_involutive. reflexivity.
Qed.

Lemma py_slice_0 : forall l k, 0 <= k -> py_slice l 0 k = firstn (Z.to_nat k) l.
Proof. intros. apply (py_upto_nonneg l k). assumption. Qed.

Lemma be_int_app : forall a b, be_int (a ++ b) = be_int a * 256 ^ len b + be_int b.
Proof.
  intros. unfold be_int at 1. rewrite fold_left_app. rewrite be_int_acc. reflexivity.
Qed.

Lemma be_int_lastn : forall l n, bytes_ok l = true ->
  be_int (skipn (length l - n) l) = be_int l mod 256 ^ Z.of_nat (Nat.min n (length l)).
Proof.
  intros l n Hok.
  set (k := (length l - n)%nat).
  assert (E : be_int l = be_int (firstn k l) * 256 ^ len (skipn k l) + be_int (skipn k l)).
  { rewrite <- be_int_app, firstn_skipn. reflexivity. }
  rewrite E.
  assert (Hl : len (skipn k l) = Z.of_nat (Nat.min n (length l))).
  { unfold len, k. rewrite skipn_length. lia. }
  rewrite Hl.
  pose proof (be_int_bound (skipn k l) (bytes_ok_skipn _ _ Hok)) as Hb.
  rewrite Hl in Hb.
  rewrite Z.add_comm, Z.mod_add by lia. symmetry. apply Z.mod_small. assumption.
Qed.

Section ToolboxE.
  Variable e : list Z -> list Z -> list Z.

  Theorem ah_spec : forall k r,
    rev (ah e k r) = spec_ah e (rev k) (rev r).
  Proof.
    intros. unfold ah, spec_ah, e_be. rewrite py_slice_0 by lia.
    rewrite lastn_rev. rewrite !rev_involutive, rev_app_distr, rev_involutive, rev_zeros.
    reflexivity.
  Qed.

  Theorem c1_spec : forall k r preq pres iat rat ia ra out,
    c1 e k r preq pres iat rat ia ra = Some out ->
    rev out = spec_c1 e (rev k) (rev r) (rev preq) (rev pres) iat rat (rev ia) (rev ra).
  Proof.
    intros k r preq pres iat rat ia ra out. unfold c1, spec_c1, bytes_of, xor_assert.
    destruct (bytes_ok [iat; rat]); [|discriminate].
    destruct (len r =? len ([iat; rat] ++ preq ++ pres)) eqn:E1; [|discriminate].
    destruct (len (e k (xor_zip r ([iat; rat] ++ preq ++ pres))) =? len (ra ++ ia ++ [0; 0; 0; 0])) eqn:E2;
      [|discriminate].
    intros H. inversion H; subst out. clear H. unfold e_be.
    rewrite !rev_involutive. f_equal. f_equal.
    assert (Hp1 : rev pres ++ rev preq ++ [rat] ++ [iat] = rev ([iat; rat] ++ preq ++ pres)).
    { rewrite !rev_app_distr. cbn [rev app]. rewrite <- ?app_assoc. reflexivity. }
    assert (Hp2 : zeros 4 ++ rev ia ++ rev ra = rev (ra ++ ia ++ [0; 0; 0; 0])).
    { rewrite !rev_app_distr. cbn [rev app]. rewrite <- ?app_assoc. reflexivity. }
    rewrite Hp1, Hp2.
    rewrite <- (xor_zip_rev r ([iat; rat] ++ preq ++ pres)) by (unfold len in E1; lia).
    rewrite rev_involutive.
    rewrite <- xor_zip_rev by (unfold len in E2; lia). rewrite rev_involutive. reflexivity.
  Qed.

  (* on arguments of the sizes the Security Manager uses both length assertions of c1 hold *)
  Lemma c1_eq : forall k r preq pres iat rat ia ra,
    length r = 16%nat -> length preq = 7%nat -> length pres = 7%nat ->
    length ia = 6%nat -> length ra = 6%nat -> bytes_ok [iat; rat] = true ->
    length (e k (xor_zip r ([iat; rat] ++ preq ++ pres))) = 16%nat ->
    c1 e k r preq pres iat rat ia ra =
    Some (e k (xor_zip (e k (xor_zip r ([iat; rat] ++ preq ++ pres))) (ra ++ ia ++ [0; 0; 0; 0]))).
  Proof.
    intros k r preq pres iat rat ia ra Hr Hq Hs Hia Hra Hb He.
    unfold c1, bytes_of, xor_assert. rewrite Hb.
    replace (len r =? len ([iat; rat] ++ preq ++ pres)) with true
      by (unfold len; rewrite !app_length; cbn [length]; lia).
    replace (len (e k (xor_zip r ([iat; rat] ++ preq ++ pres))) =? len (ra ++ ia ++ [0; 0; 0; 0])) with true
      by (unfold len; rewrite He, !app_length; cbn [length]; lia).
    reflexivity.
  Qed.

  Theorem c1_defined : forall k r preq pres iat rat ia ra,
    (forall d, length d = 16%nat -> length (e k d) = 16%nat) ->
    length r = 16%nat -> length preq = 7%nat -> length pres = 7%nat ->
    length ia = 6%nat -> length ra = 6%nat -> bytes_ok [iat; rat] = true ->
    exists out, c1 e k r preq pres iat rat ia ra = Some out.
  Proof.
    intros k r preq pres iat rat ia ra He Hr Hq Hs Hia Hra Hb.
    eexists. apply c1_eq; auto. apply He, xor_zip_length_eq; auto.
    rewrite !app_length. cbn [length]. lia.
  Qed.

  Theorem s1_spec : forall k r1 r2,
    rev (s1 e k r1 r2) = spec_s1 e (rev k) (rev r1) (rev r2).
  Proof.
    intros. unfold s1, spec_s1, e_be. rewrite !py_slice_0 by lia.
    rewrite !rev_involutive, !lastn_rev, <- rev_app_distr, rev_involutive. reflexivity.
  Qed.

End ToolboxE.

Section ToolboxCmac.
  Variable aes_cmac : list Z -> list Z -> list Z.

  Theorem f4_spec : forall u v x z, length z = 1%nat ->
    rev (f4 aes_cmac u v x z) = spec_f4 aes_cmac (rev u) (rev v) (rev x) (rev z).
  Proof.
    intros u v x [|a [|b z]] H; try discriminate. unfold f4, spec_f4, cmac_be.
    rewrite rev_involutive. reflexivity.
  Qed.

  Lemma f5_constants : f5_salt = spec_salt /\ f5_key_id = spec_keyID.
  Proof. split; reflexivity. Qed.

  Theorem f5_spec : forall w n1 n2 a1 a2,
    (rev (fst (f5 aes_cmac w n1 n2 a1 a2)), rev (snd (f5 aes_cmac w n1 n2 a1 a2))) =
    spec_f5 aes_cmac (rev w) (rev n1) (rev n2) (rev a1) (rev a2).
  Proof.
    intros. unfold f5, spec_f5, cmac_be. cbn [fst snd]. rewrite !rev_involutive. reflexivity.
  Qed.

  Theorem f6_spec : forall w n1 n2 r io_cap a1 a2,
    rev (f6 aes_cmac w n1 n2 r io_cap a1 a2) =
    spec_f6 aes_cmac (rev w) (rev n1) (rev n2) (rev r) (rev io_cap) (rev a1) (rev a2).
  Proof. intros. unfold f6, spec_f6, cmac_be. rewrite rev_involutive. reflexivity. Qed.

  Theorem g2_spec : forall u v x y,
    length (aes_cmac (rev u ++ rev v ++ rev y) (rev x)) = 16%nat ->
    bytes_ok (aes_cmac (rev u ++ rev v ++ rev y) (rev x)) = true ->
    g2 aes_cmac u v x y = spec_g2 aes_cmac (rev u) (rev v) (rev x) (rev y).
  Proof.
    intros u v x y Hl Hok. unfold g2, spec_g2, cmac_be.
    set (t := aes_cmac _ _) in *.
    rewrite <- (firstn_skipn 12 t) at 1.
    rewrite (py_from_neg_app _ _ 4) by (unfold len; rewrite ?skipn_length, ?Hl; lia).
    pose proof (be_int_lastn t 4 Hok) as H. rewrite Hl in H. exact H.
  Qed.

  Theorem h6_spec : forall w key_id,
    rev (h6 aes_cmac w key_id) = spec_h6 aes_cmac (rev w) key_id.
  Proof. intros. unfold h6, spec_h6, cmac_be. apply rev_involutive. Qed.

  Theorem h7_spec : forall salt w,
    rev (h7 aes_cmac salt w) = spec_h7 aes_cmac salt (rev w).
  Proof. intros. unfold h7, spec_h7, cmac_be. apply rev_involutive. Qed.

End ToolboxCmac.

(* the non-resolvable branch: top bits 0b00 *)
Theorem nrpa_type_bits : forall tb, length tb = 6%nat -> top_bits (nrpa_generate tb) = 0.
Proof.
  intros tb H. unfold top_bits, nrpa_generate. rewrite py_upto_nonneg by lia.
  change (Z.to_nat 5) with 5%nat.
  rewrite app_nth2 by (rewrite firstn_length; lia).
  rewrite firstn_length. replace (Nat.min 5 (length tb)) with 5%nat by lia.
  change (5 - 5)%nat with 0%nat. cbn [nth].
  change 63 with (Z.ones 6). rewrite Z.land_ones, Z.shiftr_div_pow2 by lia.
  apply Z.div_small, Z.mod_pos_bound. lia.
Qed.

Section ToolboxRpa.
  Variable e : list Z -> list Z -> list Z.
  Hypothesis e_len : forall k d, length d = 16%nat -> length (e k d) = 16%nat.

  Lemma prand_len : forall tb, length tb = 6%nat -> length (prand_of tb) = 3%nat.
  Proof using e_len.
    intros tb H. unfold prand_of. rewrite py_upto_nonneg by lia.
    rewrite app_length, firstn_length. cbn [length]. change (Z.to_nat 2) with 2%nat. lia.
  Qed.

  Lemma ah_len : forall k r, length r = 3%nat -> length (ah e k r) = 3%nat.
  Proof using e_len.
    intros k r H. unfold ah. rewrite py_slice_0 by lia. rewrite firstn_length.
    rewrite e_len by (rewrite app_length, length_zeros; lia). reflexivity.
  Qed.

  Theorem rpa_length : forall irk tb, length tb = 6%nat -> length (rpa_generate e irk tb) = 6%nat.
  Proof using e_len.
    intros. unfold rpa_generate. rewrite app_length, ah_len, prand_len; auto using prand_len.
  Qed.

  Lemma slice_hash : forall h p : list Z, length h = 3%nat -> length p = 3%nat ->
    py_slice (h ++ p) 0 3 = h /\ py_slice (h ++ p) 3 6 = p.
  Proof using e_len.
    intros h p Hh Hp.
    assert (Hl : len (h ++ p) = 6 /\ len h = 3 /\ len p = 3) by (rewrite len_app; unfold len; lia).
    destruct Hl as (Hl & Hlh & Hlp). split.
    - apply (py_slice_mid _ [] h p); rewrite ?Hl, ?Hlh; reflexivity.
    - apply (py_slice_mid _ h p []); rewrite ?app_nil_r, ?Hl, ?Hlh, ?Hlp; reflexivity.
  Qed.

  (* resolve(irk, generate(irk, prand)) = true for every key and every random draw *)
  Theorem rpa_resolves : forall irk tb, length tb = 6%nat ->
    rpa_matches e irk (rpa_generate e irk tb) = true.
  Proof using e_len.
    intros irk tb H. unfold rpa_matches, rpa_generate.
    destruct (slice_hash (ah e irk (prand_of tb)) (prand_of tb)) as [H1 H2];
      auto using ah_len, prand_len.
    rewrite H1, H2. apply list_eqb_refl.
  Qed.

  Theorem rpa_resolves_in_list : forall irk tb before after, length tb = 6%nat ->
    exists i, resolve e (before ++ irk :: after) (rpa_generate e irk tb) = Some i /\
              (i <= length before)%nat.
  Proof using e_len.
    intros irk tb before after H. unfold resolve.
    assert (G : forall n, exists i, resolve_from e n (before ++ irk :: after) (rpa_generate e irk tb) = Some i
                                    /\ (i <= n + length before)%nat).
    { induction before as [|k before IH]; intros n; cbn [app resolve_from length].
      - rewrite rpa_resolves by assumption. exists n. split; [reflexivity|lia].
      - destruct (rpa_matches e k _).
        + exists n. split; [reflexivity|lia].
        + destruct (IH (S n)) as (i & Hi & Hle). exists i. split; [assumption|lia]. }
    destruct (G 0%nat) as (i & Hi & Hle). exists i. split; [assumption|lia].
  Qed.

  (* the two most significant bits of a generated resolvable private address are 0b01 *)
  Theorem rpa_type_bits : forall irk tb, length tb = 6%nat ->
    is_resolvable_bytes (rpa_generate e irk tb) = true.
  Proof using e_len.
    intros irk tb H. unfold is_resolvable_bytes, rpa_generate.
    rewrite app_nth2 by (rewrite ah_len; auto using prand_len).
    rewrite ah_len by auto using prand_len. change (5 - 3)%nat with 2%nat.
    unfold prand_of. rewrite py_upto_nonneg by lia. change (Z.to_nat 2) with 2%nat.
    rewrite app_nth2 by (rewrite firstn_length; lia).
    rewrite firstn_length. replace (Nat.min 2 (length tb)) with 2%nat by lia.
    change (2 - 2)%nat with 0%nat. cbn [nth].
    pose proof (lor_land_127_64 (nth 2 tb 0)). rewrite Z.shiftr_div_pow2 by lia.
    change (2 ^ 6) with 64. lia.
  Qed.
End ToolboxRpa.

Section Resolver.
  Variable e : list Z -> list Z -> list Z.

  (* the deterministic content of "does not resolve under an unrelated key": a key whose hash of
     the address's prand differs from the address's hash part does not match *)
  Theorem rpa_matches_iff : forall k addr,
    rpa_matches e k addr = true <-> ah e k (py_slice addr 3 6) = py_slice addr 0 3.
  Proof. intros. unfold rpa_matches. apply list_eqb_eq. Qed.

  Lemma resolve_from_spec : forall irks addr n,
    match resolve_from e n irks addr with
    | Some i => (n <= i)%nat /\ rpa_matches e (nth (i - n) irks []) addr = true /\
                (i - n < length irks)%nat /\
                forall j, (j < i - n)%nat -> rpa_matches e (nth j irks []) addr = false
    | None => forall j, (j < length irks)%nat -> rpa_matches e (nth j irks []) addr = false
    end.
  Proof.
    induction irks as [|k irks IH]; intros addr n; cbn [resolve_from].
    - intros j Hj. simpl in Hj. lia.
    - destruct (rpa_matches e k addr) eqn:Ek.
      + replace (n - n)%nat with 0%nat by lia. cbn [nth length]. repeat split; try lia. assumption.
      + specialize (IH addr (S n)). destruct (resolve_from e (S n) irks addr) as [i|].
        * destruct IH as (H1 & H2 & H3 & H4).
          replace (i - n)%nat with (S (i - S n)) by lia. cbn [nth length].
          repeat split; try lia; try assumption.
          intros [|j] Hj; [assumption|]. apply H4. lia.
        * intros [|j] Hj; [assumption|]. cbn [nth]. apply IH. simpl in Hj. lia.
  Qed.

  (* resolve returns the FIRST key of the list whose hash matches, and None only when none does *)
  Theorem resolve_first_match : forall irks addr,
    match resolve e irks addr with
    | Some i => rpa_matches e (nth i irks []) addr = true /\ (i < length irks)%nat /\
                forall j, (j < i)%nat -> rpa_matches e (nth j irks []) addr = false
    | None => forall j, (j < length irks)%nat -> rpa_matches e (nth j irks []) addr = false
    end.
  Proof.
    intros irks addr. unfold resolve. pose proof (resolve_from_spec irks addr 0) as H.
    destruct (resolve_from e 0 irks addr) as [i|]; [|assumption].
    rewrite Nat.sub_0_r in H. tauto.
  Qed.
End Resolver.

(* If two back ends agree on AES-128 e for 16-byte keys and blocks, and on AES-CMAC for 16-byte
   keys and messages of any length (outputs 16 bytes), they agree on every toolbox function. *)
Theorem backends_agree_on_toolbox :
  forall e1 e2 cm1 cm2 : list Z -> list Z -> list Z,
  (forall k d, length k = 16%nat -> length d = 16%nat -> e1 k d = e2 k d) ->
  (forall k d, length k = 16%nat -> length d = 16%nat -> length (e1 k d) = 16%nat) ->
  (forall m k, length k = 16%nat -> cm1 m k = cm2 m k) ->
  (forall m k, length k = 16%nat -> length (cm1 m k) = 16%nat) ->
  (forall k r, length k = 16%nat -> length r = 3%nat -> ah e1 k r = ah e2 k r) /\
  (forall k r preq pres iat rat ia ra,
     length k = 16%nat -> length r = 16%nat -> length preq = 7%nat -> length pres = 7%nat ->
     length ia = 6%nat -> length ra = 6%nat ->
     c1 e1 k r preq pres iat rat ia ra = c1 e2 k r preq pres iat rat ia ra) /\
  (forall k r1 r2, length k = 16%nat -> (8 <= length r1)%nat -> (8 <= length r2)%nat ->
     s1 e1 k r1 r2 = s1 e2 k r1 r2) /\
  (forall u v x z, length x = 16%nat -> f4 cm1 u v x z = f4 cm2 u v x z) /\
  (forall w n1 n2 a1 a2, f5 cm1 w n1 n2 a1 a2 = f5 cm2 w n1 n2 a1 a2) /\
  (forall w n1 n2 r io_cap a1 a2, length w = 16%nat ->
     f6 cm1 w n1 n2 r io_cap a1 a2 = f6 cm2 w n1 n2 r io_cap a1 a2) /\
  (forall u v x y, length x = 16%nat -> g2 cm1 u v x y = g2 cm2 u v x y) /\
  (forall w key_id, length w = 16%nat -> h6 cm1 w key_id = h6 cm2 w key_id) /\
  (forall salt w, length salt = 16%nat -> h7 cm1 salt w = h7 cm2 salt w).
Proof.
  intros e1 e2 cm1 cm2 He Hel Hc Hcl.
  (* every aes_cmac call of f4, f6, g2, h6 is under a reversed 16-byte key *)
  assert (Hrev : forall m w, length w = 16%nat -> cm1 m (rev w) = cm2 m (rev w))
    by (intros; apply Hc; rewrite rev_length; assumption).
  split; [|split; [|split; [|split; [|split; [|split; [|split; [|split]]]]]]].
  - intros k r Hk Hr. unfold ah. rewrite He; auto. rewrite app_length, length_zeros. lia.
  - intros k r preq pres iat rat ia ra Hk Hr Hq Hs Hia Hra.
    destruct (bytes_ok [iat; rat]) eqn:Hb; [|unfold c1, bytes_of; rewrite Hb; reflexivity].
    assert (Hx : length (xor_zip r ([iat; rat] ++ preq ++ pres)) = 16%nat)
      by (apply xor_zip_length_eq; auto; rewrite !app_length; cbn [length]; lia).
    pose proof (Hel k _ Hk Hx) as Hl1.
    rewrite (c1_eq e1), (c1_eq e2); auto; [|rewrite <- He by assumption; assumption].
    rewrite <- (He k _ Hk Hx). f_equal. apply He; [assumption|].
    apply xor_zip_length_eq; auto. rewrite !app_length. cbn [length]. lia.
  - intros k r1 r2 Hk H1 H2. unfold s1. apply He; auto.
    rewrite !py_slice_0 by lia. rewrite app_length, !firstn_length. change (Z.to_nat 8) with 8%nat. lia.
  - intros u v x z Hx. unfold f4. rewrite Hrev by assumption. reflexivity.
  - (* the key of the two outer calls is the 16-byte tag of the inner one *)
    intros w n1 n2 a1 a2. unfold f5. rewrite <- (Hc (rev w) f5_salt) by reflexivity.
    rewrite !(Hc _ (cm1 (rev w) f5_salt)) by (apply Hcl; reflexivity). reflexivity.
  - intros w n1 n2 r io_cap a1 a2 Hw. unfold f6. rewrite Hrev by assumption. reflexivity.
  - intros u v x y Hx. unfold g2. rewrite Hrev by assumption. reflexivity.
  - intros w key_id Hw. unfold h6. rewrite Hrev by assumption. reflexivity.
  - intros salt w Hs. unfold h7. rewrite Hc by assumption. reflexivity.
Qed.
