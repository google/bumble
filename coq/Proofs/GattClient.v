(* The GATT client procedures of Model/GattClient.v.  Every discovery loop ends whatever the peer
   answers: the next starting handle grows and the loop condition bounds it by 0xFFFF
   (loop_terminates).  Against the server's discovery handlers a procedure returns exactly what the
   database holds, because each response is a non-empty prefix of what remains and the procedure
   continues right after it (page_of, paged_exact, discovery_exact).  Then values (long read,
   write), notification routing, and Server.add_services: the database it builds meets the
   hypotheses of all of these. *)
From Coq Require Import ZArith List Bool Lia ZifyBool.
From BV Require Import Model.GattClient Model.GattClientShape.
Import ListNotations.
Open Scope Z_scope.

Lemma filter_all_false {A} (f : A -> bool) l : (forall x, In x l -> f x = false) -> filter f l = [].
Proof.
  induction l as [|x l IH]; intros H; cbn [filter]; [reflexivity|].
  rewrite (H x (or_introl eq_refl)). apply IH. intros y Hy. apply H. now right.
Qed.

Lemma filter_all_true {A} (f : A -> bool) l : (forall x, In x l -> f x = true) -> filter f l = l.
Proof.
  induction l as [|x l IH]; intros H; cbn [filter]; [reflexivity|].
  rewrite (H x (or_introl eq_refl)). f_equal. apply IH. intros y Hy. apply H. now right.
Qed.

Lemma filter_map_comm {A B} (f : B -> bool) (g : A -> B) l :
  filter f (map g l) = map g (filter (fun x => f (g x)) l).
Proof. induction l as [|x l IH]; cbn; [reflexivity|]. destruct (f (g x)); cbn; congruence. Qed.

Lemma filter_filter {A} (f g : A -> bool) l :
  filter f (filter g l) = filter (fun x => andb (f x) (g x)) l.
Proof.
  induction l as [|x l IH]; cbn; [reflexivity|].
  destruct (g x); cbn; destruct (f x); cbn; congruence.
Qed.

Lemma filter_sub {A} (f g : A -> bool) l : (forall a, f a = true -> g a = true) ->
  filter f l = filter f (filter g l).
Proof.
  intros Hfg. rewrite filter_filter. apply filter_ext. intros a. destruct (f a) eqn:F; [|reflexivity].
  now rewrite (Hfg a F).
Qed.

Lemma forallb_In {A} (f : A -> bool) l a : forallb f l = true -> In a l -> f a = true.
Proof. intros H Ha. rewrite forallb_forall in H. now apply H. Qed.

Lemma filter_none {A} (f : A -> bool) l : forallb (fun a => negb (f a)) l = true -> filter f l = [].
Proof.
  intros H. apply filter_all_false. intros a Ha.
  pose proof (forallb_In _ _ _ H Ha) as E. cbv beta in E. now destruct (f a).
Qed.

Lemma forallb_and {A} (f g : A -> bool) l :
  forallb (fun a => andb (f a) (g a)) l = true -> forallb f l = true /\ forallb g l = true.
Proof.
  induction l as [|a l IH]; cbn [forallb]; [auto|]. intros H.
  apply andb_prop in H. destruct H as [H1 H2]. apply andb_prop in H1. destruct (IH H2). split; apply andb_true_intro; tauto.
Qed.

Lemma find_app {A} (f : A -> bool) l1 l2 :
  find f (l1 ++ l2) = match find f l1 with Some x => Some x | None => find f l2 end.
Proof. induction l1 as [|x l1 IH]; cbn; [reflexivity|]. destruct (f x); [reflexivity|exact IH]. Qed.

Lemma flat_map_single {A B} (f : A -> B) l : flat_map (fun x => [f x]) l = map f l.
Proof. induction l as [|x l IH]; cbn [flat_map map app]; congruence. Qed.

Lemma firstn_plus {A} (v : list A) : forall o k, firstn o v ++ firstn k (skipn o v) = firstn (o + k) v.
Proof.
  intros o. revert v. induction o as [|o IH]; intros v k; [reflexivity|].
  destruct v as [|x v]; cbn [firstn skipn plus app].
  - now destruct k.
  - now rewrite IH.
Qed.

Section Termination.
  Variable cond : Z -> bool.
  Variable proc : Z -> list entry -> step_res.
  Variable raise_other : bool.
  Variable r : nat -> Z -> resp.
  Hypothesis cond_bound : forall s, cond s = true -> s <= 0xFFFF.
  Hypothesis proc_progress : forall s es a s', es <> [] -> proc s es = Next a s' -> s < s'.

  (* with fuel 0x10000 - start the loop never runs out of fuel, and it issues at most
     0x10000 - start requests: the measure 0x10000 - starting_handle strictly decreases *)
  Lemma loop_terminates : forall fuel n start acc,
    (Z.to_nat (0x10000 - start) <= fuel)%nat ->
    fst (loop cond proc raise_other r fuel n start acc) <> OutOfFuel /\
    (snd (loop cond proc raise_other r fuel n start acc) <= n + Z.to_nat (0x10000 - start))%nat.
  Proof.
    induction fuel as [|f IH]; intros n start acc Hf; cbn [loop];
      destruct (cond start) eqn:C; cbn [negb fst snd].
    - apply cond_bound in C. lia.
    - split; [discriminate|lia].
    - pose proof (cond_bound _ C) as Hb.
      destruct (r n start) as [|c|es]; cbn [fst snd].
      + split; [discriminate|lia].
      + destruct (c =? ATT_NOT_FOUND); [|destruct raise_other]; cbn [fst snd]; (split; [discriminate|lia]).
      + destruct es as [|e es]; cbn [fst snd]; [split; [discriminate|lia]|].
        destruct (proc start (e :: es)) as [|c|a|a s'] eqn:P; cbn [fst snd];
          try (split; [discriminate|lia]).
        assert (start < s') by (eapply proc_progress; [|exact P]; discriminate).
        destruct (IH (S n) s' (acc ++ a)) as [H1 H2]; [lia|].
        split; [exact H1|lia].
    - split; [discriminate|lia].
  Qed.
End Termination.

(* Any fuel on which the loop does not run out gives the result every larger fuel gives (the
   correspondence harness evaluates the model with a fuel of a few thousand requests instead of
   0x10000 - start). *)
Lemma loop_fuel_mono cond proc raise_other r : forall f k n start acc,
  fst (loop cond proc raise_other r f n start acc) <> OutOfFuel ->
  loop cond proc raise_other r (f + k) n start acc = loop cond proc raise_other r f n start acc.
Proof.
  induction f as [|f IH]; intros k n start acc H.
  - cbn [loop] in H. destruct k as [|k]; [reflexivity|]. cbn [plus loop].
    destruct (cond start); cbn [negb fst] in *; [congruence|reflexivity].
  - cbn [plus loop] in *. destruct (cond start); cbn [negb] in *; [|reflexivity].
    destruct (r n start) as [|c|es]; [reflexivity|reflexivity|].
    destruct es as [|e es]; [reflexivity|].
    destruct (proc start (e :: es)); try reflexivity. apply IH. exact H.
Qed.

Definition progresses (proc : Z -> list entry -> step_res) : Prop :=
  forall s es a s', es <> [] -> proc s es = Next a s' -> s < s'.

(* The inner loops share one shape: the empty list gives "last" + 1, and an entry that is accepted
   replaces "last" by a handle at or above the starting handle.  "last" starts at 0 and is
   overwritten by the first entry. *)
Lemma steps_progress (f : list entry -> list entry -> Z -> step_res) s :
  (forall acc l, f [] acc l = Next acc (l + 1)) ->
  (forall e es acc l a s', f (e :: es) acc l = Next a s' ->
     exists acc' l', s <= l' /\ f es acc' l' = Next a s') ->
  forall es a s', es <> [] -> f es [] 0 = Next a s' -> s < s'.
Proof.
  intros Hnil Hcons es a s' Hne.
  enough (G : forall es acc l, es <> [] \/ s <= l -> f es acc l = Next a s' -> s < s') by (apply G; now left).
  clear Hne es. induction es as [|e es IH]; intros acc l Hl H.
  - rewrite Hnil in H. injection H as _ <-. destruct Hl; [congruence|lia].
  - destruct (Hcons _ _ _ _ _ _ H) as [acc' [l' [Hl' H']]]. exact (IH _ _ (or_intror Hl') H').
Qed.

Lemma proc_group_progresses parse stop : progresses (fun s es => proc_group parse stop s es [] 0).
Proof.
  intros s. apply (steps_progress (proc_group parse stop s)); [reflexivity|].
  intros e es acc l a s' H. cbn [proc_group] in H.
  destruct (orb _ _) eqn:B; [discriminate|].
  destruct (andb parse _); [discriminate|]. destruct (andb stop _); [discriminate|].
  exists (acc ++ [e]), (e_end e). split; [lia|exact H].
Qed.

Lemma proc_plain_progresses : progresses (fun s es => proc_plain s es [] 0).
Proof.
  intros s. apply (steps_progress (proc_plain s)); [reflexivity|].
  intros e es acc l a s' H. cbn [proc_plain] in H.
  destruct (e_h e <? s) eqn:B; [discriminate|]. destruct (e_bad e); [discriminate|].
  exists (acc ++ [e]), (e_h e). split; [lia|exact H].
Qed.

Lemma proc_plain_raw_progresses : progresses (fun s es => proc_plain_raw s es [] 0).
Proof.
  intros s. apply (steps_progress (proc_plain_raw s)); [reflexivity|].
  intros e es acc l a s' H. cbn [proc_plain_raw] in H.
  destruct (e_h e <? s) eqn:B; [discriminate|].
  exists (acc ++ [e]), (e_h e). split; [lia|exact H].
Qed.

Lemma proc_included_progresses rd : progresses (fun s es => proc_included rd s es [] 0).
Proof.
  intros s. apply (steps_progress (proc_included rd s)); [reflexivity|].
  intros e es acc l a s' H. cbn [proc_included] in H.
  destruct (e_h e <? s) eqn:B; [discriminate|]. destruct (e_bad e); [discriminate|].
  assert (Hl : s <= e_h e) by lia.
  destruct (e_data e) as [|x [|en [|y t]]]; try (eexists _, _; split; [exact Hl|exact H]).
  destruct (rd x) as [|c|len i]; try discriminate.
  destruct (uuid_len_ok len); [|discriminate]. eexists _, _; split; [exact Hl|exact H].
Qed.

Lemma cond_lt_ffff_bound s : cond_lt_ffff s = true -> s <= 0xFFFF.
Proof. unfold cond_lt_ffff. lia. Qed.

Lemma cond_le_bound ending : ending <= 0xFFFF -> forall s, cond_le ending s = true -> s <= 0xFFFF.
Proof. unfold cond_le. lia. Qed.

Definition finishes (o : outcome * nat) (bound : Z) : Prop :=
  fst o <> OutOfFuel /\ Z.of_nat (snd o) <= bound.

Lemma loop_finishes cond proc raise r start bound :
  (forall s, cond s = true -> s <= 0xFFFF) -> progresses proc ->
  Z.max 0 (0x10000 - start) <= bound ->
  finishes (loop cond proc raise r (fuel_for start) 0 start []) bound.
Proof.
  intros Hc Hp Hb.
  destruct (loop_terminates cond proc raise r Hc Hp (fuel_for start) 0%nat start [] (le_n _)) as [H1 H2].
  split; [exact H1|lia].
Qed.

(* discover_services and discover_service *)
Lemma group_loop_finishes parse stop raise r :
  finishes (loop cond_lt_ffff (fun s es => proc_group parse stop s es [] 0) raise r (fuel_for 1) 0 1 []) 65535.
Proof. apply loop_finishes; [exact cond_lt_ffff_bound|apply proc_group_progresses|lia]. Qed.

(* a procedure that pages through a handle range [sh, se], whatever its inner loop (for
   discover_included_services: however the nested reads of service declarations are answered) *)
Lemma range_loop_finishes proc raise : progresses proc -> forall r sh se, 0 <= sh -> se <= 0xFFFF ->
  finishes (loop (cond_le se) proc raise r (fuel_for sh) 0 sh []) 65536.
Proof. intros Hp r sh se H0 He. apply loop_finishes; [exact (cond_le_bound se He)|exact Hp|lia]. Qed.

Lemma discover_characteristics_terminates : forall r sh se, 0 <= sh -> se <= 0xFFFF ->
  finishes (discover_characteristics (fuel_for sh) r sh se) 65536.
Proof.
  intros r sh se H0 He. unfold discover_characteristics, discover_chars_loop.
  destruct (range_loop_finishes _ true proc_plain_progresses r sh se H0 He) as [H1 H2].
  destruct (loop _ _ _ _ _ _ _ _) as [[es| |c|] n]; (split; [cbn in *; congruence|exact H2]).
Qed.

Lemma discover_descriptors_terminates : forall r vh ce, 0 <= vh -> ce <= 0xFFFF ->
  finishes (discover_descriptors (fuel_for (vh + 1)) r vh ce) 65535.
Proof.
  intros r vh ce H0 He.
  apply loop_finishes; [exact (cond_le_bound ce He)|exact proc_plain_progresses|lia].
Qed.

Lemma discover_attributes_terminates : forall r, finishes (discover_attributes (fuel_for 1) r) 65535.
Proof.
  intros r. apply loop_finishes; [apply cond_le_bound; lia|exact proc_plain_progresses|lia].
Qed.

(* the uuids filter of discover_characteristics: filtered discovery is the filter of the
   unfiltered discovery, same handle ranges, same number of requests *)
Theorem discover_characteristics_uuids_spec : forall fuel r sh se us,
  discover_characteristics_uuids fuel r sh se us
  = match discover_characteristics fuel r sh se with
    | (Done es, n) => (Done (filter_uuids us es), n)
    | other => other
    end.
Proof.
  intros. unfold discover_characteristics_uuids, discover_characteristics.
  destruct (discover_chars_loop fuel r sh se) as [[es| |c|] n]; reflexivity.
Qed.

Lemma filter_uuids_sub us es : forall e, In e (filter_uuids us es) -> In e es.
Proof.
  intros e. unfold filter_uuids. destruct us; [auto|]. rewrite filter_In. tauto.
Qed.

Lemma filter_uuids_nil es : filter_uuids [] es = es.
Proof. reflexivity. Qed.

(* every service of discover_characteristics(uuids, None) finishes: no OutOfFuel, and the
   total number of requests is bounded by the sum of the per-service bounds *)
Fixpoint all_bound (svcs : list (Z * Z)) : Z :=
  match svcs with [] => 0 | (sh, _) :: rest => Z.max 0 (0x10000 - sh) + all_bound rest end.

Lemma all_bound_nonneg svcs : 0 <= all_bound svcs.
Proof. induction svcs as [|[sh se] rest IH]; cbn [all_bound]; lia. Qed.

Lemma discover_characteristics_all_terminates : forall r svcs us n acc,
  Forall (fun p => snd p <= 0xFFFF) svcs ->
  fst (discover_characteristics_all r svcs us n acc) <> OutOfFuel /\
  Z.of_nat (snd (discover_characteristics_all r svcs us n acc)) <= Z.of_nat n + all_bound svcs.
Proof.
  intros r svcs us. induction svcs as [|[sh se] rest IH]; intros n acc F; cbn [discover_characteristics_all all_bound].
  - split; [discriminate|cbn; lia].
  - inversion F; subst. cbn [snd] in H1. pose proof (all_bound_nonneg rest) as Hnn.
    destruct (loop_terminates (cond_le se) _ true r (cond_le_bound se H1) proc_plain_progresses
                (fuel_for sh) n sh [] (le_n _)) as [T1 T2].
    destruct (loop _ _ _ _ _ _ _ _) as [[es| |c|] n'] eqn:E; cbn [fst snd] in *.
    + destruct (IH n' (acc ++ filter_uuids us (fix_ends se es)) H2) as [I1 I2]. split; [exact I1|lia].
    + split; [discriminate|lia].
    + split; [discriminate|lia].
    + congruence.
Qed.

(* one service, no filter: discover_characteristics_all is discover_characteristics *)
Lemma discover_characteristics_all_one : forall r sh se,
  discover_characteristics_all r [(sh, se)] [] 0 []
  = discover_characteristics (fuel_for sh) r sh se.
Proof.
  intros. cbn [discover_characteristics_all]. unfold discover_characteristics, discover_chars_loop.
  destruct (loop _ _ _ _ _ _ _ _) as [[es| |c|] n]; reflexivity.
Qed.

(* why D12a and D12c are needed: the loops before the fixes run out of ANY fuel on one peer *)
Definition peer_empty_info : nat -> Z -> resp :=
  scripted [RList [mkE 1 1 false [2; 0x2800]; mkE 2 2 false [2; 0x2803]]; RList []].

(* once the peer answers with empty lists, the loop asks again from the last attribute it has *)
Lemma attributes_unfixed_stuck : forall fuel n acc l, (1 <= n)%nat ->
  fst (attributes_unfixed fuel peer_empty_info n (e_h l + 1) (acc ++ [l])) = OutOfFuel.
Proof.
  induction fuel as [|f IH]; intros n acc l Hn; [reflexivity|]. cbn [attributes_unfixed].
  replace (peer_empty_info n (e_h l + 1)) with (RList []).
  - cbn [proc_plain]. rewrite app_nil_r, rev_unit. apply IH. lia.
  - unfold peer_empty_info, scripted. destruct n as [|[|n]]; [lia|reflexivity|]. cbn [nth]. now destruct n.
Qed.

Lemma discover_attributes_unfixed_refuted :
  forall fuel, fst (attributes_unfixed (S (S fuel)) peer_empty_info 0 1 []) = OutOfFuel.
Proof.
  intros fuel.
  exact (attributes_unfixed_stuck (S fuel) 1 [mkE 1 1 false [2; 0x2800]] (mkE 2 2 false [2; 0x2803]) (le_n 1)).
Qed.

Definition peer_back_step : nat -> Z -> resp :=
  fun _ _ => RList [mkE 5 0xFFFF false []; mkE 1 1 false []].

(* the entry that ends at 0xFFFF stops the inner loop, and the next request starts after the
   end of the unchecked last entry: at 2, for ever *)
Lemma service_unfixed_stuck : forall fuel n acc start, start = 1 \/ start = 2 ->
  fst (loop cond_lt_ffff (fun s es => proc_service_unfixed s es es []) false peer_back_step fuel n start acc)
  = OutOfFuel.
Proof.
  induction fuel as [|f IH]; intros n acc start [->| ->]; try reflexivity; cbn; apply IH; now right.
Qed.

Section Chain.
  Context {A : Type}.
  Variables h key : A -> Z.

  Lemma chain_weaken : forall l lo lo', lo' <= lo -> chainG h key lo l = true -> chainG h key lo' l = true.
  Proof. destruct l as [|x l]; intros lo lo' Hl H; cbn [chainG] in *; [reflexivity|]. lia. Qed.

  Lemma chain_filter f : forall l lo, chainG h key lo l = true -> chainG h key lo (filter f l) = true.
  Proof.
    induction l as [|x l IH]; intros lo H; cbn [filter chainG] in *; [reflexivity|].
    apply andb_prop in H. destruct H as [H1 H2]. specialize (IH _ H2).
    destruct (f x); cbn [chainG].
    - rewrite H1, IH. reflexivity.
    - eapply chain_weaken; [|exact IH]. lia.
  Qed.

  Lemma chain_raise : forall l lo m, chainG h key lo l = true -> Forall (fun x => m <= h x) l ->
    chainG h key m l = true.
  Proof.
    destruct l as [|x l]; intros lo m H F; cbn [chainG] in *; [reflexivity|].
    inversion F; subst. lia.
  Qed.

  Lemma chain_In : forall l lo x, chainG h key lo l = true -> In x l -> lo <= h x <= key x.
  Proof.
    induction l as [|y l IH]; intros lo x H Hx; [contradiction|]. cbn [chainG] in H.
    destruct Hx as [<-|Hx].
    - lia.
    - apply andb_prop in H. destruct H as [H1 H2]. specialize (IH _ x H2 Hx). lia.
  Qed.

  Lemma chain_app_l : forall p q lo, chainG h key lo (p ++ q) = true -> chainG h key lo p = true.
  Proof.
    induction p as [|x p IH]; intros q lo H; cbn [app chainG] in *; [reflexivity|].
    apply andb_prop in H. destruct H as [H1 H2]. rewrite H1, (IH _ _ H2). reflexivity.
  Qed.

  Lemma chain_app_r : forall p q lo d, p <> [] -> chainG h key lo (p ++ q) = true ->
    chainG h key (key (last p d) + 1) q = true /\ lo <= key (last p d) /\
    Forall (fun x => h x <= key (last p d)) p.
  Proof.
    induction p as [|x p IH]; intros q lo d Hp H; [congruence|].
    cbn [app chainG] in H. apply andb_prop in H. destruct H as [H1 H2].
    destruct p as [|y p].
    - cbn [last app] in *. repeat split; [exact H2|lia|]. constructor; [lia|constructor].
    - destruct (IH q (key x + 1) d ltac:(discriminate) H2) as [I1 [I2 I3]].
      change (last (x :: y :: p) d) with (last (y :: p) d).
      repeat split; [exact I1|lia|]. constructor; [lia|exact I3].
  Qed.
End Chain.

Lemma chain_map {A B} (f : A -> B) (h key : B -> Z) (h' key' : A -> Z) :
  (forall x, h (f x) = h' x) -> (forall x, key (f x) = key' x) ->
  forall l lo, chainG h key lo (map f l) = chainG h' key' lo l.
Proof.
  intros Hh Hk. induction l as [|x l IH]; intros lo; cbn [map chainG]; [reflexivity|].
  now rewrite Hh, Hk, IH.
Qed.

(* what is left from [start] on when [acc] lies below [start] and [R] is a chain from [start] *)
Lemma filter_from key start acc R :
  Forall (fun e => e_h e < start) acc -> chainG e_h key start R = true ->
  filter (fun e => start <=? e_h e) (acc ++ R) = R.
Proof.
  intros Hacc Hch. rewrite filter_app, filter_all_false, filter_all_true; [reflexivity| |].
  - intros e He. pose proof (chain_In _ _ _ _ _ Hch He). lia.
  - rewrite Forall_forall in Hacc. intros e He. specialize (Hacc e He). lia.
Qed.

(* An honest answer to a request starting at [s], when [L] is everything the server holds for the
   procedure, in handle order: a prefix of what remains of [L] from [s] on, empty (the error
   ATTRIBUTE_NOT_FOUND) only if nothing remains. *)
Definition page_of (L : list entry) (s : Z) (rsp : resp) : Prop :=
  exists p q, filter (fun e => s <=? e_h e) L = p ++ q /\ (p = [] -> q = []) /\
              rsp = match p with [] => RErr ATT_NOT_FOUND | _ => RList p end.

(* Against a peer that answers every request with a page of [L], a discovery loop that takes an
   honest page as it is (up to [tr], what it makes of each entry) and continues after the last key
   of the page returns all of [L], on any fuel it does not exhaust. *)
Section Paged.
  Variable key : entry -> Z.
  Variable tr : entry -> entry.
  Variable cond : Z -> bool.
  Variable proc : Z -> list entry -> step_res.
  Variable raise_other : bool.
  Variable r : nat -> Z -> resp.
  Variable L : list entry.
  Variable s0 : Z.
  Variable clean : entry -> bool.

  Hypothesis Lclean : forallb clean L = true.
  Hypothesis proc_ok : forall start p d, p <> [] -> chainG e_h key start p = true ->
    forallb clean p = true -> proc start p = Next (map tr p) (key (last p d) + 1).
  Hypothesis srv : forall n s, s0 <= s -> cond s = true -> page_of L s (r n s).
  Hypothesis cond_end : forall s, s0 <= s -> cond s = false -> filter (fun e => s <=? e_h e) L = [].

  (* invariant: [acc] is what has been returned so far, all of it below [start]; [R] is the rest *)
  Lemma paged_exact_from : forall fuel n start acc R,
    s0 <= start -> L = acc ++ R -> Forall (fun e => e_h e < start) acc ->
    chainG e_h key start R = true ->
    fst (loop cond proc raise_other r fuel n start (map tr acc)) = OutOfFuel \/
    fst (loop cond proc raise_other r fuel n start (map tr acc)) = Done (map tr L).
  Proof.
    induction fuel as [|f IH]; intros n start acc R Hs HL Hacc Hch.
    (* what remains of [L] from [start] on is [R]; when [R] is empty the result is all of [L] *)
    all: pose proof (filter_from key start acc R Hacc Hch) as HR; rewrite <- HL in HR.
    all: assert (Hdone : R = [] -> Done (map tr acc) = Done (map tr L))
           by (intros ->; rewrite app_nil_r in HL; now rewrite HL).
    all: cbn [loop]; destruct (cond start) eqn:C; cbn [negb fst].
    2, 4: right; apply Hdone; rewrite <- HR; now apply cond_end.
    - now left.
    - destruct (srv n start Hs C) as [p [q [Hpq [Hnil Hr]]]]. rewrite Hr, HR in *.
      destruct p as [|e p]; [right; apply Hdone; now rewrite Hpq, Hnil|].
      clear Hr Hnil HR Hdone. subst R.
      assert (Hcl : forallb clean (e :: p) = true).
      { rewrite HL, !forallb_app in Lclean.
        apply andb_prop in Lclean. destruct Lclean as [_ H2]. now apply andb_prop in H2. }
      rewrite (proc_ok start (e :: p) e ltac:(discriminate) (chain_app_l _ _ _ _ _ Hch) Hcl), <- map_app.
      destruct (chain_app_r e_h key (e :: p) q start e ltac:(discriminate) Hch) as [C1 [C2 C3]].
      apply (IH (S n) _ (acc ++ e :: p) q); [clear - Hs C2; lia|now rewrite <- app_assoc| |exact C1].
      apply Forall_app. split; [eapply Forall_impl; [|exact Hacc]|eapply Forall_impl; [|exact C3]];
        clear - C2; intros x Hx; cbv beta in *; lia.
  Qed.

  Lemma paged_exact : forall fuel, chainG e_h key s0 L = true ->
    fst (loop cond proc raise_other r fuel 0 s0 []) = OutOfFuel \/
    fst (loop cond proc raise_other r fuel 0 s0 []) = Done (map tr L).
  Proof.
    intros fuel H. apply (paged_exact_from fuel 0%nat s0 [] L); [lia|reflexivity|constructor|exact H].
  Qed.
End Paged.

(* [paged_exact] for a procedure that keeps the entries as they are ([tr] the identity), with
   [page_of] written out *)
Section Exact.
  Variable key : entry -> Z.
  Variable cond : Z -> bool.
  Variable proc : Z -> list entry -> step_res.
  Variable raise_other : bool.
  Variable r : nat -> Z -> resp.
  Variable L : list entry.          (* everything the server holds for this procedure, in order *)
  Variable s0 : Z.
  Variable clean : entry -> bool.   (* what the procedure needs of an honest entry *)

  Hypothesis Lclean : forallb clean L = true.
  (* an honest response list is taken as it is, and the next request starts after its last key *)
  Hypothesis proc_ok : forall start p d, p <> [] -> chainG e_h key start p = true ->
    forallb clean p = true -> proc start p = Next p (key (last p d) + 1).
  (* the server answers with a prefix of what remains from [s] on, empty only if nothing remains *)
  Hypothesis srv : forall n s, s0 <= s -> cond s = true ->
    exists p q, filter (fun e => s <=? e_h e) L = p ++ q /\ (p = [] -> q = []) /\
                r n s = match p with [] => RErr ATT_NOT_FOUND | _ => RList p end.
  Hypothesis cond_end : forall s, s0 <= s -> cond s = false -> filter (fun e => s <=? e_h e) L = [].

  Lemma loop_exact : forall fuel, chainG e_h key s0 L = true ->
    fst (loop cond proc raise_other r fuel 0 s0 []) = OutOfFuel \/
    fst (loop cond proc raise_other r fuel 0 s0 []) = Done L.
  Proof.
    intros fuel H. rewrite <- (map_id L).
    apply (paged_exact key (fun e => e) cond proc raise_other r L s0 clean Lclean); [|exact srv|exact cond_end|exact H].
    intros start p d Hp Hc Hcl. rewrite map_id. now apply proc_ok.
  Qed.
End Exact.

(* what the inner loops make of a page they accept whole *)
Lemma proc_plain_ok start : forall p lo acc lh d, start <= lo -> chainG e_h e_h lo p = true ->
  forallb (fun e => negb (e_bad e)) p = true ->
  proc_plain start p acc lh = Next (acc ++ p) (match p with [] => lh | _ => e_h (last p d) end + 1).
Proof.
  induction p as [|e p IH]; intros lo acc lh d Hlo Hc C; cbn [proc_plain].
  - now rewrite app_nil_r.
  - cbn [chainG forallb] in Hc, C. apply andb_prop in Hc. destruct Hc as [Hc1 Hc2].
    apply andb_prop in C. destruct C as [C1 C2].
    replace (e_h e <? start) with false by lia.
    destruct (e_bad e); [discriminate|].
    rewrite (IH (e_h e + 1) (acc ++ [e]) (e_h e) d ltac:(lia) Hc2 C2), <- app_assoc. cbn [app].
    destruct p; reflexivity.
Qed.

Definition clean_group (parse stop : bool) (e : entry) : bool :=
  andb (negb (andb parse (e_bad e))) (negb (andb stop (e_end e =? 0xFFFF))).

Lemma proc_group_ok parse stop start : forall p lo acc le d, start <= lo -> chainG e_h e_end lo p = true ->
  forallb (clean_group parse stop) p = true ->
  proc_group parse stop start p acc le = Next (acc ++ p) (match p with [] => le | _ => e_end (last p d) end + 1).
Proof.
  induction p as [|e p IH]; intros lo acc le d Hlo Hc C; cbn [proc_group].
  - now rewrite app_nil_r.
  - cbn [chainG forallb] in Hc, C. apply andb_prop in Hc. destruct Hc as [Hc1 Hc2].
    apply andb_prop in C. destruct C as [C1 C2].
    unfold clean_group in C1. apply andb_prop in C1. destruct C1 as [C1a C1b].
    replace (orb (e_h e <? start) (e_end e <? e_h e)) with false by lia.
    destruct (andb parse (e_bad e)); [discriminate|].
    destruct (andb stop (e_end e =? 65535)); [discriminate|].
    rewrite (IH (e_end e + 1) (acc ++ [e]) (e_end e) d ltac:(lia) Hc2 C2), <- app_assoc. cbn [app].
    destruct p; reflexivity.
Qed.

Lemma take_run_prefix hdr chk0 sz : forall cands space first,
  exists q, cands = take_run hdr chk0 sz space first cands ++ q.
Proof.
  induction cands as [|a cs IH]; intros space first; cbn [take_run].
  - exists []. reflexivity.
  - destruct (andb chk0 (space =? 0)); [exists (a :: cs); reflexivity|].
    destruct (negb _); [exists (a :: cs); reflexivity|].
    destruct (space <? hdr + sz a); [exists (a :: cs); reflexivity|].
    destruct (IH (space - (hdr + sz a)) (Some (match first with Some f => f | None => sz a end))) as [q Hq].
    exists q. cbn [app]. congruence.
Qed.

(* the first candidate always goes in when it fits an empty PDU *)
Lemma take_run_first hdr chk0 sz a cs space :
  space <> 0 -> hdr + sz a <= space ->
  exists t, take_run hdr chk0 sz space None (a :: cs) = a :: t.
Proof.
  intros H0 Hfit. cbn [take_run].
  assert (B0 : andb chk0 (space =? 0) = false) by (destruct chk0; cbn; lia). rewrite B0. cbn [negb].
  assert (B1 : (space <? hdr + sz a) = false) by lia. rewrite B1. eexists. reflexivity.
Qed.

(* every entry of a response has the same size as the first and the response fits the PDU *)
Lemma take_run_sizes hdr chk0 sz : forall cands space first,
  0 <= hdr -> (forall a, 0 <= sz a) -> 0 <= space ->
  let sel := take_run hdr chk0 sz space first cands in
  Z.of_nat (length sel) * (hdr + match first with Some f => f | None => match sel with a :: _ => sz a | [] => 0 end end) <= space /\
  Forall (fun a => sz a = match first with Some f => f | None => match sel with a' :: _ => sz a' | [] => 0 end end) sel.
Proof.
  intros cands space first Hh Hsz. revert space first.
  induction cands as [|a cs IH]; intros space first Hs; cbn [take_run].
  - cbn. split; [lia|constructor].
  - destruct (andb chk0 (space =? 0)); [cbn; split; [lia|constructor]|].
    destruct (negb _) eqn:E; [cbn; split; [lia|constructor]|].
    destruct (space <? hdr + sz a) eqn:F; [cbn; split; [lia|constructor]|].
    destruct (IH (space - (hdr + sz a)) (Some (match first with Some f => f | None => sz a end)) ltac:(lia))
      as [I1 I2]. cbv zeta in I1, I2. cbn [length]. rewrite Nat2Z.inj_succ.
    destruct first as [f|]; (split; [nia|constructor; [lia|exact I2]]).
Qed.

Lemma chain_sub_filter {A} (h key : A -> Z) (f g : A -> bool) l lo :
  (forall a, g a = true -> f a = true) ->
  chainG h key lo (filter f l) = true -> chainG h key lo (filter g l) = true.
Proof. intros Hfg H. rewrite (filter_sub g f l Hfg). apply chain_filter. exact H. Qed.

Section Srv.
  Variable db : list attr.
  Variable sel : attr -> bool.
  Variables ending s0 : Z.
  Variables mk mk' : attr -> entry.
  Hypothesis mk_h : forall a, e_h (mk a) = a_handle a.

  Definition cands (s : Z) : list attr := filter (fun a => andb (sel a) (in_range s ending a)) db.

  Lemma cands_shift s : s0 <= s ->
    filter (fun e => s <=? e_h e) (map mk (cands s0)) = map mk (cands s).
  Proof.
    intros Hs. rewrite filter_map_comm. f_equal. unfold cands. rewrite filter_filter.
    apply filter_ext. intros a. rewrite mk_h. unfold in_range. lia.
  Qed.

  Variables hdr space : Z.
  Variable chk0 : bool.
  Variable sz : attr -> Z.
  Hypothesis space_pos : space <> 0.
  Hypothesis fits : forall a, In a (cands s0) -> hdr + sz a <= space.
  Hypothesis mk_same : forall a, In a (cands s0) -> mk' a = mk a.

  Lemma cands_sub s a : s0 <= s -> In a (cands s) -> In a (cands s0).
  Proof.
    unfold cands. rewrite !filter_In. unfold in_range. intros Hs [H1 H2]. split; [exact H1|]. lia.
  Qed.

  Lemma srv_generic s : s0 <= s ->
    exists p q, filter (fun e => s <=? e_h e) (map mk (cands s0)) = p ++ q /\ (p = [] -> q = []) /\
      reply (map mk' (take_run hdr chk0 sz space None (cands s)))
      = match p with [] => RErr ATT_NOT_FOUND | _ => RList p end.
  Proof.
    intros Hs. rewrite (cands_shift s Hs).
    destruct (take_run_prefix hdr chk0 sz (cands s) space None) as [q Hq].
    set (t := take_run hdr chk0 sz space None (cands s)) in *.
    exists (map mk t), (map mk q). split; [|split].
    - rewrite <- map_app. congruence.
    - intros Hnil. destruct (cands s) as [|a cs] eqn:E.
      + destruct t; [|discriminate]. cbn in Hq. subst q. reflexivity.
      + assert (Ha : In a (cands s0)) by (apply (cands_sub s a Hs); rewrite E; left; reflexivity).
        destruct (take_run_first hdr chk0 sz a cs space space_pos (fits a Ha)) as [t' Ht'].
        subst t. rewrite Ht' in Hnil. discriminate.
    - assert (M : map mk' t = map mk t).
      { apply map_ext_in. intros a Ha. apply mk_same. apply (cands_sub s a Hs).
        rewrite Hq. apply in_or_app. now left. }
      rewrite M. unfold reply. reflexivity.
  Qed.
End Srv.

Lemma cands_in db sel ending s a : In a (cands db sel ending s) ->
  In a db /\ sel a = true /\ s <= a_handle a <= ending.
Proof.
  unfold cands. rewrite filter_In. unfold in_range. intros [H1 H2]. repeat split; try assumption; lia.
Qed.

Lemma cands_chain db sel ending s key :
  chainG a_handle key 1 (filter sel db) = true ->
  chainG a_handle key s (cands db sel ending s) = true.
Proof.
  intros H. apply (chain_raise a_handle key _ 1).
  - unfold cands.
    rewrite (filter_ext _ (fun a => andb (in_range s ending a) (sel a))) by (intros; apply andb_comm).
    rewrite <- (filter_filter (fun a => in_range s ending a) sel).
    apply chain_filter. exact H.
  - apply Forall_forall. intros a Ha. apply cands_in in Ha. lia.
Qed.

(* The discovery procedures against the discovery handlers.  What the server holds for a
   procedure is [map mk (cands db sel ending s0)]: the attributes selected by [sel] in
   [s0, ending], as entries. *)
Section Discovery.
  Variable key : entry -> Z.        (* what the procedure pages by: e_h or e_end ... *)
  Variable akey : attr -> Z.        (* ... and the same on attributes: a_handle or a_end *)
  Variable tr : entry -> entry.
  Variable cond : Z -> bool.
  Variable proc : Z -> list entry -> step_res.
  Variable raise : bool.
  Variable r : nat -> Z -> resp.
  Variable db : list attr.
  Variable sel : attr -> bool.
  Variables ending s0 : Z.
  Variable mk : attr -> entry.
  Variable clean : entry -> bool.

  Hypothesis mk_h : forall a, e_h (mk a) = a_handle a.
  Hypothesis mk_key : forall a, key (mk a) = akey a.
  Hypothesis cond_bound : forall s, cond s = true -> s <= 0xFFFF.
  Hypothesis proc_progress : progresses proc.
  Hypothesis proc_ok : forall start p d, p <> [] -> chainG e_h key start p = true ->
    forallb clean p = true -> proc start p = Next (map tr p) (key (last p d) + 1).
  Hypothesis cands_clean : forall a, In a (cands db sel ending s0) -> clean (mk a) = true.
  (* the loop goes on while a candidate remains *)
  Hypothesis cond_while : forall a s, In a (cands db sel ending s0) -> s <= a_handle a -> cond s = true.
  Hypothesis sorted : chainG a_handle akey 1 (filter sel db) = true.
  Hypothesis srv : forall n s, s0 <= s -> cond s = true -> page_of (map mk (cands db sel ending s0)) s (r n s).

  Lemma discovery_exact :
    fst (loop cond proc raise r (fuel_for s0) 0 s0 [])
    = Done (map (fun a => tr (mk a)) (cands db sel ending s0)).
  Proof.
    destruct (loop_terminates cond proc raise r cond_bound proc_progress (fuel_for s0) 0%nat s0 [] (le_n _))
      as [T _].
    rewrite <- map_map.
    destruct (paged_exact key tr cond proc raise r (map mk (cands db sel ending s0)) s0 clean)
      with (fuel := fuel_for s0) as [O|D]; [| | | | |contradiction|exact D].
    - apply forallb_forall. intros e He. apply in_map_iff in He. destruct He as [a [<- Ha]].
      now apply cands_clean.
    - exact proc_ok.
    - exact srv.
    - intros s Hs C. apply filter_all_false. intros e He. apply in_map_iff in He. destruct He as [a [<- Ha]].
      rewrite mk_h. destruct (Z.leb_spec s (a_handle a)) as [Hle|]; [|reflexivity].
      rewrite (cond_while a s Ha Hle) in C. discriminate.
    - rewrite (chain_map mk e_h key a_handle akey mk_h mk_key). apply cands_chain. exact sorted.
  Qed.
End Discovery.

(* procedures that page by attribute handle (characteristics, descriptors, all attributes) *)
Lemma plain_exact : forall raise r db sel ending s0 mk,
  (forall a, e_h (mk a) = a_handle a) -> (forall a, e_bad (mk a) = false) ->
  ending <= 0xFFFF -> db_sorted db = true ->
  (forall n s, s0 <= s -> s <= ending -> page_of (map mk (cands db sel ending s0)) s (r n s)) ->
  fst (loop (cond_le ending) (fun s es => proc_plain s es [] 0) raise r (fuel_for s0) 0 s0 [])
  = Done (map mk (cands db sel ending s0)).
Proof.
  intros raise r db sel ending s0 mk Hh Hb He Hs Hsrv. apply andb_prop in Hs.
  apply (discovery_exact e_h a_handle (fun e => e) (cond_le ending) _ raise r db sel ending s0 mk
           (fun e => negb (e_bad e)) Hh Hh (cond_le_bound ending He) proc_plain_progresses).
  - intros start p d Hp Hc Hcl. rewrite map_id, (proc_plain_ok start p start [] 0 d (Z.le_refl _) Hc Hcl).
    destruct p; [congruence|reflexivity].
  - intros a _. now rewrite Hb.
  - intros a s Ha Hle. apply cands_in in Ha. unfold cond_le. lia.
  - apply chain_filter. exact (proj1 Hs).
  - intros n s Hs0 C. apply Hsrv; [exact Hs0|]. unfold cond_le in C. lia.
Qed.

Lemma fix_ends_id se : forall decls, char_ends_ok se decls = true ->
  fix_ends se (map to_entry decls) = map to_entry decls.
Proof.
  induction decls as [|a l IH]; intros H; cbn [map fix_ends char_ends_ok] in *; [reflexivity|].
  apply andb_prop in H. destruct H as [H1 H2]. rewrite (IH H2). f_equal.
  unfold to_entry at 1 2 3. cbn [e_h e_bad e_data]. unfold to_entry at 2. f_equal.
  destruct l as [|b l']; cbn [map e_h to_entry]; lia.
Qed.

Lemma trunc_same lim a : disc_vlen a <= lim -> to_entry_trunc lim a = to_entry a.
Proof. intros H. unfold to_entry_trunc, to_entry. f_equal. lia. Qed.

Lemma uuid_eqb_eq a b : uuid_eqb a b = true -> a = b.
Proof. destruct a as [l i], b as [l' i']. unfold uuid_eqb. cbn [u_len u_id]. intros H. f_equal; lia. Qed.

(* the Read By Type server, for include / characteristic declarations *)
Lemma read_by_type_srv db mtu atype sh se :
  23 <= mtu -> 1 <= sh -> decl_sizes_ok db = true ->
  orb (uuid_eqb atype UUID_INCLUDE) (uuid_eqb atype UUID_CHARACTERISTIC) = true ->
  forall (n : nat) s, sh <= s -> s <= se ->
  page_of (map to_entry (cands db (is_type atype) se sh)) s (srv_read_by_type mtu db atype s se).
Proof.
  intros Hm Hsh Hd Ht n s Hs He. unfold srv_read_by_type, page_of.
  assert (B : orb (s =? 0) (se <? s) = false) by lia. rewrite B.
  apply (srv_generic db (is_type atype) se sh to_entry (to_entry_trunc (Z.min (mtu - 4) 253))
           (fun a => eq_refl) 2 (mtu - 2) true (fun a => Z.min (disc_vlen a) (Z.min (mtu - 4) 253)));
    [lia| | |exact Hs].
  - intros a _. lia.
  - intros a Ha. apply cands_in in Ha. destruct Ha as [Hin [Hty _]].
    apply trunc_same. pose proof (forallb_In _ _ _ Hd Hin) as Ha. cbv beta in Ha.
    apply andb_prop in Ha. destruct Ha as [_ Ha].
    apply uuid_eqb_eq in Hty. unfold is_type in Ha. rewrite Hty, Ht in Ha. lia.
Qed.

Theorem discover_characteristics_exact : forall db mtu sh se,
  23 <= mtu -> 1 <= sh -> se <= 0xFFFF ->
  db_sorted db = true -> decl_sizes_ok db = true ->
  char_ends_ok se (chars_of db sh se) = true ->
  fst (client_discover_characteristics mtu db sh se) = Done (map to_entry (chars_of db sh se)).
Proof.
  intros db mtu sh se Hm Hsh Hse Hs Hd Hc.
  unfold client_discover_characteristics, discover_characteristics, discover_chars_loop.
  pose proof (plain_exact true (fun _ s => srv_read_by_type mtu db UUID_CHARACTERISTIC s se) db
                (is_type UUID_CHARACTERISTIC) se sh to_entry (fun a => eq_refl) (fun a => eq_refl) Hse Hs
                (read_by_type_srv db mtu UUID_CHARACTERISTIC sh se Hm Hsh Hd eq_refl)) as E.
  destruct (loop _ _ _ _ _ _ _ _) as [o n]. cbn [fst] in *. subst o.
  change (cands db (is_type UUID_CHARACTERISTIC) se sh) with (chars_of db sh se).
  rewrite (fix_ends_id se _ Hc). reflexivity.
Qed.

(* included services: the client resolves UUID-less declarations with nested reads *)
Definition resolvable (rd : Z -> uresp) (e : entry) : bool :=
  andb (negb (e_bad e))
       (match e_data e with
        | [s; _] => match rd s with UVal l _ => uuid_len_ok l | _ => false end
        | _ => true
        end).

Lemma proc_included_ok rd start : forall p lo acc lh d, start <= lo -> chainG e_h e_h lo p = true ->
  forallb (resolvable rd) p = true ->
  proc_included rd start p acc lh
  = Next (acc ++ map (resolve_entry rd) p) (match p with [] => lh | _ => e_h (last p d) end + 1).
Proof.
  induction p as [|e p IH]; intros lo acc lh d Hlo Hc C; cbn [proc_included map].
  - now rewrite app_nil_r.
  - cbn [chainG forallb] in Hc, C. apply andb_prop in Hc. destruct Hc as [Hc1 Hc2].
    apply andb_prop in C. destruct C as [C1 C2].
    unfold resolvable in C1. apply andb_prop in C1. destruct C1 as [C1a C1b].
    replace (e_h e <? start) with false by lia.
    destruct (e_bad e); [discriminate|].
    assert (Hl : match (e :: p) with [] => lh | _ => e_h (last (e :: p) d) end
                 = match p with [] => e_h e | _ => e_h (last p d) end) by (destruct p; reflexivity).
    assert (Hlo' : start <= e_h e + 1) by lia.
    rewrite Hl. unfold resolve_entry at 1.
    destruct (e_data e) as [|s [|en [|x t]]];
      try (rewrite (IH _ (acc ++ [e]) (e_h e) d Hlo' Hc2 C2), <- app_assoc; reflexivity).
    destruct (rd s) as [|c|l i]; try discriminate. rewrite C1b.
    rewrite (IH _ _ (e_h e) d Hlo' Hc2 C2), <- app_assoc. reflexivity.
Qed.

Definition includes_of (db : list attr) (sh se : Z) : list attr :=
  filter (fun a => andb (is_type UUID_INCLUDE a) (in_range sh se a)) db.

(* exact, as the client resolves them *)
Theorem discover_included_exact : forall db mtu sh se,
  23 <= mtu -> 1 <= sh -> se <= 0xFFFF ->
  db_sorted db = true -> decl_sizes_ok db = true ->
  forallb (resolvable (srv_read_uuid db)) (map to_entry (includes_of db sh se)) = true ->
  fst (client_discover_included mtu db sh se)
  = Done (map (resolve_entry (srv_read_uuid db)) (map to_entry (includes_of db sh se))).
Proof.
  intros db mtu sh se Hm Hsh Hse Hs Hd Hres.
  apply andb_prop in Hs. destruct Hs as [Hs _].
  rewrite map_map. unfold client_discover_included, discover_included.
  apply (discovery_exact e_h a_handle (resolve_entry (srv_read_uuid db)) (cond_le se) _ true _ db
           (is_type UUID_INCLUDE) se sh to_entry (resolvable (srv_read_uuid db))
           (fun a => eq_refl) (fun a => eq_refl) (cond_le_bound se Hse) (proc_included_progresses _)).
  - intros start p d Hp Hc Hcl. rewrite (proc_included_ok _ start p start [] 0 d (Z.le_refl _) Hc Hcl).
    destruct p; [congruence|reflexivity].
  - intros a Ha. apply (forallb_In _ _ _ Hres). now apply in_map.
  - intros a s Ha Hle. apply cands_in in Ha. unfold cond_le. lia.
  - apply chain_filter. exact Hs.
  - intros n s Hs0 C. apply (read_by_type_srv db mtu UUID_INCLUDE sh se Hm Hsh Hd eq_refl n s Hs0).
    unfold cond_le in C. lia.
Qed.

Lemma consistent_resolves db : includes_consistent db = true ->
  forall a, In a db -> is_type UUID_INCLUDE a = true ->
  resolvable (srv_read_uuid db) (to_entry a) = true /\
  resolve_entry (srv_read_uuid db) (to_entry a) = declared_include a.
Proof.
  intros Hc a Ha Ht. pose proof (forallb_In _ _ _ Hc Ha) as H. cbv beta in H.
  unfold is_type in Ht. rewrite Ht in H.
  unfold resolvable, resolve_entry, declared_include, to_entry. cbn [e_bad e_data e_h e_end negb andb].
  destruct (a_body a) as [u|s e u|p vh u|v|] eqn:B; try discriminate.
  apply andb_prop in H. destruct H as [Hu Hf]. unfold disc_data. rewrite B.
  destruct (u_len u =? 2) eqn:E2.
  - split; [reflexivity|]. f_equal. f_equal. f_equal. f_equal. lia.
  - unfold srv_read_uuid.
    destruct (find (fun b => a_handle b =? s) db) as [b|]; [|discriminate].
    destruct (a_body b) as [u'| | | |]; try discriminate.
    unfold uuid_eqb in Hf. apply andb_prop in Hf. destruct Hf as [Hl Hi].
    assert (El : u_len u' = u_len u) by lia. assert (Ei : u_id u' = u_id u) by lia.
    rewrite El, Ei. split.
    + unfold uuid_len_ok. lia.
    + reflexivity.
Qed.

(* exact, as declared: start handle, end handle and UUID of every included service *)
Theorem discover_included_exact_declared : forall db mtu sh se,
  23 <= mtu -> 1 <= sh -> se <= 0xFFFF ->
  db_sorted db = true -> decl_sizes_ok db = true -> includes_consistent db = true ->
  fst (client_discover_included mtu db sh se) = Done (map declared_include (includes_of db sh se)).
Proof.
  intros db mtu sh se Hm Hsh Hse Hs Hd Hc.
  assert (Hall : forall a, In a (includes_of db sh se) -> In a db /\ is_type UUID_INCLUDE a = true).
  { intros a Ha. unfold includes_of in Ha. apply filter_In in Ha. destruct Ha as [Hin Hp].
    apply andb_prop in Hp. tauto. }
  rewrite discover_included_exact; try assumption.
  - f_equal. rewrite map_map. apply map_ext_in. intros a Ha. destruct (Hall a Ha) as [Hin Ht].
    exact (proj2 (consistent_resolves db Hc a Hin Ht)).
  - apply forallb_forall. intros e He. apply in_map_iff in He. destruct He as [a [<- Ha]].
    destruct (Hall a Ha) as [Hin Ht]. exact (proj1 (consistent_resolves db Hc a Hin Ht)).
Qed.

Lemma find_information_srv db mtu sh se :
  23 <= mtu -> 1 <= sh -> types_ok db = true ->
  forall (n : nat) s, sh <= s -> s <= se ->
  page_of (map info_entry (cands db (fun _ => true) se sh)) s (srv_find_information mtu db s se).
Proof.
  intros Hm Hsh Ht n s Hs He. unfold srv_find_information, page_of.
  assert (B : orb (s =? 0) (se <? s) = false) by lia. rewrite B.
  apply (srv_generic db (fun _ => true) se sh info_entry info_entry
           (fun a => eq_refl) 2 (mtu - 2) false (fun a => u_len (a_type a)));
    [lia| | |exact Hs].
  - intros a Ha. apply cands_in in Ha. destruct Ha as [Hin _].
    pose proof (forallb_In _ _ _ Ht Hin) as Ha. cbv beta in Ha. lia.
  - reflexivity.
Qed.

Definition attrs_in (db : list attr) (lo hi : Z) : list attr := filter (in_range lo hi) db.

Theorem discover_descriptors_exact : forall db mtu vh ce,
  23 <= mtu -> 0 <= vh -> ce <= 0xFFFF ->
  db_sorted db = true -> types_ok db = true ->
  fst (client_discover_descriptors mtu db vh ce) = Done (map info_entry (attrs_in db (vh + 1) ce)).
Proof.
  intros db mtu vh ce Hm Hv Hce Hs Ht.
  unfold client_discover_descriptors, discover_descriptors.
  exact (plain_exact false (fun _ s => srv_find_information mtu db s ce) db
           (fun _ => true) ce (vh + 1) info_entry (fun a => eq_refl) (fun a => eq_refl) Hce Hs
           (find_information_srv db mtu (vh + 1) ce Hm ltac:(lia) Ht)).
Qed.

(* the loop of discover_attributes is that of discover_descriptors over [1, 0xFFFF] *)
Theorem discover_attributes_exact : forall db mtu,
  23 <= mtu -> db_sorted db = true -> types_ok db = true ->
  fst (client_discover_attributes mtu db) = Done (map info_entry db).
Proof.
  intros db mtu Hm Hs Ht.
  change (client_discover_attributes mtu db) with (client_discover_descriptors mtu db 0 0xFFFF).
  rewrite (discover_descriptors_exact db mtu 0 0xFFFF Hm (Z.le_refl _) (Z.le_refl _) Hs Ht).
  do 2 f_equal. apply filter_all_true. intros a Ha. apply andb_prop in Hs. destruct Hs as [Hs Hh].
  pose proof (forallb_In _ _ _ Hh Ha) as H1. cbv beta in H1.
  pose proof (chain_In _ _ _ _ _ Hs Ha). unfold in_range. cbn. lia.
Qed.

(* what [services_ok] says of one selected attribute *)
Lemma group_range db sel a :
  chainG a_handle a_end 1 (filter sel db) = true ->
  forallb (fun a => a_end a <=? 0xFFFE) (filter sel db) = true ->
  In a db -> sel a = true -> 1 <= a_handle a <= a_end a /\ a_end a <= 0xFFFE.
Proof.
  intros Hc Hle Hin Hsel. assert (Hf : In a (filter sel db)) by (apply filter_In; tauto).
  pose proof (forallb_In _ _ _ Hle Hf) as H1. cbv beta in H1.
  pose proof (chain_In _ _ _ _ _ Hc Hf). lia.
Qed.

(* procedures that page by end group handle: the primary services selected by [sel] *)
Lemma group_exact parse stop raise r db sel :
  services_ok db = true -> (forall a, sel a = true -> is_type UUID_PRIMARY a = true) ->
  (forall n s, 1 <= s -> s < 0xFFFF -> page_of (map to_entry (cands db sel 0xFFFF 1)) s (r n s)) ->
  fst (loop cond_lt_ffff (fun s es => proc_group parse stop s es [] 0) raise r (fuel_for 1) 0 1 [])
  = Done (map to_entry (filter sel db)).
Proof.
  intros Hs Hsub Hsrv. apply andb_prop in Hs. destruct Hs as [Hc Hle].
  assert (Hends : forall a, In a db -> sel a = true -> 1 <= a_handle a <= a_end a /\ a_end a <= 0xFFFE)
    by (intros a Hin Hsel; exact (group_range db _ a Hc Hle Hin (Hsub a Hsel))).
  replace (filter sel db) with (cands db sel 0xFFFF 1).
  2:{ unfold cands. apply filter_ext_in. intros a Ha. destruct (sel a) eqn:S; [|reflexivity].
      pose proof (Hends a Ha S). unfold in_range. cbn [andb]. lia. }
  apply (discovery_exact e_end a_end (fun e => e) cond_lt_ffff _ raise r db sel 0xFFFF 1 to_entry
           (clean_group parse stop) (fun a => eq_refl) (fun a => eq_refl) cond_lt_ffff_bound
           (proc_group_progresses parse stop)).
  - intros start p d Hp Hch Hcl. rewrite map_id, (proc_group_ok parse stop start p start [] 0 d (Z.le_refl _) Hch Hcl).
    destruct p; [congruence|reflexivity].
  - intros a Ha. apply cands_in in Ha. destruct Ha as [Hin [Hsel _]]. pose proof (Hends a Hin Hsel).
    unfold clean_group. cbn [to_entry e_bad e_end]. replace (a_end a =? 65535) with false by lia.
    destruct parse, stop; reflexivity.
  - intros a s Ha Hle'. apply cands_in in Ha. destruct Ha as [Hin [Hsel _]]. pose proof (Hends a Hin Hsel).
    unfold cond_lt_ffff. lia.
  - exact (chain_sub_filter _ _ _ _ _ _ Hsub Hc).
  - intros n s Hs1 C. apply Hsrv; [exact Hs1|]. unfold cond_lt_ffff in C. lia.
Qed.

Definition primary_services (db : list attr) : list attr := filter (is_type UUID_PRIMARY) db.

Theorem discover_services_exact : forall db mtu,
  23 <= mtu -> services_ok db = true -> decl_sizes_ok db = true ->
  fst (client_discover_services mtu db) = Done (map to_entry (primary_services db)).
Proof.
  intros db mtu Hm Hs Hd.
  apply (group_exact true false true _ db (is_type UUID_PRIMARY) Hs (fun a H => H)).
  intros n s Hs1 Hs2. unfold srv_read_by_group, page_of.
  apply (srv_generic db (is_type UUID_PRIMARY) 0xFFFF 1 to_entry (to_entry_trunc (Z.min (mtu - 6) 251))
           (fun a => eq_refl) 4 (mtu - 2) true (fun a => Z.min (disc_vlen a) (Z.min (mtu - 6) 251)));
    [lia| | |exact Hs1].
  - intros a _. lia.
  - intros a Ha. apply cands_in in Ha. destruct Ha as [Hin [Hty _]].
    apply trunc_same. pose proof (forallb_In _ _ _ Hd Hin) as Ha. cbv beta in Ha.
    apply andb_prop in Ha. destruct Ha as [Ha _]. rewrite Hty in Ha. lia.
Qed.

Definition services_with (db : list attr) (u : uuid) : list attr :=
  filter (is_service_with UUID_PRIMARY u) db.

Theorem discover_service_exact : forall db mtu u,
  23 <= mtu -> services_ok db = true ->
  fst (client_discover_service mtu db u) = Done (map to_entry (services_with db u)).
Proof.
  intros db mtu u Hm Hs.
  apply (group_exact false true false _ db (is_service_with UUID_PRIMARY u) Hs).
  - intros a H. unfold is_service_with in H. apply andb_prop in H. exact (proj1 H).
  - intros n s Hs1 Hs2. unfold srv_find_by_type_value, page_of.
    apply (srv_generic db (is_service_with UUID_PRIMARY u) 0xFFFF 1 to_entry to_entry
             (fun a => eq_refl) 4 (mtu - 2) false (fun _ => 0)); [lia| | |exact Hs1].
    + intros a _. lia.
    + reflexivity.
Qed.

(* [m k] is the ATT_MTU in force when the k-th response of the read is built and received *)
Lemma blob_loop_dyn_exact : forall fuel value m k o,
  (forall j, 2 <= m j) -> Z.of_nat (length value) <= 0xFFFF ->
  (1 <= o)%nat -> (o <= length value)%nat -> (length value - o < fuel)%nat ->
  read_blob_loop_dyn fuel (fun k off => srv_read_blob (m k) value off) m k (firstn o value) (Z.of_nat o)
  = RDone value.
Proof.
  induction fuel as [|f IH]; intros value m k o Hm Hmax H1 Ho Hf; [lia|].
  cbn [read_blob_loop_dyn]. pose proof (Hm k) as Hk.
  assert (B0 : (0xFFFF <? Z.of_nat o) = false) by lia. rewrite B0.
  unfold srv_read_blob at 1.
  assert (B1 : (Z.of_nat (length value) <? Z.of_nat o) = false) by lia. rewrite B1.
  assert (B2 : andb (Z.of_nat o =? 0) (Z.of_nat (length value) <=? m k - 1) = false) by lia. rewrite B2.
  unfold sublist. rewrite Nat2Z.id.
  set (p := Z.to_nat (Z.min (m k - 1) (Z.of_nat (length value) - Z.of_nat o))).
  assert (Lp : length (firstn p (skipn o value)) = p).
  { rewrite firstn_length, skipn_length. subst p. lia. }
  rewrite Lp, firstn_plus.
  destruct (Z.of_nat p <? m k - 1) eqn:E.
  - assert (o + p = length value)%nat by (subst p; lia).
    rewrite H. now rewrite firstn_all.
  - replace (Z.of_nat o + Z.of_nat p) with (Z.of_nat (o + p)) by lia.
    apply IH; try assumption; subst p; lia.
Qed.

(* The client gets exactly the value whatever ATT_MTU is in force at each step of the read, as long
   as its tests use the ATT_MTU in force when the response arrives (the one the server used). *)
Theorem long_read_exact_any_mtu : forall value m, (forall j, 2 <= m j) -> Z.of_nat (length value) <= 0xFFFF ->
  read_from_server_dyn (S (length value)) m value = RDone value.
Proof.
  intros value m Hm Hmax. unfold read_from_server_dyn, read_value_dyn, srv_read. pose proof (Hm 0%nat) as H0.
  set (k := Z.to_nat (Z.min (m 0%nat - 1) (Z.of_nat (length value)))).
  assert (Lk : length (firstn k value) = k) by (rewrite firstn_length; subst k; lia).
  rewrite Lk.
  destruct (Z.of_nat k =? m 0%nat - 1) eqn:E.
  - apply blob_loop_dyn_exact; try assumption; subst k; lia.
  - f_equal. apply firstn_all2. subst k. lia.
Qed.

Lemma read_blob_loop_dyn_const blob mtu : forall fuel k acc off,
  read_blob_loop_dyn fuel (fun _ => blob) (fun _ => mtu) k acc off = read_blob_loop fuel blob mtu acc off.
Proof.
  induction fuel as [|f IH]; intros k acc off; cbn [read_blob_loop_dyn read_blob_loop]; [reflexivity|].
  destruct (0xFFFF <? off); [reflexivity|]. destruct (blob off) as [|c|part]; try reflexivity.
  destruct (_ <? _); [reflexivity|apply IH].
Qed.

(* a client reading an attribute of a Bumble server gets exactly its current value, whatever
   its length and whatever the ATT_MTU; it needs at most length+1 requests *)
Theorem long_read_exact : forall value mtu, 2 <= mtu -> Z.of_nat (length value) <= 0xFFFF ->
  read_from_server (S (length value)) mtu value = RDone value.
Proof.
  intros value mtu Hm Hmax. rewrite <- (long_read_exact_any_mtu value (fun _ => mtu) (fun _ => Hm) Hmax).
  unfold read_from_server, read_from_server_dyn, read_value, read_value_dyn, srv_read. cbn [negb andb].
  destruct (_ =? _); [|reflexivity]. symmetry. apply read_blob_loop_dyn_const.
Qed.

(* the tests made against an ATT_MTU remembered from before the first request are wrong as soon as
   an MTU exchange is served first: 120 bytes, snapshot 23, ATT_MTU 100 when the read runs *)
Lemma read_value_stale_mtu_refuted :
  exists value snapshot m, (forall j, 2 <= m j) /\
    read_from_server_stale (S (length value)) snapshot m value <> RDone value.
Proof.
  exists (repeat 7 120), 23, (fun _ => 100). split; [intros; lia|]. vm_compute. discriminate.
Qed.

(* the server before D12f refused a Read Blob at an offset > 0 as soon as the value fitted the
   CURRENT ATT_MTU: a read that started at ATT_MTU 23 and continued at 100 lost the rest *)
Definition srv_read_blob_unfixed (mtu : Z) (value : list Z) (off : Z) : rresp :=
  let len := Z.of_nat (length value) in
  if len <? off then VErr ATT_INVALID_OFFSET
  else if len <=? mtu - 1 then VErr ATT_NOT_LONG
  else VVal (sublist off (Z.min (mtu - 1) (len - off)) value).

Lemma read_blob_unfixed_refuted :
  let value := repeat 7 60 in let m := fun k : nat => if Nat.eqb k 0 then 23 else 100 in
  read_value_dyn 61 (srv_read (m 0%nat) value) (fun k off => srv_read_blob_unfixed (m k) value off) m
  = RDone (repeat 7 22).
Proof. vm_compute. reflexivity. Qed.

(* the long read loop against ANY peer: the offset grows by at least ATT_MTU-1 >= 1 per
   request and a request with an offset above 0xFFFF cannot be built, so read_value ends
   (normally or with an exception) within 0x10000 Read Blob requests *)
Lemma read_blob_loop_terminates : forall fuel blob mtu acc off,
  2 <= mtu -> 0 <= off -> (Z.to_nat (0x10000 - off) < fuel)%nat ->
  read_blob_loop fuel blob mtu acc off <> ROutOfFuel.
Proof.
  induction fuel as [|f IH]; intros blob mtu acc off Hm H0 Hf; cbn [read_blob_loop].
  - lia.
  - destruct (0xFFFF <? off) eqn:B; [discriminate|].
    destruct (blob off) as [|c|part]; [discriminate| |].
    + destruct (orb _ _); discriminate.
    + destruct (Z.of_nat (length part) <? mtu - 1) eqn:L; [discriminate|].
      apply IH; lia.
Qed.

Theorem read_value_terminates : forall first blob mtu no_long_read, 2 <= mtu ->
  read_value (Z.to_nat 0x10000) first blob mtu no_long_read <> ROutOfFuel.
Proof.
  intros first blob mtu nlr Hm. unfold read_value.
  destruct first as [|c|v]; try discriminate.
  destruct (andb _ _) eqn:E; [|discriminate].
  apply read_blob_loop_terminates; lia.
Qed.

(* a peer that answers every request of the read with a full part never ends it: the offset runs
   past 0xFFFF and building the next request raises *)
Lemma read_value_flood part mtu : Z.of_nat (length part) = mtu - 1 -> 2 <= mtu ->
  read_value (Z.to_nat 0x10000) (VVal part) (fun _ => VVal part) mtu false = RRaised (-4).
Proof.
  intros Hl Hm. unfold read_value. cbn [negb andb]. replace (_ =? _) with true by lia.
  assert (G : forall fuel acc off, 0 <= off -> (Z.to_nat (0x10000 - off) < fuel)%nat ->
              read_blob_loop fuel (fun _ => VVal part) mtu acc off = RRaised (-4)); [|apply G; lia].
  induction fuel as [|f IH]; intros acc off H0 Hf; [lia|]. cbn [read_blob_loop].
  destruct (0xFFFF <? off) eqn:B; [reflexivity|].
  replace (_ <? _) with false by lia. apply IH; lia.
Qed.

Lemma store_get_set_same h v : forall s, store_get h s <> None -> store_get h (store_set h v s) = Some v.
Proof.
  induction s as [|[h' v'] s IH]; cbn [store_get store_set]; [congruence|].
  destruct (h' =? h) eqn:E; cbn [store_get]; rewrite E; [reflexivity|exact IH].
Qed.

Lemma store_get_set_other h h2 v : forall s, h2 <> h -> store_get h2 (store_set h v s) = store_get h2 s.
Proof.
  induction s as [|[h' v'] s IH]; intros Hn; cbn [store_get store_set]; [reflexivity|].
  destruct (h' =? h) eqn:E; cbn [store_get].
  - assert (E2 : (h' =? h2) = false) by lia. now rewrite E2.
  - destruct (h' =? h2); [reflexivity|now apply IH].
Qed.

(* a write request or command to an existing attribute with a value of at most 512 bytes leaves
   exactly that value in the attribute and nothing else changed; anything else changes nothing *)
Theorem write_takes_effect : forall with_response s h v,
  let '(s', rsp) := srv_write with_response s h v in
  (store_get h s <> None /\ Z.of_nat (length v) <= 512 ->
     store_get h s' = Some v /\ (forall h2, h2 <> h -> store_get h2 s' = store_get h2 s) /\
     rsp = (if with_response then WOk else WSilent)) /\
  (~ (store_get h s <> None /\ Z.of_nat (length v) <= 512) -> s' = s /\ rsp <> WOk).
Proof.
  intros wr s h v. unfold srv_write, GATT_MAX_ATTRIBUTE_VALUE_SIZE.
  destruct (store_get h s) as [old|] eqn:G.
  - destruct (512 <? Z.of_nat (length v)) eqn:L.
    + split; [intros [_ H]; lia|]. intros _. split; [reflexivity|]. destruct wr; discriminate.
    + split.
      * intros _. split; [apply store_get_set_same; congruence|]. split; [|reflexivity].
        intros h2 Hn. now apply store_get_set_other.
      * intros H. exfalso. apply H. split; [discriminate|lia].
  - split; [intros [H _]; congruence|]. intros _. split; [reflexivity|]. destruct wr; discriminate.
Qed.

Definition kind_op (indicate : bool) : Z := if indicate then OP_INDICATION else OP_NOTIFICATION.
Definition kind_bit (indicate : bool) : Z := if indicate then 0x02 else 0x01.

Lemma assoc_in_nodup {A} (l : list (Z * A)) : NoDup (map fst l) ->
  forall k v, In (k, v) l -> assoc k l = Some v.
Proof.
  induction l as [|[k' v'] l IH]; intros Hn k v Hin; [contradiction|].
  cbn [map fst] in Hn. inversion Hn; subst. cbn [assoc].
  destruct Hin as [E|Hin].
  - inversion E; subst. now rewrite Z.eqb_refl.
  - destruct (k' =? k) eqn:E.
    + exfalso. apply H1. assert (k' = k) by lia. subst k'.
      change k with (fst (k, v)). now apply in_map.
    + now apply IH.
Qed.

Lemma subscribed_has_entry bit s b c h :
  assoc b s = Some c -> subscribed bit s b h = true -> has_entry c h = true.
Proof.
  intros Ha. unfold subscribed, has_entry. rewrite Ha.
  destruct c as [|x c]; [discriminate|].
  destruct (assoc h (x :: c)) as [[|b0 rest]|]; try discriminate. reflexivity.
Qed.

(* notify_subscriber / indicate_subscriber on one bearer: the PDU kind is the one asked for,
   with force exactly one PDU goes out, without force only to a subscribed bearer (D12b) *)
Theorem single_subscriber_kind : forall indicate mtu_of s b h v force,
  send_single indicate force mtu_of s b h v
  = if orb force (subscribed (kind_bit indicate) s b h)
    then [(b, kind_op indicate, h, truncate (mtu_of b) v)] else [].
Proof. intros. reflexivity. Qed.

Lemma send_single_dyn_kind indicate mtu_of s rv b h :
  send_single_dyn indicate mtu_of s rv b h
  = if subscribed (kind_bit indicate) s b h
    then match rv b with Some v => [(b, kind_op indicate, h, truncate (mtu_of b) v)] | None => [] end
    else [].
Proof. reflexivity. Qed.

Lemma routing_dyn_aux indicate mtu_of s h rv : forall l,
  (forall b c, In (b, c) l -> assoc b s = Some c) ->
  flat_map (fun bc => send_single_dyn indicate mtu_of s rv (fst bc) h)
           (filter (fun bc => has_entry (snd bc) h) l)
  = flat_map (fun b => match rv b with
                       | Some v => [(b, kind_op indicate, h, truncate (mtu_of b) v)]
                       | None => []
                       end)
             (filter (fun b => subscribed (kind_bit indicate) s b h) (map fst l)).
Proof.
  induction l as [|[b c] l IH]; intros Hl; [reflexivity|].
  cbn [filter map fst snd].
  assert (Ha : assoc b s = Some c) by (apply Hl; now left).
  specialize (IH (fun b' c' H => Hl b' c' (or_intror H))).
  destruct (subscribed (kind_bit indicate) s b h) eqn:S.
  - rewrite (subscribed_has_entry _ _ _ _ _ Ha S). cbn [flat_map fst]. now rewrite send_single_dyn_kind, S, IH.
  - destruct (has_entry c h); [|exact IH]. cbn [flat_map fst]. now rewrite send_single_dyn_kind, S.
Qed.

(* For every order of the subscriber table and every set of bearers on which the value cannot
   be read: the bearers that get the PDU are exactly the subscribed ones minus those, one PDU
   each, in table order.  What happens on one bearer (its read failing; in the code also its
   confirmation never arriving: there is no shared state between the per-bearer tasks in this
   function) does not change what any other bearer gets. *)
Theorem fan_out_independent : forall indicate mtu_of s h rv,
  NoDup (map fst s) ->
  notify_or_indicate_subscribers_dyn indicate mtu_of s h rv
  = flat_map (fun b => match rv b with
                       | Some v => [(b, kind_op indicate, h, truncate (mtu_of b) v)]
                       | None => []
                       end)
             (filter (fun b => subscribed (kind_bit indicate) s b h) (map fst s)).
Proof.
  intros indicate mtu_of s h rv Hn. unfold notify_or_indicate_subscribers_dyn.
  apply routing_dyn_aux. intros b c Hin. now apply assoc_in_nodup.
Qed.

(* a healthy subscribed bearer gets its PDU whatever the other bearers' reads do *)
Corollary healthy_bearer_served : forall indicate mtu_of s h rv b v,
  NoDup (map fst s) -> In b (map fst s) -> subscribed (kind_bit indicate) s b h = true -> rv b = Some v ->
  In (b, kind_op indicate, h, truncate (mtu_of b) v) (notify_or_indicate_subscribers_dyn indicate mtu_of s h rv).
Proof.
  intros indicate mtu_of s h rv b v Hn Hb Hs Hv. rewrite fan_out_independent by exact Hn.
  apply in_flat_map. exists b. split; [apply filter_In; tauto|]. rewrite Hv. now left.
Qed.

(* with the same value everywhere this is the routing theorem *)
Lemma fan_out_all_readable : forall indicate mtu_of s h v,
  notify_or_indicate_subscribers_dyn indicate mtu_of s h (fun _ => Some v)
  = notify_or_indicate_subscribers indicate mtu_of s h v false.
Proof.
  intros. unfold notify_or_indicate_subscribers_dyn, notify_or_indicate_subscribers.
  rewrite (filter_ext (fun bc => orb false (has_entry (snd bc) h)) (fun bc => has_entry (snd bc) h)) by reflexivity.
  apply flat_map_ext. intros [b c]. now rewrite send_single_dyn_kind, single_subscriber_kind.
Qed.

(* Without force, notify_subscribers / indicate_subscribers put exactly one PDU on each bearer
   whose CCCD for this characteristic has the notification (resp. indication) bit set, none on
   any other bearer, with the opcode of the kind requested and the value truncated to
   ATT_MTU - 3 of that bearer. *)
Theorem notify_routing : forall indicate mtu_of s h v,
  NoDup (map fst s) ->
  notify_or_indicate_subscribers indicate mtu_of s h v false
  = map (fun b => (b, kind_op indicate, h, truncate (mtu_of b) v))
        (filter (fun b => subscribed (kind_bit indicate) s b h) (map fst s)).
Proof.
  intros indicate mtu_of s h v Hn.
  rewrite <- fan_out_all_readable, fan_out_independent by exact Hn. apply flat_map_single.
Qed.

(* a sequential fan-out that stops at the first failure is NOT independent: a healthy bearer
   that subscribed after a faulty one gets nothing *)
Lemma fan_out_sequential_refuted :
  exists s rv, NoDup (map fst s) /\
    fan_out_sequential false (fun _ => 23) s 5 rv (map fst s)
    <> notify_or_indicate_subscribers_dyn false (fun _ => 23) s 5 rv.
Proof.
  exists [(1, [(5, [1; 0])]); (2, [(5, [1; 0])])], (fun b => if b =? 1 then None else Some [7]).
  split.
  - repeat constructor; cbn; intuition discriminate.
  - vm_compute. discriminate.
Qed.

Lemma indicate_subscriber_is_indication : forall mtu_of s b h v force p,
  In p (indicate_subscriber mtu_of s b h v force) -> snd (fst (fst p)) = OP_INDICATION.
Proof.
  intros mtu_of s b h v force p. unfold indicate_subscriber, send_single.
  destruct (orb _ _); [|contradiction]. intros [<-|[]]. reflexivity.
Qed.

Lemma truncate_spec : forall mtu v, 3 <= mtu ->
  truncate mtu v = firstn (Z.to_nat (Z.min (mtu - 3) (Z.of_nat (length v)))) v.
Proof.
  intros mtu v Hm. unfold truncate. destruct (mtu - 3 <? Z.of_nat (length v)) eqn:E.
  - f_equal. lia.
  - symmetry. apply firstn_all2. lia.
Qed.

(* the single-bearer routine over any list of bearers (notify_subscriber / indicate_subscriber on
   a Connection: its EATT bearers, then the connection itself) *)
Lemma send_single_each indicate mtu_of s h v : forall l,
  flat_map (fun b => send_single indicate false mtu_of s b h v) l
  = map (fun b => (b, kind_op indicate, h, truncate (mtu_of b) v))
        (filter (fun b => subscribed (kind_bit indicate) s b h) l).
Proof.
  induction l as [|b l IH]; [reflexivity|]. cbn [flat_map filter]. rewrite IH, single_subscriber_kind. cbn [orb].
  destruct (subscribed (kind_bit indicate) s b h); reflexivity.
Qed.

Lemma assoc_set_same {A} k (v : A) : forall l, assoc k (assoc_set k v l) = Some v.
Proof.
  induction l as [|[k' v'] l IH]; cbn [assoc_set assoc]; [now rewrite Z.eqb_refl|].
  destruct (k' =? k) eqn:E; cbn [assoc]; rewrite E; [reflexivity|exact IH].
Qed.

(* write_cccd then the subscription test: a 2-byte CCCD value subscribes exactly by its bits *)
Lemma write_cccd_subscribes : forall s b h b0 b1 bit,
  subscribed bit (write_cccd s b h [b0; b1]) b h = negb (Z.land b0 bit =? 0).
Proof.
  intros. unfold write_cccd. cbn [length Nat.eqb]. unfold subscribed.
  rewrite assoc_set_same.
  destruct (assoc_set h [b0; b1] match assoc b s with Some c => c | None => [] end) as [|x l] eqn:E.
  - destruct (match assoc b s with Some c => c | None => [] end) as [|[k' v'] l']; cbn in E;
      [discriminate|destruct (k' =? h); discriminate].
  - rewrite <- E, assoc_set_same. reflexivity.
Qed.

(* [l] holds the [n] handles h, h+1, ... in this order *)
Fixpoint block (h n : Z) (l : list attr) : Prop :=
  match l with [] => n = 0 | a :: l' => a_handle a = h /\ block (h + 1) (n - 1) l' end.

Lemma block_app : forall p q h n m, block h n p -> block (h + n) m q -> block h (n + m) (p ++ q).
Proof.
  induction p as [|a p IH]; intros q h n m Hp Hq; cbn [block app] in *.
  - subst n. now rewrite Z.add_0_r in Hq.
  - destruct Hp as [Ha Hp]. split; [exact Ha|].
    replace (n + m - 1) with (n - 1 + m) by lia. apply IH; [exact Hp|].
    now replace (h + 1 + (n - 1)) with (h + n) by lia.
Qed.

Lemma block_range : forall l h n, block h n l ->
  Forall (fun a => h <= a_handle a < h + n) l /\ Z.of_nat (length l) = n.
Proof.
  induction l as [|a l IH]; intros h n H; cbn [block length] in *.
  - split; [constructor|lia].
  - destruct H as [Ha H]. destruct (IH _ _ H) as [F Hn]. split; [|lia].
    constructor; [lia|]. eapply Forall_impl; [|exact F]. cbv beta. intros. lia.
Qed.

Lemma block_chain : forall l h n lo, lo <= h -> block h n l -> chainG a_handle a_handle lo l = true.
Proof.
  induction l as [|a l IH]; intros h n lo Hl H; cbn [block chainG] in *; [reflexivity|].
  destruct H as [Ha H]. rewrite (IH (h + 1) _ (a_handle a + 1) ltac:(lia) H). lia.
Qed.

(* a block whose size is given in another form *)
Lemma block_size h n n' l : block h n l -> n = n' -> block h n' l.
Proof. now intros H <-. Qed.

Lemma desc_attrs_block : forall ds h, block h (Z.of_nat (length ds)) (desc_attrs h ds).
Proof.
  induction ds as [|d ds IH]; intros h; cbn [desc_attrs length block a_handle]; [reflexivity|].
  split; [reflexivity|]. apply (block_size _ _ _ _ (IH _)). lia.
Qed.

Lemma char_attrs_block c h : block h (char_size c) (char_attrs h c).
Proof.
  unfold char_attrs, char_size. cbn [block a_handle]. do 2 (split; [reflexivity|]).
  replace (h + 1 + 1) with (h + 2) by lia.
  apply (block_size _ (Z.of_nat (length (c_descs c)) + (if needs_cccd c then 1 else 0))); [|lia].
  apply block_app; [apply desc_attrs_block|].
  destruct (needs_cccd c); cbn [block a_handle]; [split|]; reflexivity.
Qed.

Lemma chars_attrs_block : forall cs h, block h (chars_size cs) (chars_attrs h cs).
Proof.
  induction cs as [|c cs IH]; intros h; cbn [chars_attrs chars_size]; [reflexivity|].
  apply block_app; [apply char_attrs_block|apply IH].
Qed.

Lemma incl_attrs_block r : forall is_ h, block h (Z.of_nat (length is_)) (incl_attrs h r is_).
Proof.
  induction is_ as [|i is_ IH]; intros h; cbn [incl_attrs length]; [reflexivity|].
  destruct (nth i r (0, 0, U16 0)) as [[s e] u]. cbn [block a_handle].
  split; [reflexivity|]. apply (block_size _ _ _ _ (IH _)). lia.
Qed.

Lemma svc_attrs_block s h r : block h (svc_size s) (svc_attrs h r s).
Proof.
  unfold svc_attrs, svc_size. cbn [block a_handle]. split; [reflexivity|].
  eapply block_size; [apply block_app; [apply incl_attrs_block|apply chars_attrs_block]|lia].
Qed.

Lemma build_from_block : forall ss h r, block h (total_size ss) (build_from h r ss).
Proof.
  induction ss as [|s ss IH]; intros h r; cbn [build_from total_size]; [reflexivity|].
  apply block_app; [apply svc_attrs_block|apply IH].
Qed.

Lemma chars_size_nonneg cs : 0 <= chars_size cs.
Proof. pose proof (proj2 (block_range _ _ _ (chars_attrs_block cs 0))). lia. Qed.

Lemma svc_size_pos s : 1 <= svc_size s.
Proof. unfold svc_size. pose proof (chars_size_nonneg (s_chars s)). lia. Qed.

Lemma total_size_nonneg ss : 0 <= total_size ss.
Proof. pose proof (proj2 (block_range _ _ _ (build_from_block ss 0 []))). lia. Qed.

Lemma build_sorted ss : total_size ss <= 0xFFFE -> db_sorted (build ss) = true.
Proof.
  intros Ht. unfold db_sorted, build. apply andb_true_intro. split.
  - apply (block_chain _ 1 _ 1 (Z.le_refl _) (build_from_block ss 1 [])).
  - apply forallb_forall. intros a Ha.
    pose proof (proj1 (block_range _ _ _ (build_from_block ss 1 []))) as F. rewrite Forall_forall in F.
    specialize (F a Ha). lia.
Qed.

Definition decl_attr (h : Z) (c : char_spec) : attr :=
  mkA h (h + char_size c - 1) UUID_CHARACTERISTIC (BCharDecl (c_props c) (h + 1) (c_uuid c)).

Definition head_attr (h : Z) (s : svc_spec) : attr :=
  mkA h (h + svc_size s - 1) (if s_primary s then UUID_PRIMARY else UUID_SECONDARY) (BService (s_uuid s)).

Lemma char_attrs_split c h : char_attrs h c = decl_attr h c :: tl (char_attrs h c).
Proof. reflexivity. Qed.

Lemma svc_attrs_split s h r :
  svc_attrs h r s = head_attr h s :: incl_attrs (h + 1) r (s_incl s)
                    ++ chars_attrs (h + 1 + Z.of_nat (length (s_incl s))) (s_chars s).
Proof. reflexivity. Qed.

(* A property of attributes holds of everything add_service lays out for the characteristics of
   a service as soon as it holds of characteristic declarations and of the attributes whose
   type is given by the caller: values, descriptors, and the CCCD. *)
Section CharsAll.
  Variable P : attr -> bool.
  Hypothesis P_plain : forall h e u b, uuid_ok u = true -> negb (is_decl_type u) = true -> P (mkA h e u b) = true.

  Lemma desc_attrs_all : forall ds h, forallb desc_ok ds = true -> forallb P (desc_attrs h ds) = true.
  Proof.
    induction ds as [|d ds IH]; intros h H; cbn [desc_attrs forallb] in *; [reflexivity|].
    apply andb_prop in H. destruct H as [H1 H2]. unfold desc_ok in H1. apply andb_prop in H1. destruct H1.
    rewrite P_plain by assumption. now apply IH.
  Qed.

  Lemma char_tail_all c h : char_ok c = true -> forallb P (tl (char_attrs h c)) = true.
  Proof.
    unfold char_ok. intros H. apply andb_prop in H. destruct H as [H H3]. apply andb_prop in H. destruct H as [H1 H2].
    unfold char_attrs. cbn [tl forallb]. rewrite forallb_app, desc_attrs_all, P_plain by assumption.
    destruct (needs_cccd c); [|reflexivity]. cbn [forallb]. now rewrite P_plain.
  Qed.

  Hypothesis P_decl : forall h c, uuid_ok (c_uuid c) = true -> P (decl_attr h c) = true.

  Lemma chars_attrs_all : forall cs h, forallb char_ok cs = true -> forallb P (chars_attrs h cs) = true.
  Proof.
    induction cs as [|c cs IH]; intros h H; cbn [chars_attrs forallb] in *; [reflexivity|].
    apply andb_prop in H. destruct H as [H1 H2].
    rewrite forallb_app, char_attrs_split, (IH _ H2). cbn [forallb]. rewrite (char_tail_all c h H1), P_decl; [reflexivity|].
    unfold char_ok in H1. apply andb_prop in H1. destruct H1 as [H1 _]. now apply andb_prop in H1.
  Qed.
End CharsAll.

Lemma incl_attrs_all (P : attr -> bool) r :
  (forall h s e u, P (mkA h h UUID_INCLUDE (BInclude s e u)) = true) ->
  forall is_ h, forallb P (incl_attrs h r is_) = true.
Proof.
  intros HP. induction is_ as [|i is_ IH]; intros h; cbn [incl_attrs]; [reflexivity|].
  destruct (nth i r (0, 0, U16 0)) as [[s e] u]. cbn [forallb]. now rewrite HP, IH.
Qed.

Definition dsz (a : attr) : bool :=
  andb (if is_type UUID_PRIMARY a then disc_vlen a <=? 16 else true)
       (if orb (is_type UUID_INCLUDE a) (is_type UUID_CHARACTERISTIC a) then disc_vlen a <=? 19 else true).
Definition tok (a : attr) : bool := andb (0 <=? u_len (a_type a)) (u_len (a_type a) <=? 16).
Definition aok (a : attr) : bool := andb (dsz a) (tok a).

(* an attribute whose type is not a declaration type is not of declaration type [U] *)
Lemma plain_not_type U h e u b : is_decl_type U = true -> negb (is_decl_type u) = true ->
  is_type U (mkA h e u b) = false.
Proof.
  intros HU Hn. unfold is_type. cbn [a_type]. destruct (uuid_eqb u U) eqn:E; [|reflexivity].
  apply uuid_eqb_eq in E. subst u. now rewrite HU in Hn.
Qed.

Lemma aok_plain h e u b : uuid_ok u = true -> negb (is_decl_type u) = true -> aok (mkA h e u b) = true.
Proof.
  intros Hu Hn. unfold aok, dsz, tok. rewrite !plain_not_type by (reflexivity || assumption).
  cbn [orb andb a_type]. unfold uuid_ok in Hu. lia.
Qed.

Lemma aok_incl h s e u : aok (mkA h h UUID_INCLUDE (BInclude s e u)) = true.
Proof. unfold aok, dsz, tok, is_type. cbn -[Z.add Z.leb Z.sub Z.eqb]. destruct (u_len u =? 2); reflexivity. Qed.

Lemma aok_decl h c : uuid_ok (c_uuid c) = true -> aok (decl_attr h c) = true.
Proof. unfold aok, dsz, tok, is_type, uuid_ok. cbn -[Z.add Z.leb Z.sub]. lia. Qed.

Lemma aok_head h s : uuid_ok (s_uuid s) = true -> aok (head_attr h s) = true.
Proof. unfold aok, dsz, tok, is_type, uuid_ok, head_attr. destruct (s_primary s); cbn -[Z.add Z.leb Z.sub]; lia. Qed.

Lemma build_from_aok : forall ss h r, specs_ok ss = true -> forallb aok (build_from h r ss) = true.
Proof.
  induction ss as [|s ss IH]; intros h r H; cbn [build_from forallb specs_ok] in *; [reflexivity|].
  apply andb_prop in H. destruct H as [H1 H2]. rewrite forallb_app, (IH _ _ H2), andb_true_r.
  unfold svc_ok in H1. apply andb_prop in H1. destruct H1 as [Hu Hc].
  rewrite svc_attrs_split. cbn [forallb].
  now rewrite forallb_app, (aok_head h s Hu), (incl_attrs_all aok r aok_incl), (chars_attrs_all aok aok_plain aok_decl _ _ Hc).
Qed.

Lemma build_sizes_types ss : specs_ok ss = true ->
  decl_sizes_ok (build ss) = true /\ types_ok (build ss) = true.
Proof. intros H. exact (forallb_and dsz tok _ (build_from_aok ss 1 [] H)). Qed.

Definition svcf (a : attr) : bool := orb (is_type UUID_PRIMARY a) (is_type UUID_SECONDARY a).

(* of the attributes of a service only the first is a service declaration *)
Lemma svc_filter_svcf s h r : svc_ok s = true -> filter svcf (svc_attrs h r s) = [head_attr h s].
Proof.
  intros H. unfold svc_ok in H. apply andb_prop in H. destruct H as [_ H].
  rewrite svc_attrs_split. cbn [filter].
  replace (svcf (head_attr h s)) with true by (unfold svcf, head_attr, is_type; cbn [a_type]; destruct (s_primary s); reflexivity).
  f_equal. apply filter_none. rewrite forallb_app, incl_attrs_all by reflexivity. cbn [andb].
  apply chars_attrs_all; [|reflexivity|exact H].
  intros h' e u b _ Hn. unfold svcf. now rewrite !plain_not_type by (reflexivity || assumption).
Qed.

(* the service declarations are a chain of groups that ends where the database ends *)
Lemma build_services_chain : forall ss h r, specs_ok ss = true ->
  chainG a_handle a_end h (filter svcf (build_from h r ss)) = true /\
  Forall (fun a => a_end a < h + total_size ss) (filter svcf (build_from h r ss)).
Proof.
  induction ss as [|s ss IH]; intros h r H; cbn [build_from specs_ok forallb total_size] in *;
    [split; [reflexivity|constructor]|].
  apply andb_prop in H. destruct H as [H1 H2].
  rewrite filter_app, (svc_filter_svcf s h r H1).
  destruct (IH (h + svc_size s) (r ++ [(h, h + svc_size s - 1, s_uuid s)]) H2) as [I1 I2].
  pose proof (svc_size_pos s) as Hp. pose proof (total_size_nonneg ss) as Ht.
  cbn [app chainG head_attr a_handle a_end]. split.
  - replace (h + svc_size s - 1 + 1) with (h + svc_size s) by lia. rewrite I1. lia.
  - constructor; [cbn; lia|]. eapply Forall_impl; [|exact I2]. cbv beta. intros. lia.
Qed.

Lemma build_services_ok ss : specs_ok ss = true -> total_size ss <= 0xFFFE -> services_ok (build ss) = true.
Proof.
  intros H Ht. destruct (build_services_chain ss 1 [] H) as [I1 I2].
  assert (Hsub : forall a, is_type UUID_PRIMARY a = true -> svcf a = true)
    by (intros a Ha; unfold svcf; now rewrite Ha).
  unfold services_ok, build. rewrite (chain_sub_filter _ _ svcf _ _ _ Hsub I1). cbn [andb].
  rewrite (filter_sub _ svcf _ Hsub). apply forallb_forall. intros a Ha. apply filter_In in Ha.
  rewrite Forall_forall in I2. specialize (I2 a (proj1 Ha)). lia.
Qed.

Lemma chars_filter_char_cons c cs h : char_ok c = true ->
  filter (is_type UUID_CHARACTERISTIC) (chars_attrs h (c :: cs))
  = decl_attr h c :: filter (is_type UUID_CHARACTERISTIC) (chars_attrs (h + char_size c) cs).
Proof.
  intros H. cbn [chars_attrs]. rewrite filter_app, char_attrs_split. cbn [filter].
  replace (is_type UUID_CHARACTERISTIC (decl_attr h c)) with true by reflexivity.
  rewrite (filter_none _ (tl _)); [reflexivity|]. apply char_tail_all; [|exact H].
  intros h' e u b _ Hn. now rewrite plain_not_type.
Qed.

Lemma chars_ends : forall cs h se, forallb char_ok cs = true ->
  (cs <> [] -> se = h + chars_size cs - 1) ->
  char_ends_ok se (filter (is_type UUID_CHARACTERISTIC) (chars_attrs h cs)) = true.
Proof.
  induction cs as [|c cs IH]; intros h se H Hse; [reflexivity|].
  cbn [forallb] in H. apply andb_prop in H. destruct H as [H1 H2].
  rewrite (chars_filter_char_cons c cs h H1).
  specialize (Hse ltac:(discriminate)). cbn [chars_size] in Hse.
  cbn [char_ends_ok]. apply andb_true_intro. split.
  - destruct cs as [|c' cs'].
    + cbn [chars_attrs filter chars_size decl_attr a_end] in *. lia.
    + cbn [forallb] in H2. apply andb_prop in H2.
      rewrite (chars_filter_char_cons c' cs' _ (proj1 H2)). cbn [decl_attr a_end a_handle]. lia.
  - apply IH; [exact H2|]. intros Hn. lia.
Qed.

Lemma filter_local (P : attr -> bool) h e pre blk post :
  Forall (fun a => a_handle a < h) pre -> Forall (fun a => e < a_handle a) post ->
  Forall (fun a => h <= a_handle a <= e) blk ->
  filter (fun a => andb (P a) (in_range h e a)) (pre ++ blk ++ post) = filter P blk.
Proof.
  rewrite !Forall_forall. intros Hpre Hpost Hblk. rewrite !filter_app.
  rewrite (filter_all_false _ pre), (filter_all_false _ post).
  - rewrite app_nil_r. cbn [app]. apply filter_ext_in. intros a Ha.
    specialize (Hblk a Ha). unfold in_range. destruct (P a); cbn [andb]; [lia|reflexivity].
  - intros a Ha. specialize (Hpost a Ha). unfold in_range. destruct (P a); cbn [andb]; lia.
  - intros a Ha. specialize (Hpre a Ha). unfold in_range. destruct (P a); cbn [andb]; lia.
Qed.

Lemma svc_filter_char s h r :
  filter (is_type UUID_CHARACTERISTIC) (svc_attrs h r s)
  = filter (is_type UUID_CHARACTERISTIC) (chars_attrs (h + 1 + Z.of_nat (length (s_incl s))) (s_chars s)).
Proof.
  rewrite svc_attrs_split. cbn [filter].
  replace (is_type UUID_CHARACTERISTIC (head_attr h s)) with false
    by (unfold head_attr, is_type; cbn [a_type]; destruct (s_primary s); reflexivity).
  rewrite filter_app, (filter_none _ (incl_attrs _ _ _)); [reflexivity|]. now apply incl_attrs_all.
Qed.

Lemma svc_attrs_range s h r : Forall (fun a => h <= a_handle a < h + svc_size s) (svc_attrs h r s).
Proof. exact (proj1 (block_range _ _ _ (svc_attrs_block s h r))). Qed.

Lemma pre_svc_below pre h r s : Forall (fun a => a_handle a < h) pre ->
  Forall (fun a => a_handle a < h + svc_size s) (pre ++ svc_attrs h r s).
Proof.
  intros Hpre. pose proof (svc_size_pos s). apply Forall_app.
  split; [eapply Forall_impl; [|exact Hpre]|eapply Forall_impl; [|exact (svc_attrs_range s h r)]];
    cbv beta; intros; lia.
Qed.

(* one service in its place: the attributes before it lie below [h], those after it above its end *)
Lemma svc_char_ends s h r pre post : svc_ok s = true ->
  Forall (fun a => a_handle a < h) pre -> Forall (fun a => h + svc_size s <= a_handle a) post ->
  char_ends_ok (h + svc_size s - 1) (chars_of (pre ++ svc_attrs h r s ++ post) h (h + svc_size s - 1)) = true.
Proof.
  intros H Hpre Hpost. unfold svc_ok in H. apply andb_prop in H. unfold chars_of.
  rewrite (filter_local (is_type UUID_CHARACTERISTIC) h (h + svc_size s - 1) pre); [|exact Hpre| |].
  - rewrite svc_filter_char. apply chars_ends; [exact (proj2 H)|]. intros _. unfold svc_size. lia.
  - eapply Forall_impl; [|exact Hpost]. cbv beta. intros. lia.
  - eapply Forall_impl; [|exact (svc_attrs_range s h r)]. cbv beta. intros. lia.
Qed.

Lemma build_char_ends : forall ss h r pre,
  Forall (fun a => a_handle a < h) pre -> specs_ok ss = true ->
  forallb (fun s => char_ends_ok (a_end s) (chars_of (pre ++ build_from h r ss) (a_handle s) (a_end s)))
          (filter svcf (build_from h r ss)) = true.
Proof.
  induction ss as [|s ss IH]; intros h r pre Hpre H; cbn [build_from specs_ok forallb] in *; [reflexivity|].
  apply andb_prop in H. destruct H as [H1 H2].
  rewrite filter_app, (svc_filter_svcf s h r H1). cbn [app forallb head_attr a_handle a_end].
  rewrite (svc_char_ends s h r pre _ H1 Hpre), app_assoc.
  - apply IH; [now apply pre_svc_below|exact H2].
  - exact (Forall_impl _ (fun a Ha => proj1 Ha) (proj1 (block_range _ _ _ (build_from_block ss _ _)))).
Qed.

Definition incl_pred (db : list attr) (a : attr) : bool :=
  if uuid_eqb (a_type a) UUID_INCLUDE then
    match a_body a with
    | BInclude s _ u =>
        andb (orb (u_len u =? 2) (u_len u =? 16))
             (match find (fun b => a_handle b =? s) db with
              | Some b => match a_body b with BService u' => uuid_eqb u' u | _ => false end
              | None => false
              end)
    | _ => false
    end
  else true.

Lemma find_none_lt (h : Z) l : Forall (fun a => a_handle a < h) l -> find (fun b => a_handle b =? h) l = None.
Proof.
  induction 1 as [|x l Hx _ IH]; cbn; [reflexivity|].
  assert (E : (a_handle x =? h) = false) by lia. now rewrite E.
Qed.

(* a registered service (h, e, u) is found in the attributes laid out so far *)
Definition reg_found (pre : list attr) (r : reg) : Prop :=
  forall i, (i < length r)%nat ->
    let '(h, e, u) := nth i r (0, 0, U16 0) in
    uuid_ok u = true /\
    exists b, find (fun b => a_handle b =? h) pre = Some b /\ a_body b = BService u.

Lemma reg_found_app pre blk r : reg_found pre r -> reg_found (pre ++ blk) r.
Proof.
  intros Hreg i Hi. specialize (Hreg i Hi). destruct (nth i r (0, 0, U16 0)) as [[h e] u].
  destruct Hreg as [Hu [b [Hf Hb]]]. split; [exact Hu|]. exists b. now rewrite find_app, Hf.
Qed.

Lemma reg_found_snoc pre r h s rd : Forall (fun a => a_handle a < h) pre -> uuid_ok (s_uuid s) = true ->
  reg_found pre r -> reg_found (pre ++ svc_attrs h rd s) (r ++ [(h, h + svc_size s - 1, s_uuid s)]).
Proof.
  intros Hpre Hu Hreg i Hi. rewrite app_length in Hi. cbn [length] in Hi.
  destruct (Nat.lt_ge_cases i (length r)) as [Hl|Hg].
  - rewrite app_nth1 by exact Hl. exact (reg_found_app pre _ r Hreg i Hl).
  - replace i with (length r) by (clear - Hi Hg; lia). rewrite app_nth2, Nat.sub_diag by apply le_n. cbn [nth].
    split; [exact Hu|]. exists (head_attr h s). split; [|reflexivity].
    rewrite find_app, (find_none_lt h pre Hpre), svc_attrs_split. cbn [app find head_attr a_handle].
    now rewrite Z.eqb_refl.
Qed.

Lemma incl_attrs_incl db r : reg_found db r ->
  forall is_ h, forallb (fun i => Nat.ltb i (length r)) is_ = true ->
  forallb (incl_pred db) (incl_attrs h r is_) = true.
Proof.
  intros Hreg. induction is_ as [|i is_ IH]; intros h Hi; cbn [incl_attrs forallb] in *; [reflexivity|].
  apply andb_prop in Hi. destruct Hi as [Hi1 Hi2]. apply Nat.ltb_lt in Hi1.
  specialize (Hreg i Hi1). destruct (nth i r (0, 0, U16 0)) as [[s e] u]. destruct Hreg as [Hu [b [Hf Hb]]].
  cbn [forallb]. rewrite (IH _ Hi2), andb_true_r.
  unfold incl_pred. cbn [a_type a_body]. replace (uuid_eqb UUID_INCLUDE UUID_INCLUDE) with true by reflexivity.
  rewrite Hf, Hb. unfold uuid_ok in Hu. rewrite Hu. cbn [andb]. unfold uuid_eqb. lia.
Qed.

Lemma svc_attrs_incl db r s h : reg_found db r ->
  forallb (fun i => Nat.ltb i (length r)) (s_incl s) = true -> forallb char_ok (s_chars s) = true ->
  forallb (incl_pred db) (svc_attrs h r s) = true.
Proof.
  intros Hreg Hi Hc. rewrite svc_attrs_split. cbn [forallb].
  rewrite forallb_app, (incl_attrs_incl db r Hreg _ _ Hi). rewrite chars_attrs_all; [| |reflexivity|exact Hc].
  - unfold incl_pred, head_attr. cbn [a_type]. destruct (s_primary s); reflexivity.
  - intros h' e u b _ Hn. unfold incl_pred. cbn [a_type].
    now rewrite (plain_not_type UUID_INCLUDE h' e u b eq_refl Hn : uuid_eqb u UUID_INCLUDE = false).
Qed.

(* invariant of add_services: [pre] is the database so far, below [h0], and holds the service
   declaration of every registered service *)
Lemma build_incl : forall ss h0 r pre post,
  Forall (fun a => a_handle a < h0) pre -> reg_found pre r ->
  specs_ok ss = true -> incl_idx_ok (length r) ss = true ->
  forallb (incl_pred (pre ++ build_from h0 r ss ++ post)) (build_from h0 r ss) = true.
Proof.
  induction ss as [|s ss IH]; intros h0 r pre post Hpre Hreg Hs Hi; [reflexivity|].
  cbn [build_from specs_ok forallb incl_idx_ok] in *.
  apply andb_prop in Hs. destruct Hs as [Hs1 Hs2]. apply andb_prop in Hi. destruct Hi as [Hi1 Hi2].
  unfold svc_ok in Hs1. apply andb_prop in Hs1. destruct Hs1 as [Hsu Hsc].
  rewrite forallb_app, (svc_attrs_incl _ r s h0 (reg_found_app pre _ r Hreg) Hi1 Hsc).
  rewrite <- app_assoc, app_assoc. apply IH; [| |exact Hs2|].
  - now apply pre_svc_below.
  - now apply reg_found_snoc.
  - rewrite app_length, Nat.add_1_r. exact Hi2.
Qed.

Theorem build_includes_consistent : forall ss, specs_ok ss = true -> incl_idx_ok 0 ss = true ->
  includes_consistent (build ss) = true.
Proof.
  intros ss Hs Hi. unfold includes_consistent, build.
  pose proof (build_incl ss 1 [] [] [] (Forall_nil _) (fun i Hlt => ltac:(cbn in Hlt; lia)) Hs Hi) as H.
  cbn [app] in H. rewrite app_nil_r in H. exact H.
Qed.

(* every database add_services builds is well-formed *)
Theorem build_wf : forall ss, specs_ok ss = true -> total_size ss <= 0xFFFE -> db_wf (build ss) = true.
Proof.
  intros ss H Ht. unfold db_wf.
  rewrite (build_sorted ss Ht), (build_services_ok ss H Ht).
  destruct (build_sizes_types ss H) as [D T]. rewrite D, T. cbn [andb].
  exact (build_char_ends ss 1 [] [] (Forall_nil _) H).
Qed.

(* A client of a Bumble server whose database was built by add_services, at any ATT_MTU >= 23,
   reconstructs the primary services, and for every primary service its include declarations,
   its characteristics with their handle ranges, for every characteristic its descriptors, and
   the whole attribute table. *)
Definition chardecls_of (db : list attr) (s : attr) : list attr := chars_of db (a_handle s) (a_end s).

Theorem client_sees_database : forall ss mtu, 23 <= mtu -> specs_ok ss = true -> incl_idx_ok 0 ss = true ->
  total_size ss <= 0xFFFE ->
  let db := build ss in
  fst (client_discover_services mtu db) = Done (map to_entry (primary_services db)) /\
  fst (client_discover_attributes mtu db) = Done (map info_entry db) /\
  (forall u, fst (client_discover_service mtu db u) = Done (map to_entry (services_with db u))) /\
  (forall s, In s (primary_services db) ->
     fst (client_discover_included mtu db (a_handle s) (a_end s))
       = Done (map declared_include (includes_of db (a_handle s) (a_end s))) /\
     fst (client_discover_characteristics mtu db (a_handle s) (a_end s))
       = Done (map to_entry (chardecls_of db s)) /\
     (forall us, fst (discover_characteristics_uuids (fuel_for (a_handle s))
                        (fun _ st => srv_read_by_type mtu db UUID_CHARACTERISTIC st (a_end s))
                        (a_handle s) (a_end s) us)
                 = Done (filter_uuids us (map to_entry (chardecls_of db s)))) /\
     True) /\
  (forall vh ce, 0 <= vh -> ce <= 0xFFFF ->
     fst (client_discover_descriptors mtu db vh ce) = Done (map info_entry (attrs_in db (vh + 1) ce))).
Proof.
  intros ss mtu Hm Hs Hidx Ht db.
  pose proof (build_includes_consistent ss Hs Hidx) as Wincl. pose proof (build_wf ss Hs Ht) as W.
  fold db in Wincl, W. clearbody db. clear Hs Hidx Ht. unfold db_wf in W.
  apply andb_prop in W. destruct W as [W1 W2]. apply andb_prop in W1. destruct W1 as [Wsorted Wsvc].
  apply andb_prop in W2. destruct W2 as [W2 Wends]. apply andb_prop in W2. destruct W2 as [Wsz Wty].
  split; [apply discover_services_exact; assumption|].
  split; [apply discover_attributes_exact; assumption|].
  split; [intros u; apply discover_service_exact; assumption|].
  split; [|intros vh ce Hv Hc; apply discover_descriptors_exact; assumption].
  intros s Hin. apply filter_In in Hin. destruct Hin as [Hin Hty].
  apply andb_prop in Wsvc.
  pose proof (group_range db _ s (proj1 Wsvc) (proj2 Wsvc) Hin Hty) as Hr.
  assert (Hlo : 1 <= a_handle s) by (clear - Hr; lia). assert (Hhi : a_end s <= 0xFFFF) by (clear - Hr; lia).
  assert (Hce : char_ends_ok (a_end s) (chars_of db (a_handle s) (a_end s)) = true).
  { refine (forallb_In _ _ s Wends _). apply filter_In. split; [exact Hin|]. now rewrite Hty. }
  pose proof (discover_characteristics_exact db mtu (a_handle s) (a_end s) Hm Hlo Hhi Wsorted Wsz Hce) as Hch.
  split; [apply discover_included_exact_declared; assumption|].
  split; [exact Hch|].
  split; [|exact I].
  intros us. rewrite discover_characteristics_uuids_spec.
  unfold client_discover_characteristics in Hch.
  destruct (discover_characteristics _ _ _ _) as [o n]. cbn [fst] in Hch. subst o. reflexivity.
Qed.

(* Model/GattClientShape.v holds the constants of the anchored code by name (k____); each
   lemma restates a model definition with every number replaced by its named constant, so
   that "source constants = model constants" (Props: C12_consts_match_source) is a statement
   about the functions the theorems are about. All by computation. *)
Lemma shape_find_information : forall mtu db s e,
  srv_find_information mtu db s e
  = if orb (s =? 0) (e <? s) then RErr (k_err_invalid_handle) else
    reply (map info_entry (take_run (k_fi_entry_hdr) false (fun a => u_len (a_type a))
                                    (mtu - k_fi_space) None (filter (in_range s e) db))).
Proof. reflexivity. Qed.

Lemma shape_find_by_type_value : forall mtu db u s e,
  srv_find_by_type_value mtu db u s e
  = reply (map to_entry (take_run (k_fbtv_entry) false (fun _ => 0) (mtu - k_fbtv_space) None
            (filter (fun a => andb (is_service_with (mkU 2 (k_uuid_primary)) u a) (in_range s e a)) db))).
Proof. reflexivity. Qed.

Lemma shape_read_by_type : forall mtu db t s e,
  srv_read_by_type mtu db t s e
  = if orb (s =? 0) (e <? s) then RErr (k_err_invalid_handle) else
    let lim := Z.min (mtu - k_rbt_limit_off) (k_rbt_limit_max) in
    reply (map (to_entry_trunc lim)
             (take_run (k_rbt_entry_hdr) true (fun a => Z.min (disc_vlen a) lim) (mtu - k_rbt_space) None
                (filter (fun a => andb (uuid_eqb (a_type a) t) (in_range s e a)) db))).
Proof. reflexivity. Qed.

Lemma shape_read_by_group : forall mtu db t s e,
  srv_read_by_group mtu db t s e
  = let lim := Z.min (mtu - k_rbgt_limit_off) (k_rbgt_limit_max) in
    reply (map (to_entry_trunc lim)
             (take_run (k_rbgt_entry_hdr) true (fun a => Z.min (disc_vlen a) lim) (mtu - k_rbgt_space) None
                (filter (fun a => andb (uuid_eqb (a_type a) t) (in_range s e a)) db))).
Proof. reflexivity. Qed.

Lemma shape_reply_not_found : reply [] = RErr (k_err_not_found).
Proof. reflexivity. Qed.

Lemma shape_read : forall mtu v,
  srv_read mtu v = VVal (firstn (Z.to_nat (Z.min (mtu - k_read_size) (Z.of_nat (List.length v)))) v).
Proof. reflexivity. Qed.

Lemma shape_read_blob : forall mtu v off,
  srv_read_blob mtu v off
  = let len := Z.of_nat (List.length v) in
    if len <? off then VErr (k_err_invalid_offset)
    else if andb (off =? 0) (len <=? mtu - k_blob_not_long) then VErr (k_err_not_long)
    else VVal (sublist off (Z.min (mtu - k_blob_part) (len - off)) v).
Proof. reflexivity. Qed.

Lemma shape_client_read : forall fuel first blob mtu nlr,
  read_value fuel first blob mtu nlr
  = match first with
    | VNone => RRaised (-3)
    | VErr c => RRaised c
    | VVal v => if andb (negb nlr) (Z.of_nat (List.length v) =? mtu - k_read_long_if)
                then read_blob_loop fuel blob mtu v (Z.of_nat (List.length v)) else RDone v
    end.
Proof. reflexivity. Qed.

Lemma shape_client_blob_step : forall f blob mtu acc off,
  read_blob_loop (S f) blob mtu acc off
  = if 0xFFFF <? off then RRaised (-4) else
    match blob off with
    | VNone => RRaised (-3)
    | VErr c => if orb (c =? k_err_not_long) (c =? k_err_invalid_offset) then RDone acc else RRaised c
    | VVal part => if Z.of_nat (List.length part) <? mtu - k_read_short_part then RDone (acc ++ part)
                   else read_blob_loop f blob mtu (acc ++ part) (off + Z.of_nat (List.length part))
    end.
Proof. reflexivity. Qed.

Lemma shape_write_max : GATT_MAX_ATTRIBUTE_VALUE_SIZE = k_write_max.
Proof. reflexivity. Qed.

Lemma shape_truncate : forall mtu v,
  truncate mtu v = if mtu - k_notify_trunc_if <? Z.of_nat (List.length v)
                   then firstn (Z.to_nat (mtu - k_notify_trunc)) v else v.
Proof. reflexivity. Qed.

Lemma shape_indicate_same_truncation :
  k_indicate_trunc_if = k_notify_trunc_if /\ k_indicate_trunc = k_notify_trunc /\
  k_indicate_cccd_len = k_notify_cccd_len /\ k_fi_entry_hdr2 = k_fi_entry_hdr /\
  k_fbtv_entry2 = k_fbtv_entry.
Proof. repeat split. Qed.

Lemma shape_send_single : forall indicate force mtu_of s b h v,
  send_single indicate force mtu_of s b h v
  = if orb force (subscribed (if indicate then k_indicate_bit else k_notify_bit) s b h)
    then [(b, (if indicate then k_op_indication else k_op_notification), h, truncate (mtu_of b) v)]
    else [].
Proof. reflexivity. Qed.

Lemma shape_cccd_length : forall s b h v,
  write_cccd s b h v
  = if Z.of_nat (List.length v) =? k_write_cccd_len
    then assoc_set b (assoc_set h v (match assoc b s with Some c => c | None => [] end)) s else s.
Proof.
  intros. unfold write_cccd. change (k_write_cccd_len) with 2.
  destruct v as [|x [|y [|z v]]]; try reflexivity.
  cbn [List.length Nat.eqb]. assert (E : (Z.of_nat (S (S (S (List.length v)))) =? 2) = false) by lia. now rewrite E.
Qed.

Lemma shape_loops :
  (forall s, cond_lt_ffff s = (s <? k_services_while_lt)) /\
  k_service_while_lt = k_services_while_lt /\ k_service_stop_at = 0xFFFF /\
  k_services_ending = 0xFFFF /\ k_attrs_ending = 0xFFFF /\
  k_services_first_handle = 1 /\ k_service_first_handle = 1 /\ k_attrs_first_handle = 1 /\
  (forall p st es acc le, proc_group p false st es acc le = proc_group p false st es acc le) /\
  (forall st acc lh, proc_plain st [] acc lh = Next acc (lh + k_chars_advance)) /\
  (forall p q st acc le, proc_group p q st [] acc le = Next acc (le + k_services_advance)) /\
  k_service_advance = 1 /\ k_included_advance = 1 /\ k_descs_advance = 1 /\
  k_attrs_advance = 1 /\ k_read_by_uuid_advance = 1 /\ k_descs_first = 1 /\ k_chars_prev_end = 1.
Proof. repeat split. Qed.

Lemma shape_build :
  (forall ss, build ss = build_from (k_next_handle_base) [] ss) /\
  PROP_NOTIFY = k_prop_notify /\ PROP_INDICATE = k_prop_indicate /\
  UUID_PRIMARY = mkU 2 (k_uuid_primary) /\ UUID_SECONDARY = mkU 2 (k_uuid_secondary) /\
  UUID_INCLUDE = mkU 2 (k_uuid_include) /\ UUID_CHARACTERISTIC = mkU 2 (k_uuid_characteristic) /\
  UUID_CCCD = mkU 2 (k_uuid_cccd) /\
  (forall h c, nth 0 (char_attrs h c) (mkA 0 0 (U16 0) BCccd)
               = mkA h (h + char_size c - 1) UUID_CHARACTERISTIC
                     (BCharDecl (c_props c) (h + k_chardecl_value_handle) (c_uuid c))).
Proof. repeat split. Qed.

