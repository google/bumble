(* Proofs about Model/Framer.v (property C02).
   The push parser: the fuel is removed ([feed_unfold]), one call is described by three chunk
   lemmas ([feed_short], [feed_fill], [feed_merge]) and the induction principle [feed_ind]
   built on them; fusion ([feed_app]), termination, reset-on-raise and the state invariant
   are instances of it, and every statement about chunkings goes through fusion.
   The pull readers agree with the push parser by a classification of byte strings that is
   made once for packets without their type byte ([endpoint_classify]) and also shows that
   a USB splitter has no invalid input.  The splitter is handled by the invariant [sinv]
   between chunks. *)
From Coq Require Import ZArith List Bool Lia.
From BV Require Import Model.Framer.
Import ListNotations.
Open Scope Z_scope.

Lemma len_nil : len [] = 0.
Proof. reflexivity. Qed.

Lemma len_cons : forall x l, len (x :: l) = 1 + len l.
Proof. intros. unfold len. simpl length. lia. Qed.

Lemma len_app : forall a b, len (a ++ b) = len a + len b.
Proof. intros. unfold len. rewrite app_length. lia. Qed.

Lemma len_nonneg : forall l, 0 <= len l.
Proof. intros. unfold len. lia. Qed.

(* arithmetic side conditions over lengths: [len] is [Z.of_nat (length _)], which lia
   knows to be nonnegative once [len] is unfolded *)
#[export] Hint Rewrite len_nil len_cons len_app : len.
Ltac len_lia := autorewrite with len in *; unfold len in *; lia.
(* the comparison [c] has the value [b]; lia alone does not use [0 <= Z.of_nat _] under a
   boolean comparison, so the goal is first turned into the corresponding proposition *)
Ltac cmp_is c b := replace c with b
  by (symmetry; first [apply Z.eqb_eq | apply Z.eqb_neq | apply Z.ltb_lt | apply Z.ltb_ge
                      | apply Z.leb_le | apply Z.leb_gt]; len_lia).

Lemma len_zero : forall l, len l = 0 -> l = [].
Proof. intros [|x l] H; [reflexivity|len_lia]. Qed.

Lemma take_all : forall n l, len l <= n -> take n l = l.
Proof. intros. apply firstn_all2. len_lia. Qed.

Lemma drop_all : forall n l, len l <= n -> drop n l = [].
Proof. intros. apply skipn_all2. len_lia. Qed.

Lemma take_nonpos : forall n l, n <= 0 -> take n l = [].
Proof. intros. unfold take. replace (Z.to_nat n) with O by lia. reflexivity. Qed.

Lemma drop_nonpos : forall n l, n <= 0 -> drop n l = l.
Proof. intros. unfold drop. replace (Z.to_nat n) with O by lia. reflexivity. Qed.

Lemma take_drop : forall n l, take n l ++ drop n l = l.
Proof. intros. apply firstn_skipn. Qed.

Lemma take_app_ge : forall n a b, len a <= n -> take n (a ++ b) = a ++ take (n - len a) b.
Proof.
  intros. unfold take. rewrite firstn_app, firstn_all2 by len_lia.
  do 2 f_equal. len_lia.
Qed.

Lemma drop_app_ge : forall n a b, len a <= n -> drop n (a ++ b) = drop (n - len a) b.
Proof.
  intros. unfold drop. rewrite skipn_app, skipn_all2 by len_lia.
  simpl. f_equal. len_lia.
Qed.

Lemma take_app_len : forall a b, take (len a) (a ++ b) = a.
Proof.
  intros. rewrite take_app_ge, Z.sub_diag, take_nonpos by lia. apply app_nil_r.
Qed.

Lemma drop_app_len : forall a b, drop (len a) (a ++ b) = b.
Proof. intros. rewrite drop_app_ge, Z.sub_diag by lia. reflexivity. Qed.

Lemma take_app_le : forall n a b, n <= len a -> take n (a ++ b) = take n a.
Proof.
  intros. unfold take. rewrite firstn_app.
  replace (Z.to_nat n - length a)%nat with O by len_lia. apply app_nil_r.
Qed.

Lemma drop_app_le : forall n a b, n <= len a -> drop n (a ++ b) = drop n a ++ b.
Proof.
  intros. unfold drop. rewrite skipn_app.
  replace (Z.to_nat n - length a)%nat with O by len_lia. reflexivity.
Qed.

Lemma drop_cons : forall n x l, 0 <= n -> drop (1 + n) (x :: l) = drop n l.
Proof.
  intros. unfold drop. replace (Z.to_nat (1 + n)) with (S (Z.to_nat n)) by lia. reflexivity.
Qed.

Lemma take_1_cons : forall x l, take 1 (x :: l) = [x].
Proof. reflexivity. Qed.

Lemma drop_1_cons : forall x l, drop 1 (x :: l) = l.
Proof. reflexivity. Qed.

Lemma len_take : forall n l, 0 <= n -> len (take n l) = Z.min n (len l).
Proof. intros. unfold take, len. rewrite firstn_length. lia. Qed.

Lemma len_drop_any : forall n l, len (drop n l) = len l - Z.max 0 (Z.min n (len l)).
Proof. intros. unfold drop, len. rewrite skipn_length. lia. Qed.

Lemma split_at : forall n l, 0 <= n <= len l ->
  exists a b, l = a ++ b /\ len a = n.
Proof.
  intros n l H. exists (take n l), (drop n l). split.
  - symmetry. apply take_drop.
  - rewrite len_take by lia. lia.
Qed.

(* a field inside the first part of a list does not depend on what follows *)
Lemma field_app : forall lo ls h b, 0 <= lo -> 0 <= ls -> lo + ls <= len h ->
  take ls (drop lo (h ++ b)) = take ls (drop lo h).
Proof.
  intros. rewrite drop_app_le by lia. apply take_app_le.
  rewrite len_drop_any. lia.
Qed.

Lemma app_eq_len : forall (a a' b b' : list Z), len a = len a' -> a ++ b = a' ++ b' -> a = a' /\ b = b'.
Proof.
  induction a as [|x a IH]; intros [|y a'] b b' Hl H; try len_lia.
  - auto.
  - simpl in H. inversion H; subst.
    destruct (IH a' b b') as [-> ->]; [len_lia|assumption|]. auto.
Qed.

Lemma app_eq_cut : forall (a b x y : list Z), a ++ x = b ++ y -> len a <= len b ->
  exists m, b = a ++ m /\ x = m ++ y.
Proof.
  intros a b x y H Hl.
  destruct (split_at (len a) b) as (b1 & b2 & -> & Hb1); [len_lia|].
  rewrite <- app_assoc in H.
  destruct (app_eq_len a b1 x (b2 ++ y)) as [-> ->]; [lia|assumption|].
  exists b2. auto.
Qed.

Lemma bytes_ok_app : forall a b, bytes_ok (a ++ b) = bytes_ok a && bytes_ok b.
Proof. intros. apply forallb_app. Qed.

Lemma bytes_ok_app_inv : forall a b, bytes_ok (a ++ b) = true ->
  bytes_ok a = true /\ bytes_ok b = true.
Proof. intros a b H. rewrite bytes_ok_app in H. apply andb_true_iff. exact H. Qed.

Lemma bytes_ok_take : forall n l, bytes_ok l = true -> bytes_ok (take n l) = true.
Proof. intros n l H. rewrite <- (take_drop n l) in H. apply (bytes_ok_app_inv _ _ H). Qed.

Lemma bytes_ok_drop : forall n l, bytes_ok l = true -> bytes_ok (drop n l) = true.
Proof. intros n l H. rewrite <- (take_drop n l) in H. apply (bytes_ok_app_inv _ _ H). Qed.

Lemma bytes_ok_concat : forall chunks, forallb bytes_ok chunks = true ->
  bytes_ok (concat chunks) = true.
Proof.
  induction chunks as [|c chunks IH]; [reflexivity|]. simpl. intros H.
  apply andb_true_iff in H. rewrite bytes_ok_app, (proj1 H), (IH (proj2 H)). reflexivity.
Qed.

Lemma le_decode_nonneg : forall l, bytes_ok l = true -> 0 <= le_decode l.
Proof.
  induction l as [|b l IH]; intros H; [simpl; lia|].
  change (b :: l) with ([b] ++ l) in H. apply bytes_ok_app_inv in H. destruct H as [Hb Hl].
  unfold bytes_ok, forallb, byte_ok in Hb. specialize (IH Hl).
  change (le_decode (b :: l)) with (b + 256 * le_decode l). lia.
Qed.

Lemma field_nonneg : forall lo ls h, bytes_ok h = true -> 0 <= le_decode (take ls (drop lo h)).
Proof. intros. apply le_decode_nonneg, bytes_ok_take, bytes_ok_drop. assumption. Qed.

Definition prepend (o : list out) (r : parser * list out * status) : parser * list out * status :=
  let '(s, o2, st) := r in (s, o ++ o2, st).

Lemma prepend_nil : forall r, prepend [] r = r.
Proof. intros [[s o] st]. reflexivity. Qed.

Lemma prepend_prepend : forall a b r, prepend a (prepend b r) = prepend (a ++ b) r.
Proof. intros a b [[s o] st]. simpl. rewrite app_assoc. reflexivity. Qed.

Lemma body_rest : forall t s d,
  snd (body t s d) = drop (Z.min (p_needed s) (len d)) d.
Proof.
  intros. unfold body. destruct (p_needed _ =? 0); [|reflexivity].
  destruct (fin t _) as [[s2 o] r]. reflexivity.
Qed.

Lemma guard_iff : forall s d, guard s d = true <-> 0 < p_needed s /\ 0 < len d.
Proof.
  intros s [|x d]; simpl; [split; [discriminate|len_lia]|].
  rewrite Z.ltb_lt. split; [split|]; len_lia.
Qed.

Lemma body_shrinks : forall t s d s1 o1 r rest,
  guard s d = true -> body t s d = (s1, o1, r, rest) -> (length rest < length d)%nat.
Proof.
  intros t s d s1 o1 r rest Hg Hb. apply guard_iff in Hg.
  pose proof (body_rest t s d) as Hr. rewrite Hb in Hr. simpl in Hr. subst rest.
  pose proof (len_drop_any (Z.min (p_needed s) (len d)) d) as H.
  unfold len in *. lia.
Qed.

Lemma feed_loop_fuel : forall t f1 f2 s d,
  (length d <= f1)%nat -> (length d <= f2)%nat -> feed_loop t f1 s d = feed_loop t f2 s d.
Proof.
  induction f1 as [|f1 IH]; intros f2 s d H1 H2.
  - destruct d; [|simpl in H1; lia]. destruct f2; reflexivity.
  - destruct f2 as [|f2].
    + destruct d; [|simpl in H2; lia]. reflexivity.
    + simpl. destruct (guard s d) eqn:Hg; [|reflexivity].
      destruct (body t s d) as [[[s1 o1] r] rest] eqn:Hb.
      destruct r; [reflexivity|].
      pose proof (body_shrinks _ _ _ _ _ _ _ Hg Hb).
      rewrite (IH f2 s1 rest) by lia. reflexivity.
Qed.

Lemma feed_unfold : forall t s d,
  feed t s d =
  if guard s d then
    let '(s1, o1, raised, rest) := body t s d in
    if raised then (s1, o1, Raised) else prepend o1 (feed t s1 rest)
  else (s, [], Ok).
Proof.
  intros t s d. unfold feed. destruct d as [|x d]; [reflexivity|].
  cbn [length feed_loop].
  destruct (guard s (x :: d)) eqn:Hg; [|reflexivity].
  destruct (body t s (x :: d)) as [[[s1 o1] r] rest] eqn:Hb.
  destruct r; [reflexivity|].
  pose proof (body_shrinks _ _ _ _ _ _ _ Hg Hb) as Hs. simpl in Hs.
  rewrite (feed_loop_fuel t (length d) (length rest) s1 rest) by lia.
  reflexivity.
Qed.

Lemma feed_nil : forall t s, feed t s [] = (s, [], Ok).
Proof. reflexivity. Qed.

Lemma feed_idle : forall t s d, p_needed s <= 0 -> feed t s d = (s, [], Ok).
Proof.
  intros t s d H. rewrite feed_unfold. destruct (guard s d) eqn:Hg; [|reflexivity].
  apply guard_iff in Hg. lia.
Qed.

Lemma acc_nil : forall s, acc s [] = s.
Proof.
  intros [st n p i]. unfold acc. simpl. rewrite len_nil, Z.sub_0_r, app_nil_r. reflexivity.
Qed.

Lemma acc_acc : forall s a b, acc (acc s a) b = acc s (a ++ b).
Proof.
  intros [st n p i] a b. unfold acc. simpl. rewrite len_app, app_assoc. f_equal. lia.
Qed.

Lemma body_app : forall t s a r, len a = Z.min (p_needed s) (len (a ++ r)) ->
  body t s (a ++ r) =
  if p_needed s - len a =? 0
  then let '(s2, o, raised) := fin t (acc s a) in (s2, o, raised, r)
  else (acc s a, [], false, r).
Proof.
  intros t s a r H. unfold body. rewrite <- H, take_app_len, drop_app_len. reflexivity.
Qed.

(* a chunk shorter than what is needed is only accumulated *)
Lemma feed_short : forall t s d, len d < p_needed s -> feed t s d = (acc s d, [], Ok).
Proof.
  intros t s d H. destruct d as [|x d]; [rewrite acc_nil; reflexivity|].
  rewrite feed_unfold, (proj2 (guard_iff _ _)) by len_lia.
  rewrite <- (app_nil_r (x :: d)), body_app by (rewrite app_nil_r; lia).
  rewrite app_nil_r. replace (_ =? 0) with false by lia. reflexivity.
Qed.

(* a chunk that starts with exactly the needed bytes completes the current step *)
Lemma feed_fill : forall t s a r, 0 < p_needed s -> len a = p_needed s ->
  feed t s (a ++ r) =
  let '(s1, o1, raised) := fin t (acc s a) in
  if raised then (s1, o1, Raised) else prepend o1 (feed t s1 r).
Proof.
  intros t s a r Hn Ha. rewrite feed_unfold, (proj2 (guard_iff _ _)), body_app by len_lia.
  replace (_ =? 0) with true by lia.
  destruct (fin t (acc s a)) as [[s1 o1] raised]. reflexivity.
Qed.

(* a short first part can be merged into the state *)
Lemma feed_merge : forall t s a b, len a < p_needed s -> feed t s (a ++ b) = feed t (acc s a) b.
Proof.
  intros t s a b H. destruct b as [|y b].
  - rewrite app_nil_r, feed_nil. apply feed_short. assumption.
  - rewrite (feed_unfold t s), (feed_unfold t (acc s a)).
    rewrite !(proj2 (guard_iff _ _)) by (simpl; len_lia).
    replace (body t s (a ++ y :: b)) with (body t (acc s a) (y :: b)); [reflexivity|].
    unfold body.
    replace (Z.min (p_needed s) (len (a ++ y :: b)))
      with (len a + Z.min (p_needed (acc s a)) (len (y :: b))) by (simpl; len_lia).
    set (c := Z.min (p_needed (acc s a)) (len (y :: b))).
    assert (0 <= c) by (subst c; simpl; len_lia).
    rewrite take_app_ge, drop_app_ge by lia.
    replace (len a + c - len a) with c by lia.
    rewrite acc_acc. reflexivity.
Qed.

(* How one call proceeds, as an induction principle: the parser is idle, or the data is
   only accumulated, or its first [p_needed s] bytes complete the current step, which
   either raises or goes on with the rest. *)
Lemma feed_ind : forall t (P : parser -> list Z -> parser * list out * status -> Prop),
  (forall s d, p_needed s <= 0 -> P s d (s, [], Ok)) ->
  (forall s d, len d < p_needed s -> P s d (acc s d, [], Ok)) ->
  (forall s a r s1 o1, 0 < p_needed s -> len a = p_needed s ->
     fin t (acc s a) = (s1, o1, true) -> P s (a ++ r) (s1, o1, Raised)) ->
  (forall s a r s1 o1, 0 < p_needed s -> len a = p_needed s ->
     fin t (acc s a) = (s1, o1, false) -> P s1 r (feed t s1 r) ->
     P s (a ++ r) (prepend o1 (feed t s1 r))) ->
  forall s d, P s d (feed t s d).
Proof.
  intros t P Hidle Hshort Hraise Hnext s d.
  remember (length d) as n eqn:Hn. revert s d Hn.
  induction n as [n IH] using lt_wf_ind. intros s d ->.
  destruct (Z_le_gt_dec (p_needed s) 0) as [Hz|Hp]; [rewrite feed_idle by assumption; auto|].
  destruct (Z_lt_le_dec (len d) (p_needed s)) as [Hs|Hge]; [rewrite feed_short by assumption; auto|].
  destruct (split_at (p_needed s) d) as (a & r & -> & Ha); [lia|].
  rewrite feed_fill by lia. destruct (fin t (acc s a)) as [[s1 o1] [|]] eqn:Hf.
  - apply Hraise; [lia|assumption..].
  - apply Hnext; [lia|assumption..|]. apply (IH (length r)); [rewrite app_length; len_lia|reflexivity].
Qed.

(* what feeding b does after the result r1 of an earlier feed: an earlier raise has
   discarded the rest of its own chunk only; within ONE call the rest is discarded *)
Definition then_feed (t : table) (r1 : parser * list out * status) (b : list Z) :=
  let '(s1, o1, st1) := r1 in
  match st1 with
  | Ok => prepend o1 (feed t s1 b)
  | _ => r1
  end.

Lemma then_feed_prepend : forall t o r b,
  then_feed t (prepend o r) b = prepend o (then_feed t r b).
Proof.
  intros t o [[s1 o1] st1] b. simpl. destruct st1; try reflexivity.
  rewrite prepend_prepend. reflexivity.
Qed.

(* feed fusion: feeding a ++ b in one call is feeding a, then b, outputs appended
   - unless a raised, in which case the single call has discarded b *)
Lemma feed_app : forall t a b s, feed t s (a ++ b) = then_feed t (feed t s a) b.
Proof.
  intros t a b s. revert s a.
  apply (feed_ind t (fun s a r => feed t s (a ++ b) = then_feed t r b)).
  - intros s a H. simpl. rewrite !feed_idle by assumption. reflexivity.
  - intros s a H. simpl. rewrite prepend_nil. apply feed_merge. assumption.
  - intros s a r s1 o1 Hn Ha Hf. rewrite <- app_assoc, feed_fill, Hf by assumption. reflexivity.
  - intros s a r s1 o1 Hn Ha Hf IH.
    rewrite <- app_assoc, feed_fill, Hf, IH, then_feed_prepend by assumption. reflexivity.
Qed.

Lemma feed_never_out_of_fuel : forall t s d, snd (feed t s d) <> OutOfFuel.
Proof.
  intros t. apply (feed_ind t (fun _ _ r => snd r <> OutOfFuel)); try discriminate.
  intros s a r s1 o1 _ _ _. destruct (feed t s1 r) as [[s2 o2] st]. exact (fun H => H).
Qed.

(* a raise always leaves the parser in its initial state, the error is the last output *)
Lemma fin_cases : forall t s s1 o1 r, fin t s = (s1, o1, r) ->
  (r = true /\ s1 = reset /\ exists ty, o1 = [Error ty]) \/ (r = false /\ has_error o1 = false).
Proof.
  intros t [st n p i] s1 o1 r H. unfold fin in H. cbn [p_st p_pkt p_info p_needed] in H. destruct st.
  - destruct (lookup t _).
    + cbn in H. inversion H. right. split; reflexivity.
    + inversion H. left. repeat split. eexists. reflexivity.
  - cbn in H. destruct (_ =? 0) in H; inversion H; right; split; reflexivity.
  - cbn in H. destruct (_ =? 0) in H; inversion H; right; split; reflexivity.
Qed.

Lemma has_error_app : forall a b, has_error a = false -> has_error (a ++ b) = has_error b.
Proof. induction a as [|[p|e] a IH]; simpl; intros; auto. discriminate. Qed.

Lemma feed_raise_resets : forall t d s s' o,
  feed t s d = (s', o, Raised) ->
  s' = reset /\ exists o' ty, o = o' ++ [Error ty] /\ has_error o' = false.
Proof.
  intros t d s. revert s d.
  apply (feed_ind t (fun _ _ r => forall s' o, r = (s', o, Raised) ->
    s' = reset /\ exists o' ty, o = o' ++ [Error ty] /\ has_error o' = false)); try discriminate.
  - intros s a r s1 o1 _ _ Hf s' o H. inversion H; subst.
    destruct (fin_cases _ _ _ _ _ Hf) as [(_ & -> & ty & ->)|[? _]]; [|discriminate].
    split; [reflexivity|]. exists [], ty. split; reflexivity.
  - intros s a r s1 o1 _ _ Hf IH s' o H.
    destruct (fin_cases _ _ _ _ _ Hf) as [[? _]|[_ He1]]; [discriminate|].
    destruct (feed t s1 r) as [[s3 o3] st3]. inversion H; subst.
    destruct (IH s' o3 eq_refl) as (Hs & o' & ty & -> & He).
    split; [assumption|]. exists (o1 ++ o'), ty. split; [apply app_assoc|].
    rewrite has_error_app; assumption.
Qed.

Lemma lookup_wf : forall t ty i, wf_table t = true -> lookup t ty = Some i ->
  1 <= i_ls i /\ 0 <= i_lo i /\ i_us i = i_ls i.
Proof.
  induction t as [|[k j] t IH]; intros ty i Hwf H; [discriminate|].
  simpl in H. apply andb_true_iff in Hwf. destruct Hwf as [Hj Ht].
  destruct (k =? ty); [|eauto].
  inversion H; subst. unfold wf_info in Hj. lia.
Qed.

Lemma feed_type_ok : forall t ty i d, lookup t ty = Some i ->
  feed t reset (ty :: d) = feed t (mkP NeedLength (i_ls i + i_lo i) [ty] (Some i)) d.
Proof.
  intros t ty i d H. change (ty :: d) with ([ty] ++ d).
  rewrite feed_fill by reflexivity.
  unfold fin. cbn. rewrite H. cbn. apply prepend_nil.
Qed.

Lemma feed_type_bad : forall t ty d, lookup t ty = None ->
  feed t reset (ty :: d) = (reset, [Error ty], Raised).
Proof.
  intros t ty d H. change (ty :: d) with ([ty] ++ d).
  rewrite feed_fill by reflexivity.
  unfold fin. cbn. rewrite H. reflexivity.
Qed.

Lemma feed_body : forall t L pk inf b d, 0 < L -> len b = L ->
  feed t (mkP NeedBody L pk inf) (b ++ d) = prepend [Packet (pk ++ b)] (feed t reset d).
Proof.
  intros t L pk inf b d HL Hb. rewrite feed_fill by assumption.
  unfold fin. cbn [acc p_st p_needed p_pkt p_info].
  replace (L - len b =? 0) with true by lia.
  reflexivity.
Qed.

Lemma wf_packet_shape : forall t p, wf_table t = true -> wf_packet t p = true ->
  exists ty i h b, p = ty :: h ++ b /\ lookup t ty = Some i /\
    1 <= i_ls i /\ 0 <= i_lo i /\ i_us i = i_ls i /\
    len h = i_ls i + i_lo i /\ len b = le_decode (take (i_ls i) (drop (i_lo i) h)) /\
    bytes_ok p = true.
Proof.
  intros t [|ty r] Ht H; [discriminate|]. unfold wf_packet in H.
  destruct (lookup t ty) as [i|] eqn:Hl; [|discriminate].
  destruct (lookup_wf _ _ _ Ht Hl) as (H1 & H2 & H3).
  apply andb_true_iff in H. destruct H as [H Hlen].
  apply andb_true_iff in H. destruct H as [Hok Hhs].
  destruct (split_at (i_ls i + i_lo i) r) as (h & b & -> & Hh); [lia|].
  exists ty, i, h, b. repeat split; try assumption.
  rewrite field_app in Hlen by lia. len_lia.
Qed.

Lemma feed_header : forall t hs pk i h d, 0 < hs -> len h = hs ->
  feed t (mkP NeedLength hs pk (Some i)) (h ++ d) =
  let L := le_decode (take (i_us i) (drop (1 + i_lo i) (pk ++ h))) in
  if L =? 0 then prepend [Packet (pk ++ h)] (feed t reset d)
  else feed t (mkP NeedBody L (pk ++ h) (Some i)) d.
Proof.
  intros t hs pk i h d Hhs Hh. rewrite feed_fill by assumption.
  unfold fin. cbn [acc p_st p_needed p_pkt p_info info_or_zero].
  cbv zeta. destruct (_ =? 0); [reflexivity|apply prepend_nil].
Qed.

(* after the type byte and a complete header the parser waits for the body, or has emitted
   the packet if the length field is 0 *)
Lemma feed_packet_header : forall t ty i h d, lookup t ty = Some i ->
  0 < i_ls i + i_lo i -> 0 <= i_lo i -> len h = i_ls i + i_lo i ->
  feed t reset (ty :: h ++ d) =
  let L := le_decode (take (i_us i) (drop (i_lo i) h)) in
  if L =? 0 then prepend [Packet (ty :: h)] (feed t reset d)
  else feed t (mkP NeedBody L (ty :: h) (Some i)) d.
Proof.
  intros t ty i h d Hl Hhs Hlo Hh. rewrite (feed_type_ok _ _ _ _ Hl), feed_header by assumption.
  cbv zeta. change ([ty] ++ h) with (ty :: h). rewrite drop_cons by assumption. reflexivity.
Qed.

(* a well-formed packet at a packet boundary is emitted whole, whatever follows it
   in the same call; the parser is back in its initial state right after it *)
Lemma feed_packet : forall t p d, wf_table t = true -> wf_packet t p = true ->
  feed t reset (p ++ d) = prepend [Packet p] (feed t reset d).
Proof.
  intros t p d Ht Hp.
  destruct (wf_packet_shape _ _ Ht Hp) as (ty & i & h & b & -> & Hl & H1 & H2 & H3 & Hh & Hb & Hok).
  change ((ty :: h ++ b) ++ d) with (ty :: (h ++ b) ++ d).
  rewrite <- app_assoc, (feed_packet_header _ _ _ _ _ Hl) by (assumption || lia).
  cbv zeta. rewrite H3, <- Hb. destruct (len b =? 0) eqn:Hz.
  - apply Z.eqb_eq, len_zero in Hz. subst b. rewrite app_nil_r. reflexivity.
  - rewrite feed_body by len_lia. reflexivity.
Qed.

(* a proper prefix of a well-formed packet produces no output and no error *)
Lemma feed_partial : forall t p q r, wf_table t = true -> wf_packet t p = true ->
  p = q ++ r -> r <> [] -> exists s, feed t reset q = (s, [], Ok) /\ is_init s = (len q =? 0).
Proof.
  intros t p q r Ht Hp Hq Hr.
  destruct (wf_packet_shape _ _ Ht Hp) as (ty & i & h & b & -> & Hl & H1 & H2 & H3 & Hh & Hb & Hok).
  destruct q as [|ty' q1]; [exists reset; split; reflexivity|].
  injection Hq as <- Hq.
  cmp_is (len (ty :: q1) =? 0) false.
  destruct (Z_lt_le_dec (len q1) (i_ls i + i_lo i)) as [Hs|Hge].
  - rewrite (feed_type_ok _ _ _ _ Hl), feed_short by assumption. eexists. split; reflexivity.
  - destruct (split_at (i_ls i + i_lo i) q1) as (h' & q2 & -> & Hh'); [lia|].
    rewrite <- app_assoc in Hq.
    destruct (app_eq_len h h' b (q2 ++ r)) as [<- Hbq]; [lia|assumption|].
    assert (len q2 < len b) by (destruct r; [congruence|rewrite Hbq; len_lia]).
    rewrite (feed_packet_header _ _ _ _ _ Hl) by (assumption || lia).
    cbv zeta. rewrite H3, <- Hb. cmp_is (len b =? 0) false.
    rewrite feed_short by assumption. eexists. split; reflexivity.
Qed.

Lemma feed_stream : forall t pkts d, wf_table t = true -> forallb (wf_packet t) pkts = true ->
  feed t reset (concat pkts ++ d) = prepend (map Packet pkts) (feed t reset d).
Proof.
  intros t pkts d Ht. induction pkts as [|p pkts IH]; intros H.
  - simpl. rewrite prepend_nil. reflexivity.
  - simpl in H. apply andb_true_iff in H. destruct H as [Hp Hr].
    simpl concat. rewrite <- app_assoc, feed_packet, IH by assumption.
    rewrite prepend_prepend. reflexivity.
Qed.

Lemma feed_stream_all : forall t pkts, wf_table t = true -> forallb (wf_packet t) pkts = true ->
  feed t reset (concat pkts) = (reset, map Packet pkts, Ok).
Proof.
  intros. rewrite <- (app_nil_r (concat pkts)), feed_stream, feed_nil by assumption.
  simpl. rewrite app_nil_r. reflexivity.
Qed.

Lemma wf_packet_nonempty : forall t p, wf_packet t p = true -> 1 <= len p.
Proof. intros t [|x p] H; [discriminate|len_lia]. Qed.

(* after any prefix of a stream exactly the packets wholly inside it have been emitted *)
Lemma feed_prefix : forall t pkts pre rest, wf_table t = true ->
  forallb (wf_packet t) pkts = true -> concat pkts = pre ++ rest ->
  exists s, feed t reset pre = (s, map Packet (whole_within pkts (len pre)), Ok).
Proof.
  intros t pkts. induction pkts as [|p pkts IH]; intros pre rest Ht H Hc.
  - simpl in Hc. destruct pre; [|discriminate]. exists reset. reflexivity.
  - simpl in H. apply andb_true_iff in H. destruct H as [Hp Hr].
    simpl in Hc. cbn [whole_within].
    destruct (len p <=? len pre) eqn:Hle.
    + apply Z.leb_le in Hle.
      destruct (app_eq_cut p pre (concat pkts) rest Hc Hle) as (m & -> & Hm).
      destruct (IH m rest Ht Hr Hm) as (s & Hs).
      exists s. rewrite feed_packet, Hs by assumption. simpl.
      rewrite len_app. replace (len p + len m - len p) with (len m) by lia. reflexivity.
    + apply Z.leb_gt in Hle.
      destruct (app_eq_cut pre p rest (concat pkts) (eq_sym Hc)) as (m & Hpm & Hm); [lia|].
      destruct (feed_partial t p pre m Ht Hp Hpm) as (s & Hs & _).
      { intros ->. rewrite app_nil_r in Hpm. subst. lia. }
      exists s. assumption.
Qed.

Lemma feeds_app : forall t c1 c2 s,
  feeds t s (c1 ++ c2) =
  let '(s1, o1) := feeds t s c1 in let '(s2, o2) := feeds t s1 c2 in (s2, o1 ++ o2).
Proof.
  intros t c1. induction c1 as [|c c1 IH]; intros c2 s.
  - simpl. destruct (feeds t s c2). reflexivity.
  - simpl. destruct (feed t s c) as [[s1 o1] st1]. rewrite IH.
    destruct (feeds t s1 c1) as [s2 o2]. destruct (feeds t s2 c2) as [s3 o3]. reflexivity.
Qed.

(* as long as nothing raises, feeding chunk by chunk is feeding the concatenation *)
Lemma feeds_concat : forall t chunks s s' o,
  feed t s (concat chunks) = (s', o, Ok) ->
  fst (feeds t s chunks) = s' /\ concat (snd (feeds t s chunks)) = o.
Proof.
  intros t chunks. induction chunks as [|c chunks IH]; intros s s' o H.
  - simpl in H. inversion H. auto.
  - simpl concat in H. rewrite feed_app in H. simpl.
    destruct (feed t s c) as [[s1 o1] st1]. simpl in H.
    destruct st1; try discriminate.
    destruct (feed t s1 (concat chunks)) as [[s2 o2] st2] eqn:H2. simpl in H.
    inversion H; subst. destruct (IH s1 s' o2 H2) as [Hs Ho].
    destruct (feeds t s1 chunks) as [s3 o3]. simpl in *. subst. auto.
Qed.

Lemma chunking_irrelevant : forall t pkts chunks, wf_table t = true ->
  forallb (wf_packet t) pkts = true -> concat chunks = concat pkts ->
  fst (feeds t reset chunks) = reset /\
  concat (snd (feeds t reset chunks)) = map Packet pkts.
Proof.
  intros t pkts chunks Ht H Hc. apply feeds_concat. rewrite Hc.
  apply feed_stream_all; assumption.
Qed.

(* none early, none late: after any number of chunks *)
Lemma none_early : forall t pkts chunks1 rest, wf_table t = true ->
  forallb (wf_packet t) pkts = true -> concat pkts = concat chunks1 ++ rest ->
  concat (snd (feeds t reset chunks1)) = map Packet (whole_within pkts (len (concat chunks1))).
Proof.
  intros t pkts chunks1 rest Ht H Hc.
  destruct (feed_prefix t pkts (concat chunks1) rest Ht H Hc) as (s & Hs).
  apply (feeds_concat t chunks1 reset s _ Hs).
Qed.

Lemma feed_stream_then_bad : forall t pkts bad junk, wf_table t = true ->
  forallb (wf_packet t) pkts = true -> lookup t bad = None ->
  feed t reset (concat pkts ++ bad :: junk) = (reset, map Packet pkts ++ [Error bad], Raised).
Proof.
  intros. rewrite feed_stream, feed_type_bad by assumption. reflexivity.
Qed.

(* An unknown type byte at a packet boundary, in a chunk that may start inside a packet
   and is preceded by any chunking of the stream before it: the packets before it are
   delivered, one error is reported, the rest of that chunk is discarded, the parser is
   back in its initial state and the chunks fed afterwards are framed correctly. *)
Lemma error_then_recover : forall t pkts1 chunks1 post bad junk pkts2 chunks2,
  wf_table t = true ->
  forallb (wf_packet t) pkts1 = true -> forallb (wf_packet t) pkts2 = true ->
  concat pkts1 = concat chunks1 ++ post -> lookup t bad = None ->
  concat chunks2 = concat pkts2 ->
  let '(s, outs) := feeds t reset (chunks1 ++ [post ++ bad :: junk] ++ chunks2) in
  s = reset /\ concat outs = map Packet pkts1 ++ [Error bad] ++ map Packet pkts2.
Proof.
  intros t pkts1 chunks1 post bad junk pkts2 chunks2 Ht H1 H2 Hc1 Hbad Hc2.
  pose proof (feed_stream_then_bad t pkts1 bad junk Ht H1 Hbad) as Hall.
  rewrite Hc1, <- app_assoc, feed_app in Hall.
  destruct (feed_prefix t pkts1 (concat chunks1) post Ht H1 Hc1) as (sA & HA).
  rewrite HA in Hall. simpl in Hall.
  destruct (feeds_concat t chunks1 reset sA _ HA) as [HsA HoA].
  rewrite feeds_app.
  destruct (feeds t reset chunks1) as [s1 o1]. simpl in HsA, HoA. subst s1.
  cbn [app feeds].
  destruct (feed t sA (post ++ bad :: junk)) as [[sB oB] stB]. simpl in Hall.
  inversion Hall as [[HsB Hcat HstB]]. subst sB stB.
  destruct (chunking_irrelevant t pkts2 chunks2 Ht H2 Hc2) as [Hs2 Ho2].
  destruct (feeds t reset chunks2) as [s2 o2]. simpl in Hs2, Ho2.
  split; [assumption|].
  rewrite concat_app. cbn [concat]. rewrite HoA, Ho2, app_assoc, Hcat.
  rewrite <- app_assoc. reflexivity.
Qed.

(* whatever state an error is raised from, the parser is in its initial state afterwards,
   so any well-formed stream fed afterwards (in any chunking) is framed correctly *)
Lemma recover_after_any_error : forall t s d s' o pkts chunks, wf_table t = true ->
  feed t s d = (s', o, Raised) ->
  forallb (wf_packet t) pkts = true -> concat chunks = concat pkts ->
  fst (feeds t s' chunks) = reset /\ concat (snd (feeds t s' chunks)) = map Packet pkts.
Proof.
  intros t s d s' o pkts chunks Ht Hr Hp Hc.
  destruct (feed_raise_resets _ _ _ _ _ Hr) as [-> _].
  apply chunking_irrelevant; assumption.
Qed.

Lemma srv_run_app : forall t a b s,
  srv_run t s (a ++ b) =
  let '(s1, o1) := srv_run t s a in let '(s2, o2) := srv_run t s1 b in (s2, o1 ++ o2).
Proof.
  intros t a. induction a as [|x a IH]; intros b s.
  - simpl. destruct (srv_run t s b). reflexivity.
  - simpl. destruct (srv_step t s x) as [s1 o1]. rewrite IH.
    destruct (srv_run t s1 a) as [s2 o2]. destruct (srv_run t s2 b) as [s3 o3]. reflexivity.
Qed.

Lemma srv_run_data : forall t chunks s, srv_run t s (map Data chunks) = feeds t s chunks.
Proof.
  intros t chunks. induction chunks as [|c chunks IH]; intros s; [reflexivity|].
  simpl. destruct (feed t s c) as [[s1 o1] st1]. rewrite IH. reflexivity.
Qed.

(* a new client is framed from the initial state, whatever state the shared parser was
   left in *)
Lemma new_client_fresh_state : forall t s pkts chunks, wf_table t = true ->
  forallb (wf_packet t) pkts = true -> concat chunks = concat pkts ->
  let '(s', outs) := srv_run t s (Connect :: map Data chunks) in
  s' = reset /\ concat outs = map Packet pkts.
Proof.
  intros t s pkts chunks Ht H Hc. cbn [srv_run srv_step]. rewrite srv_run_data.
  destruct (chunking_irrelevant t pkts chunks Ht H Hc) as [Hs Ho].
  destruct (feeds t reset chunks) as [s2 o2]. simpl in *. auto.
Qed.

(* ... in particular after any history of earlier clients, the last of which was cut off
   at an arbitrary byte position *)
Lemma new_client_fresh : forall t history pkts chunks, wf_table t = true ->
  forallb (wf_packet t) pkts = true -> concat chunks = concat pkts ->
  let '(_, outs0) := srv_run t reset (history ++ [Lost]) in
  let '(s', outs) := srv_run t reset ((history ++ [Lost]) ++ Connect :: map Data chunks) in
  s' = reset /\ concat outs = concat outs0 ++ map Packet pkts.
Proof.
  intros t history pkts chunks Ht H Hc. generalize (history ++ [Lost]). intros h1.
  rewrite srv_run_app.
  destruct (srv_run t reset h1) as [s1 o1].
  pose proof (new_client_fresh_state t s1 pkts chunks Ht H Hc) as Hn.
  destruct (srv_run t s1 (Connect :: map Data chunks)) as [s2 o2].
  cbv beta iota in Hn. destruct Hn as [Hs Ho]. split; [assumption|]. rewrite concat_app, Ho. reflexivity.
Qed.

Definition payloads (msgs : list (option (list Z))) : list Z :=
  concat (map (fun m => match m with Some b => b | None => [] end) msgs).

(* as long as nothing raises, the WebSocket handler feeds the binary messages like chunks
   (a text message is an empty chunk) *)
Lemma ws_messages_feeds : forall t msgs s s' o,
  feed t s (payloads msgs) = (s', o, Ok) ->
  ws_messages t s msgs =
  feeds t s (map (fun m => match m with Some b => b | None => [] end) msgs).
Proof.
  intros t msgs. induction msgs as [|[m|] msgs IH]; intros s s' o H; [reflexivity| |].
  - change (payloads (Some m :: msgs)) with (m ++ payloads msgs) in H.
    rewrite feed_app in H. simpl.
    destruct (feed t s m) as [[s1 o1] [| |]]; try discriminate H. simpl in H.
    destruct (feed t s1 (payloads msgs)) as [[s2 o2] st2] eqn:H2. inversion H; subst.
    rewrite (IH _ _ _ H2). reflexivity.
  - simpl. rewrite (IH _ _ _ H). reflexivity.
Qed.

(* WebSocket server: the binary messages of a new connection (text messages in between
   are ignored) are framed from the initial state whatever the previous connection left *)
Lemma ws_new_client_fresh : forall t s pkts msgs, wf_table t = true ->
  forallb (wf_packet t) pkts = true -> payloads msgs = concat pkts ->
  let '(s', outs) := ws_connection t s msgs in
  s' = reset /\ concat outs = map Packet pkts.
Proof.
  intros t s pkts msgs Ht H Hc. unfold ws_connection.
  pose proof (feed_stream_all t pkts Ht H) as Hall. rewrite <- Hc in Hall.
  rewrite (ws_messages_feeds _ _ _ _ _ Hall).
  destruct (chunking_irrelevant t pkts _ Ht H Hc) as [Hs Ho].
  destruct (feeds t reset _) as [s2 o2]. auto.
Qed.

(* a packet without its type byte, as a USB endpoint carries it *)
Section Endpoint.
Variables lo ls : Z.
Hypothesis Hlo : 0 <= lo.
Hypothesis Hls : 1 <= ls.

Lemma wf_endpoint_facts : forall e, wf_endpoint_packet lo ls e = true ->
  bytes_ok e = true /\ lo + ls <= len e /\
  len e = lo + ls + le_decode (take ls (drop lo e)).
Proof.
  intros e H. unfold wf_endpoint_packet in H. cbv zeta in H.
  apply andb_true_iff in H. destruct H as [H H3].
  apply andb_true_iff in H. destruct H as [H1 H2]. split; [assumption|lia].
Qed.

Lemma wf_endpoint_nonempty : forall e, wf_endpoint_packet lo ls e = true -> 0 < len e.
Proof. intros e He. destruct (wf_endpoint_facts _ He) as (_ & H & _). lia. Qed.

Lemma wf_endpoint_intro : forall h b, bytes_ok h = true -> bytes_ok b = true ->
  len h = lo + ls -> len b = le_decode (take ls (drop lo h)) ->
  wf_endpoint_packet lo ls (h ++ b) = true.
Proof.
  intros h b Hh Hb Hlh Hlb. unfold wf_endpoint_packet. cbv zeta.
  rewrite bytes_ok_app, Hh, Hb, field_app by lia. cbn [andb].
  apply andb_true_iff. split; [apply Z.leb_le|apply Z.eqb_eq]; len_lia.
Qed.

(* every byte string ends inside a header, ends inside a body, or starts with a
   well-formed packet *)
Lemma endpoint_classify : forall d, bytes_ok d = true ->
  len d < lo + ls \/
  (exists h r2, d = h ++ r2 /\ bytes_ok h = true /\ bytes_ok r2 = true /\
     len h = lo + ls /\ len r2 < le_decode (take ls (drop lo h))) \/
  (exists e rest, d = e ++ rest /\ wf_endpoint_packet lo ls e = true /\ bytes_ok rest = true).
Proof.
  intros d Hd.
  destruct (Z_lt_le_dec (len d) (lo + ls)) as [Hs|Hge]; [left; assumption|right].
  destruct (split_at (lo + ls) d) as (h & r2 & -> & Hh); [lia|].
  apply bytes_ok_app_inv in Hd. destruct Hd as [Hbh Hd].
  pose proof (field_nonneg lo ls h Hbh) as HL.
  destruct (Z_lt_le_dec (len r2) (le_decode (take ls (drop lo h)))) as [Hs|Hge2];
    [left; exists h, r2; auto|right].
  destruct (split_at _ r2 (conj HL Hge2)) as (b & rest & -> & Hb).
  apply bytes_ok_app_inv in Hd. destruct Hd as [Hbb Hrest].
  exists (h ++ b), rest. split; [apply app_assoc|]. split; [|assumption].
  apply wf_endpoint_intro; assumption.
Qed.

End Endpoint.

(* an HCI packet of type ty is the type byte followed by a well-formed endpoint packet *)
Lemma wf_packet_cons : forall t ty i e, lookup t ty = Some i ->
  wf_packet t (ty :: e) = byte_ok ty && wf_endpoint_packet (i_lo i) (i_ls i) e.
Proof.
  intros t ty i e Hl. unfold wf_packet, wf_endpoint_packet. rewrite Hl. cbv zeta.
  rewrite (Z.add_comm (i_ls i)). cbn [bytes_ok forallb]. rewrite <- !andb_assoc. reflexivity.
Qed.

Lemma pr_next_nil : forall t, pr_next t [] = (RAtEnd, []).
Proof. reflexivity. Qed.

Lemma pr_next_cons : forall t ty r,
  pr_next t (ty :: r) =
  match lookup t ty with
  | None => (RInvalid ty, r)
  | Some i =>
      let hs := i_ls i + i_lo i in
      if negb (len (take hs r) =? hs) then (RTooShort, drop hs r)
      else
        let L := le_decode (take (i_us i) (drop (i_lo i) (take hs r))) in
        if negb (len (take L (drop hs r)) =? L) then (RTooShort, drop L (drop hs r))
        else (RPacket ([ty] ++ take hs r ++ take L (drop hs r)), drop L (drop hs r))
  end.
Proof. reflexivity. Qed.

Lemma pr_next_bad : forall t ty r, lookup t ty = None -> pr_next t (ty :: r) = (RInvalid ty, r).
Proof. intros. rewrite pr_next_cons, H. reflexivity. Qed.

Lemma pr_next_short_header : forall t ty i r, lookup t ty = Some i -> len r < i_ls i + i_lo i ->
  pr_next t (ty :: r) = (RTooShort, []).
Proof.
  intros. rewrite pr_next_cons, H. cbv zeta. rewrite take_all, (drop_all _ r) by lia.
  cmp_is (len r =? i_ls i + i_lo i) false. reflexivity.
Qed.

Lemma pr_next_header : forall t ty i h r, lookup t ty = Some i -> len h = i_ls i + i_lo i ->
  pr_next t (ty :: h ++ r) =
  let L := le_decode (take (i_us i) (drop (i_lo i) h)) in
  if negb (len (take L r) =? L) then (RTooShort, drop L r)
  else (RPacket (ty :: h ++ take L r), drop L r).
Proof.
  intros t ty i h r Hl Hh. rewrite pr_next_cons, Hl. cbv zeta.
  rewrite <- Hh, take_app_len, drop_app_len, Z.eqb_refl. reflexivity.
Qed.

Lemma pr_next_short_body : forall t ty i h r2, lookup t ty = Some i ->
  len h = i_ls i + i_lo i -> len r2 < le_decode (take (i_us i) (drop (i_lo i) h)) ->
  pr_next t (ty :: h ++ r2) = (RTooShort, []).
Proof.
  intros t ty i h r2 Hl Hh Hr. rewrite (pr_next_header _ _ _ _ _ Hl Hh). cbv zeta.
  rewrite take_all, (drop_all _ r2) by lia.
  cmp_is (len r2 =? le_decode (take (i_us i) (drop (i_lo i) h))) false. reflexivity.
Qed.

Lemma pr_next_packet : forall t p d, wf_table t = true -> wf_packet t p = true ->
  pr_next t (p ++ d) = (RPacket p, d).
Proof.
  intros t p d Ht Hp.
  destruct (wf_packet_shape _ _ Ht Hp) as (ty & i & h & b & -> & Hl & H1 & H2 & H3 & Hh & Hb & Hok).
  change ((ty :: h ++ b) ++ d) with (ty :: (h ++ b) ++ d).
  rewrite <- app_assoc, (pr_next_header _ _ _ _ _ Hl Hh). cbv zeta.
  rewrite H3, <- Hb, take_app_len, drop_app_len, Z.eqb_refl. reflexivity.
Qed.

Lemma push_summary_nil : forall t, push_summary t [] = ([], RAtEnd).
Proof. reflexivity. Qed.

Lemma push_summary_bad : forall t ty r, lookup t ty = None ->
  push_summary t (ty :: r) = ([], RInvalid ty).
Proof. intros. unfold push_summary. rewrite feed_type_bad by assumption. reflexivity. Qed.

Lemma push_summary_short_header : forall t ty i r, lookup t ty = Some i ->
  len r < i_ls i + i_lo i -> push_summary t (ty :: r) = ([], RTooShort).
Proof.
  intros. unfold push_summary. rewrite (feed_type_ok _ _ _ _ H), feed_short by assumption.
  reflexivity.
Qed.

Lemma push_summary_short_body : forall t ty i h r2, lookup t ty = Some i ->
  0 < i_ls i + i_lo i -> 0 <= i_lo i ->
  len h = i_ls i + i_lo i -> len r2 < le_decode (take (i_us i) (drop (i_lo i) h)) ->
  push_summary t (ty :: h ++ r2) = ([], RTooShort).
Proof.
  intros t ty i h r2 Hl Hhs Hlo Hh Hr. unfold push_summary.
  rewrite (feed_packet_header _ _ _ _ _ Hl) by assumption. cbv zeta.
  cmp_is (le_decode (take (i_us i) (drop (i_lo i) h)) =? 0) false.
  rewrite feed_short by assumption. reflexivity.
Qed.

Lemma push_summary_packet : forall t p d, wf_table t = true -> wf_packet t p = true ->
  push_summary t (p ++ d) = let '(ps, e) := push_summary t d in (p :: ps, e).
Proof.
  intros. unfold push_summary. rewrite feed_packet by assumption.
  destruct (feed t reset d) as [[s o] st]. reflexivity.
Qed.

(* every byte string is empty, starts with an unknown type, ends inside a header, ends
   inside a body, or starts with a well-formed packet *)
Lemma classify : forall t data, wf_table t = true -> bytes_ok data = true ->
  data = [] \/
  (exists ty r, data = ty :: r /\ lookup t ty = None) \/
  (exists ty i r, data = ty :: r /\ lookup t ty = Some i /\ len r < i_ls i + i_lo i) \/
  (exists ty i h r2, data = ty :: h ++ r2 /\ lookup t ty = Some i /\
     0 < i_ls i + i_lo i /\ 0 <= i_lo i /\ len h = i_ls i + i_lo i /\
     len r2 < le_decode (take (i_us i) (drop (i_lo i) h))) \/
  (exists p rest, data = p ++ rest /\ wf_packet t p = true).
Proof.
  intros t [|ty r] Ht Hok; [left; reflexivity|right].
  destruct (lookup t ty) as [i|] eqn:Hl; [right|left; exists ty, r; split; [reflexivity|assumption]].
  destruct (lookup_wf _ _ _ Ht Hl) as (H1 & H2 & H3).
  change (ty :: r) with ([ty] ++ r) in Hok. apply bytes_ok_app_inv in Hok. destruct Hok as [Hty Hok].
  destruct (endpoint_classify (i_lo i) (i_ls i) H2 H1 r Hok)
    as [Hs|[(h & r2 & -> & _ & _ & Hh & Hs)|(e & rest & -> & He & _)]].
  - left. exists ty, i, r. repeat split; assumption || lia.
  - right. left. exists ty, i, h, r2. rewrite H3. repeat split; assumption || lia.
  - right. right. exists (ty :: e), rest. split; [reflexivity|].
    rewrite (wf_packet_cons _ _ _ _ Hl), He. exact Hty.
Qed.

(* The blocking pull reader and the push parser agree on EVERY byte string (not only
   well-formed streams): same packets, same kind of ending. *)
Lemma pull_push_agree_n : forall t n data, wf_table t = true -> bytes_ok data = true ->
  (length data < n)%nat -> pull_all (pr_next t) n data = push_summary t data.
Proof.
  induction n as [|n IH]; intros data Ht Hok Hn; [lia|].
  cbn [pull_all].
  destruct (classify t data Ht Hok) as
    [-> | [(ty & r & -> & Hl) | [(ty & i & r & -> & Hl & Hs) |
     [(ty & i & h & r2 & -> & Hl & Hhs & Hlo & Hh & Hs) | (p & rest & -> & Hp)]]]].
  - rewrite pr_next_nil, push_summary_nil. reflexivity.
  - rewrite pr_next_bad, push_summary_bad by assumption. reflexivity.
  - rewrite (pr_next_short_header _ _ _ _ Hl Hs), (push_summary_short_header _ _ _ _ Hl Hs).
    reflexivity.
  - rewrite (pr_next_short_body _ _ _ _ _ Hl Hh Hs), (push_summary_short_body _ _ _ _ _ Hl Hhs Hlo Hh Hs).
    reflexivity.
  - rewrite pr_next_packet, push_summary_packet by assumption.
    rewrite IH; [reflexivity|assumption|apply (bytes_ok_app_inv _ _ Hok)|].
    pose proof (wf_packet_nonempty _ _ Hp). rewrite app_length in Hn. len_lia.
Qed.

Lemma pull_push_agree : forall t data, wf_table t = true -> bytes_ok data = true ->
  pr_all t data = push_summary t data.
Proof. intros. apply pull_push_agree_n; try assumption. lia. Qed.

(* the asynchronous reader differs only in reporting a clean end as an incomplete read *)
Lemma apr_all_pr_all_n : forall t n data,
  pull_all (apr_next t) n data =
  let '(ps, e) := pull_all (pr_next t) n data in (ps, async_end e).
Proof.
  induction n as [|n IH]; intros data; [reflexivity|].
  cbn [pull_all]. unfold apr_next.
  destruct (pr_next t data) as [[p| |ty| |] rest]; try reflexivity.
  rewrite IH. destruct (pull_all (pr_next t) n rest). reflexivity.
Qed.

Lemma async_pull_push_agree : forall t data, wf_table t = true -> bytes_ok data = true ->
  apr_all t data = let '(ps, e) := push_summary t data in (ps, async_end e).
Proof.
  intros. unfold apr_all. rewrite apr_all_pr_all_n.
  fold (pr_all t data). rewrite pull_push_agree by assumption. reflexivity.
Qed.

(* on a stream of well-formed packets both pull readers return exactly the packets *)
Lemma pull_stream : forall t pkts, wf_table t = true -> forallb (wf_packet t) pkts = true ->
  bytes_ok (concat pkts) = true /\
  pr_all t (concat pkts) = (pkts, RAtEnd) /\ apr_all t (concat pkts) = (pkts, RTooShort).
Proof.
  intros t pkts Ht H.
  assert (Hok : bytes_ok (concat pkts) = true).
  { apply bytes_ok_concat. rewrite forallb_forall in *. intros p Hp.
    destruct (wf_packet_shape _ _ Ht (H p Hp)) as (ty & i & h & b & _ & _ & _ & _ & _ & _ & _ & Hb).
    exact Hb. }
  assert (Hs : push_summary t (concat pkts) = (pkts, RAtEnd)).
  { unfold push_summary. rewrite feed_stream_all by assumption. cbn [is_init reset p_st p_pkt p_info p_needed].
    f_equal. clear. induction pkts; simpl; congruence. }
  split; [assumption|]. split.
  - rewrite pull_push_agree by assumption. assumption.
  - rewrite async_pull_push_agree, Hs by assumption. reflexivity.
Qed.

Definition zeros (k : Z) : list Z := repeat 0 (Z.to_nat k).

Lemma len_zeros : forall k, 0 <= k -> len (zeros k) = k.
Proof. intros. unfold zeros, len. rewrite repeat_length. lia. Qed.

Lemma bytes_ok_zeros : forall k, bytes_ok (zeros k) = true.
Proof. intros. unfold zeros. induction (Z.to_nat k); simpl; auto. Qed.

Section Splitter.
Variables lo ls : Z.
Hypothesis Hlo : 0 <= lo.
Hypothesis Hls : 1 <= ls.

Local Notation plen pkt := (lo + ls + le_decode (take ls (drop lo pkt))).

(* once the header is complete the packet length is known *)
Lemma plen_prefix : forall e p x, wf_endpoint_packet lo ls e = true -> e = p ++ x ->
  lo + ls <= len p -> plen p = len e.
Proof.
  intros e p x He -> Hp. destruct (wf_endpoint_facts lo ls _ He) as (_ & _ & Hl).
  rewrite Hl. rewrite field_app by lia. reflexivity.
Qed.

(* a chunk that ends strictly inside the current packet is only accumulated *)
Lemma split_iter_partial : forall e pkt d r', wf_endpoint_packet lo ls e = true ->
  e = pkt ++ d ++ r' -> r' <> [] -> split_iter lo ls pkt d = (pkt ++ d, [], []).
Proof.
  intros e pkt d r' He Heq Hr.
  destruct (wf_endpoint_facts lo ls _ He) as (_ & Hhs & _).
  assert (Hlen : len pkt + len d < len e) by (destruct r'; [congruence|rewrite Heq; len_lia]).
  unfold split_iter.
  destruct (0 <? lo + ls - len pkt) eqn:Hbn.
  - apply Z.ltb_lt in Hbn.
    destruct (Z_lt_le_dec (len pkt + len d) (lo + ls)) as [Hs|Hge].
    + rewrite take_all, drop_all by lia.
      cmp_is (len (pkt ++ d) <? lo + ls) true. reflexivity.
    + destruct (split_at (lo + ls - len pkt) d) as (a & d2 & -> & Ha); [len_lia|].
      rewrite <- Ha, take_app_len, drop_app_len.
      cmp_is (len (pkt ++ a) <? lo + ls) false.
      rewrite (plen_prefix e (pkt ++ a) (d2 ++ r') He)
        by (rewrite ?Heq, <- ?app_assoc; reflexivity || len_lia).
      rewrite take_all, drop_all by len_lia.
      cmp_is (len ((pkt ++ a) ++ d2) =? len e) false.
      rewrite <- app_assoc. reflexivity.
  - apply Z.ltb_ge in Hbn.
    rewrite (plen_prefix e pkt (d ++ r') He Heq) by lia.
    rewrite take_all, drop_all by lia.
    cmp_is (len (pkt ++ d) =? len e) false. reflexivity.
Qed.

(* a chunk that contains the rest of the current packet completes it in one iteration *)
Lemma split_iter_complete : forall e pkt r1 c', wf_endpoint_packet lo ls e = true ->
  e = pkt ++ r1 -> r1 <> [] -> split_iter lo ls pkt (r1 ++ c') = ([], [e], c').
Proof.
  intros e pkt r1 c' He Heq Hr.
  destruct (wf_endpoint_facts lo ls _ He) as (_ & Hhs & _).
  assert (Hlen : len e = len pkt + len r1) by (rewrite Heq; len_lia).
  unfold split_iter.
  destruct (0 <? lo + ls - len pkt) eqn:Hbn.
  - apply Z.ltb_lt in Hbn.
    destruct (split_at (lo + ls - len pkt) r1) as (a & r2 & -> & Ha); [len_lia|].
    rewrite <- app_assoc, <- Ha, take_app_len, drop_app_len.
    cmp_is (len (pkt ++ a) <? lo + ls) false.
    rewrite app_assoc in Heq.
    rewrite (plen_prefix e (pkt ++ a) r2 He Heq) by len_lia.
    replace (len e - len (pkt ++ a)) with (len r2) by len_lia.
    rewrite take_app_len, drop_app_len, <- Heq, Z.eqb_refl. reflexivity.
  - apply Z.ltb_ge in Hbn.
    rewrite (plen_prefix e pkt r1 He Heq) by lia.
    replace (len e - len pkt) with (len r1) by lia.
    rewrite take_app_len, drop_app_len, <- Heq, Z.eqb_refl. reflexivity.
Qed.

(* the state between chunks: [pkt] is a proper prefix of the next packet of [es], the
   packets not yet emitted; [rest] is what is still to be fed *)
Definition sinv (pkt rest : list Z) (es : list (list Z)) : Prop :=
  pkt ++ rest = concat es /\ forallb (wf_endpoint_packet lo ls) es = true /\
  match es with [] => True | e :: _ => len pkt < len e end.

Lemma sinv_head : forall pkt rest e es, sinv pkt rest (e :: es) ->
  wf_endpoint_packet lo ls e = true /\ forallb (wf_endpoint_packet lo ls) es = true /\
  exists r1, e = pkt ++ r1 /\ r1 <> [] /\ rest = r1 ++ concat es.
Proof.
  intros pkt rest e es (Hc & Hwf & Hl). simpl in Hwf. apply andb_true_iff in Hwf.
  destruct Hwf as [He Hes]. split; [assumption|]. split; [assumption|].
  simpl in Hc. destruct (app_eq_cut pkt e rest (concat es) Hc) as (m & Hm & Hr); [lia|].
  exists m. repeat split; try assumption. intros ->. rewrite app_nil_r in Hm. subst. lia.
Qed.

Lemma sinv_start : forall es, forallb (wf_endpoint_packet lo ls) es = true ->
  sinv [] (concat es) es.
Proof.
  intros es H. split; [reflexivity|]. split; [assumption|].
  destruct es as [|e es]; [exact I|]. simpl in H. apply andb_true_iff in H.
  pose proof (wf_endpoint_nonempty lo ls Hlo Hls e (proj1 H)). len_lia.
Qed.

Lemma split_loop_step : forall es pkt c rest fuel, sinv pkt (c ++ rest) es ->
  (length c < fuel)%nat ->
  exists pkt' outs es', split_loop lo ls fuel pkt c = (pkt', outs, Ok) /\
    es = outs ++ es' /\ sinv pkt' rest es'.
Proof.
  induction es as [|e es IH]; intros pkt c rest fuel Hinv Hf.
  - destruct Hinv as (Hc & _ & _). simpl in Hc.
    apply app_eq_nil in Hc. destruct Hc as [-> Hc]. apply app_eq_nil in Hc. destruct Hc as [-> ->].
    exists [], [], []. split; [destruct fuel; reflexivity|]. split; [reflexivity|].
    split; [reflexivity|]. split; [reflexivity|exact I].
  - destruct (sinv_head _ _ _ _ Hinv) as (He & Hes & r1 & Heq & Hr1 & Hrest).
    destruct (Z_lt_le_dec (len c) (len r1)) as [Hs|Hge].
    + (* the chunk ends inside e *)
      destruct (app_eq_cut c r1 rest (concat es) Hrest) as (r' & Hr' & Hrest'); [lia|].
      assert (r' <> []). { intros ->. rewrite app_nil_r in Hr'. subst. lia. }
      exists (pkt ++ c), [], (e :: es). split.
      * destruct c as [|x c]; [rewrite app_nil_r; destruct fuel; reflexivity|].
        destruct fuel as [|fuel]; [simpl in Hf; lia|].
        cbn [split_loop].
        rewrite (split_iter_partial e pkt (x :: c) r' He) by (subst; auto).
        destruct fuel; reflexivity.
      * split; [reflexivity|]. split; [|split].
        -- rewrite <- app_assoc. destruct Hinv as (Hc & _). exact Hc.
        -- simpl. rewrite He, Hes. reflexivity.
        -- rewrite Heq, Hr'. destruct r'; [congruence|len_lia].
    + (* the chunk completes e *)
      destruct (app_eq_cut r1 c (concat es) rest (eq_sym Hrest) Hge) as (c' & -> & Hc').
      destruct r1 as [|x r1]; [congruence|].
      destruct fuel as [|fuel]; [lia|].
      destruct (IH [] c' rest fuel) as (pkt' & outs & es' & Hrun & Hes' & Hinv').
      { rewrite <- Hc'. apply sinv_start, Hes. }
      { rewrite app_length in Hf. simpl in Hf. lia. }
      exists pkt', (e :: outs), es'. split.
      * change ((x :: r1) ++ c') with (x :: (r1 ++ c')).
        cbn [split_loop]. change (x :: r1 ++ c') with ((x :: r1) ++ c').
        rewrite (split_iter_complete e pkt (x :: r1) c' He Heq) by congruence.
        rewrite Hrun. reflexivity.
      * split; [simpl; rewrite Hes'; reflexivity|assumption].
Qed.

(* every call of the splitter terminates normally on such streams *)
Lemma split_feed_ok : forall es pkt c rest, sinv pkt (c ++ rest) es ->
  snd (split_feed lo ls pkt c) = Ok.
Proof.
  intros es pkt c rest Hinv.
  destruct (split_loop_step es pkt c rest (S (S (length c))) Hinv) as (p & o & e & Hrun & _); [lia|].
  unfold split_feed. rewrite Hrun. reflexivity.
Qed.

Lemma split_feeds_inv : forall chunks pkt rest es, sinv pkt (concat chunks ++ rest) es ->
  exists pkt' outs es', split_feeds lo ls pkt chunks = (pkt', outs) /\
    es = concat outs ++ es' /\ sinv pkt' rest es'.
Proof.
  induction chunks as [|c chunks IH]; intros pkt rest es Hinv.
  - exists pkt, [], es. auto.
  - simpl concat in Hinv. rewrite <- app_assoc in Hinv.
    destruct (split_loop_step es pkt c (concat chunks ++ rest) (S (S (length c))) Hinv)
      as (pkt1 & o1 & es1 & Hrun & Hes & Hinv1); [lia|].
    destruct (IH pkt1 rest es1 Hinv1) as (pkt2 & o2 & es2 & Hrun2 & Hes2 & Hinv2).
    exists pkt2, (o1 :: o2), es2. split.
    + cbn [split_feeds]. unfold split_feed. rewrite Hrun, Hrun2. reflexivity.
    + split; [|assumption]. simpl. rewrite <- app_assoc, <- Hes2. assumption.
Qed.

Lemma whole_within_done : forall E es pkt,
  match es with [] => pkt = [] | e :: _ => len pkt < len e end ->
  whole_within (E ++ es) (len (concat E ++ pkt)) = E.
Proof.
  induction E as [|e E IH]; intros es pkt Hes.
  - simpl. destruct es as [|e es]; [reflexivity|]. simpl.
    cmp_is (len e <=? len pkt) false. reflexivity.
  - cbn [app concat whole_within]. rewrite <- app_assoc, len_app.
    cmp_is (len e <=? len e + len (concat E ++ pkt)) true.
    replace (len e + len (concat E ++ pkt) - len e) with (len (concat E ++ pkt)) by lia.
    rewrite IH by assumption. reflexivity.
Qed.

(* complete description of the splitter after any chunks of a prefix of a packet stream:
   none early, none late, and the buffer holds the bytes of the packet under way *)
Lemma split_feeds_char : forall es chunks rest,
  forallb (wf_endpoint_packet lo ls) es = true -> concat es = concat chunks ++ rest ->
  exists pkt' outs, split_feeds lo ls [] chunks = (pkt', outs) /\
    concat outs = whole_within es (len (concat chunks)) /\
    concat chunks = concat (concat outs) ++ pkt'.
Proof.
  intros es chunks rest Hes Hc.
  destruct (split_feeds_inv chunks [] rest es) as (pkt' & outs & es' & Hrun & Hsplit & Hinv).
  { rewrite <- Hc. apply sinv_start, Hes. }
  exists pkt', outs. split; [assumption|].
  destruct Hinv as (Hc' & Hwf' & Hhd).
  assert (Hpre : concat chunks = concat (concat outs) ++ pkt').
  { rewrite Hsplit, concat_app, <- Hc', app_assoc in Hc.
    symmetry. apply (app_eq_len _ _ rest rest); [|assumption].
    apply (f_equal len) in Hc. len_lia. }
  split; [|assumption].
  rewrite Hpre at 1. rewrite Hsplit. symmetry. apply whole_within_done.
  destruct es' as [|e es']; [|assumption].
  simpl in Hc'. apply app_eq_nil in Hc'. tauto.
Qed.

Lemma split_none_early : forall es chunks1 rest,
  forallb (wf_endpoint_packet lo ls) es = true -> concat es = concat chunks1 ++ rest ->
  concat (snd (split_feeds lo ls [] chunks1)) = whole_within es (len (concat chunks1)).
Proof.
  intros es chunks1 rest Hes Hc.
  destruct (split_feeds_char es chunks1 rest Hes Hc) as (p & o & -> & H & _). exact H.
Qed.

Lemma split_chunking : forall es chunks,
  forallb (wf_endpoint_packet lo ls) es = true -> concat chunks = concat es ->
  fst (split_feeds lo ls [] chunks) = [] /\ concat (snd (split_feeds lo ls [] chunks)) = es.
Proof.
  intros es chunks Hes Hc.
  destruct (split_feeds_inv chunks [] [] es) as (pkt' & outs & es' & Hrun & Hsplit & Hinv).
  { rewrite app_nil_r, Hc. apply sinv_start, Hes. }
  rewrite Hrun. simpl. destruct Hinv as (Hc' & Hwf' & Hhd). rewrite app_nil_r in Hc'.
  destruct es' as [|e es'].
  - simpl in Hc'. subst pkt'. rewrite app_nil_r in Hsplit. auto.
  - exfalso. rewrite Hc' in Hhd. simpl in Hhd. len_lia.
Qed.

(* every byte string is a prefix of a stream of well-formed endpoint packets: a splitter
   has no invalid input, whatever it has seen is the beginning of some packet *)
Lemma endpoint_completion_n : forall n d, (length d <= n)%nat -> bytes_ok d = true ->
  exists es rest, forallb (wf_endpoint_packet lo ls) es = true /\ concat es = d ++ rest.
Proof.
  induction n as [|n IH]; intros d Hn Hd.
  - destruct d; [|simpl in Hn; lia]. exists [], []. auto.
  - destruct (endpoint_classify lo ls Hlo Hls d Hd)
      as [Hs|[(h & r2 & -> & Hh & Hd2 & Hlh & Hs)|(e & d3 & -> & He & Hd3)]].
    + (* inside the header: complete it with zeros, then a body of zeros *)
      set (h := d ++ zeros (lo + ls - len d)).
      assert (Hh : bytes_ok h = true) by (unfold h; rewrite bytes_ok_app, Hd, bytes_ok_zeros; reflexivity).
      assert (Hlh : len h = lo + ls) by (unfold h; rewrite len_app, len_zeros; len_lia).
      pose proof (field_nonneg lo ls h Hh) as HL.
      exists [h ++ zeros (le_decode (take ls (drop lo h)))],
             (zeros (lo + ls - len d) ++ zeros (le_decode (take ls (drop lo h)))). split.
      * cbn [forallb]. rewrite wf_endpoint_intro; auto using bytes_ok_zeros. rewrite len_zeros; auto.
      * simpl. rewrite app_nil_r. unfold h. rewrite <- app_assoc. reflexivity.
    + (* inside the body *)
      set (L := le_decode (take ls (drop lo h))) in *.
      exists [h ++ r2 ++ zeros (L - len r2)], (zeros (L - len r2)). split.
      * cbn [forallb]. rewrite wf_endpoint_intro; auto.
        -- rewrite bytes_ok_app, Hd2, bytes_ok_zeros. reflexivity.
        -- rewrite len_app, len_zeros by lia. fold L. lia.
      * simpl. rewrite app_nil_r, <- !app_assoc. reflexivity.
    + destruct (IH d3) as (es & rest & Hes & Hc); [|assumption|].
      { destruct (wf_endpoint_facts lo ls e He) as (_ & Hl & _).
        rewrite app_length in Hn. len_lia. }
      exists (e :: es), rest. split.
      * cbn [forallb]. rewrite Hes, He. reflexivity.
      * simpl. rewrite Hc, <- app_assoc. reflexivity.
Qed.

Lemma endpoint_completion : forall d, bytes_ok d = true ->
  exists es rest, forallb (wf_endpoint_packet lo ls) es = true /\ concat es = d ++ rest.
Proof. intros d. apply (endpoint_completion_n (length d)). lia. Qed.

(* chunking irrelevance of the splitter on EVERY byte string: any chunking gives the
   packets and the left-over buffer of a single call *)
Lemma split_any_chunking : forall chunks, forallb bytes_ok chunks = true ->
  let '(p1, o1, st1) := split_feed lo ls [] (concat chunks) in
  st1 = Ok /\ fst (split_feeds lo ls [] chunks) = p1 /\
  concat (snd (split_feeds lo ls [] chunks)) = o1.
Proof.
  intros chunks Hok.
  destruct (endpoint_completion _ (bytes_ok_concat _ Hok)) as (es & rest & Hes & Hc).
  destruct (split_feeds_char es chunks rest Hes Hc) as (pa & oa & Hra & Hoa & Hpa).
  assert (Hc1 : concat es = concat [concat chunks] ++ rest) by (simpl; rewrite app_nil_r; assumption).
  destruct (split_feeds_char es [concat chunks] rest Hes Hc1) as (pb & ob & Hrb & Hob & Hpb).
  cbn [split_feeds] in Hrb.
  pose proof (split_feed_ok es [] (concat chunks) rest) as Hk.
  destruct (split_feed lo ls [] (concat chunks)) as [[p1 o1] st1].
  split; [apply Hk; rewrite <- Hc; apply sinv_start, Hes|].
  inversion Hrb; subst pb ob. clear Hrb.
  simpl in Hob, Hpb. rewrite !app_nil_r in *.
  rewrite Hra. simpl.
  assert (Ho : concat oa = o1) by congruence.
  split; [|assumption].
  rewrite Hpa in Hpb at 1. rewrite Ho in Hpb. apply app_inv_head in Hpb. assumption.
Qed.

End Splitter.

Lemma splitter_entry : forall t spl ty lo ls, splitters_ok t spl = true -> In (ty, (lo, ls)) spl ->
  exists i, lookup t ty = Some i /\ i_lo i = lo /\ i_ls i = ls /\ 0 <= lo /\ 1 <= ls.
Proof.
  intros t spl ty lo ls Hspl Hin.
  unfold splitters_ok in Hspl. rewrite forallb_forall in Hspl.
  specialize (Hspl _ Hin). unfold splitter_ok in Hspl.
  destruct (lookup t ty) as [i|] eqn:Hl; [|discriminate].
  exists i. split; [reflexivity|lia].
Qed.

Lemma splitter_packets : forall t spl ty lo ls es, splitters_ok t spl = true ->
  In (ty, (lo, ls)) spl -> forallb (fun e => wf_packet t (ty :: e)) es = true ->
  0 <= lo /\ 1 <= ls /\ forallb (wf_endpoint_packet lo ls) es = true.
Proof.
  intros t spl ty lo ls es Hspl Hin Hes.
  destruct (splitter_entry _ _ _ _ _ Hspl Hin) as (i & Hl & <- & <- & H3 & H4).
  split; [assumption|]. split; [assumption|].
  rewrite forallb_forall in *. intros e He. specialize (Hes e He).
  rewrite (wf_packet_cons _ _ _ _ Hl) in Hes. apply andb_true_iff in Hes. apply Hes.
Qed.

(* bytes_needed is never negative, so the model's loop guard [0 <? needed] is exactly
   Python's truth value of `self.bytes_needed` in every state the parser can reach *)
Definition pgood (s : parser) : Prop := 0 <= p_needed s /\ bytes_ok (p_pkt s) = true.

Lemma acc_good : forall s a, pgood s -> bytes_ok a = true -> len a <= p_needed s ->
  pgood (acc s a).
Proof.
  intros s a [Hn Hp] Ha Hl. split; simpl; [lia|]. rewrite bytes_ok_app, Hp, Ha. reflexivity.
Qed.

Lemma fin_good : forall t s s1 o r, wf_table t = true -> pgood s -> fin t s = (s1, o, r) -> pgood s1.
Proof.
  intros t [st n p i] s1 o r Ht [Hn Hp] H. unfold fin in H.
  cbn [p_st p_pkt p_info p_needed] in *. destruct st.
  - destruct (lookup t (hd 0 p)) as [j|] eqn:Hl.
    + cbn in H. inversion H; subst. destruct (lookup_wf _ _ _ Ht Hl) as (H1 & H2 & _).
      split; simpl; [lia|assumption].
    + inversion H; subst. split; simpl; [lia|reflexivity].
  - cbn [p_st p_needed p_pkt] in H.
    pose proof (field_nonneg (1 + i_lo (info_or_zero (mkP NeedLength n p i)))
                  (i_us (info_or_zero (mkP NeedLength n p i))) p Hp).
    destruct (_ =? 0); inversion H; subst; split; simpl; try lia; auto.
  - cbn [p_st p_needed p_pkt] in H.
    destruct (n =? 0); inversion H; subst; split; simpl; try lia; auto.
Qed.

Lemma feed_good : forall t s d, wf_table t = true -> pgood s -> bytes_ok d = true ->
  pgood (fst (fst (feed t s d))).
Proof.
  intros t s d Ht. revert s d.
  apply (feed_ind t (fun s d r => pgood s -> bytes_ok d = true -> pgood (fst (fst r)))).
  - intros s d _ Hs _. exact Hs.
  - intros s d Hl Hs Hd. apply acc_good; [assumption..|lia].
  - intros s a r s1 o1 _ Ha Hf Hs Hd. apply bytes_ok_app_inv in Hd.
    apply (fin_good _ _ _ _ _ Ht (acc_good s a Hs (proj1 Hd) (Z.eq_le_incl _ _ Ha)) Hf).
  - intros s a r s1 o1 _ Ha Hf IH Hs Hd. apply bytes_ok_app_inv in Hd.
    destruct (feed t s1 r) as [[s2 o2] st2]. apply IH; [|apply Hd].
    apply (fin_good _ _ _ _ _ Ht (acc_good s a Hs (proj1 Hd) (Z.eq_le_incl _ _ Ha)) Hf).
Qed.

Lemma feed_needed_nonneg : forall t chunks s, wf_table t = true -> pgood s ->
  forallb bytes_ok chunks = true -> pgood (fst (feeds t s chunks)).
Proof.
  intros t chunks. induction chunks as [|c chunks IH]; intros s Ht Hs Hc; [exact Hs|].
  simpl in Hc. apply andb_true_iff in Hc. destruct Hc as [Hc1 Hc2].
  simpl. pose proof (feed_good t s c Ht Hs Hc1) as H1.
  destruct (feed t s c) as [[s1 o1] st1].
  specialize (IH s1 Ht H1 Hc2). destruct (feeds t s1 chunks). exact IH.
Qed.

Lemma nth_update_same : forall i x l, (i < length l)%nat -> nth i (update i x l) reset = x.
Proof.
  induction i as [|i IH]; intros x [|y l] H; simpl in *; try lia; auto.
  apply IH. lia.
Qed.

Lemma nth_update_other : forall i j x l, i <> j -> nth i (update j x l) reset = nth i l reset.
Proof.
  induction i as [|i IH]; intros [|j] x [|y l] H; simpl; try reflexivity; try congruence.
  apply IH. congruence.
Qed.

Lemma length_update : forall i x l, length (update i x l) = length l.
Proof. induction i as [|i IH]; intros x [|y l]; simpl; auto. Qed.

(* Interleaving irrelevance (product of independent state machines): under ANY
   interleaving of the operations of any number of parsers, parser i goes through exactly
   the states and produces exactly the outputs it produces when run alone on its own
   operations. *)
Lemma multi_run_independent : forall t ops ss i, (i < length ss)%nat ->
  nth i (fst (multi_run t ss ops)) reset = fst (solo_run t (nth i ss reset) (ops_of i ops)) /\
  outs_of i (snd (multi_run t ss ops)) = snd (solo_run t (nth i ss reset) (ops_of i ops)).
Proof.
  intros t ops. induction ops as [|o ops IH]; intros ss i Hi.
  - simpl. auto.
  - cbn [multi_run ops_of filter].
    destruct (own_step t (nth (mop_idx o) ss reset) o) as [s1 o1] eqn:Hstep.
    specialize (IH (update (mop_idx o) s1 ss) i).
    rewrite length_update in IH. specialize (IH Hi).
    destruct (multi_run t (update (mop_idx o) s1 ss) ops) as [ss2 o2].
    unfold outs_of. cbn [fst snd filter map].
    destruct (Nat.eqb (mop_idx o) i) eqn:He.
    + apply Nat.eqb_eq in He. rewrite He in *.
      rewrite nth_update_same in IH by assumption.
      cbn [solo_run]. rewrite Hstep.
      fold (ops_of i ops) in *.
      destruct (solo_run t s1 (ops_of i ops)) as [s3 o3]. simpl in *.
      destruct IH as [IH1 IH2]. unfold outs_of in IH2. rewrite IH2. auto.
    + apply Nat.eqb_neq in He.
      rewrite nth_update_other in IH by congruence.
      exact IH.
Qed.

Lemma solo_run_feeds : forall t i chunks s,
  solo_run t s (map (MFeed i) chunks) = feeds t s chunks.
Proof.
  intros t i chunks. induction chunks as [|c chunks IH]; intros s; [reflexivity|].
  simpl. destruct (feed t s c) as [[s1 o1] st1]. rewrite IH. reflexivity.
Qed.
