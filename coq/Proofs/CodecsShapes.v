(* Proofs/CodecsShapes.v — the hand-written codec models ARE the interpreter of
   Model/CodecsShapes.v on the layouts recorded there (so that the per-run obligation
   "layouts extracted from the source AST = recorded layouts" ties every shift, mask, octet index,
   threshold and stride of the models to the code). *)
From Coq Require Import ZArith List Bool Lia.
From BV Require Import Base.Bytes Model.CodecsBase Proofs.CodecsBase Model.CodecsSdp Model.CodecsL2cap Model.CodecsRfcomm
  Proofs.CodecsRfcomm Model.CodecsAv Model.CodecsA2dp Model.CodecsShapes Gen.C18Tables Gen.C18Shapes.
Import ListNotations.
Open Scope Z_scope.

(* header parsers that branch on what they read: the fields they branch on are the layout's *)
Lemma avdtp_b0_parse_is_shape : forall b0 r,
  avdtp_header_parse (b0 :: r) =
  match eval_shape [b0] [] avdtp_b0_parse_layout with
  | [tl; pt; mt] =>
      if pt =? 0 then match r with b1 :: p => Some ([tl; pt; mt; Z.land b1 63], p) | _ => None end
      else if pt =? 1 then match r with b1 :: c :: p => Some ([tl; pt; mt; Z.land b1 63; c], p) | _ => None end
      else Some ([tl; pt; mt], r)
  | _ => None
  end.
Proof. reflexivity. Qed.
Lemma rtp_header_parse_is_shape : forall b0 b1 s0 s1 t0 t1 t2 t3 c0 c1 c2 c3 r,
  rtp_parse (b0 :: b1 :: s0 :: s1 :: t0 :: t1 :: t2 :: t3 :: c0 :: c1 :: c2 :: c3 :: r) =
  match eval_shape [b0; b1] [] rtp_header_parse_layout with
  | [v; p; x; cc; m; pt] =>
      match rtp_words (Z.to_nat cc) r with
      | Some (ws, payload) =>
          Some {| r_version := v; r_padding := p; r_extension := x; r_marker := m;
                  r_seq := be_decode [s0; s1]; r_ts := be_decode [t0; t1; t2; t3];
                  r_ssrc := be_decode [c0; c1; c2; c3]; r_csrc := ws; r_pt := pt; r_payload := payload |}
      | None => None
      end
  | _ => None
  end.
Proof. reflexivity. Qed.
(* the CSRC list starts after [rtp_csrc_base_layout] octets and each entry takes [rtp_csrc_stride_layout] *)
Lemma rtp_csrc_layout : forall a b c d r hdr,
  rtp_words 1 (a :: b :: c :: d :: r) = Some ([be_decode [a; b; c; d]], r) /\
  length [a; b; c; d] = Z.to_nat rtp_csrc_stride_layout /\
  (length hdr < Z.to_nat rtp_csrc_base_layout -> rtp_parse hdr = None)%nat.
Proof.
  intros a b c d r hdr. split; [reflexivity|]. split; [reflexivity|].
  intro H. change (Z.to_nat rtp_csrc_base_layout) with 12%nat in H.
  do 12 (destruct hdr as [|? hdr]; [reflexivity|]). cbn [length] in H. lia.
Qed.

(* SDP data element size tables *)
Lemma sdp_fixed_index_is_table : forall n, fixed_index n = fixed_index_tab sdp_fixed_index_layout n.
Proof.
  intro n. unfold fixed_index, sdp_fixed_index_layout. cbn [fixed_index_tab Z.eqb Pos.eqb].
  destruct (n <=? 1); [reflexivity|]. destruct (n =? 2); [reflexivity|]. destruct (n =? 4); [reflexivity|].
  destruct (n =? 8); [reflexivity|]. destruct (n =? 16); reflexivity.
Qed.
Lemma sdp_var_header_is_table : forall ty d,
  var_header ty d =
  match var_index_tab sdp_var_index_layout (lenZ d) with
  | Some (idx, w) => Some (hdr ty idx :: (if w =? 1 then [lenZ d] else be_encode (Z.to_nat w) (lenZ d)) ++ d)
  | None => None
  end.
Proof.
  intros ty d. unfold var_header, sdp_var_index_layout. cbn [var_index_tab].
  destruct (lenZ d <=? 255); [reflexivity|]. destruct (lenZ d <=? 65535); [reflexivity|].
  destruct (lenZ d <=? 4294967295); reflexivity.
Qed.
Lemma sdp_size_of_header_is_table : forall ty idx d1, 0 <= idx < 8 ->
  size_of_header ty idx d1 =
  if idx =? 0 then Some (O, if ty =? 0 then 0 else 1)
  else match assoc_tab sdp_parse_fixed_layout idx with
       | Some vs => Some (O, vs)
       | None =>
           match assoc_tab sdp_parse_var_layout idx with
           | Some w => if (Z.to_nat w <=? length d1)%nat
                       then Some (Z.to_nat w, be_decode (firstn (Z.to_nat w) d1)) else None
           | None => None
           end
       end.
Proof.
  intros ty idx d1 H.
  assert (C : idx = 0 \/ idx = 1 \/ idx = 2 \/ idx = 3 \/ idx = 4 \/ idx = 5 \/ idx = 6 \/ idx = 7) by lia.
  destruct C as [-> | [-> | [-> | [-> | [-> | [-> | [-> | ->]]]]]]]; try reflexivity.
  - destruct d1 as [|b r]; [reflexivity|].
    change (size_of_header ty 5 (b :: r)) with (Some (1%nat, b)).
    change (assoc_tab sdp_parse_fixed_layout 5) with (@None Z).
    change (assoc_tab sdp_parse_var_layout 5) with (Some 1). change (5 =? 0) with false. cbv iota.
    change (Z.to_nat 1) with 1%nat. cbn [length Nat.leb firstn].
    unfold be_decode. cbn [rev app le_decode]. f_equal. f_equal. lia.
  - destruct d1 as [|b0 [|b1 r]]; reflexivity.
  - destruct d1 as [|b0 [|b1 [|b2 [|b3 r]]]]; reflexivity.
Qed.

(* the per-run obligation: the layouts extracted from the source AST are the recorded ones *)
Definition shapes_match : bool :=
  let eqs (a b : list (list (Z * Z * Z * Z * Z))) :=
    zlist_eqb (flat_map (fun row => (-7) :: flat_map (fun t => let '(k, i, s, m, l) := t in [k; i; s; m; l]) row) a)
              (flat_map (fun row => (-7) :: flat_map (fun t => let '(k, i, s, m, l) := t in [k; i; s; m; l]) row) b) in
  eqs ertm_i_parse_src ertm_i_parse_layout && eqs ertm_i_ser_src ertm_i_ser_layout &&
  eqs ertm_s_parse_src ertm_s_parse_layout && eqs ertm_s_ser_src ertm_s_ser_layout &&
  eqs msc_parse_src msc_parse_layout && eqs msc_ser_src msc_ser_layout && eqs pn_parse_src pn_parse_layout && eqs pn_ser_src pn_ser_layout &&
  eqs rfcomm_header_parse_src rfcomm_header_parse_layout && eqs rfcomm_header_ser_src rfcomm_header_ser_layout &&
  (rfcomm_length_threshold_src =? rfcomm_length_threshold_layout) &&
  eqs rfcomm_length2_src rfcomm_length2_layout && eqs rfcomm_length1_src rfcomm_length1_layout &&
  eqs epi_parse_src epi_parse_layout && eqs epi_ser_src epi_ser_layout &&
  eqs avdtp_b0_parse_src avdtp_b0_parse_layout && eqs avdtp_b0_ser_src avdtp_b0_ser_layout &&
  eqs avctp_b0_parse_src avctp_b0_parse_layout && eqs rtp_header_parse_src rtp_header_parse_layout &&
  (rtp_csrc_base_src =? rtp_csrc_base_layout) && (rtp_csrc_stride_src =? rtp_csrc_stride_layout).

Lemma shapes_match_checked : shapes_match = true.
Proof. vm_compute. reflexivity. Qed.

Definition models_are_layouts_stmt : Prop :=
  (forall b0 b1, [i_tx_seq (iframe_parse b0 b1); i_sar (iframe_parse b0 b1); i_req_seq (iframe_parse b0 b1); i_final (iframe_parse b0 b1)]
                 = eval_shape [b0; b1] [] ertm_i_parse_layout) /\
  (forall f, iframe_bytes f = eval_shape [] [i_tx_seq f; i_sar f; i_req_seq f; i_final f] ertm_i_ser_layout) /\
  (forall b0 b1, [s_function (sframe_parse b0 b1); s_poll (sframe_parse b0 b1); s_req_seq (sframe_parse b0 b1); s_final (sframe_parse b0 b1)]
                 = eval_shape [b0; b1] [] ertm_s_parse_layout) /\
  (forall f, sframe_bytes f = eval_shape [] [s_function f; s_poll f; s_req_seq f; s_final f] ertm_s_ser_layout) /\
  (forall d0 d1 r, msc_parse (d0 :: d1 :: r) = Some (eval_shape [d0; d1] [] msc_parse_layout)) /\
  (forall dlci fc rtc rtr ic dv, msc_bytes [dlci; fc; rtc; rtr; ic; dv] = eval_shape [] [dlci; fc; rtc; rtr; ic; dv] msc_ser_layout) /\
  (forall d0 d1 d2 d3 d4 d5 d6 d7 r,
     pn_parse (d0 :: d1 :: d2 :: d3 :: d4 :: d5 :: d6 :: d7 :: r) = Some (eval_shape [d0; d1; d2; d3; d4; d5; d6; d7] [] pn_parse_layout)) /\
  (forall a b c d e f g, pn_bytes [a; b; c; d; e; f; g] = eval_shape [] [a; b; c; d; e; f; g] pn_ser_layout) /\
  (forall b0 b1 info, let f := mk_parsed b0 b1 info in
     [f_dlci f; f_cr f; f_type f; f_pf f] = eval_shape [b0; b1] [] rfcomm_header_parse_layout) /\
  (forall f, [frame_address f; frame_control f] = eval_shape [] [f_dlci f; f_cr f; f_type f; f_pf f] rfcomm_header_ser_layout) /\
  (forall L, length_bytes L = if rfcomm_length_threshold_layout <? L then eval_shape [] [L] rfcomm_length2_layout
                              else eval_shape [] [L] rfcomm_length1_layout) /\
  (forall b0 b1 r, epi_parse (b0 :: b1 :: r) = Some (eval_shape [b0; b1] [] epi_parse_layout)) /\
  (forall a b c d, epi_bytes [a; b; c; d] = eval_shape [] [a; b; c; d] epi_ser_layout) /\
  (forall tl pt mt, [avdtp_b0 tl pt mt] = eval_shape [] [tl; pt; mt] avdtp_b0_ser_layout) /\
  (forall d0 d1 d2 d3 r, sbc_parse (d0 :: d1 :: d2 :: d3 :: r) = Some (eval_shape [d0; d1; d2; d3] [] sbc_parse_layout)) /\
  (forall a b c d e f g, sbc_bytes [a; b; c; d; e; f; g] = eval_shape [] [a; b; c; d; e; f; g] sbc_ser_layout) /\
  (forall d0 d1 d2 d3 d4 d5 r, aac_parse (d0 :: d1 :: d2 :: d3 :: d4 :: d5 :: r) = Some (eval_shape [d0; d1; d2; d3; d4; d5] [] aac_parse_layout)) /\
  (forall a b c d e, aac_bytes [a; b; c; d; e] = eval_shape_masked [] [a; b; c; d; e] aac_ser_layout aac_ser_outer_layout).

Lemma models_are_layouts : models_are_layouts_stmt.
Proof. unfold models_are_layouts_stmt. repeat split; try reflexivity; intros []; reflexivity. Qed.
