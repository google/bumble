(* C17 - the transport boundary.  Every transport source feeds each received chunk to one
   PacketParser and, after an InvalidPacketError, feeds the next chunk to the same parser;
   that parser is C02's model (Model/Framer.v).  This file only gives it C17's names; the two
   transport theorems (a raise resets the parser; what follows is delivered in any chunking)
   are proved in Props/C17.v from Proofs/Framer.v. *)
From Coq Require Import ZArith List Bool.
From BV Require Import Model.Framer Proofs.Framer.
Import ListNotations.

Definition tp_table := Framer.table.
Definition tp_parser := Framer.parser.
Definition tp_init : tp_parser := Framer.reset.
Definition tp_feed := Framer.feed.
Definition tp_receive_all := Framer.feeds.          (* one receive callback per chunk *)
Definition tp_raised := Framer.Raised.
Definition tp_wf_table := Framer.wf_table.
Definition tp_wf_packet := Framer.wf_packet.
Definition tp_packet := Framer.Packet.
