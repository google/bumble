(* Proofs/CodecsXfields.v — the extended field codec of Model/CodecsXfields.v satisfies the
   value -> bytes -> value halves of SpecCodec's [codec_ok] ([rt_tight], [rt_last]); C01's
   sequence combinator then gives the round trip of every field list. *)
From Coq Require Import ZArith List Bool Lia.
From BV Require Import Base.Bytes Proofs.Bytes Model.SpecCodec Proofs.SpecCodec
  Model.CodecsBase Proofs.CodecsBase Model.CodecsL2cap Proofs.CodecsL2cap
  Model.CodecsSdp Proofs.CodecsSdp Model.CodecsAv Proofs.CodecsAv Gen.C18Tables Model.CodecsXfields Gen.C18XRegistry Gen.C18AvrcpRegistry.
Import ListNotations.
Open Scope Z_scope.

Lemma ints_of_inv : forall vs l, ints_of vs = Some l -> vs = vints l.
Proof.
  induction vs as [|v vs IH]; intros l H.
  - cbn in H. apply some_inv in H. subst. reflexivity.
  - cbn [ints_of] in H. destruct v as [z| | |]; try discriminate.
    destruct (ints_of vs) as [l'|]; [|discriminate]. apply some_inv in H. subst l.
    cbn [vints map]. f_equal. apply IH. reflexivity.
Qed.

Lemma u16_words_encode : forall strict l, forallb (u_range 2) l = true ->
  u16_words strict (flat_map (le_encode 2) l) = Some l.
Proof.
  induction l as [|z l IH]; intro H; [reflexivity|].
  cbn [forallb] in H. apply andb_true_iff in H as [Hz Hl]. apply u_range_iff in Hz.
  cbn [flat_map]. pose proof (le_decode_encode 2 z Hz) as D. cbn [le_encode] in *.
  cbn [app u16_words]. rewrite IH by exact Hl. rewrite D. reflexivity.
Qed.

Lemma flat_map_length_const : forall (A B : Type) (f : A -> list B) n l,
  (forall x, length (f x) = n) -> length (flat_map f l) = (n * length l)%nat.
Proof.
  intros A B f n l H. induction l as [|x l IH]; cbn [flat_map length]; [lia|].
  rewrite app_length, H, IH. lia.
Qed.
Lemma flat_map_le2_length : forall l, length (flat_map (le_encode 2) l) = (2 * length l)%nat.
Proof. intro l. apply flat_map_length_const. apply le_encode_length. Qed.
Lemma flat_map_be4_length : forall l, length (flat_map (be_encode 4) l) = (4 * length l)%nat.
Proof. intro l. apply flat_map_length_const. apply be_encode_length. Qed.

Lemma be32_words_encode : forall l tail, forallb (u_range 4) l = true ->
  be32_words (length l) (flat_map (be_encode 4) l ++ tail) = Some l.
Proof.
  induction l as [|z l IH]; intros tail H; [reflexivity|].
  cbn [forallb] in H. apply andb_true_iff in H as [Hz Hl]. apply u_range_iff in Hz.
  cbn [flat_map length]. rewrite <- app_assoc.
  destruct (be_encode_4_cons z (flat_map (be_encode 4) l ++ tail) Hz) as (a & b & c & d & -> & <-).
  cbn [be32_words]. rewrite IH by exact Hl. reflexivity.
Qed.

Lemma lv_roundtrip : forall vs, lv_inr vs = true ->
  exists b, lv_ser vs = Some b /\ forall fuel, (length b < fuel)%nat -> lv_parse fuel b = Some vs.
Proof.
  induction vs as [|v vs IH]; intro H.
  - exists []. split; [reflexivity|]. intros [|k] Hk; [lia|reflexivity].
  - cbn [lv_inr] in H. destruct v as [| | |items]; try discriminate.
    destruct items as [|[l| | |] [|[|b| |] [|? ?]]]; try discriminate.
    rewrite !andb_true_iff in H. destruct H as [[Hr Hb] Hrest].
    pose proof Hr as Hr'. apply u_range_iff in Hr'.
    pose proof (le_decode_encode 2 l Hr') as D. cbn [le_encode] in D.
    destruct vs as [|v2 vs2].
    + (* the last tuple: the value may be shorter than its Length *)
      apply Z.leb_le in Hrest.
      exists (le_encode 2 l ++ b ++ []). split; [cbn [lv_ser]; rewrite Hr; reflexivity|].
      intros fuel Hf. destruct fuel as [|k]; [lia|]. rewrite app_nil_r. cbn [le_encode app lv_parse].
      rewrite D.
      assert (Hge : (length b <= Z.to_nat l)%nat) by (unfold lenZ in Hrest; lia).
      rewrite firstn_all2 by exact Hge. rewrite skipn_all2 by exact Hge.
      destruct k as [|k']; [cbn [length app le_encode] in Hf; lia|]. reflexivity.
    + apply andb_true_iff in Hrest as [Hl Hvs]. apply Z.eqb_eq in Hl.
      destruct (IH Hvs) as [rb [Hs Hp]].
      exists (le_encode 2 l ++ b ++ rb). split.
      * cbn [lv_ser]. rewrite Hr. cbn [lv_ser] in Hs. rewrite Hs. reflexivity.
      * intros fuel Hf. destruct fuel as [|k]; [lia|]. cbn [le_encode app lv_parse].
        rewrite D. rewrite Hl. unfold lenZ. rewrite Nat2Z.id. rewrite skipn_app_exact, firstn_app_exact.
        rewrite Hp; [reflexivity|]. cbn [le_encode app length] in Hf. rewrite !app_length in Hf. lia.
Qed.

(* bytes -> tuples -> bytes: whatever the parser accepted is written back exactly, because every
   tuple keeps the Length it was read with *)
Lemma lv_parse_ser : forall fuel b vs, bytes_ok b = true -> lv_parse fuel b = Some vs ->
  lv_ser vs = Some b /\ lv_inr vs = true.
Proof.
  induction fuel as [|k IH]; intros b vs Hok H; [discriminate|].
  destruct b as [|x [|y r]].
  - cbn in H. apply some_inv in H. subst. split; reflexivity.
  - discriminate.
  - cbn [lv_parse] in H.
    destruct (lv_parse k (skipn (Z.to_nat (le_decode [x; y])) r)) as [rest|] eqn:E; [|discriminate].
    apply some_inv in H. subst vs.
    rewrite !bytes_ok_cons in Hok. rewrite !andb_true_iff in Hok. destruct Hok as [Hx [Hy Hr]].
    assert (Hxy : bytes_ok [x; y] = true) by (cbn; rewrite Hx, Hy; reflexivity).
    pose proof (le_decode_range _ Hxy) as R. cbn [length] in R.
    destruct (IH _ rest (bytes_ok_skipn _ _ Hr) E) as [Hs Hi].
    set (l := le_decode [x; y]) in *.
    assert (Hu : u_range 2 l = true) by (apply u_range_iff; exact R).
    split.
    + cbn [lv_ser]. rewrite Hu, Hs. subst l. rewrite (le_encode_decode_n 2 [x; y] eq_refl Hxy).
      cbn [app]. rewrite firstn_skipn. reflexivity.
    + cbn [lv_inr]. rewrite Hu. rewrite (bytes_ok_firstn _ _ Hr). cbn [andb].
      destruct rest as [|v2 rest2] eqn:Er.
      * apply Z.leb_le. unfold lenZ. rewrite firstn_length. lia.
      * rewrite Hi, andb_true_r. apply Z.eqb_eq.
        (* a further tuple was parsed, so the data did not end inside this value *)
        destruct (Nat.le_gt_cases (Z.to_nat l) (length r)) as [Hle|Hgt].
        -- unfold lenZ. rewrite firstn_length_le by exact Hle. lia.
        -- exfalso. rewrite skipn_all2 in E by lia. destruct k; cbn in E; discriminate.
Qed.

Lemma lv_value_roundtrip : forall vs, lv_inr vs = true ->
  exists b, lv_ser vs = Some b /\ lv_parse (S (length b)) b = Some vs.
Proof. intros vs H. destruct (lv_roundtrip vs H) as [b [Hs Hp]]. exists b. split; [exact Hs|apply Hp; lia]. Qed.

Lemma epi_list_roundtrip : forall vs, epi_list_inr vs = true ->
  exists b, epi_list_ser vs = Some b /\ epi_list_parse b = vs.
Proof.
  induction vs as [|v vs IH]; intro H; [exists []; split; reflexivity|].
  cbn [epi_list_inr] in H. destruct v as [| | |ps]; try discriminate.
  destruct (ints_of ps) as [p|] eqn:Ep; [|discriminate].
  apply andb_true_iff in H as [Hok Hvs]. destruct (IH Hvs) as [rb [Hs Hp]].
  exists (epi_bytes p ++ rb). split.
  - cbn [epi_list_ser]. rewrite Ep, Hok, Hs. reflexivity.
  - pose proof (epi_value_roundtrip p [] Hok) as R. rewrite app_nil_r in R.
    assert (Hlen : exists a b, epi_bytes p = [a; b]).
    { destruct p as [|s [|i [|m [|t [|? ?]]]]]; try discriminate. cbn [epi_bytes]. eauto. }
    destruct Hlen as [a [b E]]. rewrite E in *. cbn [app epi_list_parse]. rewrite R, Hp.
    rewrite (ints_of_inv ps p Ep). reflexivity.
Qed.

Lemma caps_of_inv : forall vs l, caps_of vs = Some l -> vs = vcaps l.
Proof.
  induction vs as [|v vs IH]; intros l H.
  - cbn in H. apply some_inv in H. subst. reflexivity.
  - cbn [caps_of] in H. destruct v as [| | |items]; try discriminate.
    destruct items as [|[c| | |] [|[|b| |] [|? ?]]]; try discriminate.
    destruct (caps_of vs) as [l'|]; [|discriminate]. apply some_inv in H. subst l.
    cbn [vcaps map fst snd]. f_equal. apply IH. reflexivity.
Qed.

Lemma clampn_len : forall b tail, clampn (lenZ b) (b ++ tail) = length b.
Proof.
  intros. unfold clampn. rewrite lenZ_app.
  replace (lenZ b + lenZ tail <? lenZ b) with false by (symmetry; apply Z.ltb_ge; pose proof (lenZ_nonneg _ tail); lia).
  apply lenZ_to_nat.
Qed.

(* SEID_METADATA: seid << 2 on the way out, data[offset] >> 2 on the way in *)
Lemma seid_octet : forall z, seid_ok z = true ->
  byte_ok (Z.shiftl z 2) = true /\ Z.shiftr (Z.shiftl z 2) 2 = z.
Proof.
  intros z H. apply zlt_iff in H. split.
  - apply byte_ok_iff. rewrite Z.shiftl_mul_pow2 by lia. lia.
  - rewrite Z.shiftr_shiftl_l, Z.shiftl_0_r by lia. reflexivity.
Qed.

(* value -> bytes -> value with anything after it, for the self-delimiting specs *)
Theorem X_tight : rt_tight X_codec.
Proof.
  intros s prev v Hw Ht Hi.
  destruct s; try discriminate; [exact (A_tight a prev v Hw Ht Hi) | ..];
    cbn [X_codec inr ser par] in *; destruct v as [z|b|o|vs]; try discriminate; cbn [inr_x] in Hi.
  - (* PSM *)
    pose proof Hi as Hok. unfold psm_ok in Hok. apply andb_true_iff in Hok as [Hz _].
    exists (psm_bytes z). split; [cbn [ser_x]; rewrite Hz; reflexivity|].
    intro tail. cbn [par_x]. rewrite (psm_value_roundtrip z tail Hi). rewrite app_length.
    do 2 f_equal. lia.
  - (* SDP handle list *)
    destruct (ints_of vs) as [l|] eqn:El; [|discriminate]. apply andb_true_iff in Hi as [Hc Hl].
    exists (be_encode 2 (lenZ l) ++ flat_map (be_encode 4) l). split.
    + cbn [ser_x]. rewrite El, Hc, Hl. reflexivity.
    + intro tail. apply u_range_iff in Hc. rewrite <- app_assoc.
      destruct (be_encode_2_cons (lenZ l) (flat_map (be_encode 4) l ++ tail) Hc) as (c0 & c1 & E & D).
      rewrite E. cbn [par_x]. rewrite D, lenZ_to_nat, be32_words_encode by exact Hl.
      rewrite (ints_of_inv vs l El), app_length, be_encode_length, flat_map_be4_length. reflexivity.
  - (* bytes preceded by a 16-bit length *)
    apply andb_true_iff in Hi as [Hc Hb].
    exists (be_encode 2 (lenZ b) ++ b). split; [cbn [ser_x]; rewrite Hc; reflexivity|].
    intro tail. apply u_range_iff in Hc. rewrite <- app_assoc.
    destruct (be_encode_2_cons (lenZ b) (b ++ tail) Hc) as (c0 & c1 & E & D).
    rewrite E. cbn [par_x]. rewrite D, lenZ_to_nat, firstn_app_exact, app_length, be_encode_length. reflexivity.
  - (* 16-bit UUID *)
    apply andb_true_iff in Hi as [Hl _]. apply Nat.eqb_eq in Hl.
    exists b. split; [reflexivity|]. intro tail. cbn [par_x].
    assert (Hf : firstn 2 (b ++ tail) = b) by (rewrite <- Hl; apply firstn_app_exact).
    rewrite Hf, Hl. reflexivity.
  - (* SDP data element *)
    apply andb_true_iff in Hi as [Hb Hi].
    destruct (from_bytes sdp_max_nesting b) as [e c raw cn| |] eqn:Ef; try discriminate.
    destruct cn; [|discriminate]. apply Z.eqb_eq in Hi. subst c.
    exists b. split; [reflexivity|]. intro tail. cbn [par_x].
    unfold from_bytes, sdp_fuel in Ef.
    destruct (parse_encode _ _ _ _ _ _ Hb Ef) as [He [_ [Hraw [_ [Hbo Hd]]]]].
    rewrite lenZ_to_nat, firstn_all in Hraw. subst raw.
    rewrite (encode_parse e (S (length (b ++ tail))) sdp_max_nesting tail b He Hbo Hd ltac:(lia)).
    rewrite clampn_len. reflexivity.
  - (* SEID *)
    destruct (seid_octet z Hi) as [H1 H2].
    exists [Z.shiftl z 2]. split; [cbn [ser_x]; rewrite H1; reflexivity|].
    intro tail. cbn [par_x app]. rewrite H2. reflexivity.
  - (* length-prefixed string *)
    apply andb_true_iff in Hi as [Hc Hb].
    exists (be_encode n (lenZ b) ++ b). split; [cbn [ser_x]; rewrite Hc; reflexivity|].
    intro tail. cbn [par_x]. apply u_range_iff in Hc.
    rewrite <- app_assoc, (SpecCodec.firstn_len_app _ n), (SpecCodec.skipn_len_app _ n) by apply be_encode_length.
    rewrite be_decode_encode by exact Hc. rewrite lenZ_to_nat, firstn_app_exact, app_length, be_encode_length.
    reflexivity.
  - (* 64-bit big endian *)
    exists (be_encode 8 z). split; [cbn [ser_x]; rewrite Hi; reflexivity|].
    intro tail. cbn [par_x]. apply u_range_iff in Hi.
    rewrite (SpecCodec.firstn_len_app _ 8) by apply be_encode_length.
    rewrite be_decode_encode by exact Hi. rewrite be_encode_length. reflexivity.
Qed.

(* the specs that are not self-delimiting all read to the end of the data *)
Lemma whole_gives_last : forall (c : codec) s prev v b,
  ser c s v = Some b -> par c s prev b = Some (v, length b) ->
  exists b n, ser c s v = Some b /\ par c s prev b = Some (v, n) /\ (n <= length b)%nat.
Proof. intros c s prev v b Hs Hp. exists b, (length b). auto. Qed.

Theorem X_last : rt_last X_codec.
Proof.
  intros s prev v Hw Hi.
  destruct (tight X_codec s) eqn:Ht.
  { apply (tight_gives_last X_codec s). exact (X_tight s prev v Hw Ht Hi). }
  destruct s; try discriminate; [exact (A_last a prev v Hw Hi) | ..];
    cbn [X_codec inr] in Hi; destruct v as [z|b|o|vs]; try discriminate; cbn [inr_x] in Hi.
  - (* handle set, strict *)
    destruct (ints_of vs) as [l|] eqn:El; [|discriminate].
    apply (whole_gives_last X_codec _ _ _ (flat_map (le_encode 2) l)); cbn [X_codec ser par ser_x par_x].
    + rewrite El, Hi. reflexivity.
    + rewrite (u16_words_encode true l Hi), (ints_of_inv vs l El). reflexivity.
  - (* CID list, lenient *)
    destruct (ints_of vs) as [l|] eqn:El; [|discriminate].
    apply (whole_gives_last X_codec _ _ _ (flat_map (le_encode 2) l)); cbn [X_codec ser par ser_x par_x].
    + rewrite El, Hi. reflexivity.
    + rewrite (u16_words_encode false l Hi), (ints_of_inv vs l El). reflexivity.
  - (* length-value tuples *)
    destruct (lv_roundtrip vs Hi) as [b [Hs Hp]].
    apply (whole_gives_last X_codec _ _ _ b); cbn [X_codec ser par ser_x par_x]; [exact Hs|].
    rewrite (Hp (S (length b)) ltac:(lia)). reflexivity.
  - (* UUID to the end *)
    apply andb_true_iff in Hi as [Hl _].
    apply (whole_gives_last X_codec _ _ _ b); cbn [X_codec ser par ser_x par_x]; [reflexivity|].
    cbv zeta in Hl. rewrite Hl. reflexivity.
  - (* SEID list *)
    destruct (ints_of vs) as [l|] eqn:El; [|discriminate].
    assert (G : forallb (fun z => byte_ok (Z.shiftl z 2)) l = true /\ map (fun b => Z.shiftr b 2) (map (fun z => Z.shiftl z 2) l) = l).
    { clear El. induction l as [|z l IH]; [split; reflexivity|].
      cbn [forallb] in Hi. apply andb_true_iff in Hi as [Hz Hl].
      destruct (seid_octet z Hz) as [H1 H2]. destruct (IH Hl) as [I1 I2].
      split; [cbn [forallb]; rewrite H1, I1; reflexivity|]. cbn [map]. rewrite H2, I2. reflexivity. }
    destruct G as [G1 G2].
    apply (whole_gives_last X_codec _ _ _ (map (fun z => Z.shiftl z 2) l)); cbn [X_codec ser par ser_x par_x].
    + rewrite El, G1. reflexivity.
    + rewrite G2, (ints_of_inv vs l El). reflexivity.
  - (* endpoints *)
    destruct (epi_list_roundtrip vs Hi) as [b [Hs Hp]].
    apply (whole_gives_last X_codec _ _ _ b); cbn [X_codec ser par ser_x par_x]; [exact Hs|].
    rewrite Hp. reflexivity.
  - (* capabilities *)
    destruct (caps_of vs) as [l|] eqn:El; [|discriminate].
    destruct (tlv_ok_encodes l Hi) as [b Hb].
    apply (whole_gives_last X_codec _ _ _ b); cbn [X_codec ser par ser_x par_x].
    + rewrite El. exact Hb.
    + rewrite (tlv_value_roundtrip l true b Hi Hb), (caps_of_inv vs l El). reflexivity.
Qed.

Theorem xffields_roundtrip : forall fs prev0 vs,
  wf XFTop_codec fs = true -> inr XFTop_codec fs prev0 (VList vs) = true ->
  exists b n, ser XFTop_codec fs (VList vs) = Some b /\ par_seq XF_codec fs prev0 b = Some (vs, n) /\ (n <= length b)%nat.
Proof.
  intros fs prev0 vs Hw Hi.
  exact (seq_last XF_codec (field_codec_tight X_codec X_tight) (field_codec_last X_codec X_tight X_last)
           fs prev0 vs Hw Hi).
Qed.

Theorem xfields_roundtrip : forall fs prev0 vs,
  xwf fs = true -> xin_range fs prev0 vs = true ->
  exists b n, xserialize fs vs = Some b /\ xparse fs prev0 b = Some (vs, n) /\ (n <= length b)%nat.
Proof.
  intros fs prev0 vs Hw Hi. exact (seq_last X_codec X_tight X_last fs prev0 vs Hw Hi).
Qed.

Theorem xfields_roundtrip_tight : forall fs prev0 vs,
  tight XTop_codec fs = true -> xin_range fs prev0 vs = true ->
  exists b, xserialize fs vs = Some b /\ forall tail, xparse fs prev0 (b ++ tail) = Some (vs, length b).
Proof.
  intros fs prev0 vs Ht Hi. exact (seq_tight X_codec X_tight fs prev0 vs Ht Hi).
Qed.

Theorem xregistry_fields_roundtrip : forall cs, wf_xregistry cs = true ->
  forall c, In c cs -> forall prev0 vs, xin_range (x_fields c) prev0 vs = true ->
  exists b n, xserialize (x_fields c) vs = Some b /\
              xparse (x_fields c) prev0 b = Some (vs, n) /\ (n <= length b)%nat.
Proof.
  intros cs Hwf c Hin prev0 vs Hr. unfold wf_xregistry in Hwf. rewrite forallb_forall in Hwf.
  specialize (Hwf c Hin). unfold wf_xcls in Hwf. rewrite !andb_true_iff in Hwf. destruct Hwf as [[Hw _] _].
  exact (xfields_roundtrip (x_fields c) prev0 vs Hw Hr).
Qed.

Theorem xfregistry_fields_roundtrip : forall cs, wf_xfregistry cs = true ->
  forall c, In c cs -> forall prev0 vs, xfin_range (xf_fields c) prev0 vs = true ->
  exists b n, xfserialize (xf_fields c) vs = Some b /\
              xfparse (xf_fields c) prev0 b = Some (vs, n) /\ (n <= length b)%nat.
Proof.
  intros cs Hwf c Hin prev0 vs Hr. unfold wf_xfregistry in Hwf. rewrite forallb_forall in Hwf.
  specialize (Hwf c Hin). unfold wf_xfcls in Hwf. rewrite !andb_true_iff in Hwf. destruct Hwf as [[Hw _] _].
  exact (xffields_roundtrip (xf_fields c) prev0 vs Hw Hr).
Qed.
