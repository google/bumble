(* Property C16: teardown is complete - no stale connection state, no waiter left hanging.
   The statements; a proof is [exact] of a lemma of Proofs/Teardown.v, a few lines from such lemmas, or
   a closed computation (over the regenerated table, or of a counterexample history).  The model (Model/Teardown.v) is one Bumble
   stack: controller table, the two HCI FIFOs, Host / Device tables, every other
   connection-keyed registry, and the awaited calls with their release rules.  A history is
   any list of operations (establish, disconnect by the peer, disconnect locally, transport
   loss, procedure start / normal completion, registry insert / remove, deliveries on the
   two FIFOs in any interleaving, task resumption, timer tick); every prefix of a history is
   a history, so "for every history" is also "for every cut point". *)
From Coq Require Import ZArith List Bool String.
From BV Require Import Model.Teardown Model.TeardownShapes Proofs.Teardown Gen.C16Cleanup Gen.C16Shapes.
Import ListNotations.
Open Scope Z_scope.

(* --- per-run obligations over the regenerated registry list ------------------------------ *)

(* Every dictionary keyed by connection handle / Connection / bearer that the presence
   translator finds in the code is known to the model with the same key kind, is removed by
   its class's disconnection hook in the code, and that hook is a step of the model's
   fan-out chain.  A registry added to the code without a cleanup makes this false. *)
Theorem C16_every_registry_has_a_cleanup :
  cleanup_obligation model_registries found_registries = true.
Proof. vm_compute. reflexivity. Qed.
Print Assumptions C16_every_registry_has_a_cleanup.

(* Every registry is emptied by the method the model says: the step of the chain that the
   removing method stands for is the step the model's table gives the registry. *)
Theorem C16_registry_hooks_match_source :
  removers_match model_registries found_removers = true.
Proof. vm_compute. reflexivity. Qed.
Print Assumptions C16_registry_hooks_match_source.

(* The 20 functions of the teardown path have exactly the shape (ordered effects, control
   structure, `if` tests) the model was written against. *)
Theorem C16_teardown_shapes_match_source :
  shapes_eqb source_shapes expected_shapes = true.
Proof. vm_compute. reflexivity. Qed.
Print Assumptions C16_teardown_shapes_match_source.

(* The model's fan-out order is the order derived from the source: the 'disconnection' emit
   of the host handler, expanded into the listeners in the order Device.host registers them
   (Device, then the L2CAP channel manager), then the host's own tables and queues. *)
Theorem C16_fanout_order_matches_source :
  hooks_eqb (derive_chain source_shapes) fanout_order = true.
Proof. vm_compute. reflexivity. Qed.
Print Assumptions C16_fanout_order_matches_source.

(* Host.on_transport_lost: fail the command only if still pending, then every connection
   through the disconnection handler, then 'flush' - the order of [Loss]. *)
Theorem C16_loss_path_matches_source : loss_path_ok source_shapes = true.
Proof. vm_compute. reflexivity. Qed.
Print Assumptions C16_loss_path_matches_source.

(* The calls inside the disconnection listeners that can raise (remove_listener, del d[k],
   set_result / set_exception) are exactly the reviewed ones (each argued safe next to
   [expected_raising_calls]); a new one, or one that moved, needs a new review. *)
Theorem C16_raising_calls_match_source :
  shapes_eqb (raising_calls source_shapes) expected_raising_calls = true.
Proof. vm_compute. reflexivity. Qed.
Print Assumptions C16_raising_calls_match_source.

(* Host._send_command releases the HCI command gate on every exit path of the awaiting
   caller - response, timeout, error and cancellation: the release sits in the `finally`
   under the no-response test (derived from the regenerated shape). *)
Theorem C16_command_gate_released_on_every_exit :
  forallb (gate_released (site_of source_shapes)) [XResponse; XTimeout; XError; XCancelled] = true.
Proof. vm_compute. reflexivity. Qed.
Print Assumptions C16_command_gate_released_on_every_exit.

(* ... and that is necessary: with the release only in `except asyncio.TimeoutError` /
   `except Exception` handlers a cancelled caller keeps the gate (CancelledError is a
   BaseException) - every later command, Host.flush() and Device.power_off() wait forever *)
Theorem C16_gate_release_in_handlers_refuted :
  gate_released InExceptHandlersOnly XCancelled = false.
Proof. reflexivity. Qed.
Print Assumptions C16_gate_release_in_handlers_refuted.

Theorem C16_model_table_cleaned : all_cleaned model_registries = true.
Proof. vm_compute. reflexivity. Qed.
Print Assumptions C16_model_table_cleaned.

(* --- layers agree ------------------------------------------------------------------------ *)

(* At every cut point of every history: the device and the host hold the same connections,
   and what the host will hold once it has processed the events already on their way is
   exactly what the controller holds.  After a transport loss host and device hold nothing. *)
Theorem C16_layers_agree_every_cut_point : forall tbl ops,
  let s := run tbl ops init in
  dev s = host s /\
  (lost s = false -> forall x, mem x (replay (c2h s) (host s)) = mem x (ctl s)) /\
  (lost s = true -> host s = [] /\ c2h s = [] /\ h2c s = []).
Proof. exact run_tinv. Qed.
Print Assumptions C16_layers_agree_every_cut_point.

(* At quiescence (no event on its way to the host) host, device and controller hold the same
   set of live connections. *)
Theorem C16_layers_agree : forall tbl ops,
  let s := run tbl ops init in
  lost s = false -> c2h s = [] ->
  forall x, mem x (host s) = mem x (ctl s) /\ mem x (dev s) = mem x (ctl s).
Proof. exact layers_agree. Qed.
Print Assumptions C16_layers_agree.

(* --- no stale state ---------------------------------------------------------------------- *)

(* For every table whose registries are all emptied somewhere in the fan-out chain, at every
   cut point of every history, every registry entry belongs to a connection the device still
   holds. *)
Theorem C16_no_stale_state : forall tbl ops,
  all_cleaned tbl = true ->
  let s := run tbl ops init in
  forall r k, In (r, k) (regs s) -> mem (kconn k) (dev s) = true.
Proof. exact no_stale_state. Qed.
Print Assumptions C16_no_stale_state.

Theorem C16_closed_connection_forgotten : forall tbl ops h,
  all_cleaned tbl = true ->
  let s := run tbl ops init in
  mem h (dev s) = false -> forall r k, In (r, k) (regs s) -> kconn k <> h.
Proof.
  intros tbl ops h Ha s Hm r k Hin E. subst h.
  pose proof (no_stale_state tbl ops Ha r k Hin) as H. fold s in H. congruence.
Qed.
Print Assumptions C16_closed_connection_forgotten.

Theorem C16_nothing_left_after_transport_loss : forall tbl ops,
  all_cleaned tbl = true ->
  let s := run tbl ops init in lost s = true -> regs s = [] /\ host s = [] /\ dev s = [].
Proof.
  intros tbl ops Ha s L. destruct (layers_agree_lost tbl ops L) as [Hh Hd]. fold s in Hh, Hd.
  repeat split; auto. destruct (regs s) as [|[r k] rest] eqn:E; [reflexivity|].
  pose proof (no_stale_state tbl ops Ha r k) as H. fold s in H. rewrite E, Hd in H.
  specialize (H (or_introl eq_refl)). discriminate.
Qed.
Print Assumptions C16_nothing_left_after_transport_loss.

(* instantiated with the model's table *)
Theorem C16_no_stale_state_model : forall ops,
  let s := run model_registries ops init in
  forall r k, In (r, k) (regs s) -> mem (kconn k) (dev s) = true.
Proof. intros ops. exact (no_stale_state model_registries ops C16_model_table_cleaned). Qed.
Print Assumptions C16_no_stale_state_model.

(* --- no waiter left ---------------------------------------------------------------------- *)

(* At every cut point of every history every awaited call is either done, or registered on
   a connection the device still holds, or has the HCI event that will release it on its
   way, or (a WLate call whose command status has just been delivered) is a task about to
   run that will register or be cancelled (see [wok]).  No hypothesis on the schedule. *)
Theorem C16_waiters_every_cut_point : forall tbl ops,
  Forall (wok (run tbl ops init)) (waiters (run tbl ops init)).
Proof. exact run_winv. Qed.
Print Assumptions C16_waiters_every_cut_point.

(* no call is ever registered on a connection that is already gone *)
Theorem C16_never_hung : forall tbl ops x,
  In x (waiters (run tbl ops init)) -> w_st x <> Hung.
Proof.
  intros tbl ops x Hin E. pose proof (proj1 (Forall_forall _ _) (run_winv tbl ops) x Hin) as H.
  unfold wok in H. now rewrite E in H.
Qed.
Print Assumptions C16_never_hung.

(* Once the timers have fired, nothing is in flight and no task is waiting to run, every
   call that is not done is a call on a connection that is still alive. *)
Theorem C16_no_waiter_left : forall tbl ops,
  let s := run tbl (ops ++ [Tick]) init in
  settled s = true ->
  Forall (fun x => live_waiter (dev s) x = true) (waiters s).
Proof. exact no_waiter_left. Qed.
Print Assumptions C16_no_waiter_left.

Theorem C16_no_waiter_left_after_transport_loss : forall tbl ops,
  let s := run tbl (ops ++ [Tick]) init in
  lost s = true -> forallb (fun x => negb (is_responded x)) (waiters s) = true ->
  Forall (fun x => is_done (w_st x) = true) (waiters s).
Proof. exact no_waiter_left_after_transport_loss. Qed.
Print Assumptions C16_no_waiter_left_after_transport_loss.

(* For every history - with the awaiting tasks cancelled at any point (op [Cancel]), with
   disconnections and transport losses anywhere - once nothing is in flight no call holds
   the HCI command gate. *)
Theorem C16_gate_free_when_quiescent : forall tbl ops,
  let s := run tbl ops init in quiescent s = true -> gate_busy s = false.
Proof. exact gate_free_when_quiescent. Qed.
Print Assumptions C16_gate_free_when_quiescent.

(* --- end to end --------------------------------------------------------------------------- *)

(* The property as stated: after any history, once everything is quiet, host, device and
   controller hold the same live set, every registry entry belongs to a connection the
   controller still holds, and every awaited call is done or is on such a connection. *)
Theorem C16_teardown_complete : forall tbl ops,
  all_cleaned tbl = true ->
  let s := run tbl (ops ++ [Tick]) init in
  lost s = false -> settled s = true ->
  (forall x, mem x (host s) = mem x (ctl s) /\ mem x (dev s) = mem x (ctl s)) /\
  (forall r k, In (r, k) (regs s) -> mem (kconn k) (ctl s) = true) /\
  Forall (fun x => is_done (w_st x) = true \/ mem (kconn (w_key x)) (ctl s) = true) (waiters s).
Proof. exact teardown_complete. Qed.
Print Assumptions C16_teardown_complete.

(* Tearing one connection down leaves the registry entries, the awaited calls and the table
   membership of every other connection untouched. *)
Theorem C16_links_independent : forall tbl h s,
  (forall p, In p (regs s) -> kconn (snd p) <> h -> In p (regs (fanout tbl h s))) /\
  (forall x, In x (waiters s) -> kconn (w_key x) <> h -> In x (waiters (fanout tbl h s))) /\
  (forall c, c <> h -> mem c (dev (fanout tbl h s)) = mem c (dev s) /\
                       mem c (host (fanout tbl h s)) = mem c (host s)) /\
  ctl (fanout tbl h s) = ctl s /\ c2h (fanout tbl h s) = c2h s /\ h2c (fanout tbl h s) = h2c s.
Proof. exact links_independent. Qed.
Print Assumptions C16_links_independent.

(* --- the hypotheses are needed ----------------------------------------------------------- *)

(* a registry outside the chain keeps an entry for a closed connection *)
Theorem C16_unclean_registry_refuted :
  all_cleaned leaky_table = false /\
  let s := run leaky_table
             [Establish 1; DeliverC2H; Insert "x.Leaky.registry" (1, 0); PeerDisc 1; DeliverC2H] init in
  quiescent s = true /\ mem 1 (dev s) = false /\ In ("x.Leaky.registry"%string, (1, 0)) (regs s).
Proof. vm_compute. repeat split; try reflexivity. now left. Qed.
Print Assumptions C16_unclean_registry_refuted.

(* The fan-out is one synchronous call chain in which a listener may raise.  If none does,
   the chain that may fail IS the fan-out of the theorems above ... *)
Theorem C16_no_raise_fanout_complete : forall tbl raises h s,
  (forall hk, In hk fanout_order -> raises hk = false) -> fanout_raising tbl raises h s = fanout tbl h s.
Proof. intros. unfold fanout_raising, fanout. now apply fold_until_no_raise. Qed.
Print Assumptions C16_no_raise_fanout_complete.

(* ... and the no-raise condition is necessary: a raising Connection 'disconnection' listener
   leaves the later registries populated, host and device in disagreement, disconnect() pending *)
Theorem C16_raising_listener_refuted :
  let s := fanout_raising model_registries (hook_eqb HkConnListeners) 1 (run model_registries raising_prefix init) in
  dev s = [] /\ host s = [1] /\
  map fst (regs s) = ["smp.Manager.sessions"; "gatt_server.Server.subscribers";
                      "l2cap.ChannelManager.channels"; "host.DataPacketQueue._connection_state"]%string /\
  map (fun x => (w_id x, st_code (w_st x))) (waiters s) = [(4, 0)].
Proof. vm_compute. repeat split; reflexivity. Qed.
Print Assumptions C16_raising_listener_refuted.

(* [settled], not only [quiescent]: a task that has not run yet keeps its call pending
   (state code 2) on a closed connection *)
Theorem C16_unsettled_refuted :
  let s := run model_registries (unsettled_history ++ [Tick]) init in
  quiescent s = true /\ settled s = false /\ mem 1 (dev s) = false /\
  map (fun x => (w_id x, st_code (w_st x))) (waiters s) = [(7, 2)].
Proof. vm_compute. repeat split; reflexivity. Qed.
Print Assumptions C16_unsettled_refuted.

(* --- non-vacuity ------------------------------------------------------------------------- *)

(* the former late-registration race (D16h/D16i, repaired): the link is cut between the command
   status and the resumption of the awaiting task; when the task runs it is cancelled (code 12),
   by a disconnection and by a transport loss alike *)
Example C16_late_registration_now_cancelled :
  let ops1 := [Establish 1; DeliverC2H; Start 7 (WLate HkConnListeners) (1, 0); DeliverH2C; PeerDisc 1;
               DeliverC2H; DeliverC2H; Resume 7; Tick] in
  let ops2 := [Establish 1; DeliverC2H; Start 7 (WLate HkConnListeners) (1, 0); DeliverH2C; DeliverC2H;
               Loss; Resume 7; Tick] in
  settled (run model_registries ops1 init) = true /\
  settled (run model_registries ops2 init) = true /\
  map (fun x => (w_id x, st_code (w_st x))) (waiters (run model_registries ops1 init)) = [(7, 12)] /\
  map (fun x => (w_id x, st_code (w_st x))) (waiters (run model_registries ops2 init)) = [(7, 12)].
Proof. vm_compute. repeat split; reflexivity. Qed.

(* the shape of the code before D16k (commands written into a lost transport) is rejected *)
Example C16_pre_d16k_shape_rejected :
  shapes_eqb pre_d16k_shapes expected_shapes = false /\
  first_difference pre_d16k_shapes expected_shapes = Some "host.Host.on_transport_lost"%string.
Proof. vm_compute. split; reflexivity. Qed.

(* a command is written, its caller is cancelled before the answer, the answer arrives
   later and is ignored; the gate is busy in between and free at the end *)
Example C16_gate_cancelled_caller :
  let ops := [HciCommand 5; Establish 1; DeliverC2H; Start 6 (WLate HkConnListeners) (1, 0)] in
  gate_busy (run model_registries ops init) = true /\
  let s := run model_registries (ops ++ [Cancel 5; Cancel 6; DeliverH2C; DeliverH2C; DeliverC2H; DeliverC2H]) init in
  quiescent s = true /\ gate_busy s = false /\
  map (fun x => (w_id x, st_code (w_st x))) (waiters s) = [(5, 12); (6, 12)].
Proof. vm_compute. repeat split; reflexivity. Qed.

(* a race-free history in which a disconnection by the peer cancels a GATT request, ends a
   pairing, resolves a local disconnect, leaves a queued request to its timer, and empties
   four registries; the same by transport loss *)
Example C16_nonvacuous_disconnection :
  let ops := [Establish 1; DeliverC2H;
              Insert "smp.Manager.sessions" (1, 0); Insert "gatt_server.Server.subscribers" (1, 64);
              Insert "host.DataPacketQueue._packets" (1, 0); Insert "l2cap.ChannelManager.channels" (1, 0);
              Start 1 (WConnBound HkConnListeners) (1, 0); Start 2 WTimerOnly (1, 0);
              Start 3 (WConnBound HkL2cap) (1, 0); LocalDisc 4 1; HciCommand 5;
              PeerDisc 1; DeliverH2C; DeliverH2C; DeliverC2H; DeliverC2H; Tick] in
  settled (run model_registries ops init) = true /\
  obs (run model_registries ops init) = ([], [], [], [], [(1, 12); (2, 13); (3, 12); (4, 10); (5, 10)]).
Proof. vm_compute. split; reflexivity. Qed.

Example C16_nonvacuous_transport_loss :
  let ops := [Establish 1; DeliverC2H; Establish 2; DeliverC2H;
              Insert "smp.Manager.sessions" (1, 0); Insert "gatt_server.Server.pending_confirmations" (2, 0);
              Start 1 (WConnBound HkConnListeners) (1, 0); Start 2 WTimerOnly (2, 0); HciCommand 5;
              Loss; Tick] in
  settled (run model_registries ops init) = true /\
  obs (run model_registries ops init) = ([2; 1], [], [], [], [(1, 12); (2, 13); (5, 11)]).
Proof. vm_compute. split; reflexivity. Qed.
