(* Segmentation / reassembly and sequence numbering of Model/Ertm.v. *)
From Coq Require Import ZArith List Bool Lia.
From BV Require Import Model.Crc16 Model.Ertm.
Import ListNotations.
Open Scope Z_scope.

Definition zlen {A} (l : list A) : Z := Z.of_nat (length l).

Lemma zlen_app {A} (a b : list A) : zlen (a ++ b) = zlen a + zlen b.
Proof. unfold zlen. rewrite app_length. lia. Qed.
Lemma zlen_nil {A} : zlen (@nil A) = 0. Proof. reflexivity. Qed.
Lemma zlen_cons {A} (x : A) l : zlen (x :: l) = 1 + zlen l.
Proof. unfold zlen. cbn [length]. lia. Qed.
Lemma zlen_nonneg {A} (l : list A) : 0 <= zlen l. Proof. unfold zlen. lia. Qed.
Lemma zlen_map {A B} (f : A -> B) l : zlen (map f l) = zlen l.
Proof. unfold zlen. now rewrite map_length. Qed.

(* reassembly as the receiver performs it, over a list of segments *)
Fixpoint reasm (acc : list Z) (l : list seg) : list (list Z) * list Z :=
  match l with
  | [] => ([], acc)
  | g :: r =>
      if delivers (g_sar g)
      then let '(out, a) := reasm [] r in ((acc ++ g_data g) :: out, a)
      else reasm (acc ++ g_data g) r
  end.

Lemma reasm_app acc l1 l2 :
  reasm acc (l1 ++ l2) =
  let '(o1, a1) := reasm acc l1 in let '(o2, a2) := reasm a1 l2 in (o1 ++ o2, a2).
Proof.
  revert acc. induction l1 as [|g r IH]; intros acc; cbn [app reasm].
  - destruct (reasm acc l2); reflexivity.
  - destruct (delivers (g_sar g)).
    + rewrite IH. destruct (reasm [] r) as [o1 a1]. destruct (reasm a1 l2); reflexivity.
    + apply IH.
Qed.

Definition nodeliver (l : list seg) : bool :=
  forallb (fun g => negb (delivers (g_sar g))) l.

Lemma reasm_nodeliver l : forall acc,
  nodeliver l = true -> reasm acc l = ([], acc ++ concat (map g_data l)).
Proof.
  induction l as [|g r IH]; intros acc H; cbn.
  - now rewrite app_nil_r.
  - cbn in H. apply andb_true_iff in H as [H1 H2].
    destruct (delivers (g_sar g)); [discriminate|].
    rewrite IH by assumption. now rewrite <- app_assoc.
Qed.

Lemma seg_loop_nil f first mps total : seg_loop f first mps total [] = [].
Proof. destruct f; reflexivity. Qed.

(* every segment but the last is START or CONTINUATION, the last is END, and the payloads
   concatenate to the input; a loop entered with [first] set has at least two rounds *)
Lemma seg_loop_shape mps total : (1 <= mps)%nat -> forall fuel first rest,
  rest <> [] -> (length rest <= fuel)%nat -> (first = true -> (mps < length rest)%nat) ->
  exists body last,
    seg_loop fuel first mps total rest = body ++ [last] /\
    nodeliver body = true /\ delivers (g_sar last) = true /\
    concat (map g_data (body ++ [last])) = rest.
Proof.
  intros Hm. induction fuel as [|f IH]; intros first rest Hne Hlen Hfirst.
  - destruct rest; [congruence | cbn in Hlen; lia].
  - destruct rest as [|x r]; [congruence|].
    cbn [seg_loop]. set (rest := x :: r) in *. rewrite firstn_length.
    destruct (Nat.le_gt_cases (length rest) mps) as [Hle|Hgt].
    + destruct first; [specialize (Hfirst eq_refl); lia|].
      replace (length rest <=? Nat.min mps (length rest))%nat with true
        by (symmetry; apply Nat.leb_le; lia).
      rewrite (skipn_all2 rest Hle), seg_loop_nil, (firstn_all2 rest Hle).
      exists [], (mkSeg SEND total rest). cbn. rewrite app_nil_r. auto.
    + replace (length rest <=? Nat.min mps (length rest))%nat with false
        by (symmetry; apply Nat.leb_gt; lia).
      destruct (IH false (skipn mps rest)) as (body & last & Heq & Hnd & Hd & Hc).
      * intros H0. apply (f_equal (@length Z)) in H0. rewrite skipn_length in H0.
        cbn [length] in H0. lia.
      * rewrite skipn_length. subst rest. cbn [length] in *. lia.
      * discriminate.
      * exists (mkSeg (if first then START else CONT) total (firstn mps rest) :: body), last.
        rewrite Heq. repeat split; auto; [now destruct first|].
        cbn [app map concat g_data]. rewrite Hc. apply firstn_skipn.
Qed.

Lemma segment_shape mps w : 1 <= mps ->
  exists body last,
    segment mps w = body ++ [last] /\ nodeliver body = true /\
    delivers (g_sar last) = true /\ concat (map g_data (body ++ [last])) = w.
Proof.
  intros Hm. unfold segment.
  destruct (Z.leb (Z.of_nat (length w)) mps) eqn:E.
  - exists [], (mkSeg UNSEG 0 w). cbn. rewrite app_nil_r. auto.
  - apply Z.leb_gt in E. apply seg_loop_shape; try lia.
    intros ->. cbn in E. lia.
Qed.

Lemma segment_reasm mps w acc : 1 <= mps ->
  reasm acc (segment mps w) = ([acc ++ w], []).
Proof.
  intros Hm. destruct (segment_shape mps w Hm) as (body & last & Heq & Hnd & Hd & Hc).
  rewrite Heq, reasm_app, (reasm_nodeliver body acc Hnd). cbn [reasm]. rewrite Hd.
  rewrite map_app, concat_app in Hc. cbn in Hc. rewrite app_nil_r in Hc.
  now rewrite <- app_assoc, Hc.
Qed.

Lemma prefix_of_snoc {A} (body l m : list A) (last : A) :
  body ++ [last] = l ++ m -> m <> [] -> exists t, body = l ++ t.
Proof.
  intros H Hm. apply app_eq_app in H as [t [[H1 H2]|[H1 H2]]].
  - exists t. exact H1.
  - destruct t as [|y t].
    + exists []. rewrite app_nil_r in *. now subst.
    + cbn in H2. injection H2 as -> H3. symmetry in H3. apply app_eq_nil in H3 as [_ ->].
      congruence.
Qed.

Lemma segment_strict_prefix mps w l m : 1 <= mps ->
  segment mps w = l ++ m -> m <> [] -> nodeliver l = true.
Proof.
  intros Hm H Hne. destruct (segment_shape mps w Hm) as (body & last & Heq & Hnd & _ & _).
  rewrite Heq in H. destruct (prefix_of_snoc _ _ _ _ H Hne) as [t ->].
  unfold nodeliver in *. rewrite forallb_app in Hnd. now apply andb_true_iff in Hnd.
Qed.

(* all segments of a sequence of SDUs *)
Definition segs_of (mps : Z) (W : list (list Z)) : list seg := flat_map (segment mps) W.

Lemma segs_of_app mps W1 W2 : segs_of mps (W1 ++ W2) = segs_of mps W1 ++ segs_of mps W2.
Proof. apply flat_map_app. Qed.

Lemma reasm_all mps : 1 <= mps -> forall W, reasm [] (segs_of mps W) = (W, []).
Proof.
  intros Hm. induction W as [|w W IH]; [reflexivity|].
  cbn [segs_of flat_map]. rewrite reasm_app, (segment_reasm mps w [] Hm).
  fold (segs_of mps W). now rewrite IH.
Qed.

(* what has been delivered after any prefix of the segment stream is a prefix of the
   SDU sequence *)
Lemma reasm_prefix mps : 1 <= mps -> forall W l rest,
  segs_of mps W = l ++ rest -> exists j, fst (reasm [] l) = firstn j W.
Proof.
  intros Hm. induction W as [|w W IH]; intros l rest H.
  - cbn in H. symmetry in H. apply app_eq_nil in H as [-> _]. now exists 0%nat.
  - cbn [segs_of flat_map] in H. fold (segs_of mps W) in H.
    apply app_eq_app in H as [t [[H1 H2]|[H1 H2]]].
    + destruct t as [|y t].
      * rewrite app_nil_r in H1. subst l. rewrite (segment_reasm mps w [] Hm).
        now exists 1%nat.
      * assert (Hnd : nodeliver l = true)
          by (eapply segment_strict_prefix; eauto; congruence).
        rewrite (reasm_nodeliver l [] Hnd). now exists 0%nat.
    + subst l. destruct (IH _ _ H2) as [j Hj].
      rewrite reasm_app, (segment_reasm mps w [] Hm).
      destruct (reasm [] t) as [o a]. cbn in *. exists (S j). now rewrite Hj.
Qed.

(* every payload fits the peer's MPS *)
Lemma seg_loop_le_mps mps total : forall fuel first rest,
  Forall (fun g => (length (g_data g) <= mps)%nat) (seg_loop fuel first mps total rest).
Proof.
  induction fuel as [|f IH]; intros first rest; cbn [seg_loop]; [constructor|].
  destruct rest as [|x r]; [constructor|]. constructor; [|apply IH].
  cbn [g_data]. rewrite firstn_length. lia.
Qed.

Lemma segment_le_mps mps w : 0 <= mps ->
  Forall (fun g => zlen (g_data g) <= mps) (segment mps w).
Proof.
  intros Hm. unfold segment. destruct (Z.leb (Z.of_nat (length w)) mps) eqn:E.
  - apply Z.leb_le in E. constructor; [exact E|constructor].
  - eapply Forall_impl; [|apply seg_loop_le_mps]. intros g Hg. unfold zlen. cbv beta in Hg. lia.
Qed.

(* _get_next_tx_seq applied along a list of segments, starting from k *)
Fixpoint number (k : Z) (l : list seg) : list pdu :=
  match l with
  | [] => []
  | g :: r => mkPdu g (k mod MAX_SEQ_NUM) :: number (k + 1) r
  end.

Lemma assign_number l : forall k,
  assign (k mod MAX_SEQ_NUM) l = (number k l, (k + zlen l) mod MAX_SEQ_NUM).
Proof.
  induction l as [|g r IH]; intros k; cbn [assign number].
  - rewrite zlen_nil, Z.add_0_r. reflexivity.
  - rewrite Zplus_mod_idemp_l, IH, zlen_cons. do 2 f_equal. lia.
Qed.

Lemma number_app l1 l2 : forall k,
  number k (l1 ++ l2) = number k l1 ++ number (k + zlen l1) l2.
Proof.
  induction l1 as [|g r IH]; intros k; cbn [app number].
  - now rewrite zlen_nil, Z.add_0_r.
  - rewrite IH, zlen_cons. do 3 f_equal. lia.
Qed.

Lemma number_length l : forall k, length (number k l) = length l.
Proof. induction l; intros; cbn; auto. Qed.

Lemma number_segs l : forall k, map p_seg (number k l) = l.
Proof. induction l as [|g r IH]; intros; cbn; [|rewrite IH]; auto. Qed.

Lemma number_split l : forall k p1 p2,
  number k l = p1 ++ p2 ->
  p1 = number k (map p_seg p1) /\ p2 = number (k + zlen p1) (map p_seg p2).
Proof.
  induction l as [|g r IH]; intros k p1 p2 H; cbn [number] in H.
  - symmetry in H. apply app_eq_nil in H as [-> ->]. cbn. auto.
  - destruct p1 as [|q p1]; cbn [app] in H.
    + subst p2. cbn [map number zlen length]. rewrite Z.add_0_r. split; [reflexivity|].
      cbn [p_seg]. f_equal. now rewrite number_segs.
    + injection H as <- H. destruct (IH _ _ _ H) as [H1 H2].
      cbn [map number p_seg]. rewrite <- H1. split; [reflexivity|].
      rewrite zlen_cons. replace (k + (1 + zlen p1)) with (k + 1 + zlen p1) by lia. exact H2.
Qed.

Lemma number_head k l p1 q p2 :
  number k l = p1 ++ q :: p2 -> p_tx q = (k + zlen p1) mod MAX_SEQ_NUM.
Proof.
  intros H. apply number_split in H as [_ H]. cbn [map number] in H. now injection H as -> _.
Qed.

Lemma number_txs l : forall k,
  map p_tx (number k l) =
  map (fun i => (k + Z.of_nat i) mod MAX_SEQ_NUM) (seq 0 (length l)).
Proof.
  induction l as [|g r IH]; intros k; cbn [number map length seq]; [reflexivity|].
  cbn [p_tx]. rewrite Z.add_0_r. f_equal. rewrite IH, <- seq_shift, map_map.
  apply map_ext. intros i. f_equal. lia.
Qed.
