(* C14 - evaluating multiples of points of P-256 inside Coq.  The model follows the Python
   source: coordinates grow to thousands of bits before the one reduction modulo p of a
   doubling, and the inverse in to_affine comes from Euclid's algorithm, some 150 long
   divisions on 256-bit numbers.  Both are slow under the kernel's reduction.  Here: the same
   doubling with every product reduced, and to_affine with the inverse supplied and confirmed
   by one multiplication, each proved equal to the model's function. *)
From Coq Require Import ZArith List Bool Lia Setoid.
From BV Require Import Model.CryptoBytes Model.P256 Proofs.P256Inv.
Import ListNotations.
Open Scope Z_scope.

#[export] Existing Instances eqm_setoid Zplus_eqm Zminus_eqm Zmult_eqm.

(* a congruence modulo p between two polynomials, some of whose subterms are already reduced:
   +, - and * respect congruence, so the inner reductions can be dropped *)
Ltac mod_ring :=
  match goal with |- ?a mod ?p = ?b mod ?p => change (eqm p a b) end;
  repeat setoid_rewrite Zmod_eqm; unfold eqm; f_equal; ring.

Definition jac_double_red (c : curve) (P : jac) : jac :=
  let '(x, y, z) := P in
  if (z =? 0) || (y =? 0) then jac_inf else
  let p := cp c in
  let yy := (y * y) mod p in
  let s := (4 * x * yy) mod p in
  let zz := (z * z) mod p in
  let m := (3 * (x * x) + ca c * ((zz * zz) mod p)) mod p in
  let x2 := (m * m - 2 * s) mod p in
  (x2, (m * (s - x2) - 8 * ((yy * yy) mod p)) mod p, (2 * y * z) mod p).

Lemma jac_double_red_eq : forall c P, jac_double_red c P = jac_double c P.
Proof.
  intros c [[x y] z]. unfold jac_double_red, jac_double.
  destruct ((z =? 0) || (y =? 0)); [reflexivity|]. cbv zeta.
  do 2 f_equal; mod_ring.
Qed.

Definition to_affine_given (c : curve) (i : Z) (P : jac) : affine :=
  let '(x, y, z) := P in
  let p := cp c in
  if (z * i) mod p =? 1
  then let i1 := i mod p in
       let i2 := (i1 * i1) mod p in
       Affine ((x * i2) mod p) ((y * ((i2 * i1) mod p)) mod p)
  else to_affine c P.

Lemma to_affine_given_eq : forall c i P, 0 < cp c -> to_affine_given c i P = to_affine c P.
Proof.
  intros c i [[x y] z] Hp. unfold to_affine_given, to_affine. cbv zeta.
  destruct ((z * i) mod cp c =? 1) eqn:E; [|reflexivity].
  apply Z.eqb_eq in E. rewrite (modinv_complete _ _ _ Hp E).
  destruct (z =? 0) eqn:Ez.
  - apply Z.eqb_eq in Ez. subst z. rewrite Z.mod_0_l in E by lia. discriminate.
  - set (i1 := i mod cp c). f_equal; mod_ring.
Qed.
