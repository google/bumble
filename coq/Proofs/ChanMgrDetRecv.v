(* C09 determinacy (see ChanMgrDet.v): the handlers of received frames commute with `local` *)
From Coq Require Import ZArith List Bool Lia.
From BV Require Import Gen.C09Tables Model.ChanMgr Proofs.ChanMgrLib Proofs.ChanMgr Proofs.ChanMgrDet.
Import ListNotations.
Open Scope Z_scope.

Lemma find_cl_on a m cid u c : Inv m -> find_cl m a cid = Some (u, c) -> hget m u = Some c /\ c_conn c = a.
Proof.
  intros I. unfold find_cl. destruct (tget a cid (m_chs m)) as [u'|] eqn:T; [|discriminate].
  destruct (chs_on _ _ _ _ I T) as (c' & Hu & Hc). rewrite Hu. destruct (c_kind c'); [discriminate|].
  intros [= <- <-]. auto.
Qed.

Lemma loc_find_cl a m cid : Inv m -> find_cl (local a m) a cid = find_cl m a cid.
Proof.
  intros I. unfold find_cl. autorewrite with loc. destruct (tget a cid (m_chs m)) as [u|] eqn:T; [|reflexivity].
  destruct (chs_on _ _ _ _ I T) as (c & Hu & <-). now rewrite (hget_local_on _ _ _ Hu), Hu.
Qed.

Lemma loc_recv_conn_rsp a m id dcid scid result : Inv m ->
  recv_conn_rsp (local a m) a id dcid scid result = loc_out a (recv_conn_rsp m a id dcid scid result).
Proof.
  intros I. unfold recv_conn_rsp. rewrite loc_find_cl by auto.
  destruct (find_cl m a scid) as [[u c]|] eqn:F; [|reflexivity].
  destruct (find_cl_on _ _ _ _ _ I F) as (Hu & <-).
  destruct (c_st c); try reflexivity.
  destruct (result =? R_OK); [loc_path|].
  destruct (result =? R_PENDING); [reflexivity|]. cbv zeta.
  rewrite !wpending_hupd, (wpending_local _ _ _ I Hu). unfold cl_connect_failed.
  destruct (wpending m (c_cw c)); loc_path.
Qed.

Lemma loc_recv_conf_req a m id dcid rfc bad : Inv m ->
  recv_conf_req (local a m) a id dcid rfc bad = loc_out a (recv_conf_req m a id dcid rfc bad).
Proof.
  intros I. unfold recv_conf_req. rewrite loc_find_cl by auto.
  destruct (find_cl m a dcid) as [[u c]|] eqn:F; [|reflexivity].
  destruct (find_cl_on _ _ _ _ _ I F) as (Hu & <-). rewrite (wpending_local _ _ _ I Hu).
  destruct (negb _); [reflexivity|]. unfold cl_connect_failed.
  destruct (_ && _); [destruct (wpending m (c_cw c))|destruct bad; [|destruct (c_st c)]];
    loc_path.
Qed.

Lemma loc_recv_conf_rsp a m id scid result sugg : Inv m ->
  recv_conf_rsp (local a m) a id scid result sugg = loc_out a (recv_conf_rsp m a id scid result sugg).
Proof.
  intros I. unfold recv_conf_rsp. rewrite loc_find_cl by auto.
  destruct (find_cl m a scid) as [[u c]|] eqn:F; [|reflexivity].
  destruct (find_cl_on _ _ _ _ _ I F) as (Hu & <-).
  destruct (result =? 0); [destruct (c_st c)|destruct (result =? CONF_UNACCEPTABLE); [destruct (sugg =? 0)|]];
    loc_path.
Qed.

Lemma loc_recv_disc_req a m id dcid scid : Inv m ->
  recv_disc_req (local a m) a id dcid scid = loc_out a (recv_disc_req m a id dcid scid).
Proof.
  intros I. unfold recv_disc_req. autorewrite with loc.
  destruct (tget a dcid (m_chs m)) as [u|] eqn:T; [|reflexivity].
  destruct (chs_on _ _ _ _ I T) as (c & Hu & <-).
  rewrite (hget_local_on _ _ _ Hu), Hu, (wpending_local _ _ _ I Hu).
  destruct (negb _); [reflexivity|]. unfold cl_connect_failed.
  destruct (c_kind c); [|destruct (wpending m (c_cw c))]; loc_path.
Qed.

Lemma loc_recv_disc_rsp a m id dcid scid : Inv m ->
  recv_disc_rsp (local a m) a id dcid scid = loc_out a (recv_disc_rsp m a id dcid scid).
Proof.
  intros I. unfold recv_disc_rsp. autorewrite with loc.
  destruct (tget a scid (m_chs m)) as [u|] eqn:T; [|reflexivity].
  destruct (chs_on _ _ _ _ I T) as (c & Hu & <-). rewrite (hget_local_on _ _ _ Hu), Hu. cbv zeta.
  destruct (c_kind c); destruct (c_st c); try reflexivity;
    (destruct (negb _); [reflexivity|]); loc_path.
Qed.

Lemma loc_recv_credit a m cid n : Inv m ->
  recv_credit (local a m) a cid n = loc_out a (recv_credit m a cid n).
Proof.
  intros I. unfold recv_credit. autorewrite with loc.
  destruct (tget a cid (m_le m)) as [u|] eqn:T; [|reflexivity].
  destruct (le_pt _ I _ _ _ T) as (c & Hu & <- & _). rewrite (hget_local_on _ _ _ Hu), Hu.
  loc_path.
Qed.

Lemma loc_recv_le_req a m id psm scid credits okp :
  recv_le_req (local a m) a id psm scid credits okp = loc_out a (recv_le_req m a id psm scid credits okp).
Proof.
  unfold recv_le_req. autorewrite with loc. destruct (srv_get psm (m_lesrv m)); [|reflexivity].
  destruct (negb okp); [reflexivity|].
  destruct (memz _ _); [reflexivity|]. destruct (find_free_le _); [|reflexivity].
  rewrite loc_new_le_chans. reflexivity.
Qed.

Lemma loc_recv_enh_req a m id psm credits scids okp :
  recv_enh_req (local a m) a id psm credits scids okp = loc_out a (recv_enh_req m a id psm credits scids okp).
Proof.
  unfold recv_enh_req. autorewrite with loc. destruct (srv_get psm (m_lesrv m)); [|reflexivity].
  destruct (negb okp); [reflexivity|].
  destruct (any_mem _ _); [reflexivity|]. destruct (find_free_le_n _ _); [reflexivity|].
  rewrite loc_new_le_chans. reflexivity.
Qed.

Lemma loc_recv_conn_req a m id psm scid :
  recv_conn_req (local a m) a id psm scid = loc_out a (recv_conn_req m a id psm scid).
Proof.
  unfold recv_conn_req. autorewrite with loc. destruct (srv_get psm (m_clsrv m)); [|reflexivity].
  destruct (find_free_bredr _); [|reflexivity]. loc_path.
Qed.

Lemma loc_recv_le_rsp a m id dcid credits result : Inv m ->
  recv_le_rsp (local a m) a id dcid credits result = loc_out a (recv_le_rsp m a id dcid credits result).
Proof.
  intros I. unfold recv_le_rsp. autorewrite with loc.
  destruct (tget a id (m_reqs m)) as [scid|] eqn:R; [|reflexivity]. cbv zeta. autorewrite with loc.
  set (m1 := with_reqs m _).
  destruct (tget a scid (m_chs m1)) as [u|] eqn:T; [|reflexivity].
  destruct (chs_on _ _ _ _ I T) as (c & Hu & <-). change (hget m u) with (hget m1 u) in Hu.
  rewrite (hget_local_on _ _ _ Hu), Hu.
  destruct (c_cw c); [|reflexivity].
  destruct (result =? R_OK); loc_path.
Qed.

Lemma loc_enh_each a i ok credits : forall us m dcids,
  (forall u, In u us -> chan_on a m u) ->
  enh_each (local a m) a i us dcids ok credits = local a (enh_each m a i us dcids ok credits).
Proof.
  induction us as [|u us' IH]; intros m dcids H; [reflexivity|].
  cbn [enh_each]. cbv zeta. pose proof (H u (or_introl eq_refl)) as Hu.
  assert (H' : forall u', In u' us' -> chan_on a m u') by (intros u' Hin; apply H; now right).
  destruct dcids, ok; autorewrite with loc; apply IH; auto 8 with on.
Qed.

Lemma loc_enh_finish a m id w us dcids ok credits o :
  (forall u, In u us -> chan_on a m u) ->
  enh_finish (local a m) a id w us dcids ok credits o = local a (enh_finish m a id w us dcids ok credits o).
Proof. intros H. unfold enh_finish. cbv zeta. rewrite loc_enh_each by auto. loc_path. Qed.

Lemma loc_recv_enh_rsp a m id credits result dcids : Inv m ->
  recv_enh_rsp (local a m) a id credits result dcids = loc_out a (recv_enh_rsp m a id credits result dcids).
Proof.
  intros I. unfold recv_enh_rsp. autorewrite with loc.
  destruct (tget a id (m_pend m)) as [[w us]|] eqn:T; [|reflexivity]. cbv zeta. cbn [fst snd].
  rewrite loc_enh_finish by (eapply pend_on; eauto). reflexivity.
Qed.

