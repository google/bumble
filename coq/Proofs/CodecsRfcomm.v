(* Round trips of the RFCOMM codecs.  The length indicator is read by one function every parser goes
   through.  An octet built from fields at fixed offsets is rewritten as the sum of its fields and left
   to linear arithmetic; evaluation is kept for what is a table (the CRC table, the frame type codes) or
   one octet with scattered bits (control, MSC flags). *)
From Coq Require Import ZArith List Bool Lia.
From BV Require Import Base.Bytes Proofs.Bytes Proofs.BitFields Model.CodecsBase Proofs.CodecsBase
  Gen.C18Tables Model.CodecsRfcomm.
Import ListNotations.
Open Scope Z_scope.

Lemma crc_table_checked : crc_table_ok = true.
Proof. vm_compute. reflexivity. Qed.

Lemma lxor_byte : forall a b, 0 <= a < 256 -> 0 <= b < 256 -> 0 <= Z.lxor a b < 256.
Proof.
  intros a b Ha Hb.
  assert (E : Z.lxor a b mod 2 ^ 8 = Z.lxor a b).
  { rewrite <- Z.land_ones by lia. apply Z.bits_inj'. intros n Hn.
    rewrite Z.land_spec, Z.lxor_spec. destruct (Z.lt_ge_cases n 8).
    - rewrite Z.ones_spec_low by lia. apply andb_true_r.
    - rewrite (testbit_small a 8 n), (testbit_small b 8 n) by assumption. reflexivity. }
  rewrite <- E. apply Z.mod_pos_bound. lia.
Qed.

Lemma crc8_octet_byte : forall c, 0 <= c < 256 -> 0 <= crc8_octet c < 256.
Proof.
  unfold crc8_octet. generalize 8%nat. induction n as [|n IH]; intros c Hc; [exact Hc|]. cbn [crc8_bits]. apply IH.
  assert (0 <= Z.shiftr c 1 < 128) by bits_lia.
  destruct (Z.odd c); [apply lxor_byte; lia|lia].
Qed.

Lemma crc_table_entries : forall i, 0 <= i < 256 -> nth (Z.to_nat i) rfcomm_crc_table 0 = crc8_octet i.
Proof.
  intros i Hi. pose proof crc_table_checked as T. unfold crc_table_ok in T. apply andb_true_iff in T as [_ T].
  apply Z.eqb_eq. exact (forall_range 256 _ T i Hi).
Qed.

Lemma fcs_with_spec : forall table,
  (forall i, 0 <= i < 256 -> nth (Z.to_nat i) table 0 = crc8_octet i) ->
  forall buf, bytes_ok buf = true -> fcs_with table buf = fcs_spec buf /\ 0 <= fcs_spec buf < 256.
Proof.
  intros table T buf Hok. unfold fcs_with, fcs_spec.
  assert (G : forall r, 0 <= r < 256 ->
     fold_left (crc_step table) buf r = fold_left (fun r b => crc8_octet (Z.lxor r b)) buf r /\
     0 <= fold_left (fun r b => crc8_octet (Z.lxor r b)) buf r < 256).
  { induction buf as [|b buf IH]; intros r Hr; [auto|].
    rewrite bytes_ok_cons in Hok. apply andb_true_iff in Hok as [Hb Hbuf]. apply byte_ok_iff in Hb.
    pose proof (lxor_byte r b Hr Hb) as Hx.
    cbn [fold_left]. unfold crc_step at 2. rewrite (T _ Hx).
    apply IH; [exact Hbuf|apply crc8_octet_byte; exact Hx]. }
  destruct (G 255 ltac:(lia)) as [E R]. rewrite E. lia.
Qed.

Theorem compute_fcs_is_crc8 : forall buf, bytes_ok buf = true -> compute_fcs buf = fcs_spec buf.
Proof. intros buf H. exact (proj1 (fcs_with_spec _ crc_table_entries buf H)). Qed.

Lemma compute_fcs_byte : forall buf, bytes_ok buf = true -> 0 <= compute_fcs buf < 256.
Proof. intros buf H. rewrite compute_fcs_is_crc8 by exact H. exact (proj2 (fcs_with_spec _ crc_table_entries buf H)). Qed.

Lemma odd_mod2 : forall a, Z.b2z (Z.odd a) = a mod 2.
Proof. intro a. rewrite <- Z.bit0_odd. apply Z.bit0_mod. Qed.

Lemma length_bytes_short : forall L, 0 <= L <= 127 -> length_bytes L = [2 * L + 1].
Proof.
  intros L HL. unfold length_bytes. replace (127 <? L) with false by (symmetry; apply Z.ltb_ge; lia).
  rewrite (pack_sum 1) by lia. f_equal. lia.
Qed.

Lemma length_bytes_long : forall L, 127 < L < 32768 -> length_bytes L = [2 * (L mod 128); L / 128].
Proof.
  intros L HL. unfold length_bytes. replace (127 <? L) with true by (symmetry; apply Z.ltb_lt; lia).
  rewrite (Z.land_ones _ 7), (Z.land_ones _ 8) by lia. do 2 f_equal. bits_lia.
Qed.

(* The reader of a length indicator, as every parser below contains it: the length, the octets
   after the indicator, and whether the indicator is the short form whenever the length fits. *)
Definition len_split (d : list Z) : option (Z * list Z * bool) :=
  match d with
  | [] => None
  | x :: r =>
      if Z.odd x then Some (Z.shiftr x 1, r, true)
      else match r with
           | [] => None
           | y :: r' => let L := Z.lor (Z.shiftr x 1) (Z.shiftl y 7) in Some (L, r', 127 <? L)
           end
  end.

Lemma len2_value : forall x y, 0 <= x < 256 -> Z.lor (Z.shiftr x 1) (Z.shiftl y 7) = x / 2 + y * 128.
Proof. intros x y Hx. rewrite Z.lor_comm, (pack_sum 7) by bits_lia. bits_lia. Qed.

Lemma len_split_bytes : forall L r, 0 <= L < 32768 -> len_split (length_bytes L ++ r) = Some (L, r, true).
Proof.
  intros L r HL. destruct (Z.le_gt_cases L 127).
  - rewrite length_bytes_short by lia. cbn [app len_split].
    rewrite Z.add_comm, Z.odd_add_mul_2. cbn [Z.odd]. do 3 f_equal. bits_lia.
  - rewrite length_bytes_long by lia. cbn [app len_split].
    rewrite <- (Z.add_0_l (2 * _)), Z.odd_add_mul_2, Z.add_0_l. cbn [Z.odd]. rewrite len2_value by bits_lia.
    replace (2 * (L mod 128) / 2 + L / 128 * 128) with L by bits_lia.
    replace (127 <? L) with true by (symmetry; apply Z.ltb_lt; lia). reflexivity.
Qed.

Lemma len_split_back : forall d L r,
  bytes_ok d = true -> len_split d = Some (L, r, true) -> 0 <= L < 32768 /\ d = length_bytes L ++ r.
Proof.
  intros [|x [|y r']] L r Hok H; try discriminate; cbn [len_split] in H;
    rewrite !bytes_ok_cons, ?andb_true_iff, !byte_ok_iff in Hok;
    pose proof (odd_mod2 x) as P; destruct (Z.odd x); try discriminate; cbn [Z.b2z] in P.
  1,2: apply some_inv in H; injection H as <- <-; rewrite Z.shiftr_div_pow2 by lia;
       split; [bits_lia|]; rewrite length_bytes_short by bits_lia; cbn [app]; f_equal; bits_lia.
  rewrite len2_value in H by lia. apply some_inv in H. injection H as <- <- HL. apply Z.ltb_lt in HL.
  split; [bits_lia|]. rewrite length_bytes_long by bits_lia. cbn [app]. f_equal; [|f_equal]; bits_lia.
Qed.

Lemma length_bytes_ok : forall L, 0 <= L < 32768 -> bytes_ok (length_bytes L) = true.
Proof.
  intros L HL. destruct (Z.le_gt_cases L 127).
  - rewrite length_bytes_short by lia. cbn [bytes_ok forallb]. rewrite andb_true_r. apply byte_ok_iff. lia.
  - rewrite length_bytes_long by lia. cbn [bytes_ok forallb]. rewrite andb_true_r, andb_true_iff, !byte_ok_iff. bits_lia.
Qed.

Lemma lastz_snoc : forall l x, lastz (l ++ [x]) = x.
Proof. intros. unfold lastz. apply last_last. Qed.
Lemma lastz_cons : forall a l, l <> [] -> lastz (a :: l) = lastz l.
Proof. intros a [|b l] H; [congruence|reflexivity]. Qed.
Lemma lastz_app : forall a l, l <> [] -> lastz (a ++ l) = lastz l.
Proof.
  induction a as [|x a IH]; intros l H; [reflexivity|]. cbn [app].
  rewrite lastz_cons; [auto|]. destruct a; [exact H|discriminate].
Qed.
Lemma app_removelast_lastz : forall r, r <> [] -> r = removelast r ++ [lastz r].
Proof. intros r H. unfold lastz. apply app_removelast_last. exact H. Qed.

(* address octet, and the type octet of a multiplexer command: EA = 1, C/R, six more bits *)
Lemma addr_octet : forall d c, 0 <= c < 2 ->
  Z.lor (Z.lor (Z.shiftl d 2) (Z.shiftl c 1)) 1 = 1 + c * 2 + d * 4.
Proof. intros d c Hc. rewrite (pack3_sum 1 1) by lia. lia. Qed.

(* control octet: the type codes all have bit 4 clear, which is where P/F goes *)
Definition ctrl_chk (t pf : Z) : bool :=
  let c := Z.lor t (Z.shiftl pf 4) in
  byte_ok c && (Z.land c 239 =? t) && (Z.land (Z.shiftr c 4) 1 =? pf).
Lemma ctrl_all : forallb (fun t => forallb (ctrl_chk t) (zrange 2)) rfcomm_ft_codes = true.
Proof. vm_compute. reflexivity. Qed.
Definition ctrl_back_chk (b1 : Z) : bool :=
  zlt 2 (Z.land (Z.shiftr b1 4) 1) && (Z.lor (Z.land b1 239) (Z.shiftl (Z.land (Z.shiftr b1 4) 1) 4) =? b1).
Lemma ctrl_back_all : forallb ctrl_back_chk (zrange 256) = true.
Proof. vm_compute. reflexivity. Qed.

Lemma existsb_eqb_In : forall t l, existsb (Z.eqb t) l = true <-> In t l.
Proof.
  intros t l. rewrite existsb_exists. split.
  - intros [x [Hin He]]. apply Z.eqb_eq in He. subst. exact Hin.
  - intro H. exists t. split; [exact H|apply Z.eqb_refl].
Qed.

Definition mk_parsed (b0 b1 : Z) (info : list Z) : frame :=
  let t := Z.land b1 239 in let pf := Z.land (Z.shiftr b1 4) 1 in
  {| f_type := t; f_cr := Z.land (Z.shiftr b0 1) 1; f_dlci := Z.land (Z.shiftr b0 2) 63; f_pf := pf;
     f_info := info; f_credits := is_uih t && (pf =? 1) |}.

Definition credits_octet (b1 : Z) : Z :=
  if is_uih (Z.land b1 239) && (Z.land (Z.shiftr b1 4) 1 =? 1) then 1 else 0.

Lemma frame_parse_split : forall b0 b1 d,
  frame_parse (b0 :: b1 :: d) =
  if negb (existsb (Z.eqb (Z.land b1 239)) rfcomm_ft_codes) then None
  else match len_split d with
       | None => None
       | Some (_, r, _) =>
           let f := mk_parsed b0 b1 (removelast r) in
           if frame_paylen f <? 0 then None
           else if frame_fcs f =? lastz (b0 :: b1 :: d) then Some f else None
       end.
Proof.
  intros b0 b1 [|x r]; cbn [frame_parse len_split]; destruct (negb _); try reflexivity. destruct (Z.odd x); [reflexivity|]. destruct r; reflexivity.
Qed.

Lemma frame_canonical_split : forall b0 b1 d,
  frame_canonical (b0 :: b1 :: d) =
  Z.odd b0 && match len_split d with
              | None => false
              | Some (L, r, short) => short && (lenZ r =? L + credits_octet b1 + 1)
              end.
Proof.
  intros b0 b1 [|x r]; [symmetry; apply andb_false_r|]. cbn [frame_canonical len_split].
  destruct (Z.odd x); [reflexivity|]. destruct r; reflexivity.
Qed.

Lemma frame_paylen_parsed : forall b0 b1 info,
  frame_paylen (mk_parsed b0 b1 info) = lenZ info - credits_octet b1.
Proof. intros. unfold frame_paylen, mk_parsed, credits_octet. cbn [f_info f_credits]. destruct (_ && _); reflexivity. Qed.

Lemma frame_ok_payload : forall f, frame_ok f = true ->
  existsb (Z.eqb (f_type f)) rfcomm_ft_codes = true /\ bytes_ok (f_info f) = true /\ 0 <= frame_paylen f < 32768.
Proof.
  intros f H. unfold frame_ok in H. rewrite !andb_true_iff in H. rewrite <- zlt_iff. tauto.
Qed.

(* the header octets of an acceptable frame parse back to the frame *)
Lemma frame_header : forall f, frame_ok f = true ->
  byte_ok (frame_address f) = true /\ Z.odd (frame_address f) = true /\
  byte_ok (frame_control f) = true /\ Z.land (frame_control f) 239 = f_type f /\
  mk_parsed (frame_address f) (frame_control f) (f_info f) = f.
Proof.
  intros [t cr dlci pf info cred] H. unfold frame_ok in H. cbn [f_type f_cr f_dlci f_pf f_info f_credits] in H.
  rewrite !andb_true_iff, !zlt_iff in H. destruct H as [[[[[[Ht Hcr] Hd] Hpf] _] _] Hcred].
  apply eqb_prop in Hcred. apply existsb_eqb_In in Ht.
  pose proof ctrl_all as C. rewrite forallb_forall in C.
  pose proof (forall_range 2 _ (C _ Ht) pf Hpf) as C'. unfold ctrl_chk in C'.
  rewrite !andb_true_iff, !Z.eqb_eq in C'. destruct C' as [[C1 C2] C3].
  unfold frame_address, frame_control, mk_parsed. cbn [f_type f_cr f_dlci f_pf f_info f_credits].
  rewrite addr_octet, C2, C3, <- Hcred by exact Hcr.
  rewrite (Z.land_ones _ 6), (Z.land_ones _ 1) by lia.
  replace (1 + cr * 2 + dlci * 4) with (1 + 2 * (cr + 2 * dlci)) by lia. rewrite Z.odd_add_mul_2.
  repeat split; [apply byte_ok_iff; lia|exact C1|]. f_equal; bits_lia.
Qed.

(* and the fields read from received header octets are in range and re-encode to those octets *)
Lemma frame_header_back : forall b0 b1 info, byte_ok b0 = true -> byte_ok b1 = true -> Z.odd b0 = true ->
  let f := mk_parsed b0 b1 info in
  frame_address f = b0 /\ frame_control f = b1 /\ zlt 2 (f_cr f) && zlt 64 (f_dlci f) && zlt 2 (f_pf f) = true.
Proof.
  intros b0 b1 info H0 H1 Ho. apply byte_ok_iff in H0.
  pose proof (forall_range 256 _ ctrl_back_all b1 ltac:(apply byte_range; exact H1)) as C.
  unfold ctrl_back_chk in C. rewrite andb_true_iff, Z.eqb_eq in C. destruct C as [Cpf Cback].
  pose proof (odd_mod2 b0) as P. rewrite Ho in P. cbn [Z.b2z] in P.
  unfold frame_address, frame_control, mk_parsed. cbn [f_type f_cr f_dlci f_pf].
  rewrite (Z.land_ones _ 6), (Z.land_ones _ 1), Cpf, andb_true_r, andb_true_iff, !zlt_iff by lia.
  rewrite addr_octet by bits_lia. repeat split; try exact Cback; bits_lia.
Qed.

Lemma frame_ok_parsed : forall b0 b1 info,
  existsb (Z.eqb (Z.land b1 239)) rfcomm_ft_codes = true ->
  zlt 2 (f_cr (mk_parsed b0 b1 info)) && zlt 64 (f_dlci (mk_parsed b0 b1 info)) && zlt 2 (f_pf (mk_parsed b0 b1 info)) = true ->
  bytes_ok info = true -> 0 <= frame_paylen (mk_parsed b0 b1 info) < 32768 ->
  frame_ok (mk_parsed b0 b1 info) = true.
Proof.
  intros b0 b1 info Ht Hr Hi HL. rewrite !andb_true_iff in Hr. destruct Hr as [[Hcr Hd] Hpf].
  unfold frame_ok. rewrite Hcr, Hd, Hpf, (proj2 (zlt_iff _ _) HL). cbn [mk_parsed f_type f_info f_credits f_pf].
  rewrite Ht, Hi, eqb_reflx. reflexivity.
Qed.

Theorem frame_value_roundtrip : forall f,
  frame_ok f = true -> frame_parse (frame_bytes f) = Some f.
Proof.
  intros f Hok. destruct (frame_header f Hok) as [_ [_ [_ [Ht Hf]]]].
  destruct (frame_ok_payload f Hok) as [Htc [_ HL]].
  unfold frame_bytes. cbn [app]. rewrite frame_parse_split, len_split_bytes by exact HL.
  rewrite Ht, Htc, removelast_last, Hf. cbn [negb].
  replace (frame_paylen f <? 0) with false by (symmetry; apply Z.ltb_ge; lia).
  rewrite !app_comm_cons, app_assoc, lastz_snoc, Z.eqb_refl. reflexivity.
Qed.

Lemma frame_fcs_byte : forall f, byte_ok (frame_address f) = true -> byte_ok (frame_control f) = true ->
  0 <= frame_paylen f < 32768 -> byte_ok (frame_fcs f) = true.
Proof.
  intros f Ha Hc HL. apply byte_ok_iff. unfold frame_fcs.
  destruct (is_uih (f_type f)); apply compute_fcs_byte; cbn [app];
    rewrite !bytes_ok_cons, Ha, Hc; [reflexivity|apply length_bytes_ok; exact HL].
Qed.

Lemma frame_bytes_ok : forall f, frame_ok f = true -> bytes_ok (frame_bytes f) = true.
Proof.
  intros f Hok. destruct (frame_header f Hok) as [Ha [_ [Hc _]]].
  destruct (frame_ok_payload f Hok) as [_ [Hinfo HL]].
  unfold frame_bytes. rewrite !bytes_ok_app, !bytes_ok_cons, Ha, Hc, Hinfo, length_bytes_ok by exact HL.
  rewrite (frame_fcs_byte f Ha Hc HL). reflexivity.
Qed.

Theorem frame_bytes_roundtrip : forall d f,
  bytes_ok d = true -> frame_parse d = Some f -> frame_canonical d = true ->
  frame_bytes f = d /\ frame_ok f = true.
Proof.
  intros d f Hok Hp Hc.
  destruct d as [|b0 [|b1 d]]; try discriminate.
  rewrite !bytes_ok_cons, !andb_true_iff in Hok. destruct Hok as [H0 [H1 Hd]].
  rewrite frame_parse_split in Hp. rewrite frame_canonical_split in Hc.
  destruct (negb _) eqn:Et; [discriminate|]. apply negb_false_iff in Et.
  destruct (len_split d) as [[[L r] short]|] eqn:Es; [|discriminate]. cbv zeta in Hp.
  rewrite frame_paylen_parsed in Hp.
  destruct (_ <? 0) eqn:El; [discriminate|]. destruct (_ =? lastz _) eqn:Ef; [|discriminate].
  apply some_inv in Hp. subst f. apply Z.eqb_eq in Ef.
  rewrite !andb_true_iff, Z.eqb_eq in Hc. destruct Hc as [Ho [-> Hlen]].
  destruct (len_split_back d L r Hd Es) as [HL ->].
  assert (Hne : r <> []) by (intros ->; pose proof (credits_octet b1); unfold credits_octet in *;
                              change (lenZ (@nil Z)) with 0 in Hlen; destruct (_ && _); lia).
  rewrite bytes_ok_app, andb_true_iff in Hd. destruct Hd as [_ Hr].
  rewrite (app_removelast_lastz r Hne), bytes_ok_app, andb_true_iff in Hr. destruct Hr as [Hinfo _].
  assert (Hpl : lenZ (removelast r) - credits_octet b1 = L).
  { rewrite (app_removelast_lastz r Hne), lenZ_app in Hlen. change (lenZ [lastz r]) with 1 in Hlen. lia. }
  destruct (frame_header_back b0 b1 (removelast r) H0 H1 Ho) as [Ha [Hc Hrange]]. cbv zeta in Ha, Hc, Hrange.
  split.
  - unfold frame_bytes. rewrite Ha, Hc, Ef, frame_paylen_parsed, Hpl. cbn [app mk_parsed f_info]. do 3 f_equal.
    rewrite !app_comm_cons, lastz_app by exact Hne.
    symmetry. apply app_removelast_lastz. exact Hne.
  - apply frame_ok_parsed; try assumption. rewrite frame_paylen_parsed, Hpl. exact HL.
Qed.

Theorem frame_bytes_canonical : forall f, frame_ok f = true -> frame_canonical (frame_bytes f) = true.
Proof.
  intros f Hok. destruct (frame_header f Hok) as [_ [Hao [_ [_ Hf]]]].
  destruct (frame_ok_payload f Hok) as [_ [_ HL]].
  unfold frame_bytes. cbn [app]. rewrite frame_canonical_split, len_split_bytes, Hao by exact HL.
  cbn [andb]. apply Z.eqb_eq. rewrite lenZ_app. change (lenZ [frame_fcs f]) with 1.
  pose proof (frame_paylen_parsed (frame_address f) (frame_control f) (f_info f)) as P. rewrite Hf in P. lia.
Qed.

(* D18b: without with_credits in from_bytes a UIH frame carrying a credits octet does not
   re-serialise to the bytes it was parsed from *)
Lemma frame_unfixed_refuted :
  exists f, frame_ok f = true /\ frame_reserialize_unfixed f <> frame_bytes f.
Proof.
  exists {| f_type := rfcomm_ft_UIH; f_cr := 1; f_dlci := 5; f_pf := 1; f_info := [7; 104; 105]; f_credits := true |}.
  split; [vm_compute; reflexivity|]. vm_compute. discriminate.
Qed.

Lemma mcc_parse_split : forall b0 d,
  mcc_parse (b0 :: d) =
  match len_split d with
  | None => None
  | Some (L, r, _) =>
      Some (Z.shiftr b0 2, negb (Z.land (Z.shiftr b0 1) 1 =? 0), if Z.odd (hd 0 d) then r else firstn (Z.to_nat L) r)
  end.
Proof.
  intros b0 [|x r]; [reflexivity|]. cbn [mcc_parse len_split hd].
  destruct (Z.odd x); [reflexivity|]. destruct r; [reflexivity|]. rewrite Z.lor_comm. reflexivity.
Qed.

Lemma mcc_canonical_split : forall b0 d,
  mcc_canonical (b0 :: d) =
  Z.odd b0 && match len_split d with None => false | Some (L, r, short) => short && (lenZ r =? L) end.
Proof.
  intros b0 [|x r]; [symmetry; apply andb_false_r|]. cbn [mcc_canonical len_split].
  destruct (Z.odd x); [reflexivity|]. destruct r; [reflexivity|]. rewrite Z.lor_comm. reflexivity.
Qed.

Lemma firstn_lenZ : forall (v : list Z), firstn (Z.to_nat (lenZ v)) v = v.
Proof. intro v. unfold lenZ. rewrite Nat2Z.id. apply firstn_all. Qed.

Theorem mcc_value_roundtrip : forall t cr v,
  mcc_ok t cr v = true -> mcc_parse (mcc_bytes t cr v) = Some (t, negb (cr =? 0), v).
Proof.
  intros t cr v H. unfold mcc_ok in H. rewrite !andb_true_iff, !zlt_iff in H. destruct H as [[[Ht Hcr] _] HL].
  unfold mcc_bytes. rewrite mcc_parse_split, len_split_bytes, firstn_lenZ, addr_octet by assumption.
  rewrite (Z.land_ones _ 8), (Z.land_ones _ 1) by lia.
  destruct (Z.odd _); repeat f_equal; bits_lia.
Qed.

Lemma bool_z_bit : forall x, bool_z (negb (Z.land x 1 =? 0)) = Z.land x 1.
Proof.
  intro x. rewrite (Z.land_ones _ 1) by lia.
  destruct (_ =? 0) eqn:E; [apply Z.eqb_eq in E|apply Z.eqb_neq in E]; cbn [negb bool_z]; Z.div_mod_to_equations; lia.
Qed.

Theorem mcc_bytes_roundtrip : forall d t cr v,
  bytes_ok d = true -> mcc_parse d = Some (t, cr, v) -> mcc_canonical d = true ->
  mcc_bytes t (bool_z cr) v = d /\ mcc_ok t (bool_z cr) v = true.
Proof.
  intros d t cr v Hok Hp Hc.
  destruct d as [|b0 d]; try discriminate.
  rewrite bytes_ok_cons, andb_true_iff, byte_ok_iff in Hok. destruct Hok as [H0 Hd].
  rewrite mcc_parse_split in Hp. rewrite mcc_canonical_split in Hc.
  destruct (len_split d) as [[[L r] short]|] eqn:Es; [|discriminate].
  rewrite !andb_true_iff, Z.eqb_eq in Hc. destruct Hc as [Ho [-> Hlen]]. subst L.
  rewrite firstn_lenZ in Hp. replace (if Z.odd (hd 0 d) then r else r) with r in Hp by (destruct (Z.odd _); reflexivity).
  apply some_inv in Hp. injection Hp as <- <- <-.
  destruct (len_split_back d _ r Hd Es) as [HL ->].
  rewrite bytes_ok_app, andb_true_iff in Hd. destruct Hd as [_ Hr].
  pose proof (odd_mod2 b0) as P. rewrite Ho in P. cbn [Z.b2z] in P.
  rewrite bool_z_bit, (Z.land_ones _ 1) by lia. split.
  - unfold mcc_bytes. rewrite addr_octet, (Z.land_ones _ 8) by bits_lia. f_equal. bits_lia.
  - unfold mcc_ok. rewrite Hr, !andb_true_iff, !zlt_iff. repeat split; bits_lia.
Qed.

(* D18c: the unfixed parser mis-reads the two-octet length form *)
Lemma mcc_unfixed_refuted :
  exists t cr v, mcc_ok t cr v = true /\ mcc_parse_unfixed (mcc_bytes t cr v) <> Some (t, negb (cr =? 0), v).
Proof.
  exists 8, 1, (repeat 65 200). split; [vm_compute; reflexivity|]. vm_compute. discriminate.
Qed.

Theorem pn_value_roundtrip : forall p tail, pn_ok p = true -> pn_parse (pn_bytes p ++ tail) = Some p.
Proof.
  intros p tail H.
  destruct p as [|dlci [|cl [|prio [|ack [|mfs [|retx [|cred [|? ?]]]]]]]]; try discriminate.
  cbn [pn_ok] in H. rewrite !andb_true_iff, !zlt_iff in H.
  destruct H as [[[[[[Hd Hc] Hp] Ha] Hm] Hr] Hcr].
  cbn [pn_bytes app pn_parse].
  rewrite !(Z.land_ones _ 8), !(Z.land_ones _ 3), lor_shiftl_add by (try apply Z.mod_pos_bound; lia).
  rewrite (Z.mod_small dlci), (Z.mod_small cl), (Z.mod_small prio), (Z.mod_small ack), (Z.mod_small retx),
    !(Z.mod_small cred) by lia.
  do 6 f_equal. clear - Hm. bits_lia.
Qed.

Theorem pn_bytes_roundtrip : forall d p, bytes_ok d = true -> length d = 8%nat ->
  pn_parse d = Some p -> pn_ok p = true /\ (nth 7 d 0 < 8 -> pn_bytes p = d).
Proof.
  intros d p Hok Hlen Hp.
  destruct d as [|d0 [|d1 [|d2 [|d3 [|d4 [|d5 [|d6 [|d7 [|? ?]]]]]]]]]; try discriminate.
  cbn [pn_parse] in Hp. apply some_inv in Hp. subst p.
  rewrite !bytes_ok_cons, !andb_true_iff, !byte_ok_iff in Hok.
  destruct Hok as [H0 [H1 [H2 [H3 [H4 [H5 [H6 [H7 _]]]]]]]].
  cbn [pn_ok pn_bytes nth]. rewrite !andb_true_iff, !zlt_iff.
  rewrite !(Z.land_ones _ 8), !(Z.land_ones _ 3), lor_shiftl_add by lia.
  split; [repeat split; try lia; apply Z.mod_pos_bound; lia|]. intro H78.
  rewrite (Z.mod_small d0), (Z.mod_small d1), (Z.mod_small d2), (Z.mod_small d3), (Z.mod_small d6),
    !(Z.mod_small d7) by lia.
  do 4 f_equal. f_equal; [|f_equal]; clear - H4 H5; bits_lia.
Qed.

(* MSC.  The first octet carries the DLCI above two set bits; the second carries five flags, and its
   layout is checked on all flag values (forwards) and all octets (backwards). *)
Definition msc_flags (fc rtc rtr ic dv : Z) : Z :=
  Z.lor (Z.lor (Z.lor (Z.lor (Z.lor 1 (Z.shiftl fc 1)) (Z.shiftl rtc 2)) (Z.shiftl rtr 3))
               (Z.shiftl ic 6)) (Z.shiftl dv 7).
Definition msc_flags_parse (d1 : Z) : list Z :=
  [Z.land (Z.shiftr d1 1) 1; Z.land (Z.shiftr d1 2) 1; Z.land (Z.shiftr d1 3) 1;
   Z.land (Z.shiftr d1 6) 1; Z.land (Z.shiftr d1 7) 1].

Lemma msc_flags_all :
  forallb (fun fc => forallb (fun rtc => forallb (fun rtr => forallb (fun ic => forallb (fun dv =>
    let b := msc_flags fc rtc rtr ic dv in
    byte_ok b && Z.odd b && (Z.land b 48 =? 0) && zlist_eqb (msc_flags_parse b) [fc; rtc; rtr; ic; dv])
    (zrange 2)) (zrange 2)) (zrange 2)) (zrange 2)) (zrange 2) = true.
Proof. vm_compute. reflexivity. Qed.

Lemma msc_flags_back_all :
  forallb (fun d1 => forallb (zlt 2) (msc_flags_parse d1) &&
    implb (Z.odd d1 && (Z.land d1 48 =? 0))
          (match msc_flags_parse d1 with
           | [fc; rtc; rtr; ic; dv] => msc_flags fc rtc rtr ic dv =? d1
           | _ => false
           end)) (zrange 256) = true.
Proof. vm_compute. reflexivity. Qed.

Theorem msc_value_roundtrip : forall p tail, msc_ok p = true -> msc_parse (msc_bytes p ++ tail) = Some p.
Proof.
  intros p tail H.
  destruct p as [|dlci [|fc [|rtc [|rtr [|ic [|dv [|? ?]]]]]]]; try discriminate.
  cbn [msc_ok] in H. rewrite !andb_true_iff, !zlt_iff in H.
  destruct H as [[[[[Hd Hfc] Hrtc] Hrtr] Hic] Hdv].
  pose proof (forall_range 2 _ msc_flags_all fc Hfc) as F. cbv beta in F.
  pose proof (forall_range 2 _ (forall_range 2 _ (forall_range 2 _ (forall_range 2 _ F rtc Hrtc) rtr Hrtr) ic Hic)
                dv Hdv) as G.
  cbv beta zeta in G. rewrite !andb_true_iff in G. destruct G as [_ G]. apply zlist_eqb_eq in G.
  change (msc_parse (msc_bytes [dlci; fc; rtc; rtr; ic; dv] ++ tail))
    with (Some (Z.shiftr (Z.lor (Z.shiftl dlci 2) 3) 2 :: msc_flags_parse (msc_flags fc rtc rtr ic dv))).
  rewrite G, (pack_shiftr 2) by lia. reflexivity.
Qed.

Theorem msc_bytes_roundtrip : forall d0 d1 tail p,
  byte_ok d0 = true -> byte_ok d1 = true -> msc_parse (d0 :: d1 :: tail) = Some p ->
  msc_ok p = true /\ (msc_canonical d0 d1 = true -> msc_bytes p = [d0; d1]).
Proof.
  intros d0 d1 tail p H0 H1 Hp. apply byte_ok_iff in H0.
  change (msc_parse (d0 :: d1 :: tail)) with (Some (Z.shiftr d0 2 :: msc_flags_parse d1)) in Hp.
  apply some_inv in Hp. subst p.
  pose proof (forall_range 256 _ msc_flags_back_all d1 ltac:(apply byte_range; exact H1)) as F.
  cbv beta in F. apply andb_true_iff in F as [Fr Fb]. unfold msc_flags_parse in *.
  assert (Hd : 0 <= Z.shiftr d0 2 < 64) by bits_lia.
  split.
  - cbn [msc_ok]. cbn [forallb] in Fr. rewrite andb_true_r in Fr. rewrite <- !andb_assoc.
    apply andb_true_iff. split; [apply zlt_iff; exact Hd|exact Fr].
  - unfold msc_canonical. rewrite <- andb_assoc, andb_true_iff, Z.eqb_eq. intros [Hc0 Hc1].
    rewrite Hc1 in Fb. apply Z.eqb_eq in Fb. cbn [msc_bytes]. fold (msc_flags (Z.land (Z.shiftr d1 1) 1)
      (Z.land (Z.shiftr d1 2) 1) (Z.land (Z.shiftr d1 3) 1) (Z.land (Z.shiftr d1 6) 1) (Z.land (Z.shiftr d1 7) 1)).
    rewrite Fb, <- Hc0 at 1. f_equal. apply (unpack 2). lia.
Qed.
