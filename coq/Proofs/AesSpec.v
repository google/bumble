(* C14 - the built-in T-table AES encryption equals the FIPS-197 cipher (SubBytes, ShiftRows,
   MixColumns, AddRoundKey on a 16-byte state) for every block and every list of round keys,
   and the AES-128 key expansion loop equals FIPS-197 KeyExpansion for every 16-byte key.
   The FIPS-197 definitions are transcribed here (section numbers in comments). *)
From Coq Require Import ZArith List Bool Lia ZifyBool ZifyNat.
From BV Require Import Gen.C14Tables Model.CryptoBytes Model.Aes Model.Cmac Proofs.CryptoBytes Proofs.Cmac Proofs.Aes.
Import ListNotations.
Open Scope Z_scope.

(* The state is the 16 input bytes in input order: byte 4c + r is row r of column c (3.4). *)
Definition sub_bytes (s : list Z) : list Z := map sbox_ref s.                     (* 5.1.1 *)

Definition shift_rows (s : list Z) : list Z :=                                    (* 5.1.2 *)
  match s with
  | [s00; s10; s20; s30; s01; s11; s21; s31; s02; s12; s22; s32; s03; s13; s23; s33] =>
      [s00; s11; s22; s33; s01; s12; s23; s30; s02; s13; s20; s31; s03; s10; s21; s32]
  | _ => []
  end.

Definition mul2 (a : Z) : Z := xtime a.                                           (* {02} . a *)
Definition mul3 (a : Z) : Z := Z.lxor (xtime a) a.                                (* {03} . a *)

Definition mix_column (a0 a1 a2 a3 : Z) : list Z :=                               (* 5.1.3 (5.6) *)
  [ Z.lxor (Z.lxor (Z.lxor (mul2 a0) (mul3 a1)) a2) a3;
    Z.lxor (Z.lxor (Z.lxor a0 (mul2 a1)) (mul3 a2)) a3;
    Z.lxor (Z.lxor (Z.lxor a0 a1) (mul2 a2)) (mul3 a3);
    Z.lxor (Z.lxor (Z.lxor (mul3 a0) a1) a2) (mul2 a3) ].

Definition mix_columns (s : list Z) : list Z :=
  match s with
  | [a0; a1; a2; a3; b0; b1; b2; b3; c0; c1; c2; c3; d0; d1; d2; d3] =>
      mix_column a0 a1 a2 a3 ++ mix_column b0 b1 b2 b3 ++ mix_column c0 c1 c2 c3 ++ mix_column d0 d1 d2 d3
  | _ => []
  end.

Definition add_round_key (s k : list Z) : list Z := xor_zip s k.                  (* 5.1.4 *)

(* Figure 5: rounds 1 .. Nr-1 with MixColumns, the final round without *)
Fixpoint cipher_rounds (s : list Z) (ks : list (list Z)) : list Z :=
  match ks with
  | [] => []
  | [k] => add_round_key (shift_rows (sub_bytes s)) k
  | k :: r => cipher_rounds (add_round_key (mix_columns (shift_rows (sub_bytes s))) k) r
  end.
Definition cipher (round_keys : list (list Z)) (input : list Z) : list Z :=
  match round_keys with
  | [] => []
  | k0 :: r => cipher_rounds (add_round_key input k0) r
  end.

Definition wbytes (w : Z) : list Z := [byte_of w 24; byte_of w 16; byte_of w 8; byte_of w 0].
Definition st_bytes (t : Z * Z * Z * Z) : list Z :=
  let '(t0, t1, t2, t3) := t in wbytes t0 ++ wbytes t1 ++ wbytes t2 ++ wbytes t3.

Lemma byte_of_lxor : forall a b k, byte_of (Z.lxor a b) k = Z.lxor (byte_of a k) (byte_of b k).
Proof. intros. unfold byte_of. rewrite Z.shiftr_lxor. apply land_lxor_l. Qed.

Lemma byte_of_lor : forall a b k, byte_of (Z.lor a b) k = Z.lor (byte_of a k) (byte_of b k).
Proof. intros. unfold byte_of. rewrite Z.shiftr_lor. apply Z.land_lor_distr_l. Qed.

Lemma byte_of_range : forall w k, 0 <= byte_of w k < 256.
Proof.
  intros. unfold byte_of. change 255 with (Z.ones 8). rewrite Z.land_ones by lia.
  apply Z.mod_pos_bound. lia.
Qed.

Lemma wbytes_lxor : forall a b, wbytes (Z.lxor a b) = xor_zip (wbytes a) (wbytes b).
Proof. intros. unfold wbytes. rewrite !byte_of_lxor. reflexivity. Qed.

Lemma wbytes_lor : forall a b a3 a2 a1 a0 b3 b2 b1 b0,
  wbytes a = [a3; a2; a1; a0] -> wbytes b = [b3; b2; b1; b0] ->
  wbytes (Z.lor a b) = [Z.lor a3 b3; Z.lor a2 b2; Z.lor a1 b1; Z.lor a0 b0].
Proof.
  unfold wbytes. intros a b a3 a2 a1 a0 b3 b2 b1 b0 [= <- <- <- <-] [= <- <- <- <-].
  rewrite !byte_of_lor. reflexivity.
Qed.
Arguments wbytes_lor {a b a3 a2 a1 a0 b3 b2 b1 b0}.

Lemma lane_shift : forall s, 0 <= s < 256 ->
  wbytes (Z.shiftl s 24) = [s; 0; 0; 0] /\ wbytes (Z.shiftl s 16) = [0; s; 0; 0] /\
  wbytes (Z.shiftl s 8) = [0; 0; s; 0] /\ wbytes s = [0; 0; 0; s].
Proof.
  intros s Hs.
  apply (byte_cases (fun s => list_eqb (wbytes (Z.shiftl s 24)) [s; 0; 0; 0] &&
                              list_eqb (wbytes (Z.shiftl s 16)) [0; s; 0; 0] &&
                              list_eqb (wbytes (Z.shiftl s 8)) [0; 0; s; 0] &&
                              list_eqb (wbytes s) [0; 0; 0; s])) in Hs.
  - rewrite !andb_true_iff in Hs. destruct Hs as (((H1 & H2) & H3) & H4).
    apply list_eqb_eq in H1, H2, H3, H4. auto.
  - vm_compute. reflexivity.
Qed.

Lemma wbytes_pack4 : forall b3 b2 b1 b0,
  0 <= b3 < 256 -> 0 <= b2 < 256 -> 0 <= b1 < 256 -> 0 <= b0 < 256 ->
  wbytes (pack4 b3 b2 b1 b0) = [b3; b2; b1; b0].
Proof.
  intros b3 b2 b1 b0 H3 H2 H1 H0.
  destruct (lane_shift b3 H3) as (E3 & _), (lane_shift b2 H2) as (_ & E2 & _),
           (lane_shift b1 H1) as (_ & _ & E1 & _), (lane_shift b0 H0) as (_ & _ & _ & E0).
  unfold pack4. rewrite (wbytes_lor (wbytes_lor (wbytes_lor E3 E2) E1) E0).
  rewrite !Z.lor_0_r, !Z.lor_0_l. reflexivity.
Qed.

(* the four byte lanes of the T-table entries: the MixColumns column of the S-box value,
   rotated by one row from each table to the next *)
Lemma ttable_columns : forall x, 0 <= x < 256 ->
  wbytes (tbl aes_T1 x) = [mul2 (sbox_ref x); sbox_ref x; sbox_ref x; mul3 (sbox_ref x)] /\
  wbytes (tbl aes_T2 x) = [mul3 (sbox_ref x); mul2 (sbox_ref x); sbox_ref x; sbox_ref x] /\
  wbytes (tbl aes_T3 x) = [sbox_ref x; mul3 (sbox_ref x); mul2 (sbox_ref x); sbox_ref x] /\
  wbytes (tbl aes_T4 x) = [sbox_ref x; sbox_ref x; mul3 (sbox_ref x); mul2 (sbox_ref x)].
Proof.
  intros x Hx. destruct aes_tables_are_fips197 as (_ & T1 & T2 & T3 & T4 & _).
  rewrite T1, T2, T3, T4 by assumption.
  pose proof (sbox_ref_byte x Hx) as Hs. pose proof (xtime_byte _ Hs) as H2.
  pose proof (lxor_byte _ _ H2 Hs) as H3.
  unfold t1_ref, t2_ref, t3_ref, t4_ref, mul2, mul3.
  split; [|split; [|split]]; apply wbytes_pack4; assumption.
Qed.

Lemma round_column : forall a b c d k,
  wbytes (xor5 (tbl aes_T1 (byte_of a 24)) (tbl aes_T2 (byte_of b 16))
               (tbl aes_T3 (byte_of c 8)) (tbl aes_T4 (byte_of d 0)) k) =
  xor_zip (mix_column (sbox_ref (byte_of a 24)) (sbox_ref (byte_of b 16))
                      (sbox_ref (byte_of c 8)) (sbox_ref (byte_of d 0))) (wbytes k).
Proof.
  intros. unfold xor5. rewrite !wbytes_lxor.
  destruct (ttable_columns _ (byte_of_range a 24)) as (-> & _),
           (ttable_columns _ (byte_of_range b 16)) as (_ & -> & _),
           (ttable_columns _ (byte_of_range c 8)) as (_ & _ & -> & _),
           (ttable_columns _ (byte_of_range d 0)) as (_ & _ & _ & ->).
  reflexivity.
Qed.

Lemma round_spec : forall t k,
  st_bytes (aes_round t k) =
  add_round_key (mix_columns (shift_rows (sub_bytes (st_bytes t)))) (st_bytes k).
Proof.
  intros [[[t0 t1] t2] t3] [[[k0 k1] k2] k3].
  unfold aes_round. cbn [st_bytes].
  rewrite !round_column. reflexivity.
Qed.

Lemma last_byte : forall w k v,
  Z.land (Z.lxor (tbl aes_S (byte_of w k)) v) 255 = Z.lxor (sbox_ref (byte_of w k)) (Z.land v 255).
Proof.
  intros. pose proof (byte_of_range w k) as Hr.
  rewrite land_lxor_l, sbox_is_fips197 by assumption. f_equal.
  change 255 with (Z.ones 8). rewrite Z.land_ones by lia.
  apply Z.mod_small, sbox_ref_byte, Hr.
Qed.

Lemma last_spec : forall t k,
  aes_last t k = add_round_key (shift_rows (sub_bytes (st_bytes t))) (st_bytes k).
Proof.
  intros [[[t0 t1] t2] t3] [[[k0 k1] k2] k3].
  unfold aes_last. rewrite !last_byte. reflexivity.
Qed.

Lemma rounds_spec : forall ks t,
  aes_rounds t ks = cipher_rounds (st_bytes t) (map st_bytes ks).
Proof.
  induction ks as [|k ks IH]; intros t; [reflexivity|].
  destruct ks as [|k' ks'].
  - cbn [aes_rounds map cipher_rounds]. apply last_spec.
  - change (aes_rounds t (k :: k' :: ks')) with (aes_rounds (aes_round t k) (k' :: ks')).
    rewrite IH. change (map st_bytes (k :: k' :: ks')) with (st_bytes k :: map st_bytes (k' :: ks')).
    cbn [cipher_rounds map]. rewrite round_spec. reflexivity.
Qed.

Lemma wbytes_be_int : forall w, length w = 4%nat -> bytes_ok w = true -> wbytes (be_int w) = w.
Proof.
  intros w Hl H. do 4 (destruct w as [|? w]; [discriminate|]). destruct w; [|discriminate].
  cbn [bytes_ok forallb] in H. rewrite !andb_true_iff, !byte_ok_iff in H.
  unfold be_int. cbn [fold_left]. unfold wbytes, byte_of.
  change 255 with (Z.ones 8). rewrite !Z.land_ones by lia. rewrite !Z.shiftr_div_pow2 by lia.
  change (2 ^ 24) with 16777216. change (2 ^ 16) with 65536. change (2 ^ 8) with 256. change (2 ^ 0) with 1.
  repeat f_equal; lia.
Qed.

Lemma st_bytes_lxor : forall a0 a1 a2 a3 b0 b1 b2 b3,
  st_bytes (Z.lxor a0 b0, Z.lxor a1 b1, Z.lxor a2 b2, Z.lxor a3 b3) =
  xor_zip (st_bytes (a0, a1, a2, a3)) (st_bytes (b0, b1, b2, b3)).
Proof. intros. cbn [st_bytes]. rewrite !wbytes_lxor. reflexivity. Qed.

Theorem aes_encrypt_is_fips197_cipher : forall ke pt,
  length pt = 16%nat -> bytes_ok pt = true -> (2 <= length ke)%nat ->
  aes_encrypt ke pt = Some (cipher (map st_bytes ke) pt).
Proof.
  intros ke pt Hl Hok Hke.
  destruct ke as [|[[[k0 k1] k2] k3] ks]; [simpl in Hke; lia|].
  unfold aes_encrypt. replace (len pt =? 16) with true by (unfold len; lia). cbn [negb]. f_equal.
  rewrite rounds_spec, st_bytes_lxor. cbn [map cipher]. unfold add_round_key. do 2 f_equal.
  (* the four big-endian words of the block, written back as bytes, are the block *)
  cbn [st_bytes].
  rewrite !wbytes_be_int
    by first [apply bytes_ok_firstn, bytes_ok_skipn, Hok | rewrite firstn_length, skipn_length; lia].
  do 16 (destruct pt as [|? pt]; [discriminate|]). destruct pt; [reflexivity|discriminate].
Qed.

(* KeyExpansion, words are 4-byte lists [a0; a1; a2; a3]:
     w[i] = key word i                                   for i < Nk
     temp = w[i-1]
     if i mod Nk = 0:            temp = SubWord(RotWord(temp)) xor Rcon[i/Nk]
     else if Nk > 6, i mod Nk = 4: temp = SubWord(temp)
     w[i] = w[i-Nk] xor temp                              for Nk <= i < Nb(Nr+1) *)
Definition rot_word (w : list Z) : list Z :=
  match w with [a0; a1; a2; a3] => [a1; a2; a3; a0] | _ => [] end.
Definition sub_word_ref (w : list Z) : list Z := map sbox_ref w.
Definition Rcon (j : nat) : list Z := [nth (j - 1) (rcon_ref 10 1) 0; 0; 0; 0].   (* [x^(j-1), 0, 0, 0] *)

Definition next_word (nk : nat) (w : list (list Z)) : list Z :=
  let i := length w in
  let temp := last w [] in
  let temp' :=
    if Nat.eqb (i mod nk) 0 then xor_zip (sub_word_ref (rot_word temp)) (Rcon (i / nk))
    else if Nat.ltb 6 nk && Nat.eqb (i mod nk) 4 then sub_word_ref temp
    else temp in
  xor_zip (nth (i - nk) w []) temp'.

Fixpoint key_expansion (fuel nk : nat) (w : list (list Z)) : list (list Z) :=
  match fuel with
  | O => w
  | S f => key_expansion f nk (w ++ [next_word nk w])
  end.

Fixpoint words4 (n : nat) (key : list Z) : list (list Z) :=
  match n with O => [] | S n' => firstn 4 key :: words4 n' (skipn 4 key) end.

(* AES-128: Nk = 4, Nr = 10, 44 words *)
Definition key_schedule_128 (key : list Z) : list (list Z) := key_expansion 40 4 (words4 4 key).

Fixpoint round_keys_of (ws : list (list Z)) : list (list Z) :=
  match ws with
  | a :: b :: c :: d :: r => (a ++ b ++ c ++ d) :: round_keys_of r
  | _ => []
  end.

Definition lane_shift_ok (s : Z) : bool :=
  forallb (fun jk => byte_of (Z.shiftl s (fst jk)) (snd jk) =? (if fst jk =? snd jk then s else 0))
          [(24, 24); (24, 16); (24, 8); (24, 0); (16, 24); (16, 16); (16, 8); (16, 0);
           (8, 24); (8, 16); (8, 8); (8, 0)].

Lemma wbytes_sub_rot : forall tt rc, 0 <= rc < 256 ->
  wbytes (sub_rot tt rc) = xor_zip (sub_word_ref (rot_word (wbytes tt))) [rc; 0; 0; 0].
Proof.
  intros tt rc Hrc. unfold sub_rot. rewrite !wbytes_lxor, !sbox_is_fips197 by apply byte_of_range.
  destruct (lane_shift _ (sbox_ref_byte _ (byte_of_range tt 16))) as (A1 & _).
  destruct (lane_shift _ (sbox_ref_byte _ (byte_of_range tt 8))) as (_ & A2 & _).
  destruct (lane_shift _ (sbox_ref_byte _ (byte_of_range tt 0))) as (_ & _ & A3 & _).
  destruct (lane_shift _ (sbox_ref_byte _ (byte_of_range tt 24))) as (_ & _ & _ & A4).
  destruct (lane_shift _ Hrc) as (A5 & _).
  rewrite A1, A2, A3, A4, A5.
  cbn [wbytes rot_word sub_word_ref map xor_zip]. rewrite !Z.lxor_0_r, !Z.lxor_0_l. reflexivity.
Qed.

Lemma rcon_model : forall rc, (rc < 10)%nat ->
  nth rc aes_RCON 0 = nth rc (rcon_ref 10 1) 0 /\ 0 <= nth rc aes_RCON 0 < 256.
Proof.
  intros rc H.
  do 10 (destruct rc as [|rc]; [vm_compute; repeat split; discriminate|]). lia.
Qed.

(* One step of the recurrence seen through the last four words: w[i] = w[i-4] xor temp. *)
Lemma key_expansion_step : forall f P a b c d q k,
  length P = (4 * q + k)%nat -> (k < 4)%nat ->
  key_expansion (S f) 4 (P ++ [a; b; c; d]) =
  key_expansion f 4 ((P ++ [a]) ++ [b; c; d;
    xor_zip a (if Nat.eqb k 0 then xor_zip (sub_word_ref (rot_word d)) (Rcon (S q)) else d)]).
Proof.
  intros f P a b c d q k HP Hk. cbn [key_expansion]. rewrite <- (app_assoc P [a]). cbn [app].
  rewrite <- app_assoc. cbn [app]. do 3 f_equal. unfold next_word.
  rewrite app_length, HP. cbn [length].
  replace ((4 * q + k + 4) mod 4)%nat with k by lia.
  replace ((4 * q + k + 4) / 4)%nat with (S q) by lia.
  replace (4 * q + k + 4 - 4)%nat with (length P) by lia.
  rewrite app_nth2, Nat.sub_diag by lia. cbn [nth].
  change (P ++ [a; b; c; d]) with (P ++ [a; b; c] ++ [d]). rewrite app_assoc, last_last.
  change (Nat.ltb 6 4) with false. cbn [andb].
  destruct (Nat.eqb k 0); reflexivity.
Qed.

Lemma expand_step_shape : forall t0 t1 t2 t3 rc,
  expand_step 4 [t0; t1; t2; t3] rc =
  let t0' := Z.lxor t0 (sub_rot t3 (nth rc aes_RCON 0)) in
  let t1' := Z.lxor t1 t0' in let t2' := Z.lxor t2 t1' in let t3' := Z.lxor t3 t2' in
  [t0'; t1'; t2'; t3'].
Proof. reflexivity. Qed.

(* one pass of the loop body = four steps of the FIPS recurrence *)
Lemma expand_step_128 : forall pre t0 t1 t2 t3 rc,
  length pre = (4 * rc)%nat -> (rc < 10)%nat ->
  key_expansion 4 4 (map wbytes (pre ++ [t0; t1; t2; t3])) =
  map wbytes ((pre ++ [t0; t1; t2; t3]) ++ expand_step 4 [t0; t1; t2; t3] rc).
Proof.
  intros pre t0 t1 t2 t3 rc Hl Hrc.
  destruct (rcon_model rc Hrc) as [Hr1 Hr2].
  rewrite expand_step_shape. cbv zeta. rewrite !map_app. cbn [map].
  rewrite !wbytes_lxor, (wbytes_sub_rot _ _ Hr2), Hr1.
  set (P := map wbytes pre).
  assert (HP : length P = (4 * rc)%nat) by (unfold P; rewrite map_length; assumption).
  rewrite (key_expansion_step 3 P _ _ _ _ rc 0), (key_expansion_step 2 _ _ _ _ _ rc 1),
          (key_expansion_step 1 _ _ _ _ _ rc 2), (key_expansion_step 0 _ _ _ _ _ rc 3)
    by (rewrite ?app_length, ?HP; cbn [length]; lia).
  cbn [Nat.eqb key_expansion]. unfold Rcon. rewrite Nat.sub_succ, Nat.sub_0_r, <- !app_assoc.
  reflexivity.
Qed.

Lemma key_expansion_length : forall f nk w, length (key_expansion f nk w) = (f + length w)%nat.
Proof.
  induction f; intros; cbn [key_expansion]; [reflexivity|]. rewrite IHf, app_length. cbn [length]. lia.
Qed.

Lemma key_expansion_add : forall a b nk w,
  key_expansion (a + b) nk w = key_expansion b nk (key_expansion a nk w).
Proof. induction a; intros; cbn [Nat.add key_expansion]; auto. Qed.

Lemma expand_loop_128 : forall n fuel pre t0 t1 t2 t3 rc,
  length pre = (4 * rc)%nat -> (rc + n = 10)%nat -> (n <= fuel)%nat ->
  exists w', expand_loop fuel 4 44 [t0; t1; t2; t3] rc (pre ++ [t0; t1; t2; t3]) = Some w' /\
             map wbytes w' = key_expansion (4 * n) 4 (map wbytes (pre ++ [t0; t1; t2; t3])).
Proof.
  induction n as [|n IH]; intros fuel pre t0 t1 t2 t3 rc Hl Hn Hf.
  - exists (pre ++ [t0; t1; t2; t3]). split; [|reflexivity].
    assert (Hlen : length (pre ++ [t0; t1; t2; t3]) = 44%nat) by (rewrite app_length; cbn [length]; lia).
    destruct fuel; cbn [expand_loop]; rewrite Hlen; reflexivity.
  - destruct fuel as [|fuel]; [lia|].
    assert (Hlen : length (pre ++ [t0; t1; t2; t3]) = (4 * rc + 4)%nat) by (rewrite app_length; cbn [length]; lia).
    cbn [expand_loop]. rewrite Hlen.
    replace (Nat.leb 44 (4 * rc + 4)) with false by (symmetry; apply Nat.leb_gt; lia).
    rewrite expand_step_shape. cbv zeta.
    set (t0' := Z.lxor t0 (sub_rot t3 (nth rc aes_RCON 0))).
    set (t1' := Z.lxor t1 t0'). set (t2' := Z.lxor t2 t1'). set (t3' := Z.lxor t3 t2').
    replace (firstn (44 - (4 * rc + 4)) (firstn 4 [t0'; t1'; t2'; t3'])) with [t0'; t1'; t2'; t3'].
    2:{ cbn [firstn]. symmetry. apply firstn_all2. cbn [length]. lia. }
    destruct (IH fuel (pre ++ [t0; t1; t2; t3]) t0' t1' t2' t3' (S rc)) as (w' & Hw & Hm); try lia.
    exists w'. split; [exact Hw|].
    rewrite Hm. replace (4 * S n)%nat with (4 + 4 * n)%nat by lia.
    rewrite key_expansion_add. f_equal.
    rewrite (expand_step_128 pre t0 t1 t2 t3 rc) by (auto; lia).
    rewrite expand_step_shape. reflexivity.
Qed.

Lemma div_mod_shift : forall u d m, 0 < d ->
  ((u - (256 * m) * d) / d) mod 256 = (u / d) mod 256.
Proof.
  intros u d m Hd.
  replace (u - 256 * m * d) with (u + (- (256 * m)) * d) by ring.
  rewrite Z.div_add by lia.
  replace (u / d + - (256 * m)) with (u / d + (- m) * 256) by ring.
  apply Z_mod_plus_full.
Qed.

(* the sign of struct.unpack('>i') does not show in the four bytes *)
Lemma wbytes_unpack : forall w, length w = 4%nat -> bytes_ok w = true ->
  wbytes (unpack_be_i32 w) = w.
Proof.
  intros w Hl H. unfold unpack_be_i32.
  destruct (be_int w <? 2147483648); [apply wbytes_be_int; assumption|].
  rewrite <- (wbytes_be_int w Hl H) at 2. generalize (be_int w). intros u.
  unfold wbytes, byte_of.
  change 255 with (Z.ones 8). rewrite !Z.land_ones by lia. rewrite !Z.shiftr_div_pow2 by lia.
  change (2 ^ 24) with 16777216. change (2 ^ 16) with 65536. change (2 ^ 8) with 256. change (2 ^ 0) with 1.
  rewrite <- (div_mod_shift u 16777216 1) by lia.
  rewrite <- (div_mod_shift u 65536 256) by lia.
  rewrite <- (div_mod_shift u 256 65536) by lia.
  rewrite <- (div_mod_shift u 1 16777216) by lia.
  reflexivity.
Qed.

Lemma words_of_bytes : forall n key, length key = (4 * n)%nat -> bytes_ok key = true ->
  map wbytes (words_of n key) = words4 n key.
Proof.
  induction n as [|n IH]; intros key Hl Hok; [reflexivity|].
  cbn [words_of words4 map]. rewrite wbytes_unpack, IH; [reflexivity|..].
  - rewrite skipn_length. lia.
  - apply bytes_ok_skipn, Hok.
  - rewrite firstn_length. lia.
  - apply bytes_ok_firstn, Hok.
Qed.

Lemma group4_round_keys : forall n w, length w = (4 * n)%nat ->
  map st_bytes (group4 n w) = round_keys_of (map wbytes w).
Proof.
  induction n as [|n IH]; intros w Hl.
  - destruct w; [reflexivity|discriminate].
  - do 4 (destruct w as [|? w]; [simpl in Hl; lia|]).
    cbn [group4 nth skipn map round_keys_of st_bytes]. f_equal.
    apply IH. cbn [length] in Hl. lia.
Qed.

(* For every 16-byte key: _AES.__init__ succeeds and its encryption round keys are the
   FIPS-197 key schedule. *)
Theorem aes128_key_schedule_is_fips197 : forall key,
  length key = 16%nat -> bytes_ok key = true ->
  exists ke, aes_init key = Some ke /\ map st_bytes ke = round_keys_of (key_schedule_128 key) /\
             length ke = 11%nat.
Proof.
  intros key Hl Hok.
  unfold aes_init, len. rewrite Hl. change (lookup_rounds (Z.of_nat 16) aes_ROUNDS) with (Some 10).
  cbv iota beta. change (Z.to_nat ((10 + 1) * 4)) with 44%nat. change (Z.to_nat (10 + 1)) with 11%nat.
  change (Nat.div 16 4) with 4%nat.
  pose proof (words_of_bytes 4 key Hl Hok) as Hw4. cbn [words_of] in Hw4 |- *.
  match goal with |- context [expand_loop 44 4 44 [?a; ?b; ?c; ?d] 0 _] =>
    destruct (expand_loop_128 10 44 [] a b c d 0) as (w' & Hw & Hm); try reflexivity; try lia end.
  cbn [app] in Hw, Hm. rewrite Hw. rewrite Hw4 in Hm. change (4 * 10)%nat with 40%nat in Hm.
  assert (Hlen : length w' = 44%nat).
  { apply (f_equal (@length _)) in Hm. rewrite map_length, key_expansion_length in Hm. exact Hm. }
  eexists. split; [reflexivity|]. split.
  - unfold key_schedule_128. rewrite group4_round_keys, Hm by (rewrite Hlen; reflexivity). reflexivity.
  - apply group4_length.
Qed.

(* builtin AES-128 encryption of one block = FIPS-197 Cipher(in, KeyExpansion(key)) *)
Theorem aes128_is_fips197 : forall key pt,
  length key = 16%nat -> bytes_ok key = true -> length pt = 16%nat -> bytes_ok pt = true ->
  exists ke, aes_init key = Some ke /\
             aes_encrypt ke pt = Some (cipher (round_keys_of (key_schedule_128 key)) pt).
Proof.
  intros key pt Hk Hko Hp Hpo.
  destruct (aes128_key_schedule_is_fips197 key Hk Hko) as (ke & Hi & Hr & Hlen).
  exists ke. split; [assumption|].
  rewrite <- Hr. apply aes_encrypt_is_fips197_cipher; auto. lia.
Qed.

(* Core Vol 3 Part H 2.2.1: security function e = AES-128 (FIPS-197), bumble passing and
   returning the 128-bit values least significant byte first *)
Definition e_spec (key data : list Z) : list Z :=
  rev (cipher (round_keys_of (key_schedule_128 (rev key))) (rev data)).

Theorem e_builtin_is_aes128 : forall key data,
  length key = 16%nat -> bytes_ok key = true -> length data = 16%nat -> bytes_ok data = true ->
  e_builtin key data = Some (e_spec key data).
Proof.
  intros key data Hk Hko Hd Hdo. unfold e_builtin, e_spec.
  destruct (aes128_is_fips197 (rev key) (rev data)) as (ke & Hi & He);
    try (rewrite rev_length; assumption); try (rewrite bytes_ok_rev; assumption).
  rewrite Hi. do 2 f_equal. change (ecb_encrypt ke (rev data)) with (ecb (aes_block ke) (rev data)).
  rewrite ecb_block by (rewrite rev_length; assumption). unfold aes_block. rewrite He. reflexivity.
Qed.
