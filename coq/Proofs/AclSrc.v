(* C05: the tie between the SOURCE (as translated into Gen/C05Shape.v on every run) and
   Model/Acl.v.  First the statement skeletons and atom tables of the anchored functions as they
   were when Model/Acl.v was written from them (after fixes D05 and D05b); Props/C05.v checks
   that those regenerated from the current source are these.  Then, for ALL values of the atoms,
   the arithmetic / flag / comparison expressions found in the current source compute what the
   model computes. *)
(* ZifyBool lets [lia] decide goals about boolean comparisons. *)
From Coq Require Import ZArith List Bool String Lia ZifyBool.
From BV Require Import Model.Acl Model.AclSrc Gen.C05Shape Proofs.Acl.
Import ListNotations.
Open Scope string_scope.
Open Scope Z_scope.

Definition exp_sk_host_send_acl_sdu : list sk := [SIf "not (connection := self.connections.get(connection_handle))" [SReturn ""] []; SAssign "packet_queue" "connection.acl_packet_queue"; SIf "packet_queue is None" [SReturn ""] []; SAssign "max_packet_size" "packet_queue.max_packet_size"; SFor "offset" "range(0, len(sdu), max_packet_size)" [SAssign "pdu" "sdu[offset:offset + max_packet_size]"; SAssign "acl_packet" "hci.HCI_AclDataPacket(connection_handle=connection_handle, pb_flag=1 if offset > 0 else 0, bc_flag=0, data_total_length=len(pdu), data=pdu)"; SExpr "packet_queue.enqueue(acl_packet, connection_handle)"]].
Definition exp_sk_host_send_l2cap_pdu : list sk := [SExpr "self.send_acl_sdu(connection_handle, bytes(L2CAP_PDU(cid, pdu)))"].
Definition exp_sk_host_send_iso_sdu : list sk := [SIf "not (iso_link := (self.cis_links.get(connection_handle) or self.bis_links.get(connection_handle)))" [SReturn ""] []; SIf "iso_link.packet_queue is None" [SReturn ""] []; SAssign "bytes_remaining" "len(sdu)"; SAssign "offset" "0"; SWhile "bytes_remaining" [SAssign "is_first_fragment" "offset == 0"; SAssign "header_length" "4 if is_first_fragment else 0"; SAssert "iso_link.packet_queue.max_packet_size > header_length"; SAssign "fragment_length" "min(bytes_remaining, iso_link.packet_queue.max_packet_size - header_length)"; SAssign "is_last_fragment" "bytes_remaining == fragment_length"; SAssign "iso_sdu_fragment" "sdu[offset:offset + fragment_length]"; SExpr "iso_link.packet_queue.enqueue(hci.HCI_IsoDataPacket(connection_handle=connection_handle, data_total_length=header_length + fragment_length, packet_sequence_number=iso_link.packet_sequence_number, pb_flag=2 if is_last_fragment else 0, packet_status_flag=0, iso_sdu_length=len(sdu), iso_sdu_fragment=iso_sdu_fragment) if is_first_fragment else hci.HCI_IsoDataPacket(connection_handle=connection_handle, data_total_length=fragment_length, pb_flag=3 if is_last_fragment else 1, iso_sdu_fragment=iso_sdu_fragment), connection_handle)"; SAug "offset" "Add" "fragment_length"; SAug "bytes_remaining" "Sub" "fragment_length"]; SAssign "iso_link.packet_sequence_number" "iso_link.packet_sequence_number + 1 & 65535"].
Definition exp_sk_host_on_l2cap_pdu : list sk := [SExpr "self.emit('l2cap_pdu', connection.handle, cid, pdu)"].
Definition exp_sk_host_conn_on_hci_acl_data_packet : list sk := [SExpr "self.assembler.feed_packet(packet)"].
Definition exp_sk_host_conn_on_acl_pdu : list sk := [SAssign "l2cap_pdu" "L2CAP_PDU.from_bytes(pdu)"; SExpr "self.host.on_l2cap_pdu(self, l2cap_pdu.cid, l2cap_pdu.payload)"].
Definition exp_sk_asm_init : list sk := [SAssign "self.callback" "callback"; SAssign "self.current_data" "None"; SAssign "self.l2cap_pdu_length" "0"].
Definition exp_sk_asm_feed_packet : list sk := [SIf "packet.pb_flag in (HCI_ACL_PB_FIRST_NON_FLUSHABLE, HCI_ACL_PB_FIRST_FLUSHABLE)" [SAssign "self.current_data" "packet.data"; SAssign "self.l2cap_pdu_length" "0"] [SIf "packet.pb_flag == HCI_ACL_PB_CONTINUATION" [SIf "self.current_data is None" [SReturn ""] []; SAug "self.current_data" "Add" "packet.data"] []]; SAssert "self.current_data is not None"; SIf "len(self.current_data) < 2" [SReturn ""] []; SAssign "(self.l2cap_pdu_length,)" "struct.unpack_from('<H', self.current_data, 0)"; SIf "len(self.current_data) == self.l2cap_pdu_length + 4" [SExpr "self.callback(self.current_data)"; SAssign "self.current_data" "None"; SAssign "self.l2cap_pdu_length" "0"] [SIf "len(self.current_data) > self.l2cap_pdu_length + 4" [SAssign "self.current_data" "None"; SAssign "self.l2cap_pdu_length" "0"] []]].
Definition exp_sk_acl_from_bytes : list sk := [SAssign "(h, data_total_length)" "struct.unpack_from('<HH', packet, 1)"; SAssign "connection_handle" "h & 4095"; SAssign "pb_flag" "h >> 12 & 3"; SAssign "bc_flag" "h >> 14 & 3"; SAssign "data" "packet[5:]"; SIf "len(data) != data_total_length" [SRaise "InvalidPacketError(f'invalid packet length {len(data)} != {data_total_length}')"] []; SReturn "cls(connection_handle=connection_handle, pb_flag=pb_flag, bc_flag=bc_flag, data_total_length=data_total_length, data=data)"].
Definition exp_sk_acl_to_bytes : list sk := [SAssign "h" "self.pb_flag << 12 | self.bc_flag << 14 | self.connection_handle"; SReturn "struct.pack('<BHH', HCI_ACL_DATA_PACKET, h, self.data_total_length) + self.data"].
Definition exp_sk_iso_from_bytes : list sk := [SAssign "time_stamp" "None"; SAssign "packet_sequence_number" "None"; SAssign "iso_sdu_length" "None"; SAssign "packet_status_flag" "None"; SAssign "pos" "1"; SIf "len(packet) < pos + 4" [SRaise "InvalidPacketError(f'ISO data packet too short: {len(packet)} bytes')"] []; SAssign "(pdu_info, data_total_length)" "struct.unpack_from('<HH', packet, pos)"; SAssign "connection_handle" "pdu_info & 4095"; SAssign "pb_flag" "pdu_info >> 12 & 3"; SAssign "ts_flag" "pdu_info >> 14 & 1"; SAug "pos" "Add" "4"; SAssign "should_include_sdu_info" "not pb_flag & 1"; SIf "ts_flag" [SIf "not should_include_sdu_info" [] []; SIf "len(packet) < pos + 4" [SRaise "InvalidPacketError('ISO data packet truncated (timestamp)')"] []; SAssign "(time_stamp, *_)" "struct.unpack_from('<I', packet, pos)"; SAug "pos" "Add" "4"] []; SIf "should_include_sdu_info" [SIf "len(packet) < pos + 4" [SRaise "InvalidPacketError('ISO data packet truncated (SDU info)')"] []; SAssign "(packet_sequence_number, sdu_info)" "struct.unpack_from('<HH', packet, pos)"; SAssign "iso_sdu_length" "sdu_info & 4095"; SAssign "packet_status_flag" "sdu_info >> 14 & 3"; SAug "pos" "Add" "4"] []; SAssign "iso_sdu_fragment" "packet[pos:]"; SReturn "cls(connection_handle=connection_handle, pb_flag=pb_flag, ts_flag=ts_flag, data_total_length=data_total_length, time_stamp=time_stamp, packet_sequence_number=packet_sequence_number, iso_sdu_length=iso_sdu_length, packet_status_flag=packet_status_flag, iso_sdu_fragment=iso_sdu_fragment)"].
Definition exp_sk_iso_to_bytes : list sk := [SAssign "fmt" "'<BHH'"; SAssign "args" "[HCI_ISO_DATA_PACKET, self.ts_flag << 14 | self.pb_flag << 12 | self.connection_handle, self.data_total_length]"; SIf "self.time_stamp is not None" [SAug "fmt" "Add" "'I'"; SExpr "args.append(self.time_stamp)"] []; SIf "self.packet_sequence_number is not None and self.iso_sdu_length is not None and (self.packet_status_flag is not None)" [SAug "fmt" "Add" "'HH'"; SAug "args" "Add" "[self.packet_sequence_number, self.iso_sdu_length | self.packet_status_flag << 14]"] []; SReturn "struct.pack(fmt, *args) + self.iso_sdu_fragment"].
Definition exp_sk_l2cap_from_bytes : list sk := [SIf "len(data) < 4" [SRaise "InvalidPacketError('not enough data for L2CAP header')"] []; SAssign "(length, l2cap_pdu_cid)" "struct.unpack_from('<HH', data, 0)"; SAssign "l2cap_pdu_payload" "data[4:4 + length]"; SReturn "cls(l2cap_pdu_cid, l2cap_pdu_payload)"].
Definition exp_sk_l2cap_to_bytes : list sk := [SAssign "length" "len(self.payload)"; SIf "with_fcs" [SAug "length" "Add" "2"] []; SAssign "header" "struct.pack('<HH', length, self.cid)"; SAssign "body" "header + self.payload"; SIf "with_fcs" [SAug "body" "Add" "struct.pack('<H', utils.crc_16(body))"] []; SReturn "body"].
Definition exp_sk_ctrl_conn_on_hci_acl_data_packet : list sk := [SExpr "self.assembler.feed_packet(packet)"; SExpr "self.controller.send_hci_packet(hci.HCI_Number_Of_Completed_Packets_Event(connection_handles=[self.handle], num_completed_packets=[1]))"].
Definition exp_sk_ctrl_conn_on_acl_pdu : list sk := [SIf "self.link" [SExpr "self.link.send_acl_data(self.controller, self.peer_address, self.transport, pdu)"] []].
Definition exp_sk_ctrl_on_hci_acl_data_packet : list sk := [SAssign "connection" "self.find_connection_by_handle(packet.connection_handle)"; SIf "connection is None" [SReturn ""] []; SExpr "connection.on_hci_acl_data_packet(packet)"].
Definition exp_sk_ctrl_on_link_acl_data : list sk := [SIf "transport == PhysicalTransport.LE" [SAssign "connection" "self.le_connections.get(sender_address)"] [SAssign "connection" "self.classic_connections.get(sender_address)"]; SIf "connection is None" [SReturn ""] []; SAssign "max_packet_size" "self.acl_data_packet_length"; SIf "transport == PhysicalTransport.LE and self.le_acl_data_packet_length" [SAssign "max_packet_size" "self.le_acl_data_packet_length"] []; SFor "offset" "range(0, len(data), max_packet_size)" [SAssign "fragment" "data[offset:offset + max_packet_size]"; SExpr "self.send_hci_packet(hci.HCI_AclDataPacket(connection_handle=connection.handle, pb_flag=hci.HCI_ACL_PB_CONTINUATION if offset > 0 else hci.HCI_ACL_PB_FIRST_FLUSHABLE, bc_flag=0, data_total_length=len(fragment), data=fragment))"]].
Definition exp_sk_link_send_acl_data : list sk := [SIf "transport == core.PhysicalTransport.LE" [SAssign "destination_controller" "self.find_le_controller(destination_address)"; SAssign "connection" "sender_controller.le_connections.get(destination_address)"; SAssign "source_address" "connection.self_address if connection else sender_controller.random_address"] [SIf "transport == core.PhysicalTransport.BR_EDR" [SAssign "destination_controller" "self.find_classic_controller(destination_address)"; SAssign "source_address" "sender_controller.public_address"] [SRaise "ValueError('unsupported transport type')"]]; SIf "destination_controller is not None" [SExpr "asyncio.get_running_loop().call_soon(lambda: destination_controller.on_link_acl_data(source_address, transport, data))"] []].

(* atom tables and struct formats the model was written against *)
Definition exp_tx_data : string := "sdu".
Definition exp_rl_data : string := "data".
Definition exp_tx_len_atom : string := "len(pdu)".
Definition exp_rl_len_atom : string := "len(fragment)".
Definition exp_empty : string := "".
Definition exp_asm_atoms : list string := ["packet.pb_flag"; "len(self.current_data)"; "self.l2cap_pdu_length"].
Definition exp_asm_unpack_args : list string := ["'<H'"; "self.current_data"; "0"].
Definition exp_aclhdr_atoms : list string :=
  ["self.pb_flag"; "self.bc_flag"; "self.connection_handle"; "h"; "len(data)"; "data_total_length"].
Definition exp_aclhdr_formats : list string := ["'<BHH'"; "'<HH'"].
Definition exp_l2_atoms : list string := ["len(data)"; "length"].
Definition exp_l2_formats : list string := ["'<HH'"; "'<HH'"; "'<H'"].
Definition exp_iso_atoms : list string :=
  ["bytes_remaining"; "offset"; "is_first_fragment"; "iso_link.packet_queue.max_packet_size";
   "header_length"; "fragment_length"; "is_last_fragment"; "len(sdu)"; "iso_link.packet_sequence_number"].
Definition exp_isohdr_atoms : list string :=
  ["self.ts_flag"; "self.pb_flag"; "self.connection_handle"; "self.iso_sdu_length";
   "self.packet_status_flag"; "pdu_info"; "sdu_info"].

Lemma truthy_b2z b : truthy (b2z b) = b.
Proof. destruct b; reflexivity. Qed.

Ltac px_cbv :=
  cbv [pxeval env_of nth bin_eval cmp_eval existsb
       tx_range_start tx_range_stop tx_range_step tx_slice_lo tx_slice_hi tx_pb tx_bc tx_len tx_loop_target
       rl_range_start rl_range_stop rl_range_step rl_slice_lo rl_slice_hi rl_pb rl_bc rl_len rl_loop_target
       asm_start_test asm_cont_test asm_short_test asm_complete_test asm_overflow_test
       aclhdr_pack aclhdr_handle aclhdr_pb aclhdr_bc aclhdr_len_check
       l2_short_test l2_slice_lo l2_slice_hi
       iso_while_test iso_is_first iso_header_length iso_assert_test iso_fragment_length iso_is_last
       iso_first_pb iso_first_len iso_first_sdu_len iso_first_psf iso_later_pb iso_later_len iso_seq_update
       isohdr_pack isohdr_info_pack isohdr_handle isohdr_pb isohdr_ts isohdr_sdu_len isohdr_psf].

(* the fragment loops: for offset in range(0, len(x), max_packet_size): x[offset : offset + max_packet_size] *)
Definition loop_shape (atoms : list string) (data : string) (start stop step target lo hi bc len : px) : Prop :=
  atoms = ["len(" ++ data ++ ")"; "max_packet_size"; "offset"; nth 3 atoms ""] /\
  start = PNum 0 /\ stop = PVar 0 /\ step = PVar 1 /\ target = PVar 2 /\
  lo = PVar 2 /\ hi = PBin Add (PVar 2) (PVar 1) /\ bc = PNum 0 /\ len = PVar 3.

Lemma skipn_skipn_add {A} : forall n m (l : list A), skipn n (skipn m l) = skipn (m + n) l.
Proof.
  intros n m. induction m as [|m IH]; intros l; [reflexivity|].
  destruct l; [cbn; destruct n; reflexivity|]. cbn [skipn Nat.add]. apply IH.
Qed.

(* the model's chunking is that loop: the k-th fragment is x[k*m : k*m + m] *)
Lemma chunks_nth : forall fuel m l cs, chunks fuel m l = Some cs ->
  forall k, (k < List.length cs)%nat -> nth k cs [] = firstn m (skipn (k * m) l).
Proof.
  induction fuel as [|f IH]; intros m l cs H k Hk.
  - destruct l; cbn in H; [|discriminate]. inversion H; subst. cbn in Hk. lia.
  - destruct l as [|x l']; [cbn in H; inversion H; subst; cbn in Hk; lia|].
    cbn [chunks] in H. destruct (chunks f m (skipn m (x :: l'))) as [r|] eqn:E; [|discriminate].
    inversion H; subst. destruct k as [|k'].
    + reflexivity.
    + cbn [nth]. rewrite (IH m _ r E k') by (cbn [List.length] in Hk; lia).
      rewrite skipn_skipn_add. reflexivity.
Qed.

(* pb flag of the k-th fragment = the source's expression at offset = k * m *)
Lemma mark_frags_pb h pb0 cs k d : (k < List.length cs)%nat ->
  a_pb (nth k (mark_frags h pb0 cs) d) = if (k =? 0)%nat then pb0 else 1.
Proof.
  destruct cs as [|c r]; [cbn; lia|]. intros Hk. rewrite mark_frags_eq. destruct k as [|k']; [reflexivity|].
  cbn [nth Nat.eqb]. cbn [List.length] in Hk.
  rewrite (nth_indep _ d (cont h [])) by (rewrite List.map_length; lia).
  rewrite (map_nth (cont h)). reflexivity.
Qed.

(* the source's flag expressions are instances: [tx_pb] with first marker 0, [rl_pb] with 2 *)
Theorem pb_matches_model h pb0 cs m k d n len : 1 <= m -> (k < List.length cs)%nat ->
  a_pb (nth k (mark_frags h pb0 cs) d) =
  pxeval (env_of [n; m; Z.of_nat k * m; len]) (PIf (PCmp CGt (PVar 2) (PNum 0)) (PNum 1) (PNum pb0)).
Proof.
  intros Hm Hk. rewrite mark_frags_pb by exact Hk. px_cbv.
  destruct k as [|k']; [reflexivity|]. cbn [Nat.eqb].
  assert (Z.of_nat (S k') * m >? 0 = true) as -> by nia. reflexivity.
Qed.

(* feed_packet: the model's step is the interpretation of the source's five tests *)
Definition asm_env (pb : Z) (cur : bytes) (l : Z) : nat -> Z := env_of [pb; blen cur; l].

Definition tail_src (pb : Z) (cur : bytes) (l0 : Z) : asm * list asm_ev :=
  if truthy (pxeval (asm_env pb cur l0) asm_short_test) then ((Some cur, l0), [])
  else
    let l := rd16 (nth 0 cur 0) (nth 1 cur 0) in      (* struct.unpack_from('<H', self.current_data, 0) *)
    if truthy (pxeval (asm_env pb cur l) asm_complete_test) then (asm_init, [Deliver cur])
    else if truthy (pxeval (asm_env pb cur l) asm_overflow_test) then (asm_init, [Overflow])
    else ((Some cur, l), []).

Definition feed_src (s : asm) (p : acl) : asm * list asm_ev :=
  let pb := a_pb p in
  if truthy (pxeval (asm_env pb [] 0) asm_start_test) then tail_src pb (a_data p) 0
  else if truthy (pxeval (asm_env pb [] 0) asm_cont_test) then
    match fst s with None => (s, [ContNoStart]) | Some cur => tail_src pb (cur ++ a_data p)%list (snd s) end
  else
    match fst s with None => (s, [NoData]) | Some cur => tail_src pb cur (snd s) end.

Lemma tail_src_eq pb cur l0 : tail_src pb cur l0 = asm_tail cur l0.
Proof.
  unfold tail_src, asm_env. px_cbv. rewrite !truthy_b2z.
  destruct cur as [|b0 [|b1 t]].
  - reflexivity.
  - reflexivity.
  - assert (blen (b0 :: b1 :: t) <? 2 = false) as ->.
    { unfold blen. cbn [List.length]. lia. }
    cbn [asm_tail nth]. unfold asm_check. reflexivity.
Qed.

Theorem feed_matches_source s p : feed s p = feed_src s p.
Proof.
  unfold feed_src, feed, asm_env. px_cbv. rewrite !truthy_b2z. rewrite !tail_src_eq.
  rewrite (Z.eqb_sym 0 (a_pb p)), (Z.eqb_sym 2 (a_pb p)), orb_false_r.
  destruct ((a_pb p =? 0) || (a_pb p =? 2)); [reflexivity|].
  destruct (a_pb p =? 1); destruct (fst s); rewrite ?tail_src_eq; reflexivity.
Qed.

Theorem aclhdr_matches_source pb bc handle x n len :
  aclhdr_atoms = ["self.pb_flag"; "self.bc_flag"; "self.connection_handle"; "h"; "len(data)"; "data_total_length"] /\
  aclhdr_formats = ["'<BHH'"; "'<HH'"] /\
  pxeval (env_of [pb; bc; handle; x; n; len]) aclhdr_pack = acl_hdr handle pb bc /\
  pxeval (env_of [pb; bc; handle; x; n; len]) aclhdr_handle = Z.land x 4095 /\
  pxeval (env_of [pb; bc; handle; x; n; len]) aclhdr_pb = Z.land (Z.shiftr x 12) 3 /\
  pxeval (env_of [pb; bc; handle; x; n; len]) aclhdr_bc = Z.land (Z.shiftr x 14) 3 /\
  truthy (pxeval (env_of [pb; bc; handle; x; n; len]) aclhdr_len_check) = negb (n =? len).
Proof. repeat split; try reflexivity. px_cbv. apply truthy_b2z. Qed.

Theorem l2_matches_source n length :
  l2_atoms = ["len(data)"; "length"] /\ l2_formats = ["'<HH'"; "'<HH'"; "'<H'"] /\
  truthy (pxeval (env_of [n; length]) l2_short_test) = (n <? 4) /\
  pxeval (env_of [n; length]) l2_slice_lo = 4 /\
  pxeval (env_of [n; length]) l2_slice_hi = 4 + length.
Proof. repeat split; try reflexivity. px_cbv. apply truthy_b2z. Qed.

(* Host.send_iso_sdu: one iteration of the loop *)
Definition iso_env (rem off first maxp hl fl last total seq : Z) : nat -> Z :=
  env_of [rem; off; first; maxp; hl; fl; last; total; seq].

Theorem iso_matches_source rem off first maxp hl fl last total seq :
  let env := iso_env rem off first maxp hl fl last total seq in
  iso_atoms = ["bytes_remaining"; "offset"; "is_first_fragment"; "iso_link.packet_queue.max_packet_size";
               "header_length"; "fragment_length"; "is_last_fragment"; "len(sdu)"; "iso_link.packet_sequence_number"] /\
  pxeval env iso_while_test = rem /\
  truthy (pxeval env iso_is_first) = (off =? 0) /\
  pxeval env iso_header_length = (if truthy first then 4 else 0) /\
  truthy (pxeval env iso_assert_test) = (maxp >? hl) /\
  pxeval env iso_fragment_length = Z.min rem (maxp - hl) /\
  truthy (pxeval env iso_is_last) = (rem =? fl) /\
  pxeval env iso_first_pb = (if truthy last then 2 else 0) /\
  pxeval env iso_later_pb = (if truthy last then 3 else 1) /\
  pxeval env iso_first_len = hl + fl /\ pxeval env iso_later_len = fl /\
  pxeval env iso_first_sdu_len = total /\ pxeval env iso_first_psf = 0 /\
  pxeval env iso_seq_update = Z.land (seq + 1) 65535.
Proof. cbv zeta. unfold iso_env. repeat split; try reflexivity; px_cbv; apply truthy_b2z. Qed.

(* the model's loop body is exactly that iteration *)
Theorem iso_loop_matches_source f h maxp seq total first x rest :
  let l := x :: rest in
  let env0 := iso_env (blen l) 0 (b2z first) maxp 0 0 0 total seq in
  let hl := pxeval env0 iso_header_length in
  let env1 := iso_env (blen l) 0 (b2z first) maxp hl 0 0 total seq in
  let fl := pxeval env1 iso_fragment_length in
  let env2 := iso_env (blen l) 0 (b2z first) maxp hl fl 0 total seq in
  let last := b2z (truthy (pxeval env2 iso_is_last)) in
  let env3 := iso_env (blen l) 0 (b2z first) maxp hl fl last total seq in
  iso_loop (S f) h maxp seq total first l =
  if negb (truthy (pxeval env1 iso_assert_test)) then None
  else
    let fr := firstn (Z.to_nat fl) l in
    let pkt := if first
               then mkIso h (pxeval env3 iso_first_pb) (pxeval env3 iso_first_len) None (Some seq)
                          (Some (pxeval env3 iso_first_sdu_len)) (Some (pxeval env3 iso_first_psf)) fr
               else mkIso h (pxeval env3 iso_later_pb) (pxeval env3 iso_later_len) None None None None fr in
    match iso_loop f h maxp seq total false (skipn (Z.to_nat fl) l) with
    | Some r => Some (pkt :: r)
    | None => None
    end.
Proof.
  cbv zeta. unfold iso_env. px_cbv. rewrite !truthy_b2z. cbn [iso_loop].
  destruct first; cbn [b2z truthy Z.eqb negb].
  - destruct (maxp <=? 4) eqn:E1; destruct (maxp >? 4) eqn:E2; try lia; cbn [negb]; [reflexivity|].
    destruct (blen (x :: rest) =? Z.min (blen (x :: rest)) (maxp - 4)); reflexivity.
  - destruct (maxp <=? 0) eqn:E1; destruct (maxp >? 0) eqn:E2; try lia; cbn [negb]; [reflexivity|].
    destruct (blen (x :: rest) =? Z.min (blen (x :: rest)) (maxp - 0)); reflexivity.
Qed.

Theorem iso_seq_matches_source h maxp seq sdu ps :
  iso_loop (List.length sdu) h maxp seq (blen sdu) true sdu = Some ps ->
  snd (send_iso_sdu h maxp seq sdu) = pxeval (iso_env 0 0 0 0 0 0 0 0 seq) iso_seq_update.
Proof. intros H. unfold send_iso_sdu. rewrite H. reflexivity. Qed.

Theorem isohdr_matches_source ts pb handle l f info w :
  let env := env_of [ts; pb; handle; l; f; info; w] in
  isohdr_atoms = ["self.ts_flag"; "self.pb_flag"; "self.connection_handle"; "self.iso_sdu_length";
                  "self.packet_status_flag"; "pdu_info"; "sdu_info"] /\
  pxeval env isohdr_pack = iso_hdr ts pb handle /\
  pxeval env isohdr_info_pack = Z.lor l (Z.shiftl f 14) /\
  pxeval env isohdr_handle = Z.land info 4095 /\
  pxeval env isohdr_pb = Z.land (Z.shiftr info 12) 3 /\
  pxeval env isohdr_ts = Z.land (Z.shiftr info 14) 1 /\
  pxeval env isohdr_sdu_len = Z.land w 4095 /\
  pxeval env isohdr_psf = Z.land (Z.shiftr w 14) 3.
Proof. cbv zeta. repeat split; reflexivity. Qed.
