(* C14 - the built-in _CMAC (Model/Cmac.v) computes RFC 4493 AES-CMAC for every message
   length and every way of cutting the message into update() calls. *)
From Coq Require Import ZArith List Bool Lia ZifyBool ZifyNat.
From BV Require Import Model.CryptoBytes Model.Cmac Proofs.CryptoBytes.
Import ListNotations.
Open Scope Z_scope.

Section CmacProof.
  Variable E : list Z -> list Z.
  (* the block function maps 16-byte blocks to 16-byte blocks of bytes *)
  Hypothesis E_len : forall b, length b = 16%nat -> length (E b) = 16%nat.
  Hypothesis E_ok : forall b, length b = 16%nat -> bytes_ok (E b) = true.

  Notation chain := (spec_chain E).
  Notation Z16 := (zeros 16).

  Lemma ecb_block : forall pt, length pt = 16%nat -> ecb E pt = E pt.
  Proof.
    intros pt H. unfold ecb.
    assert (Hc : chunks16 pt = [pt]).
    { rewrite <- (app_nil_r pt) at 1. change (pt ++ []) with (concat [pt]).
      apply chunks16_concat. repeat constructor. assumption. }
    rewrite Hc. cbn [map concat]. rewrite app_nil_r. unfold ljust16. rewrite H.
    change (16 - 16)%nat with 0%nat. change (zeros 0) with (@nil Z). rewrite app_nil_r. reflexivity.
  Qed.

  Lemma land_128 : forall x, 0 <= x < 256 -> (Z.land x 128 =? 0) = (x <? 128).
  Proof.
    intros x Hx.
    apply (byte_cases (fun x => Bool.eqb (Z.land x 128 =? 0) (x <? 128))) in Hx.
    - apply Bool.eqb_prop. exact Hx.
    - vm_compute. reflexivity.
  Qed.

  Lemma hd_msb : forall l, length l = 16%nat -> bytes_ok l = true ->
    negb (Z.land (hd 0 l) 128 =? 0) = spec_msb l.
  Proof.
    intros [|x r] Hl Hok; [discriminate|]. cbn [hd].
    rewrite bytes_ok_cons in Hok. apply andb_true_iff in Hok as [Hx Hr].
    apply byte_ok_iff in Hx. rewrite land_128 by assumption.
    unfold spec_msb. rewrite be_int_cons.
    pose proof (be_int_bound r Hr) as Hb.
    assert (Hlen : len r = 15) by (unfold len; simpl in Hl; lia).
    rewrite Hlen in *.
    set (P := 256 ^ 15) in *.
    assert (HP : 2 ^ 127 = 128 * P) by reflexivity.
    assert (HP0 : 0 < P) by reflexivity.
    rewrite HP.
    destruct (x <? 128) eqn:E1; destruct (128 * P <=? x * P + be_int r) eqn:E2; simpl; try reflexivity; nia.
  Qed.

  Lemma shift_bytes_spec : forall l c, length l = 16%nat ->
    shift_bytes l c = to_be 16 (Z.lxor (2 * be_int l) c).
  Proof.
    intros l c Hl. unfold shift_bytes. rewrite Hl. change (16 + 1)%nat with 17%nat.
    rewrite py_from_nonneg by lia. change (Z.to_nat 1) with 1%nat.
    change (skipn 1 ?x) with (tl x). rewrite to_be_tail.
    rewrite Z.shiftl_mul_pow2 by lia. change (2 ^ 1) with 2. rewrite (Z.mul_comm _ 2). reflexivity.
  Qed.

  Lemma subkey_spec : forall l, length l = 16%nat -> bytes_ok l = true ->
    subkey_of l = spec_subkey l.
  Proof.
    intros l Hl Hok. unfold subkey_of, spec_subkey. rewrite hd_msb by assumption.
    unfold spec_shl1. change (2 ^ 128) with (256 ^ Z.of_nat 16). rewrite to_be_mod.
    destruct (spec_msb l).
    - rewrite shift_bytes_spec by assumption. rewrite to_be_lxor. reflexivity.
    - rewrite shift_bytes_spec by assumption. rewrite Z.lxor_0_r. reflexivity.
  Qed.

  Lemma subkey_len_ok : forall l, length l = 16%nat ->
    length (subkey_of l) = 16%nat /\ bytes_ok (subkey_of l) = true.
  Proof.
    intros l Hl. unfold subkey_of.
    destruct (negb _); rewrite shift_bytes_spec by assumption; split;
      try apply to_be_length; apply to_be_ok.
  Qed.

  Lemma Z16_len : length Z16 = 16%nat.
  Proof. reflexivity. Qed.

  Lemma key_L_spec : key_L E = spec_L E.
  Proof. unfold key_L, spec_L. apply ecb_block. reflexivity. Qed.

  Lemma key_k1_spec : key_k1 E = spec_K1 E.
  Proof.
    unfold key_k1, spec_K1. rewrite key_L_spec. unfold spec_L.
    apply subkey_spec; [apply E_len | apply E_ok]; reflexivity.
  Qed.

  Lemma key_k1_len_ok : length (key_k1 E) = 16%nat /\ bytes_ok (key_k1 E) = true.
  Proof.
    unfold key_k1. apply subkey_len_ok. rewrite key_L_spec. apply E_len. reflexivity.
  Qed.

  Lemma key_k2_spec : key_k2 E = spec_K2 E.
  Proof.
    unfold key_k2, spec_K2. rewrite <- key_k1_spec.
    destruct key_k1_len_ok. apply subkey_spec; assumption.
  Qed.

  Lemma key_k2_len : length (key_k2 E) = 16%nat.
  Proof. unfold key_k2. apply subkey_len_ok. apply key_k1_len_ok. Qed.

  Fixpoint scan (X : list Z) (bs : list (list Z)) : list (list Z) :=
    match bs with
    | [] => []
    | b :: r => let c := E (xor_zip X b) in c :: scan c r
    end.

  Lemma cbc_blocks_eq : forall bs X, cbc_blocks E X bs = (concat (scan X bs), chain X bs).
  Proof.
    induction bs as [|b bs IH]; intros X; [reflexivity|].
    cbn [cbc_blocks scan spec_chain concat]. rewrite (xor_zip_comm b X). rewrite IH. reflexivity.
  Qed.

  Lemma chain_app : forall a b X, chain X (a ++ b) = chain (chain X a) b.
  Proof. induction a; intros; simpl; auto. Qed.

  Lemma scan_snoc : forall bs b X, scan X (bs ++ [b]) = scan X bs ++ [E (xor_zip (chain X bs) b)].
  Proof.
    induction bs as [|a bs IH]; intros b X; [reflexivity|].
    cbn [app scan spec_chain]. rewrite IH. reflexivity.
  Qed.

  Lemma chain_len : forall bs X, length X = 16%nat -> blocks_ok bs -> length (chain X bs) = 16%nat.
  Proof.
    induction bs as [|b bs IH]; intros X HX Hok; [assumption|].
    inversion Hok; subst. cbn [spec_chain]. apply IH; auto.
    apply E_len. apply xor_zip_length_eq; assumption.
  Qed.

  Lemma len16 : forall l : list Z, length l = 16%nat -> len l = 16.
  Proof. intros. unfold len. lia. Qed.

  Lemma concat_snoc : forall (bs : list (list Z)) b, concat (bs ++ [b]) = concat bs ++ b.
  Proof. intros. rewrite concat_app. cbn [concat]. rewrite app_nil_r. reflexivity. Qed.

  Lemma update_aligned_snoc : forall s bs b X,
    c_cbc_last s = X -> c_last_ct s = X -> length X = 16%nat ->
    blocks_ok bs -> length b = 16%nat ->
    update_aligned E s (concat (bs ++ [b])) =
      mk_cmac (c_cache s) (c_cache_n s) (chain X (bs ++ [b]))
              (Some (xor_zip (chain X bs) b)) (c_data_size s) (chain X (bs ++ [b])).
  Proof.
    intros s bs b X Hc Hl HX Hok Hb.
    assert (Hokb : blocks_ok (bs ++ [b])).
    { apply blocks_ok_app. split; [assumption|]. repeat constructor. assumption. }
    unfold update_aligned.
    assert (Hlen : len (concat (bs ++ [b])) = 16 * (Z.of_nat (length bs) + 1)).
    { unfold len. rewrite concat_blocks_length by assumption. rewrite app_length. cbn [length]. lia. }
    rewrite Hlen.
    destruct (16 * (Z.of_nat (length bs) + 1) =? 0) eqn:E0; [lia|].
    unfold cbc_encrypt. rewrite chunks16_concat by assumption.
    rewrite Hc, cbc_blocks_eq. rewrite scan_snoc, !concat_snoc.
    set (c := E (xor_zip (chain X bs) b)).
    assert (Hcl : length c = 16%nat).
    { apply E_len. apply xor_zip_length_eq; [apply chain_len|]; assumption. }
    rewrite (py_from_neg_app _ c 16) by (try apply len16; auto; lia).
    rewrite (py_from_neg_app _ b 16) by (try apply len16; auto; lia).
    assert (Hch : chain X (bs ++ [b]) = c).
    { rewrite chain_app. reflexivity. }
    rewrite Hch.
    f_equal. f_equal. f_equal.
    destruct bs as [|b0 bs0] using rev_ind.
    - cbn [length]. change (16 * (Z.of_nat 0 + 1) =? 16) with true. cbv iota.
      rewrite Hl. reflexivity.
    - clear IHbs0. rewrite app_length. cbn [length].
      destruct (16 * (Z.of_nat (length bs0 + 1) + 1) =? 16) eqn:E1; [lia|].
      apply blocks_ok_app in Hok as [Hok0 Hb0]. inversion Hb0; subst.
      rewrite scan_snoc, concat_snoc, <- app_assoc.
      rewrite py_slice_second_last.
      + rewrite chain_app. reflexivity.
      + apply len16. apply E_len. apply xor_zip_length_eq; [apply chain_len|]; assumption.
      + apply len16. assumption.
  Qed.

  (* the three fields that describe the blocks consumed so far *)
  Definition aligned3 (last_ct cbc_last : list Z) (last_pt : option (list Z)) (bs : list (list Z)) : Prop :=
    last_ct = chain Z16 bs /\ cbc_last = chain Z16 bs /\
    ((bs = [] /\ last_pt = None) \/
     (exists bs' b, bs = bs' ++ [b] /\ last_pt = Some (xor_zip (chain Z16 bs') b))).

  Definition aligned (s : cmac_state) (bs : list (list Z)) : Prop :=
    aligned3 (c_last_ct s) (c_cbc_last s) (c_last_pt s) bs.

  Definition inv (M : list Z) (s : cmac_state) : Prop :=
    exists bs r, M = concat bs ++ r /\ blocks_ok bs /\ (length r < 16)%nat /\
      aligned s bs /\ c_cache_n s = len r /\ length (c_cache s) = 16%nat /\
      firstn (length r) (c_cache s) = r /\ c_data_size s = len M.

  (* one goal for each of the eight conjuncts of [inv], once the witnesses are given *)
  Ltac inv_split := refine (conj _ (conj _ (conj _ (conj _ (conj _ (conj _ (conj _ _))))))).

  Lemma init_inv : inv [] cmac_init.
  Proof.
    exists [], []. split; [reflexivity|]. split; [constructor|]. split; [simpl; lia|].
    split; [|repeat split; reflexivity].
    split; [reflexivity|]. split; [reflexivity|]. left. split; reflexivity.
  Qed.

  Lemma update_aligned_blocks : forall s bs bs2,
    aligned s bs -> blocks_ok bs -> blocks_ok bs2 ->
    let s' := update_aligned E s (concat bs2) in
    aligned s' (bs ++ bs2) /\ c_cache s' = c_cache s /\ c_cache_n s' = c_cache_n s /\
    c_data_size s' = c_data_size s.
  Proof.
    intros s bs bs2 Hal Hok Hok2.
    destruct bs2 as [|b bs2'] using rev_ind.
    - cbn zeta. unfold update_aligned. change (len (concat [])) with 0.
      change (0 =? 0) with true. cbv iota. rewrite app_nil_r. auto.
    - clear IHbs2'. apply blocks_ok_app in Hok2 as [Hok2 Hb]. inversion Hb; subst.
      destruct Hal as (Ha1 & Ha2 & Ha3).
      cbn zeta.
      rewrite (update_aligned_snoc s bs2' b (chain Z16 bs)); auto.
      2:{ apply chain_len; auto. }
      unfold aligned, aligned3. cbn [c_last_ct c_cbc_last c_last_pt c_cache c_cache_n c_data_size].
      rewrite <- !chain_app. repeat split; auto.
      right. exists (bs ++ bs2'), b. split; [apply app_assoc|reflexivity].
  Qed.

  Lemma len_concat_app : forall bs (r : list Z), blocks_ok bs ->
    len (concat bs ++ r) = 16 * Z.of_nat (length bs) + len r.
  Proof.
    intros. rewrite len_app. unfold len. rewrite concat_blocks_length by assumption. lia.
  Qed.

  (* update_tail on a state that has consumed the full blocks [bs], has a 16-byte cache whose
     content no longer matters, and already counts [msg] in its data size *)
  Lemma update_tail_inv : forall s bs msg,
    aligned s bs -> blocks_ok bs -> length (c_cache s) = 16%nat ->
    c_data_size s = len (concat bs ++ msg) ->
    inv (concat bs ++ msg) (update_tail E s msg).
  Proof.
    intros s bs msg Hal Hok Hc Hds.
    destruct (split_blocks msg) as (bs2 & r2 & -> & Hok2 & Hr2).
    destruct (update_aligned_blocks s bs bs2 Hal Hok Hok2) as (A1 & A2 & A3 & A4).
    exists (bs ++ bs2), r2. unfold update_tail.
    rewrite len_concat_app by assumption.
    replace ((16 * Z.of_nat (length bs2) + len r2) mod 16) with (len r2) by (unfold len; lia).
    assert (HM : concat bs ++ concat bs2 ++ r2 = concat (bs ++ bs2) ++ r2)
      by (rewrite concat_app, app_assoc; reflexivity).
    assert (Hokk : blocks_ok (bs ++ bs2)) by (apply blocks_ok_app; auto).
    destruct (0 <? len r2) eqn:E0.
    - apply Z.ltb_lt in E0.
      rewrite (py_upto_neg_app _ r2 (len r2)), (py_from_neg_app _ r2 (len r2)) by auto.
      unfold set_cache, py_splice. cbn [c_last_ct c_cbc_last c_last_pt c_cache c_cache_n c_data_size].
      rewrite A2, A4, Z.max_r by lia. change (Z.to_nat 0) with 0%nat. cbn [firstn app].
      replace (Z.to_nat (len r2)) with (length r2) by (unfold len; lia).
      inv_split; auto.
      + rewrite app_length, skipn_length. lia.
      + rewrite firstn_app, firstn_all, Nat.sub_diag, firstn_O. apply app_nil_r.
    - assert (r2 = []) by (destruct r2; [reflexivity|unfold len in E0; simpl in E0; lia]). subst r2.
      rewrite app_nil_r in *.
      unfold set_cache. cbn [c_last_ct c_cbc_last c_last_pt c_cache c_cache_n c_data_size].
      rewrite A2, A4. inv_split; auto.
  Qed.

  Lemma aligned_set : forall s bs c n d,
    aligned s bs ->
    aligned (mk_cmac c n (c_last_ct s) (c_last_pt s) d (c_cbc_last s)) bs.
  Proof. intros. exact H. Qed.

  Lemma update_inv : forall M s c, inv M s -> inv (M ++ c) (update E s c).
  Proof.
    intros M s c (bs & r & -> & Hok & Hr & Hal & Hn & Hcl & Hfr & Hds).
    unfold update. cbn [c_cache c_cache_n c_last_ct c_last_pt c_data_size c_cbc_last].
    set (s0 := mk_cmac (c_cache s) (c_cache_n s) (c_last_ct s) (c_last_pt s)
                       (c_data_size s + len c) (c_cbc_last s)).
    assert (Hds0 : c_data_size s0 = len ((concat bs ++ r) ++ c)) by (unfold s0; cbn [c_data_size]; rewrite len_app; lia).
    destruct (0 <? c_cache_n s) eqn:E0.
    - (* bytes are waiting in the cache *)
      apply Z.ltb_lt in E0.
      set (filler := Z.min (16 - c_cache_n s) (len c)).
      assert (Hfill : 0 <= filler) by (unfold filler, len in *; lia).
      rewrite py_upto_nonneg by assumption.
      unfold py_splice. rewrite Z.max_r by lia.
      replace (Z.to_nat (c_cache_n s)) with (length r) by (unfold len in *; lia).
      rewrite Hfr.
      destruct (c_cache_n s + filler <? 16) eqn:E1.
      + (* still not a full block *)
        apply Z.ltb_lt in E1.
        replace (Z.to_nat filler) with (length c) by (unfold filler, len in *; lia).
        rewrite firstn_all. exists bs, (r ++ c).
        unfold set_cache. cbn [c_cache c_cache_n c_last_ct c_last_pt c_data_size c_cbc_last].
        inv_split; auto.
        * apply app_assoc_reverse.
        * rewrite app_length. unfold filler, len in *. lia.
        * rewrite len_app. unfold filler, len in *. lia.
        * rewrite !app_length, skipn_length. unfold filler, len in *. lia.
        * rewrite app_assoc, firstn_app, Nat.sub_diag, firstn_O, app_nil_r. apply firstn_all.
      + (* the cache fills up: one block is processed, then the rest of the chunk *)
        apply Z.ltb_ge in E1.
        assert (Hlc : Z.to_nat filler = (16 - length r)%nat) by (unfold filler, len in *; lia).
        assert (Hcn : (16 - length r <= length c)%nat) by (unfold filler, len in *; lia).
        rewrite py_from_nonneg by assumption. rewrite Hlc.
        replace (Z.to_nat (c_cache_n s + filler)) with 16%nat by lia.
        rewrite (skipn_all2 (c_cache s)), app_nil_r by lia.
        set (b := r ++ firstn (16 - length r) c).
        assert (Hb : blocks_ok [b]).
        { repeat constructor. unfold b. rewrite app_length, firstn_length. lia. }
        set (sa := set_cache s0 b (c_cache_n s + filler)).
        destruct (update_aligned_blocks sa bs [b] Hal Hok Hb) as (B1 & B2 & B3 & B4).
        cbn [concat] in B1, B2, B3, B4. rewrite app_nil_r in B1, B2, B3, B4.
        set (s1 := update_aligned E sa b) in *.
        replace ((concat bs ++ r) ++ c) with (concat (bs ++ [b]) ++ skipn (16 - length r) c).
        2:{ rewrite concat_snoc. unfold b. rewrite <- !app_assoc, firstn_skipn. reflexivity. }
        apply update_tail_inv.
        * exact B1.
        * apply blocks_ok_app; auto.
        * cbn [set_cache c_cache]. rewrite B2. inversion Hb; assumption.
        * cbn [set_cache c_data_size]. rewrite B4, concat_snoc. unfold b.
          rewrite <- !app_assoc, firstn_skipn, !app_assoc. exact Hds0.
    - (* cache empty *)
      apply Z.ltb_ge in E0.
      assert (r = []) by (destruct r; [reflexivity|unfold len in *; simpl in *; lia]). subst r.
      rewrite app_nil_r in *. apply update_tail_inv; assumption.
  Qed.

  Lemma fold_update_inv : forall cs M s, inv M s -> inv (M ++ concat cs) (fold_left (update E) cs s).
  Proof.
    induction cs as [|c cs IH]; intros M s H.
    - simpl. rewrite app_nil_r. assumption.
    - cbn [fold_left concat]. rewrite app_assoc. apply IH. apply update_inv. assumption.
  Qed.

  Lemma padding_len : forall r : list Z, (length r < 16)%nat -> length (spec_padding r) = 16%nat.
  Proof. intros. unfold spec_padding. rewrite app_length. cbn [length]. rewrite length_zeros. lia. Qed.

  (* RFC 4493 2.4, steps 2 to 7, on a message cut into full blocks and a last block *)
  Lemma cmac_spec_blocks : forall bs m, blocks_ok bs ->
    (0 < length m <= 16)%nat \/ (m = [] /\ bs = []) ->
    cmac_spec E (concat bs ++ m) =
    E (xor_zip (if Nat.eqb (length m) 16 then xor_zip m (spec_K1 E)
                else xor_zip (spec_padding m) (spec_K2 E))
               (chain Z16 bs)).
  Proof.
    clear E_len E_ok. intros bs m Hok [Hm | [-> ->]]; [|reflexivity].
    unfold cmac_spec. rewrite app_length, concat_blocks_length by assumption.
    replace ((16 * length bs + length m + 15) / 16)%nat with (S (length bs)) by lia.
    cbn [Nat.eqb]. rewrite Nat.sub_succ, Nat.sub_0_r.
    replace (Nat.eqb ((16 * length bs + length m) mod 16) 0) with (Nat.eqb (length m) 16)
      by (destruct (Nat.eqb_spec (length m) 16), (Nat.eqb_spec ((16 * length bs + length m) mod 16) 0); lia).
    rewrite <- (concat_blocks_length bs) by assumption.
    rewrite firstn_app, firstn_all, Nat.sub_diag, firstn_O, app_nil_r.
    rewrite skipn_app, skipn_all, Nat.sub_diag. cbn [skipn app].
    rewrite chunks16_concat by assumption. reflexivity.
  Qed.

  (* the tag digest() returns for the block [pt] it has assembled *)
  Lemma tag_of_block : forall pt, length pt = 16%nat -> py_upto (ecb E pt) 16 = E pt.
  Proof.
    intros pt H. rewrite ecb_block, py_upto_nonneg by (assumption || lia).
    apply firstn_all2. rewrite E_len by assumption. reflexivity.
  Qed.

  Lemma xor3 : forall a b c, xor_zip (xor_zip a b) c = xor_zip (xor_zip b c) a.
  Proof. intros. rewrite xor_zip_assoc. apply xor_zip_comm. Qed.

  (* the branch of digest() for a partial (or empty) last block [r] held in the cache *)
  Lemma padded_tag : forall c r X, length c = 16%nat -> firstn (length r) c = r ->
    (length r < 16)%nat -> length X = 16%nat ->
    py_upto (ecb E (xor_zip (xor_zip X (py_splice c (len r) (len c)
                                          (128 :: zeros (Z.to_nat (16 - len r - 1)))))
                            (key_k2 E))) 16 =
    E (xor_zip (xor_zip (spec_padding r) (spec_K2 E)) X).
  Proof.
    intros c r X Hcl Hfr Hr HX.
    rewrite <- (firstn_skipn (length r) c), Hfr, py_splice_app by reflexivity.
    replace (Z.to_nat (16 - len r - 1)) with (15 - length r)%nat by (unfold len; lia).
    change (r ++ 128 :: zeros (15 - length r)) with (spec_padding r).
    rewrite tag_of_block, key_k2_spec, xor3; [reflexivity|].
    repeat apply xor_zip_length_eq; auto using padding_len, key_k2_len.
  Qed.

  Lemma digest_inv : forall M s, inv M s -> len M <= max_size ->
    digest E s = Some (cmac_spec E M).
  Proof.
    intros M s (bs & r & HM & Hok & Hr & (H1 & H2 & H3) & Hn & Hcl & Hfr & Hds) Hmax.
    unfold digest. rewrite Hds. destruct (max_size <? len M) eqn:Em; [lia|]. f_equal.
    assert (Hr16 : Nat.eqb (length r) 16 = false) by (apply Nat.eqb_neq; lia).
    destruct H3 as [[-> Hlp] | (bs' & b & -> & Hlp)]; rewrite Hlp; cbn [truthy opt_bytes].
    - (* no full block seen yet: the message is the cache content *)
      rewrite !andb_false_r, H1, HM, Hn. cbn [spec_chain].
      rewrite padded_tag, cmac_spec_blocks, Hr16; auto.
      destruct r; [auto|left; cbn [length] in *; lia].
    - apply blocks_ok_app in Hok as [Hok' Hb]. pose proof (Forall_inv Hb) as Hb16. cbn beta in Hb16.
      assert (Hch : length (chain Z16 bs') = 16%nat) by (apply chain_len; auto).
      assert (Hlp16 : length (xor_zip (chain Z16 bs') b) = 16%nat) by (apply xor_zip_length_eq; auto).
      replace (len (xor_zip (chain Z16 bs') b) =? 0) with false by (unfold len; rewrite Hlp16; reflexivity).
      replace (0 <? len M) with true
        by (symmetry; apply Z.ltb_lt; rewrite HM, len_concat_app, app_length by (apply blocks_ok_app; auto);
            cbn [length]; unfold len; lia).
      cbn [negb]. rewrite !andb_true_r, Hn.
      destruct r as [|x r'].
      + (* the message ends on a block boundary *)
        change (len [] =? 0) with true. cbv iota.
        rewrite HM, app_nil_r, concat_snoc, cmac_spec_blocks, Hb16 by (auto; left; lia). cbn [Nat.eqb].
        rewrite tag_of_block, key_k1_spec, xor3; [reflexivity|].
        apply xor_zip_length_eq; [assumption|apply key_k1_len_ok].
      + (* a partial block follows the full ones *)
        replace (len (x :: r') =? 0) with false by (unfold len; cbn [length]; lia). cbv iota.
        rewrite H1, HM, padded_tag, cmac_spec_blocks, Hr16; auto.
        * apply blocks_ok_app; auto.
        * left. cbn [length] in *. lia.
        * apply chain_len; [reflexivity|apply blocks_ok_app; auto].
  Qed.

  Theorem aes_cmac_code_is_rfc4493 : forall M, len M <= max_size ->
    aes_cmac_code E M = Some (cmac_spec E M).
  Proof.
    intros M Hmax. unfold aes_cmac_code, cmac_new.
    destruct (len M =? 0) eqn:E0.
    - assert (M = []) by (destruct M; [reflexivity|unfold len in E0; simpl in E0; lia]). subst M.
      apply digest_inv; [apply init_inv|assumption].
    - apply digest_inv; [|assumption].
      exact (update_inv [] cmac_init M init_inv).
  Qed.

  Theorem cmac_chunked_is_rfc4493 : forall chunks, len (concat chunks) <= max_size ->
    cmac_chunked E chunks = Some (cmac_spec E (concat chunks)).
  Proof.
    intros cs Hmax. unfold cmac_chunked. apply digest_inv; [|assumption].
    exact (fold_update_inv cs [] cmac_init init_inv).
  Qed.

  (* the tag has 16 bytes *)
  Lemma cmac_spec_len : forall M, length (cmac_spec E M) = 16%nat.
  Proof using E_len E_ok.
    intros M. destruct (split_last_block M) as (bs & m & -> & Hok & Hm).
    rewrite cmac_spec_blocks by assumption. apply E_len.
    destruct key_k1_len_ok as [Hk1 _]. pose proof key_k2_len as Hk2.
    rewrite key_k1_spec in Hk1. rewrite key_k2_spec in Hk2.
    apply xor_zip_length_eq; [|apply chain_len; auto].
    destruct (Nat.eqb_spec (length m) 16); apply xor_zip_length_eq; auto.
    apply padding_len. destruct Hm as [Hm | [-> _]]; cbn [length]; lia.
  Qed.
End CmacProof.
