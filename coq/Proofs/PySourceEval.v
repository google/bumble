(* C14 - symbolic evaluation of a translated Python function (Model/PyAst.v) inside a goal.
   Each [PySource*] file fixes the primitives of its module and calls [py_run] with a [cbv]
   that leaves folded the integer and byte-string operations and the model functions its
   statements are written with, so that what remains is the model's own expression. *)
From Coq Require Import ZArith List.
From BV Require Import Model.CryptoBytes Model.SmToolbox.
Open Scope Z_scope.

(* comparisons of literals (slice bounds, lengths of literal lists) and bytes([...]) of literals
   are left behind by such a [cbv]; they are closed terms *)
Ltac fold_consts :=
  repeat match goal with
  | |- context [Z.ltb ?a ?b] =>
      let v := eval hnf in (Z.ltb a b) in
      match v with true => change (Z.ltb a b) with true | false => change (Z.ltb a b) with false end
  | |- context [Z.leb ?a ?b] =>
      let v := eval hnf in (Z.leb a b) in
      match v with true => change (Z.leb a b) with true | false => change (Z.leb a b) with false end
  | |- context [bytes_of ?l] =>
      let v := eval hnf in (bytes_of l) in
      match v with Some _ => change (bytes_of l) with v end
  | |- context [Z.eqb ?a ?b] =>
      let v := eval hnf in (Z.eqb a b) in
      match v with true => change (Z.eqb a b) with true | false => change (Z.eqb a b) with false end
  end.

(* [cbv] that leaves the integer operations folded; a module adds the byte-string operations and
   model functions its statements are written with: [with_strategy opaque [...] cbv_int_folded] *)
Ltac cbv_int_folded :=
  with_strategy opaque [Z.eqb Z.ltb Z.leb Z.add Z.sub Z.mul Z.pow Z.modulo Z.div Z.lxor Z.land Z.lor Z.shiftl Z.shiftr
                        Z.min Z.max Z.to_nat Z.of_nat len be_int to_be] cbv.

(* evaluate until nothing moves: a step stops at a condition on a variable, which the caller
   then decides by [destruct] or [rewrite] *)
Ltac py_run step := step; repeat (progress fold_consts; step).
