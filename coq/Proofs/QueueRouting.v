(* Proofs about Model/QueueRouting.v: every handle a queue knows about (waiting packets,
   per-connection in-flight state) is a LIVE handle that the host routes to that very queue.
   Hence completion reports always reach the queue that accounts the packets, nothing is
   kept for a closed handle, and handle reuse (by any kind of link) starts from nothing. *)
From Coq Require Import ZArith List Bool Lia Arith.
From BV Require Import Model.DataQueue Model.DataQueueFail Model.QueueRouting Proofs.DataQueue.
Import ListNotations.
Open Scope Z_scope.

Definition mentions (q : qstate) : list Z := handles (q_conns q) ++ map snd (q_wait q).

Lemma bumps_handles_in sent k : forall cs,
  In k (handles (bumps sent cs)) -> In k (handles cs) \/ In k (map snd sent).
Proof.
  induction sent as [|[p h] sent IH]; intros cs H; [left; exact H|].
  apply IH in H. cbn [map snd In]. destruct H as [H|H]; [|tauto].
  apply bump_handles_in in H. intuition.
Qed.

(* the pump invents no handle *)
Lemma run_check_mentions s k : In k (mentions (fst (run_check s))) -> In k (mentions s).
Proof.
  unfold run_check, mentions.
  pose proof (check_queue_spec (q_max s) (q_inflight s) (q_conns s) (q_wait s)) as H.
  destruct (check_queue (q_max s) (q_inflight s) (q_conns s) (q_wait s)) as [[[i c] w'] snt].
  destruct H as (Hw & _ & -> & _). cbn. rewrite Hw, map_app, !in_app_iff.
  intros [H|H]; [apply bumps_handles_in in H|]; tauto.
Qed.

Lemma find_conn_handles h cs c : find_conn h cs = Some c -> In h (handles cs).
Proof.
  induction cs as [|x cs IH]; cbn; [discriminate|]. destruct (Z.eqb_spec (c_handle x) h); auto.
Qed.

Lemma find_conn_none h cs : find_conn h cs = None -> ~ In h (handles cs).
Proof.
  induction cs as [|c cs IH]; cbn; [tauto|].
  destruct (Z.eqb (c_handle c) h) eqn:E; [discriminate|].
  intros H [Hc|Hc]; [apply Z.eqb_neq in E; contradiction|apply IH; assumption].
Qed.

(* The handles an operation leaves the queue with, already before its pump: those it had, the
   handle of an enqueued packet, and never a flushed handle. *)
Lemma pre_mentions q o t k : q_pre q o = Some t -> In k (mentions t) ->
  (In k (mentions q) \/ exists p, o = Enqueue p k) /\ o <> Flush k.
Proof.
  unfold mentions. destruct o as [p h|h|n h]; cbn [q_pre q_conns q_wait].
  - intros [= <-]. cbn [q_conns q_wait]. rewrite map_app, !in_app_iff. cbn [map snd In].
    intros H. split; [|discriminate]. destruct H as [H|[H|[<-|[]]]]; eauto.
  - assert (W : In k (map snd (filter (not_handle h) (q_wait q))) -> In k (map snd (q_wait q)) /\ k <> h).
    { intros Hin. apply in_map_iff in Hin. destruct Hin as ([p k'] & <- & Hin). apply filter_In in Hin.
      destruct Hin as [Hin Hf]. split; [exact (in_map snd _ _ Hin)|]. unfold not_handle in Hf.
      apply negb_true_iff, Z.eqb_neq in Hf. exact Hf. }
    destruct (find_conn h (q_conns q)) eqn:E; intros [= <-]; cbn [q_conns q_wait]; rewrite !in_app_iff;
      (intros [H|H]; [|apply W in H; split; [tauto|intros [= ->]; tauto]]).
    + split; [left; left; exact (remove_conn_incl _ _ _ H)|]. intros [= ->]. exact (remove_conn_absent _ _ H).
    + split; [tauto|]. intros [= ->]. exact (find_conn_none _ _ E H).
  - destruct (find_conn h (q_conns q)); [|discriminate]. intros [= <-]. cbn [q_conns q_wait].
    rewrite set_conn_handles. split; [tauto|discriminate].
Qed.

Lemma step_mentions q o k : In k (mentions (fst (q_step q o))) ->
  (In k (mentions q) \/ exists p, o = Enqueue p k) /\ o <> Flush k.
Proof.
  rewrite q_step_pre. destruct (q_pre q o) as [t|] eqn:E; cbn [fst]; intros H.
  - exact (pre_mentions q o t k E (run_check_mentions t k H)).
  - split; [tauto|]. intros ->. discriminate E.
Qed.

Lemma step_at_nth o : forall qs qi i,
  nth_error (fst (step_at qi o qs)) i =
  if Nat.eqb i qi then option_map (fun q => fst (q_step q o)) (nth_error qs i) else nth_error qs i.
Proof.
  induction qs as [|q qs IH]; intros qi i.
  - cbn. destruct (Nat.eqb i qi); destruct i; reflexivity.
  - destruct qi as [|qi]; cbn [step_at].
    + destruct (q_step q o) as [q' out] eqn:E. destruct i; cbn; rewrite ?E; reflexivity.
    + specialize (IH qi). destruct (step_at qi o qs) as [qs' out]. cbn [fst] in *.
      destruct i; cbn; [reflexivity|apply IH].
Qed.

Lemma step_all_map o qs : fst (step_all o qs) = map (fun q => fst (q_step q o)) qs.
Proof.
  induction qs as [|q qs IH]; [reflexivity|]. cbn [step_all map].
  destruct (q_step q o). destruct (step_all o qs). cbn [fst] in *. now rewrite IH.
Qed.

Lemma step_at_length o : forall qs qi, length (fst (step_at qi o qs)) = length qs.
Proof.
  induction qs as [|q qs IH]; intros qi; [reflexivity|].
  destruct qi as [|qi]; cbn [step_at].
  - destruct (q_step q o). reflexivity.
  - specialize (IH qi). destruct (step_at qi o qs). cbn in *. now rewrite IH.
Qed.

Lemma route_unlink_other k h ls : k <> h -> route k (unlink h ls) = route k ls.
Proof.
  intros Hk. induction ls as [|[a qi] ls IH]; [reflexivity|]. cbn. unfold other_link. cbn.
  destruct (Z.eqb a h) eqn:E; cbn.
  - apply Z.eqb_eq in E. subst a. destruct (Z.eqb h k) eqn:E2; [apply Z.eqb_eq in E2; congruence|exact IH].
  - destruct (Z.eqb a k); [reflexivity|exact IH].
Qed.

Lemma route_unlink_same h ls : route h (unlink h ls) = None.
Proof.
  induction ls as [|[a qi] ls IH]; [reflexivity|]. cbn. unfold other_link. cbn.
  destruct (Z.eqb a h) eqn:E; cbn; [exact IH|]. rewrite E. exact IH.
Qed.

Lemma route_unlink_some k h ls i : route k (unlink h ls) = Some i -> route k ls = Some i.
Proof.
  intros H. destruct (Z.eq_dec k h) as [->|Hne].
  - rewrite route_unlink_same in H. discriminate.
  - now rewrite route_unlink_other in H.
Qed.

(* What [h_step] can do to the state, with the bookkeeping of its outputs stripped: nothing; a
   new link for an unused handle; a flush of the handle in every queue or in its own queue,
   with the link removed; a queue operation on the queue the handle is routed to. *)
Inductive h_next (s : hstate) : hop -> hstate -> Prop :=
| NSame o : h_next s o s
| NOpen h qi : route h (h_links s) = None -> (qi < length (h_queues s))%nat ->
    h_next s (HOpen h qi) (mkH ((h, qi) :: h_links s) (h_queues s))
| NClose h :
    h_next s (HClose h) (mkH (unlink h (h_links s)) (fst (step_all (Flush h) (h_queues s))))
| NCloseOwn h qi : route h (h_links s) = Some qi ->
    h_next s (HCloseOwn h) (mkH (unlink h (h_links s)) (fst (step_at qi (Flush h) (h_queues s))))
| NSend p h qi : route h (h_links s) = Some qi ->
    h_next s (HSend p h) (mkH (h_links s) (fst (step_at qi (Enqueue p h) (h_queues s))))
| NDone n h qi : route h (h_links s) = Some qi ->
    h_next s (HDone n h) (mkH (h_links s) (fst (step_at qi (Completed n h) (h_queues s)))).

Lemma fst_let {A B C} (x : A * B) (f : A -> C) : fst (let '(a, b) := x in (f a, b)) = f (fst x).
Proof. destruct x. reflexivity. Qed.

Lemma h_step_next s o : h_next s o (fst (h_step s o)).
Proof.
  destruct o as [h qi|h|h|p h|n h]; cbn [h_step]; try destruct (route h (h_links s)) eqn:R;
    rewrite ?fst_let; try (constructor; assumption).
  destruct (Nat.ltb qi (length (h_queues s))) eqn:L; [|apply NSame].
  apply NOpen; [exact R|apply Nat.ltb_lt; exact L].
Qed.

Definition owned (s : hstate) : Prop :=
  forall i q k, nth_error (h_queues s) i = Some q -> In k (mentions q) ->
                route k (h_links s) = Some i.

Definition in_range (s : hstate) : Prop :=
  forall k i, route k (h_links s) = Some i -> (i < length (h_queues s))%nat.

Lemma init_owned maxfs : owned (h_init maxfs).
Proof.
  intros i q k Hq Hk. unfold h_init in Hq. cbn in Hq. rewrite nth_error_map in Hq.
  destruct (nth_error maxfs i); [|discriminate]. cbn in Hq. injection Hq as <-. destruct Hk.
Qed.

Lemma init_in_range maxfs : in_range (h_init maxfs).
Proof. intros k i H. discriminate. Qed.

(* a queue operation on queue qi keeps ownership if the handle it may introduce is routed there;
   a flush of h there lets the link of h go *)
Lemma step_at_owned s qi o ls :
  owned s ->
  (forall k, (exists p, o = Enqueue p k) -> route k (h_links s) = Some qi) ->
  (forall k i, route k (h_links s) = Some i -> route k ls = Some i \/ o = Flush k /\ i = qi) ->
  owned (mkH ls (fst (step_at qi o (h_queues s)))).
Proof.
  intros Ho Hnew Hls i q' k Hq Hk. cbn [h_queues h_links] in *. rewrite step_at_nth in Hq.
  assert (R : route k (h_links s) = Some i /\ (i = qi -> o <> Flush k)).
  { destruct (Nat.eqb_spec i qi) as [->|Hne]; [|split; [eapply Ho; eassumption|contradiction]].
    destruct (nth_error (h_queues s) qi) as [q|] eqn:Eq; [|discriminate].
    assert (q' = fst (q_step q o)) as -> by (cbn [option_map] in Hq; congruence).
    apply step_mentions in Hk. destruct Hk as [[Hk|Hk] Hfl]; (split; [|intros _; exact Hfl]);
      [eapply Ho; eassumption|apply Hnew; exact Hk]. }
  destruct R as [R Hfl]. destruct (Hls k i R) as [H|[H1 H2]]; [exact H|]. exfalso. exact (Hfl H2 H1).
Qed.

Lemma step_owned s o : owned s -> owned (fst (h_step s o)).
Proof.
  intros Ho. destruct (h_step_next s o) as [o|h qi R L|h|h qi R|p h qi R|n h qi R].
  - exact Ho.
  - intros i q k Hq Hk. cbn [h_queues h_links route] in *. specialize (Ho i q k Hq Hk).
    destruct (Z.eqb h k) eqn:E; [apply Z.eqb_eq in E; subst k; congruence|exact Ho].
  - intros i q' k Hq Hk. cbn [h_queues h_links] in *. rewrite step_all_map, nth_error_map in Hq.
    destruct (nth_error (h_queues s) i) as [q|] eqn:Eqi; [|discriminate].
    assert (q' = fst (q_step q (Flush h))) as -> by (cbn [option_map] in Hq; congruence).
    apply step_mentions in Hk. destruct Hk as [[Hk|[p Hk]] Hne]; [|discriminate].
    rewrite route_unlink_other by congruence. eapply Ho; eassumption.
  - apply step_at_owned; [exact Ho|intros k [p Hk]; discriminate|].
    intros k i Hk. destruct (Z.eq_dec k h) as [->|Hne].
    + right. split; [reflexivity|congruence].
    + left. rewrite route_unlink_other by exact Hne. exact Hk.
  - apply step_at_owned; [exact Ho| |auto]. intros k [p' Hk]. injection Hk as _ <-. exact R.
  - apply step_at_owned; [exact Ho| |auto]. intros k [p' Hk]. discriminate.
Qed.

Lemma step_in_range s o : in_range s -> in_range (fst (h_step s o)).
Proof.
  intros Hr. destruct (h_step_next s o) as [o|h qi R L|h|h qi R|p h qi R|n h qi R];
    [exact Hr|intros k i H; cbn [h_queues h_links route] in *; rewrite ?step_all_map, ?map_length, ?step_at_length..].
  - destruct (Z.eqb h k); [injection H as <-; exact L|eapply Hr; exact H].
  - apply route_unlink_some in H. eapply Hr; exact H.
  - apply route_unlink_some in H. eapply Hr; exact H.
  - eapply Hr; exact H.
  - eapply Hr; exact H.
Qed.

Definition hop_ok (o : hop) : Prop := match o with HDone n _ => 0 <= n | _ => True end.

Lemma step_at_inv o : op_ok o -> forall qs qi, Forall inv qs -> Forall inv (fst (step_at qi o qs)).
Proof.
  intros Hok. induction qs as [|q qs IH]; intros qi H; [constructor|].
  inversion H as [|? ? Hq Hqs]; subst. destruct qi as [|qi]; cbn [step_at].
  - pose proof (step_inv q o Hok Hq) as Hs. destruct (q_step q o). cbn in *. constructor; assumption.
  - specialize (IH qi Hqs). destruct (step_at qi o qs). cbn in *. constructor; assumption.
Qed.

Lemma step_all_inv_h s o : hop_ok o -> Forall inv (h_queues s) -> Forall inv (h_queues (fst (h_step s o))).
Proof.
  intros Hok Hi. destruct (h_step_next s o); cbn [h_queues];
    [exact Hi|exact Hi| |apply step_at_inv; [exact Hok|exact Hi]..].
  rewrite step_all_map. apply Forall_map. eapply Forall_impl; [|exact Hi]. intros q. exact (step_inv q (Flush h) I).
Qed.

Record hinv (s : hstate) : Prop := {
  hi_owned : owned s;
  hi_range : in_range s;
  hi_queues : Forall inv (h_queues s)
}.

Lemma hinv_init maxfs : Forall (fun m => 0 <= m) maxfs -> hinv (h_init maxfs).
Proof.
  intros H. constructor; [apply init_owned|apply init_in_range|].
  unfold h_init. cbn. induction H; cbn; constructor; [apply inv_init; assumption|assumption].
Qed.

Lemma hinv_step s o : hop_ok o -> hinv s -> hinv (fst (h_step s o)).
Proof.
  intros Hok [Ho Hr Hq]. constructor;
    [apply step_owned; exact Ho|apply step_in_range; exact Hr|apply step_all_inv_h; assumption].
Qed.

Lemma hinv_run ops : forall s, Forall hop_ok ops -> hinv s -> hinv (fst (h_run s ops)).
Proof.
  induction ops as [|o ops IH]; intros s Hok Hi; [exact Hi|].
  inversion Hok as [|? ? Ho Hos]; subst. cbn [h_run].
  pose proof (hinv_step s o Ho Hi) as H1. destruct (h_step s o) as [s1 out1]. cbn [fst] in H1.
  specialize (IH s1 Hos H1). destruct (h_run s1 ops) as [s2 out2]. exact IH.
Qed.

(* A completion report for a handle is delivered to exactly the queue that accounts packets of
   that handle: wherever a queue holds per-connection state for h, HDone n h steps that queue. *)
Lemma done_reaches_owner s i q c n h :
  owned s -> nth_error (h_queues s) i = Some q -> find_conn h (q_conns q) = Some c ->
  fst (h_step s (HDone n h)) = mkH (h_links s) (fst (step_at i (Completed n h) (h_queues s))).
Proof.
  intros Ho Hq Hc. cbn [h_step].
  rewrite (Ho i q h Hq) by (apply in_or_app; left; eapply find_conn_handles; exact Hc).
  apply fst_let.
Qed.

(* A queue none of whose links is live holds nothing: no packet waiting, none in flight, no
   per-connection state - all its credits are free (whatever links, of whatever kind, used its
   handles before). *)
Lemma idle_queue_is_empty s i q :
  hinv s -> nth_error (h_queues s) i = Some q ->
  (forall k, route k (h_links s) <> Some i) ->
  q_conns q = [] /\ q_wait q = [] /\ q_inflight q = 0.
Proof.
  intros [Ho _ Hq] Hn Hidle.
  assert (M : mentions q = []).
  { destruct (mentions q) as [|k m] eqn:E; [reflexivity|].
    exfalso. apply (Hidle k). eapply Ho; [exact Hn|]. rewrite E. left. reflexivity. }
  unfold mentions in M. apply app_eq_nil in M. destruct M as [Mc Mw]. apply map_eq_nil in Mw.
  rewrite Forall_forall in Hq. pose proof (Hq q (nth_error_In _ _ Hn)) as Hi.
  rewrite (inv_sum _ Hi). destruct (q_conns q); [auto|discriminate].
Qed.

(* A closed handle is known to no queue, so a link that re-uses the handle starts from nothing. *)
Lemma closed_handle_unknown s i q h :
  hinv s -> nth_error (h_queues s) i = Some q -> route h (h_links s) = None ->
  find_conn h (q_conns q) = None /\ filter (is_handle h) (q_wait q) = [].
Proof.
  intros [Ho _ _] Hn R.
  assert (Hno : ~ In h (mentions q)) by (intros H; rewrite (Ho i q h Hn H) in R; discriminate).
  split.
  - destruct (find_conn h (q_conns q)) as [c|] eqn:E; [|reflexivity]. exfalso.
    apply Hno, in_or_app. left. eapply find_conn_handles; exact E.
  - destruct (filter (is_handle h) (q_wait q)) as [|[p k] w] eqn:E; [reflexivity|]. exfalso.
    assert (Hin : In (p, k) (filter (is_handle h) (q_wait q))) by (rewrite E; left; reflexivity).
    apply filter_In in Hin. destruct Hin as [Hin Hk]. apply Z.eqb_eq in Hk. cbn in Hk. subst k.
    apply Hno, in_or_app. right. apply in_map_iff. exists (p, h). tauto.
Qed.
