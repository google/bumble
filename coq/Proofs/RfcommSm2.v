(* Proofs about Model/RfcommSm2.v: with several data links on one multiplexer, set-up
   and teardown of one link never disturb the set-up of another, every open_dlc gets the
   right outcome, and whenever nothing is in flight both ends' DLC tables and states
   match.  The reachable states are enumerated once inside the kernel and the three
   properties are read off a single pass over them (inv2_reachable, by
   Proofs/RfcommSmExplore.v); the schedules at the end are the witnesses of the refuted
   variants, evaluated in Props/C20.v. *)
From Coq Require Import ZArith List Bool.
From BV Require Import Model.RfcommSm Model.RfcommSm2 Proofs.RfcommSmExplore Proofs.RfcommSm.
Import ListNotations.

Definition st2_eq_dec : forall a b : st2, {a = b} + {a <> b}.
Proof. repeat decide equality. Defined.

Local Open Scope positive_scope.

Definition fr2_bits (f : fr2) (p : positive) : positive :=
  match f with
  | G_SABM0 => p~0~0~0~0 | G_UA0 => p~0~0~0~1 | G_DISC0 => p~0~0~1~0
  | G_PNcmd d => (nat_bits d p)~0~0~1~1 | G_PNrsp d => (nat_bits d p)~0~1~0~0
  | G_DM d => (nat_bits d p)~0~1~0~1 | G_PNcmdRB d => (nat_bits d p)~0~1~1~0
  | G_PNrspBad d => (nat_bits d p)~0~1~1~1 | G_SABM d => (nat_bits d p)~1~0~0~0
  | G_UA d => (nat_bits d p)~1~0~0~1 | G_DISC d => (nat_bits d p)~1~0~1~0
  end.

Definition side2_bits (s : side2) (p : positive) : positive :=
  list_bits nat_bits (match e_pend s with Some d => [d] | None => [] end)
    (dst_bits (e_s1 s) (dst_bits (e_s0 s) (mst_bits (e_mux s) p))).

Definition st2_key (s : st2) : positive :=
  list_bits fr2_bits (t_ba s) (list_bits fr2_bits (t_ab s)
    (bool_bits (t_bad s) (bool_bits (t_closed s) (side2_bits (t_b s) (side2_bits (t_a s) 1))))).

Local Close Scope positive_scope.

(* a label is one of all_labels2, or (channel number out of range) a stutter *)
Lemma label2_covered s l : In l all_labels2 \/ sm2_step s l = s.
Proof.
  destruct l as [|d|d|d| | | |]; try (left; cbn; tauto).
  (* open of a channel number above 5 *)
  1: { destruct d as [|[|[|[|[|[|d]]]]]]; try (left; cbn; tauto). right.
       unfold sm2_step, sm2_step_gen. destruct (t_closed s); [reflexivity|].
       replace (Nat.ltb (S (S (S (S (S (S d)))))) 6) with false by reflexivity.
       rewrite !andb_false_r. reflexivity. }
  (* disconnect of a link that has no table entry *)
  all: destruct d as [|[|d]]; try (left; cbn; tauto); right;
    unfold sm2_step, sm2_step_gen; destruct (t_closed s); reflexivity.
Qed.

Lemma sm2_run_fold ls : forall s, sm2_run s ls = fold_left sm2_step ls s.
Proof. induction ls as [|l ls IH]; intros s; [reflexivity|exact (IH _)]. Qed.

(* from every reachable state, delivering what is in flight (nothing else) settles
   within 24 rounds: in particular a pending open_dlc always completes *)
Definition settles2 (s : st2) : bool := let s' := drain2 24 s in quiescent2 s' && agree2 s'.

(* an accepted open that is in flight ends with the link CONNECTED on both ends unless
   that very link is already being closed again (a DISC for it in flight): for every
   reachable state with an open pending, whatever else is in flight for OTHER links,
   delivering what is in flight ends with that link CONNECTED on both ends (refused
   channel: absent on both ends) and the multiplexer back in CONNECTED *)
Definition is_disc (d : nat) (f : fr2) : bool :=
  match f with G_DISC d' => Nat.eqb d d' | _ => false end.

Definition open_completes (s : st2) : bool :=
  match e_pend (t_a s) with
  | Some d =>
      let s' := drain2 24 s in
      if existsb (is_disc d) (t_ab s ++ t_ba s) || dlc_is (slot (t_b s) d) DDisconnecting
      then true       (* that very link is already being closed again *)
      else if accepted d && size_ok d
      then dlc_is (slot (t_a s') d) DConnected && dlc_is (slot (t_b s') d) DConnected
           && is_mst (e_mux (t_a s')) MConnected
      else match slot (t_a s') (chan_of d), slot (t_b s') (chan_of d) with None, None => is_mst (e_mux (t_a s')) MConnected | _, _ => false end
  | None => true
  end.

Definition inv2 (s : st2) : bool := good2 s && settles2 s && open_completes s.

Definition reachable2 : list st2 :=
  Eval vm_compute in search sm2_step all_labels2 sm2_init st2_eq_dec st2_key (Z.to_nat 200000).

Lemma reachable2_certified :
  certified sm2_step all_labels2 sm2_init st2_eq_dec st2_key reachable2 inv2 = true.
Proof. vm_compute. reflexivity. Qed.

Lemma inv2_reachable ls :
  let s := sm2_run sm2_init ls in
  good2 s = true /\ settles2 s = true /\ open_completes s = true.
Proof.
  cbn zeta. rewrite sm2_run_fold.
  pose proof (certified_invariant _ _ _ _ _ label2_covered _ _ reachable2_certified ls) as H.
  apply andb_prop in H as [H H3]. apply andb_prop in H as [H1 H2]. auto.
Qed.

(* the seeded clean-up in on_dlc_disconnection ("un-stick an OPENING multiplexer") breaks
   it: link 0 is closed while the open of link 1 is in flight *)
Definition seeded_witness : list lbl2 :=
  [L_Connect; L_DeliverAB; L_DeliverBA; L_Open 0; L_DeliverAB; L_DeliverBA; L_DeliverAB; L_DeliverBA;
   L_ADisc 0; L_Open 1; L_DeliverAB; L_DeliverAB; L_DeliverBA; L_DeliverBA; L_DeliverAB; L_DeliverBA].

Lemma seeded_witness_ok :
  let s := sm2_run sm2_init seeded_witness in quiescent2 s = true /\ agree2 s = true.
Proof. vm_compute. split; reflexivity. Qed.

(* known finding D20j: the theorems above assume that only the initiator disconnects the
   multiplexer.  If the responder does so while an open_dlc is in flight, the initiator's
   multiplexer goes to DISCONNECTED with its open_result still pending (the call never
   returns) and the responder keeps a half-open DLC *)
Definition d20j_witness : list lbl2x :=
  [X L_Connect; X L_DeliverAB; X L_DeliverBA; X (L_Open 0); X_BMuxDisc;
   X L_DeliverAB; X L_DeliverBA; X L_DeliverAB; X L_DeliverBA; X L_DeliverAB; X L_DeliverBA].

(* outside the property's range: a responder CONFIGURED with a maximum frame size outside
   23..32767 (Server.listen does not validate it) answers the PN command with that size; the
   initiator (fix D17i) treats the response as a refusal while the responder has already
   created its DLC, which stays in CONNECTING *)
Definition misconfigured_witness : list lbl2x :=
  [X L_Connect; X L_DeliverAB; X L_DeliverBA; X_OpenRB 0;
   X L_DeliverAB; X L_DeliverBA; X L_DeliverAB; X L_DeliverBA].
