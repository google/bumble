(* Property C09: L2CAP channel tables stay exact; closed identifiers are reusable; waiters
   are released.  The statements; the finite facts about the source tables are checked
   here, a few results are read off the invariant's fields in place, and the other proofs are in
   Proofs/ChanMgr*.v.

   The model (Model/ChanMgr.v) is one ChannelManager of bumble/l2cap.py after the repairs
   D09a-D09j, D07 and D08.  Its environment is universally quantified: [reachable m] means m is
   the state after ANY finite sequence of events - API calls of the application
   (open LE / enhanced / classic, disconnect, abort, cancellation of an awaited call, write,
   grant credits), ANY signalling
   frame received on ANY connection, loss of ANY connection - that satisfies the
   hypotheses [ev_ok] (Model/ChanMgr.v, end of file) at every step. *)
From Coq Require Import ZArith List Bool String.
From BV Require Import Gen.C09Tables Gen.C09Skeleton Gen.C09Ident Model.ChanMgr Proofs.ChanMgrLib Proofs.ChanMgr
  Proofs.ChanMgrSkeleton Proofs.ChanMgrDet Proofs.ChanMgrDetStep Proofs.ChanMgrReopen Proofs.ChanMgrIds.
Import ListNotations.
Open Scope Z_scope.

(* ---- tie to the source: regenerated on every run *)
(* The dictionaries the code indexes by connection handle are exactly the tables of the
   model. *)
Theorem C09_tables_modelled :
  per_connection_tables =
  ["channels"; "identifiers"; "le_coc_channels"; "le_coc_requests";
   "pending_credit_based_connections"]%string.
Proof. reflexivity. Qed.
Print Assumptions C09_tables_modelled.

(* ChannelManager.on_disconnection removes every one of them for the lost connection. *)
Theorem C09_cleanup_complete :
  forall t, In t per_connection_tables -> In t disconnection_pops.
Proof.
  assert (H : forallb (fun t => existsb (String.eqb t) disconnection_pops) per_connection_tables = true)
    by (vm_compute; reflexivity).
  intros t Ht. rewrite forallb_forall in H. specialize (H t Ht).
  apply existsb_exists in H. destruct H as [x [Hx He]]. apply String.eqb_eq in He. subst. exact Hx.
Qed.
Print Assumptions C09_cleanup_complete.

(* The anchored functions (39: ChannelManager's allocators, handlers, create_* and cleanup;
   the connection / disconnection / abort paths of both channel classes) have exactly the shape
   the model was written against: same tests, same order of state changes, table updates,
   futures completed, frames sent and calls. *)
Theorem C09_skeleton_matches_source : skeleton_of_source = skeleton_modelled.
Proof. reflexivity. Qed.
Print Assumptions C09_skeleton_matches_source.

(* ---- the signalling identifier allocator *)
(* The model's allocator IS the function the translator reads off the statements of
   ChannelManager.next_identifier on every run (arithmetic, modulus, replacement of 0). *)
Theorem C09_identifier_matches_source : forall m h,
  nid m h = next_identifier_of_source (match aget h (m_ids m) with Some v => v | None => id_default end).
Proof. reflexivity. Qed.
Print Assumptions C09_identifier_matches_source.

(* In EVERY state (so after every history, however long) the identifier handed out on a
   connection is one byte and not 0 ... *)
Theorem C09_identifier_range : forall m h, 1 <= nid m h <= 255.
Proof. exact nid_range. Qed.
Print Assumptions C09_identifier_range.

(* ... the one handed out next is its successor, 255 being followed by 1, so consecutive
   identifiers differ ... *)
Theorem C09_identifier_successor : forall m h,
  nid (next_id m h) h = (if Z.eqb (nid m h) 255 then 1 else nid m h + 1) /\
  nid (next_id m h) h <> nid m h.
Proof. intros m h. split; [apply nid_successor|apply nid_consecutive_differ]. Qed.
Print Assumptions C09_identifier_successor.

(* ... and every request, configuration request, disconnection request and credit frame the
   manager sends, for any event in any state, hence along any history, carries an identifier
   of 1..255 (responses echo the peer's identifier). *)
Theorem C09_sent_identifiers_valid : forall m e f i,
  In f (snd (step m e)) -> own_id f = Some i -> 1 <= i <= 255.
Proof. exact sent_identifiers_valid. Qed.
Print Assumptions C09_sent_identifiers_valid.

Theorem C09_run_identifiers_valid : forall es m, Forall ids_valid (snd (run m es)).
Proof.
  induction es as [|e es IH]; intros m; cbn [run]; [constructor|].
  pose proof (sent_identifiers_valid m e) as H. destruct (step m e) as [m1 out].
  specialize (IH m1). destruct (run m1 es) as [m2 outs]. now constructor.
Qed.
Print Assumptions C09_run_identifiers_valid.

(* the wrap: after 255 comes 1; a fresh connection starts at 1 *)
Example C09_identifier_wrap :
  nid (m_init [] []) 7 = 1 /\
  nid (with_ids (m_init [] []) [(7, 254)]) 7 = 255 /\
  nid (with_ids (m_init [] []) [(7, 255)]) 7 = 1.
Proof. vm_compute. repeat split. Qed.

(* ---- tables_exact: refinement to the set of channels in use *)
(* `channels` contains (handle, cid, channel) exactly when the channel object exists, belongs
   to that connection, has that source CID and is in use (open, or being opened /
   configured / closed on a connection that still exists). *)
Theorem C09_tables_exact_channels : forall m, reachable m ->
  forall h k u, In (h, k, u) (m_chs m) <->
                exists c, hget m u = Some c /\ c_conn c = h /\ c_scid c = k /\ in_use m u c = true.
Proof. exact tables_exact_channels. Qed.
Print Assumptions C09_tables_exact_channels.

(* `le_coc_channels` contains (handle, cid, channel) exactly for the connected (or
   disconnecting) LE credit-based channels of connections that still exist, under the
   peer's CID. *)
Theorem C09_tables_exact_le_coc : forall m, reachable m ->
  forall h k u, In (h, k, u) (m_le m) <->
                exists c, hget m u = Some c /\ c_conn c = h /\ c_dcid c = k /\ c_kind c = KLe /\
                          c_live c = true /\ le_open_st (c_st c) = true.
Proof.
  intros m R. pose proof (reachable_Inv m R) as I. intros h k u. split.
  - intros Hi. apply (In_tget _ _ _ _ (nd_le m I)) in Hi. apply (le_pt m I _ _ _ Hi).
  - intros (c & A & <- & <- & D & E & F). apply tget_In, (ch_le m I u c A D E F).
Qed.
Print Assumptions C09_tables_exact_le_coc.

(* the pending-request tables contain only requests somebody still waits for *)
Theorem C09_tables_exact_requests : forall m, reachable m ->
  (forall h id k, In (h, id, k) (m_reqs m) ->
     exists u c, In (h, k, u) (m_chs m) /\ hget m u = Some c /\ c_st c = SConnecting /\
                 exists w, c_cw c = Some w /\ wout m w = O_PENDING) /\
  (forall h id w us, In (h, id, (w, us)) (m_pend m) -> wout m w = O_PENDING).
Proof. exact tables_exact_requests. Qed.
Print Assumptions C09_tables_exact_requests.

(* ---- cids_unique *)
Theorem C09_cids_unique : forall m, reachable m ->
  NoDup (map fst (m_chs m)) /\ NoDup (map fst (m_le m)) /\
  (forall h k h' k' u, In (h, k, u) (m_chs m) -> In (h', k', u) (m_chs m) -> h = h' /\ k = k') /\
  (forall h k h' k' u, In (h, k, u) (m_le m) -> In (h', k', u) (m_le m) -> h = h' /\ k = k').
Proof. exact cids_unique. Qed.
Print Assumptions C09_cids_unique.

(* ---- waiters_released *)
(* A future that is still pending belongs to a channel that is still filed under the
   future's connection and in use (or to a pending enhanced request of that connection). *)
Theorem C09_waiters_released_channel : forall m, reachable m ->
  forall w x, wget m w = Some x -> w_out x = O_PENDING ->
  match w_kind x with
  | WOpenEnh => exists us, In (w_conn x, w_ref x, (w, us)) (m_pend m)
  | _ => exists c k, hget m (w_ref x) = Some c /\ In (w_conn x, k, w_ref x) (m_chs m) /\
                     in_use m (w_ref x) c = true
  end.
Proof. exact waiters_released_channel. Qed.
Print Assumptions C09_waiters_released_channel.

(* drain() can only be waiting on a connected channel of a live connection *)
Theorem C09_waiters_released_drain : forall m, reachable m ->
  forall u c, hget m u = Some c -> c_drained c = false ->
  c_st c = SConnected /\ c_live c = true /\ In (c_conn c, c_scid c, u) (m_chs m).
Proof.
  intros m R u c Hu Hd. pose proof (reachable_Inv m R) as I.
  destruct (ch_dr m I u c Hu Hd) as (_ & B & C). repeat split; auto.
  apply tget_In, (ch_reg m I u c Hu). unfold in_use. now rewrite B, C.
Qed.
Print Assumptions C09_waiters_released_drain.

(* After the loss of a connection: no future created for it is pending, no drain() on one of
   its channels can wait, none of its entries is left in any table. *)
Theorem C09_waiters_released_link : forall m h, reachable m ->
  let m' := fst (step m (EDown h)) in
  (forall w x, wget m' w = Some x -> w_conn x = h -> w_out x <> O_PENDING) /\
  (forall u c, hget m' u = Some c -> c_conn c = h -> c_drained c = true /\ c_live c = false) /\
  tconn h (m_chs m') = [] /\ tconn h (m_le m') = [] /\ tconn h (m_reqs m') = [] /\
  tconn h (m_pend m') = [] /\ aget h (m_ids m') = None.
Proof. exact waiters_released_link. Qed.
Print Assumptions C09_waiters_released_link.

(* ---- links_independent *)
(* An event on connection a (an API call on one of its channels, a frame received on it, its
   loss) leaves everything of any other connection b untouched: b's entries in the five tables,
   b's identifier counter, b's channel objects and the futures created for b. *)
Theorem C09_links_independent : forall m e a b, reachable m -> ev_ok m e = true ->
  ev_conn m e = Some a -> b <> a -> same_conn b m (fst (step m e)).
Proof. exact links_independent. Qed.
Print Assumptions C09_links_independent.

(* Determinacy form.  [local a m] (Proofs/ChanMgrDet.v) is connection a's projection of the
   manager: a's entries in the five tables, a's identifier counter, a's channel objects and the
   futures created for a; channel objects and futures of other connections are replaced by
   inert placeholders (so the ghost names, creation indices, are kept), their table entries
   and counters are dropped.  An event of connection a does to the projection exactly what it
   does to the whole manager - it reads nothing of any other connection - and sends the same
   frames.  No hypothesis on the event ([ev_ok] is not needed). *)
Theorem C09_step_local : forall m e a, reachable m -> ev_conn m e = Some a ->
  step (local a m) e = (local a (fst (step m e)), snd (step m e)).
Proof. intros m e a R. apply step_local. now apply reachable_Inv. Qed.
Print Assumptions C09_step_local.

(* Hence what happens on connection a is a function of a's projection: two managers that agree
   on connection a, whatever they hold for other connections, send the same frames for an event
   of connection a and agree on connection a afterwards ... *)
Theorem C09_links_determinate : forall m1 m2 e a, reachable m1 -> reachable m2 ->
  local a m1 = local a m2 -> ev_conn m1 e = Some a ->
  ev_conn m2 e = Some a /\ snd (step m1 e) = snd (step m2 e) /\
  local a (fst (step m1 e)) = local a (fst (step m2 e)).
Proof. intros m1 m2 e a R1 R2. apply links_determinate; now apply reachable_Inv. Qed.
Print Assumptions C09_links_determinate.

(* ... and so for every history of events of connection a. *)
Theorem C09_links_determinate_history : forall a es m1 m2, reachable m1 -> reachable m2 ->
  local a m1 = local a m2 -> evs_ok m1 es = true -> evs_ok m2 es = true -> all_on a m1 es ->
  snd (run m1 es) = snd (run m2 es) /\ local a (fst (run m1 es)) = local a (fst (run m2 es)).
Proof. intros a es m1 m2 R1 R2. apply run_determinate; now apply reachable_Inv. Qed.
Print Assumptions C09_links_determinate_history.

(* not vacuous: two different managers that agree on connection 1, and an event of connection 1
   that changes the projection *)
Example C09_determinate_nonvacuous :
  let m0 := m_init [(128, 2)] [(4097, 0)] in
  let m1 := fst (step m0 (EOpen 2 K_LE 128 1 0 3)) in
  let m2 := fst (step m0 (EOpen 2 K_CL 4097 1 0 0)) in
  m1 <> m2 /\ local 1 m1 = local 1 m2 /\ ev_conn m1 (EOpen 1 K_LE 128 1 0 3) = Some 1 /\
  local 1 (fst (step m1 (EOpen 1 K_LE 128 1 0 3))) <> local 1 m1.
Proof. exact determinate_nonvacuous. Qed.

(* ---- reopen_succeeds *)
(* The hypotheses of the following theorems mention only the connection's own tables: an
   open / accept never fails because of another connection (D09b was a violation of this). *)
(* With fewer channels in use on the connection than the CID range holds and no pending
   request with the same identifier ON THIS CONNECTION, an LE open sends its request with a
   CID that no channel in use has ... *)
Theorem C09_reopen_le_request : forall m h psm credits, reachable m ->
  Z.of_nat (List.length (tkeys h (m_chs m))) < le_capacity ->
  tget h (nid m h) (m_reqs m) = None ->
  exists scid,
    snd (step m (EOpen h K_LE psm 1 0 credits)) = [FLeReq (nid m h) psm scid credits true] /\
    le_cid_lo <= scid <= le_cid_hi /\ tget h scid (m_chs m) = None /\
    let m1 := fst (step m (EOpen h K_LE psm 1 0 credits)) in
    wout m1 (wuid m) = O_PENDING /\ In (h, scid, huid m) (m_chs m1) /\
    tget h (nid m h) (m_reqs m1) = Some scid.
Proof. exact reopen_le_request. Qed.
Print Assumptions C09_reopen_le_request.

(* ... and when the peer accepts it (with a CID it does not already use), the awaited call
   returns and the channel is filed in both tables. *)
Theorem C09_reopen_le_completes : forall m h psm credits dcid credits', reachable m ->
  Z.of_nat (List.length (tkeys h (m_chs m))) < le_capacity ->
  tget h (nid m h) (m_reqs m) = None ->
  let m1 := fst (step m (EOpen h K_LE psm 1 0 credits)) in
  tget h dcid (m_le m1) = None ->
  let m2 := fst (step m1 (ERecv h (FLeRsp (nid m h) dcid credits' R_OK true))) in
  wout m2 (wuid m) = O_RESULT /\
  exists c, hget m2 (huid m) = Some c /\ c_st c = SConnected /\ c_dcid c = dcid /\
            In (h, c_scid c, huid m) (m_chs m2) /\ In (h, dcid, huid m) (m_le m2).
Proof. exact reopen_le_completes. Qed.
Print Assumptions C09_reopen_le_completes.

(* Accepting side: a request is refused only if its PSM is not served, its MTU / MPS are below
   the minimum, its source CID is the one of a connected channel of the same connection, or 64
   channels are in use there. *)
Theorem C09_reopen_le_accept : forall m h id psm scid credits srv, reachable m ->
  srv_get psm (m_lesrv m) = Some srv ->
  tget h scid (m_le m) = None ->
  Z.of_nat (List.length (tkeys h (m_chs m))) < le_capacity ->
  exists local,
    snd (step m (ERecv h (FLeReq id psm scid credits true))) = [FLeRsp id local srv R_OK true] /\
    le_cid_lo <= local <= le_cid_hi /\ tget h local (m_chs m) = None /\
    let m1 := fst (step m (ERecv h (FLeReq id psm scid credits true))) in
    In (h, local, huid m) (m_chs m1) /\ In (h, scid, huid m) (m_le m1).
Proof. exact reopen_le_accept. Qed.
Print Assumptions C09_reopen_le_accept.

Theorem C09_reopen_classic_request : forall m h psm mode, reachable m ->
  Z.of_nat (List.length (tkeys h (m_chs m))) < bredr_capacity ->
  exists scid,
    snd (step m (EOpen h K_CL psm 1 mode 0)) = [FConnReq (nid m h) psm scid] /\
    bredr_cid_lo <= scid <= bredr_cid_hi /\ tget h scid (m_chs m) = None /\
    let m1 := fst (step m (EOpen h K_CL psm 1 mode 0)) in
    wout m1 (wuid m) = O_PENDING /\ In (h, scid, huid m) (m_chs m1).
Proof. exact reopen_classic_request. Qed.
Print Assumptions C09_reopen_classic_request.

(* End to end, as the property text reads: a connected LE channel is closed - disconnect()
   sends the request and waits, the peer answers - then the awaited call has returned, the
   channel is DISCONNECTED and drained, its CIDs are in neither table, and (unless the next
   identifier is the one of a request still pending on this connection) the next open on the
   connection is handed a CID that is not larger than the one just freed: the allocator takes
   the smallest free CID, so the identifier of the closed channel IS used again. *)
Theorem C09_close_reopen_le : forall m u c id psm credits, reachable m ->
  hget m u = Some c -> c_kind c = KLe -> c_st c = SConnected -> c_live c = true ->
  le_cid_lo <= c_scid c <= le_cid_hi ->
  let h := c_conn c in
  let m1 := fst (step m (EClose u)) in
  let m2 := fst (step m1 (ERecv h (FDiscRsp id (c_dcid c) (c_scid c)))) in
  reachable m2 /\
  snd (step m (EClose u)) = [FDiscReq (nid m h) (c_dcid c) (c_scid c)] /\
  wout m1 (wuid m) = O_PENDING /\ wout m2 (wuid m) = O_RESULT /\
  tget h (c_scid c) (m_chs m2) = None /\ tget h (c_dcid c) (m_le m2) = None /\
  (exists c2, hget m2 u = Some c2 /\ c_st c2 = SDisconnected /\ c_dw c2 = None /\ c_drained c2 = true) /\
  (tget h (nid m2 h) (m_reqs m2) = None ->
   exists scid,
     snd (step m2 (EOpen h K_LE psm 1 0 credits)) = [FLeReq (nid m2 h) psm scid credits true] /\
     le_cid_lo <= scid <= c_scid c).
Proof. exact close_reopen_le. Qed.
Print Assumptions C09_close_reopen_le.

(* its hypotheses hold for the channel of the simplest history (open, accepted), and the CID
   handed out after the close is the very same one *)
Example C09_close_reopen_example :
  let m := fst (run (m_init [] []) [EOpen 1 K_LE 128 1 0 3; ERecv 1 (FLeRsp 1 80 2 R_OK true)]) in
  evs_ok (m_init [] []) [EOpen 1 K_LE 128 1 0 3; ERecv 1 (FLeRsp 1 80 2 R_OK true)] = true /\
  option_map (fun c => (c_kind c, c_st c, c_live c, c_scid c, c_conn c)) (hget m 0) =
    Some (KLe, SConnected, true, 64, 1) /\
  snd (run m [EClose 0; ERecv 1 (FDiscRsp 2 80 64); EOpen 1 K_LE 128 1 0 3]) =
    [[FDiscReq 2 80 64]; []; [FLeReq 3 128 64 3 true]].
Proof. vm_compute. repeat split. Qed.

(* ---- non-vacuity and necessity of hypotheses *)
(* (D17g) A successful credit-based connection response whose MTU / MPS are outside the limits
   is a refusal, in every state: the manager does exactly what it does for the corresponding
   refusing response (so everything proved about refusals - tables exact, futures failed -
   holds for it) ... *)
Theorem C09_bad_params_is_refusal : forall m h id dcid credits dcids,
  step m (ERecv h (FLeRsp id dcid credits R_OK false)) = step m (ERecv h (FLeRsp id dcid credits R_LE_BAD_PARAMS true)) /\
  step m (ERecv h (FEnhRsp id credits R_OK dcids false)) = step m (ERecv h (FEnhRsp id credits R_ENH_BAD_PARAMS dcids true)).
Proof. split; reflexivity. Qed.
Print Assumptions C09_bad_params_is_refusal.

(* ... for example: the awaited open fails, no table keeps an entry, and the next open is
   handed the same CID again *)
Example C09_bad_params_example :
  let es := [EOpen 1 K_LE 128 1 0 3; ERecv 1 (FLeRsp 1 80 2 R_OK false); EOpen 1 K_LE 128 1 0 3] in
  let r := run (m_init [] []) es in
  evs_ok (m_init [] []) es = true /\
  snd r = [[FLeReq 1 128 64 3 true]; []; [FLeReq 2 128 64 3 true]] /\
  map w_out (m_w (fst r)) = [O_ERROR; O_PENDING] /\
  m_chs (fst r) = [(1, 64, 1)] /\ m_le (fst r) = [] /\ m_reqs (fst r) = [(1, 2, 64)].
Proof. vm_compute. repeat split. Qed.

(* a history that satisfies the hypotheses: open, accept, close, reopen on the same
   connection, a second connection, link loss *)
Example C09_history_ok :
  let es := [EOpen 1 K_LE 128 1 0 3; ERecv 1 (FLeRsp 1 64 2 0 true); EClose 0; ERecv 1 (FDiscRsp 2 64 64);
             EOpen 1 K_LE 128 1 0 3; EOpen 2 K_LE 128 1 0 3; ERecv 2 (FLeRsp 1 64 2 0 true);
             ERecv 1 (FLeRsp 3 64 2 0 true); EDown 2] in
  let m := fst (run (m_init [(128, 2)] [(4097, 0)]) es) in
  evs_ok (m_init [(128, 2)] [(4097, 0)]) es = true /\
  m_chs m = [(1, 64, 1)] /\ m_le m = [(1, 64, 1)] /\ map w_out (m_w m) = [1; 1; 1; 1].
Proof. vm_compute. repeat split. Qed.

(* the only hypothesis left on disconnection requests is needed: a request that carries the
   (null) destination CID of a still connecting channel closes it and leaves connect() pending
   for ever, even after the link is gone; any other request for such a channel is discarded *)
Example C09_hypothesis_needed :
  let es := [EOpen 1 K_LE 128 1 0 3; ERecv 1 (FDiscReq 9 64 0); EDown 1] in
  evs_ok (m_init [] []) es = false /\
  map w_out (m_w (fst (run (m_init [] []) es))) = [O_PENDING].
Proof. vm_compute. split; reflexivity. Qed.

(* cancelling a pending open (or aborting the connecting channel) frees its CID and request *)
Example C09_cancel_frees :
  let es := [EOpen 1 K_LE 128 1 0 3; ECancel 0; EOpen 1 K_LE 128 1 0 3; EAbort 1] in
  let m := fst (run (m_init [] []) es) in
  evs_ok (m_init [] []) es = true /\ m_chs m = [] /\ m_reqs m = [] /\
  map w_out (m_w m) = [O_CANCELLED; O_CANCELLED].
Proof. vm_compute. repeat split. Qed.
