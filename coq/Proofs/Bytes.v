(* Proofs/Bytes.v — round-trip lemmas for Base/Bytes.v. *)
From Coq Require Import ZArith List Bool Lia.
From BV Require Import Base.Bytes.
Import ListNotations.
Open Scope Z_scope.

Lemma pow256_pos : forall n, 0 < pow256 n.
Proof. intro n. unfold pow256. apply Z.pow_pos_nonneg; lia. Qed.

Lemma pow256_S : forall n, pow256 (S n) = 256 * pow256 n.
Proof.
  intro n. unfold pow256. rewrite Nat2Z.inj_succ, Z.pow_succ_r by lia. reflexivity.
Qed.

Lemma pow256_mono : forall n m, (n <= m)%nat -> pow256 n <= pow256 m.
Proof. intros n m H. unfold pow256. apply Z.pow_le_mono_r; lia. Qed.

Lemma pow256_0 : pow256 0 = 1.
Proof. reflexivity. Qed.

Lemma pow256_even : forall n, pow256 (S n) = 2 * (pow256 (S n) / 2).
Proof.
  intro n. rewrite pow256_S.
  replace (256 * pow256 n) with ((128 * pow256 n) * 2) by lia.
  rewrite Z.div_mul by lia. lia.
Qed.

Lemma byte_ok_iff : forall b, byte_ok b = true <-> 0 <= b < 256.
Proof. intro b. unfold byte_ok. rewrite andb_true_iff, Z.leb_le, Z.ltb_lt. tauto. Qed.

Lemma u_range_iff : forall n v, u_range n v = true <-> 0 <= v < pow256 n.
Proof. intros. unfold u_range. rewrite andb_true_iff, Z.leb_le, Z.ltb_lt. tauto. Qed.

Lemma s_range_iff : forall n v,
  s_range n v = true <-> - (pow256 n / 2) <= v < pow256 n / 2.
Proof. intros. unfold s_range. rewrite andb_true_iff, Z.leb_le, Z.ltb_lt. tauto. Qed.

Lemma bytes_ok_app : forall a b, bytes_ok (a ++ b) = bytes_ok a && bytes_ok b.
Proof. intros. unfold bytes_ok. apply forallb_app. Qed.

Lemma bytes_ok_cons : forall a b, bytes_ok (a :: b) = byte_ok a && bytes_ok b.
Proof. reflexivity. Qed.

Lemma bytes_ok_rev : forall a, bytes_ok (rev a) = bytes_ok a.
Proof.
  induction a as [|x a IH]; [reflexivity|].
  cbn [rev]. rewrite bytes_ok_app, IH. cbn. rewrite andb_true_r. apply andb_comm.
Qed.

Lemma bytes_ok_firstn : forall n a, bytes_ok a = true -> bytes_ok (firstn n a) = true.
Proof.
  induction n as [|n IH]; intros [|x a] H; try reflexivity.
  cbn in *. apply andb_true_iff in H as [H1 H2]. rewrite H1. cbn. auto.
Qed.

Lemma bytes_ok_skipn : forall n a, bytes_ok a = true -> bytes_ok (skipn n a) = true.
Proof.
  induction n as [|n IH]; intros [|x a] H; try reflexivity; try assumption.
  cbn in *. apply andb_true_iff in H as [H1 H2]. auto.
Qed.

Lemma bytes_ok_zeros : forall n, bytes_ok (zeros n) = true.
Proof. induction n; [reflexivity|]. cbn. assumption. Qed.

Lemma zeros_length : forall n, length (zeros n) = n.
Proof. intro n. apply repeat_length. Qed.

Lemma le_encode_length : forall n v, length (le_encode n v) = n.
Proof. induction n; intro v; cbn; [reflexivity|]. rewrite IHn. reflexivity. Qed.

Lemma le_encode_ok : forall n v, bytes_ok (le_encode n v) = true.
Proof.
  induction n; intro v; [reflexivity|].
  cbn [le_encode]. rewrite bytes_ok_cons, IHn, andb_true_r.
  apply byte_ok_iff. apply Z.mod_pos_bound. lia.
Qed.

Lemma le_decode_range : forall bs,
  bytes_ok bs = true -> 0 <= le_decode bs < pow256 (length bs).
Proof.
  induction bs as [|b r IH]; intro H.
  - cbn [le_decode length]. rewrite pow256_0. lia.
  - rewrite bytes_ok_cons in H. apply andb_true_iff in H as [Hb Hr].
    apply byte_ok_iff in Hb. specialize (IH Hr).
    cbn [le_decode length]. rewrite pow256_S. lia.
Qed.

Theorem le_decode_encode : forall n v,
  0 <= v < pow256 n -> le_decode (le_encode n v) = v.
Proof.
  induction n; intros v Hv.
  - rewrite pow256_0 in Hv. cbn. lia.
  - rewrite pow256_S in Hv. cbn [le_encode le_decode].
    rewrite IHn.
    + pose proof (Z.div_mod v 256). lia.
    + split; [apply Z.div_pos; lia | apply Z.div_lt_upper_bound; lia].
Qed.

Theorem le_encode_decode : forall bs,
  bytes_ok bs = true -> le_encode (length bs) (le_decode bs) = bs.
Proof.
  induction bs as [|b r IH]; intro H; [reflexivity|].
  rewrite bytes_ok_cons in H. apply andb_true_iff in H as [Hb Hr].
  apply byte_ok_iff in Hb. cbn [length le_decode le_encode].
  replace (b + 256 * le_decode r) with (b + le_decode r * 256) by lia.
  rewrite Z.mod_add by lia. rewrite Z.div_add by lia.
  rewrite Z.mod_small by lia. rewrite Z.div_small by lia.
  rewrite Z.add_0_l. rewrite IH by assumption. reflexivity.
Qed.

(* encode n of a decoded n-byte string, stated with the width as a separate variable *)
Corollary le_encode_decode_n : forall n bs,
  length bs = n -> bytes_ok bs = true -> le_encode n (le_decode bs) = bs.
Proof. intros n bs <- H. apply le_encode_decode. assumption. Qed.

(* a byte string read as a number: in range for its length, and encoded back to itself *)
Lemma le_word : forall bs, bytes_ok bs = true ->
  le_encode (length bs) (le_decode bs) = bs /\ u_range (length bs) (le_decode bs) = true.
Proof.
  intros bs H. split; [apply le_encode_decode, H | apply u_range_iff, le_decode_range, H].
Qed.

Lemma le_word_firstn : forall n bs, (n <= length bs)%nat -> bytes_ok bs = true ->
  le_encode n (le_decode (firstn n bs)) = firstn n bs /\ u_range n (le_decode (firstn n bs)) = true.
Proof.
  intros n bs Hn H. pose proof (le_word (firstn n bs) (bytes_ok_firstn n bs H)) as W.
  rewrite firstn_length, Nat.min_l in W by exact Hn. exact W.
Qed.

(* the encoder only looks at the value modulo 256^n *)
Lemma le_encode_mod : forall n v, le_encode n (v mod pow256 n) = le_encode n v.
Proof.
  induction n; intro v; [reflexivity|].
  cbn [le_encode]. rewrite pow256_S.
  pose proof (pow256_pos n) as Hp.
  f_equal.
  - rewrite Z.rem_mul_r by lia.
    replace (v mod 256 + 256 * ((v / 256) mod pow256 n))
      with (v mod 256 + (v / 256) mod pow256 n * 256) by lia.
    rewrite Z.mod_add by lia. apply Z.mod_mod. lia.
  - rewrite Z.rem_mul_r by lia.
    replace (v mod 256 + 256 * ((v / 256) mod pow256 n))
      with (v mod 256 + (v / 256) mod pow256 n * 256) by lia.
    rewrite Z.div_add by lia.
    rewrite (Z.div_small (v mod 256)) by (apply Z.mod_pos_bound; lia).
    rewrite Z.add_0_l. apply IHn.
Qed.

(* a wider little-endian encoding starts with the narrower one (used for the
   24-bit field, which the code writes as the first 3 bytes of a 32-bit pack) *)
Lemma le_encode_firstn : forall n m v, (n <= m)%nat ->
  firstn n (le_encode m v) = le_encode n v.
Proof.
  induction n; intros m v H; [reflexivity|].
  destruct m; [lia|]. cbn [le_encode firstn]. f_equal. apply IHn. lia.
Qed.

Lemma be_encode_length : forall n v, length (be_encode n v) = n.
Proof. intros. unfold be_encode. rewrite rev_length. apply le_encode_length. Qed.

Lemma be_encode_ok : forall n v, bytes_ok (be_encode n v) = true.
Proof. intros. unfold be_encode. rewrite bytes_ok_rev. apply le_encode_ok. Qed.

Lemma be_decode_range : forall bs,
  bytes_ok bs = true -> 0 <= be_decode bs < pow256 (length bs).
Proof.
  intros bs H. unfold be_decode. rewrite <- (rev_length bs).
  apply le_decode_range. rewrite bytes_ok_rev. assumption.
Qed.

Theorem be_decode_encode : forall n v,
  0 <= v < pow256 n -> be_decode (be_encode n v) = v.
Proof.
  intros. unfold be_decode, be_encode. rewrite rev_involutive.
  apply le_decode_encode. assumption.
Qed.

Theorem be_encode_decode : forall bs,
  bytes_ok bs = true -> be_encode (length bs) (be_decode bs) = bs.
Proof.
  intros bs H. unfold be_decode, be_encode.
  rewrite <- (rev_length bs). rewrite le_encode_decode.
  - apply rev_involutive.
  - rewrite bytes_ok_rev. assumption.
Qed.

Lemma be_word_firstn : forall n bs, (n <= length bs)%nat -> bytes_ok bs = true ->
  be_encode n (be_decode (firstn n bs)) = firstn n bs /\ u_range n (be_decode (firstn n bs)) = true.
Proof.
  intros n bs Hn H. pose proof (bytes_ok_firstn n bs H) as Hf.
  pose proof (be_encode_decode _ Hf) as E. pose proof (be_decode_range _ Hf) as R.
  rewrite firstn_length, Nat.min_l in E, R by exact Hn. split; [exact E | apply u_range_iff, R].
Qed.

Corollary be_encode_decode_n : forall n bs,
  length bs = n -> bytes_ok bs = true -> be_encode n (be_decode bs) = bs.
Proof. intros n bs <- H. apply be_encode_decode. assumption. Qed.

Lemma of_signed_range : forall n v,
  s_range (S n) v = true -> 0 <= of_signed (S n) v < pow256 (S n).
Proof.
  intros n v H. apply s_range_iff in H. pose proof (pow256_even n) as He.
  pose proof (pow256_pos (S n)). unfold of_signed.
  destruct (v <? 0) eqn:E; [apply Z.ltb_lt in E | apply Z.ltb_ge in E]; lia.
Qed.

Theorem to_of_signed : forall n v,
  s_range (S n) v = true -> to_signed (S n) (of_signed (S n) v) = v.
Proof.
  intros n v H. apply s_range_iff in H. pose proof (pow256_even n) as He.
  pose proof (pow256_pos (S n)). unfold of_signed, to_signed.
  destruct (v <? 0) eqn:E; [apply Z.ltb_lt in E | apply Z.ltb_ge in E].
  - destruct (v + pow256 (S n) <? pow256 (S n) / 2) eqn:E2;
      [apply Z.ltb_lt in E2 | apply Z.ltb_ge in E2]; lia.
  - destruct (v <? pow256 (S n) / 2) eqn:E2;
      [apply Z.ltb_lt in E2 | apply Z.ltb_ge in E2]; lia.
Qed.

Theorem of_to_signed : forall n u,
  0 <= u < pow256 (S n) -> of_signed (S n) (to_signed (S n) u) = u.
Proof.
  intros n u H. pose proof (pow256_even n) as He. unfold of_signed, to_signed.
  destruct (u <? pow256 (S n) / 2) eqn:E; [apply Z.ltb_lt in E | apply Z.ltb_ge in E].
  - destruct (u <? 0) eqn:E2; [apply Z.ltb_lt in E2 | apply Z.ltb_ge in E2]; lia.
  - destruct (u - pow256 (S n) <? 0) eqn:E2; [apply Z.ltb_lt in E2 | apply Z.ltb_ge in E2]; lia.
Qed.

Lemma to_signed_range : forall n u,
  0 <= u < pow256 (S n) -> s_range (S n) (to_signed (S n) u) = true.
Proof.
  intros n u H. apply s_range_iff. pose proof (pow256_even n) as He. unfold to_signed.
  destruct (u <? pow256 (S n) / 2) eqn:E; [apply Z.ltb_lt in E | apply Z.ltb_ge in E]; lia.
Qed.

Lemma les_encode_length : forall n v, length (les_encode n v) = n.
Proof. intros. apply le_encode_length. Qed.

Lemma les_encode_ok : forall n v, bytes_ok (les_encode n v) = true.
Proof. intros. apply le_encode_ok. Qed.

Theorem les_decode_encode : forall n v,
  s_range (S n) v = true -> les_decode (les_encode (S n) v) = v.
Proof.
  intros n v H. unfold les_decode, les_encode. rewrite le_encode_length.
  rewrite le_decode_encode by (apply of_signed_range; assumption).
  apply to_of_signed. assumption.
Qed.

Theorem les_encode_decode : forall bs,
  bs <> [] -> bytes_ok bs = true -> les_encode (length bs) (les_decode bs) = bs.
Proof.
  intros bs Hne H. unfold les_decode, les_encode.
  destruct bs as [|b r]; [congruence|].
  set (l := b :: r) in *.
  assert (length l = S (length r)) as Hl by reflexivity.
  pose proof (le_decode_range l H) as Hr. rewrite Hl in *.
  rewrite of_to_signed by assumption. rewrite <- Hl. apply le_encode_decode. assumption.
Qed.

Lemma les_decode_range : forall bs,
  bs <> [] -> bytes_ok bs = true -> s_range (length bs) (les_decode bs) = true.
Proof.
  intros bs Hne H. unfold les_decode. destruct bs as [|b r]; [congruence|].
  set (l := b :: r) in *. assert (length l = S (length r)) as Hl by reflexivity.
  pose proof (le_decode_range l H) as Hr. rewrite Hl in *.
  apply to_signed_range. assumption.
Qed.

Lemma bes_encode_length : forall n v, length (bes_encode n v) = n.
Proof. intros. apply be_encode_length. Qed.

Theorem bes_decode_encode : forall n v,
  s_range (S n) v = true -> bes_decode (bes_encode (S n) v) = v.
Proof.
  intros n v H. unfold bes_decode, bes_encode. rewrite be_encode_length.
  rewrite be_decode_encode by (apply of_signed_range; assumption).
  apply to_of_signed. assumption.
Qed.

Theorem bes_encode_decode : forall bs,
  bs <> [] -> bytes_ok bs = true -> bes_encode (length bs) (bes_decode bs) = bs.
Proof.
  intros bs Hne H. unfold bes_decode, bes_encode.
  destruct bs as [|b r]; [congruence|].
  set (l := b :: r) in *.
  assert (length l = S (length r)) as Hl by reflexivity.
  pose proof (be_decode_range l H) as Hr. rewrite Hl in *.
  rewrite of_to_signed by assumption. rewrite <- Hl. apply be_encode_decode. assumption.
Qed.

Lemma firstn_app_exact : forall (A : Type) (a b : list A), firstn (length a) (a ++ b) = a.
Proof.
  intros. rewrite firstn_app, Nat.sub_diag, firstn_all. cbn. apply app_nil_r.
Qed.

Lemma skipn_app_exact : forall (A : Type) (a b : list A), skipn (length a) (a ++ b) = b.
Proof.
  intros. rewrite skipn_app, Nat.sub_diag, skipn_all. reflexivity.
Qed.

Lemma bits_spec : forall x lo w, 0 <= lo -> 0 <= w ->
  bits x lo w = (x / 2 ^ lo) mod 2 ^ w.
Proof.
  intros. unfold bits. rewrite Z.land_ones by assumption.
  rewrite Z.shiftr_div_pow2 by assumption. reflexivity.
Qed.

Lemma testbit_small : forall a k n, 0 <= a < 2 ^ k -> k <= n -> Z.testbit a n = false.
Proof.
  intros a k n Ha Hn.
  destruct (Z.eq_dec a 0) as [->|Hz]; [apply Z.bits_0|].
  apply Z.bits_above_log2; [lia|].
  apply Z.lt_le_trans with k; [|assumption].
  apply Z.log2_lt_pow2; lia.
Qed.

Lemma land_shiftl_disjoint : forall a b k, 0 <= k -> 0 <= a < 2 ^ k ->
  Z.land a (Z.shiftl b k) = 0.
Proof.
  intros a b k Hk Ha.
  apply Z.bits_inj'. intros n Hn. rewrite Z.land_spec, Z.bits_0.
  destruct (Z.ltb_spec n k).
  - rewrite Z.shiftl_spec_low by assumption. apply andb_false_r.
  - rewrite (testbit_small a k n) by assumption. reflexivity.
Qed.

(* disjoint or = addition: a below bit k, b shifted to bit k *)
Lemma lor_shiftl_add : forall a b k, 0 <= k -> 0 <= a < 2 ^ k ->
  Z.lor a (Z.shiftl b k) = a + b * 2 ^ k.
Proof.
  intros a b k Hk Ha.
  pose proof (land_shiftl_disjoint a b k Hk Ha) as Hd.
  rewrite <- Z.lxor_lor by assumption.
  rewrite <- Z.add_nocarry_lxor by assumption.
  rewrite Z.shiftl_mul_pow2 by assumption. reflexivity.
Qed.
