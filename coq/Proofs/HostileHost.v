(* C17 - lemmas about Model/HostileHost.v (Host.on_packet containment). *)
From Coq Require Import ZArith List Bool Lia.
From BV Require Import Model.HostileHost.
Import ListNotations.
Open Scope Z_scope.

(* whatever the bytes, a data packet never changes the host's tables and produces exactly
   one outcome *)
Lemma host_packet_state_unchanged : forall st p,
  fst (host_on_packet st p) = st /\ length (snd (host_on_packet st p)) = 1%nat.
Proof.
  intros st p. unfold host_on_packet.
  destruct (hci_from_bytes p); cbn; try (destruct (h_ready st); cbn; auto);
    try (destruct (mem handle (h_conns st)); cbn; auto;
         destruct (mem handle (h_cis st) || mem handle (h_bis st)); cbn; auto); auto.
Qed.

Lemma host_run_state_unchanged : forall ps st, fst (host_run st ps) = st.
Proof.
  induction ps as [|p rest IH]; intros st; simpl; [reflexivity|].
  pose proof (host_packet_state_unchanged st p) as [H1 _].
  destruct (host_on_packet st p) as [st1 o1]. simpl in H1. subst st1.
  specialize (IH st). destruct (host_run st rest) as [st2 o2]. simpl in *. exact IH.
Qed.

(* the only bytes that reach a connection's ACL assembler are well-framed ACL packets for
   that connection's handle, and they arrive unmodified *)
Lemma host_to_assembler_only_if : forall st p handle pb data,
  In (OToAssembler handle pb data) (snd (host_on_packet st p)) ->
  h_ready st = true /\ mem handle (h_conns st) = true /\
  exists bc, hci_from_bytes p = HAcl handle pb bc data.
Proof.
  intros st p handle pb data H. unfold host_on_packet in H.
  destruct (hci_from_bytes p) as [|h pb' bc d|h s d|h pb' ts d| |] eqn:E; cbn in H;
    try (destruct H as [H|[]]; discriminate);
    destruct (h_ready st) eqn:R; cbn in H; try (destruct H as [H|[]]; discriminate).
  destruct (mem h (h_conns st)) eqn:M; cbn in H.
  - destruct H as [H|[]]. inversion H; subst. split; [reflexivity|]. split; [assumption|]. eauto.
  - destruct (mem h (h_cis st) || mem h (h_bis st)); cbn in H; destruct H as [H|[]]; discriminate.
Qed.

(* ACL framing: fewer than 5 bytes, or a length field that differs from the payload
   length, is undecodable *)
Lemma acl_short_is_error : forall rest, (length rest < 4)%nat -> hci_from_bytes (2 :: rest) = HErr.
Proof.
  intros rest H. destruct rest as [|a [|b [|c [|d r]]]]; try reflexivity. simpl in H. lia.
Qed.

Lemma acl_length_mismatch_is_error : forall a b c d data,
  zlen data <> le16 c d -> hci_from_bytes (2 :: a :: b :: c :: d :: data) = HErr.
Proof.
  intros a b c d data H. cbn [hci_from_bytes]. apply Z.eqb_neq in H. rewrite H. reflexivity.
Qed.

Lemma acl_unknown_handle_dropped : forall st p handle pb bc data,
  hci_from_bytes p = HAcl handle pb bc data -> h_ready st = true ->
  mem handle (h_conns st) = false -> mem handle (h_cis st) = false -> mem handle (h_bis st) = false ->
  host_on_packet st p = (st, [ODropped]).
Proof.
  intros st p handle pb bc data E R M1 M2 M3. unfold host_on_packet. rewrite E, R, M1, M2, M3. reflexivity.
Qed.

Lemma empty_packet_is_error : hci_from_bytes [] = HErr.
Proof. reflexivity. Qed.
