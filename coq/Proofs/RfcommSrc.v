(* The hand-written data-path functions of Model/Rfcomm.v ARE what the source of
   bumble/rfcomm.py (class DLC) computes: Gen/C20DataPath.v is compiled from the source on
   every run, and these lemmas - for ALL inputs - identify it with the model.  An edit of
   an operator, a bound, the order of two updates or a dropped statement in
   rx_credits_needed / process_tx / on_uih_frame / write makes one of them fail. *)
From Coq Require Import ZArith List Bool Lia.
From BV Require Import Gen.C20Consts Gen.C20DataPath Model.Rfcomm Model.RfcommRxQueue Proofs.Rfcomm.
Import ListNotations.
Open Scope Z_scope.

Lemma skip_chunk_credit need (x buf : list Z) :
  skipn (Z.to_nat (Z.of_nat (length (need :: x)) - 1)) buf = skipn (length x) buf.
Proof. f_equal. cbn [length]. lia. Qed.

Lemma skip_chunk (x buf : list Z) :
  skipn (Z.to_nat (Z.of_nat (length x))) buf = skipn (length x) buf.
Proof. now rewrite Nat2Z.id. Qed.

(* one iteration of the while loop of process_tx: test and body *)
Lemma src_ptx_iter_ok d need drained :
  match ptx_iter d need with
  | None => src_ptx_cond (d_tx_credits d) need (d_tx_buf d) = false
  | Some (d', fr) =>
      src_ptx_cond (d_tx_credits d) need (d_tx_buf d) = true /\
      src_ptx_body (d_mtu d) (d_tx_credits d) (d_rx_credits d) need (d_tx_buf d) drained =
        (d_tx_credits d', d_rx_credits d', d_tx_buf d', 0, [fr],
         if is_nil (d_tx_buf d') then true else drained) /\
      d_mtu d' = d_mtu d
  end.
Proof.
  unfold ptx_iter, src_ptx_cond, src_ptx_body, take. rewrite !Z.gtb_ltb.
  destruct (negb (is_nil (d_tx_buf d)) && (0 <? d_tx_credits d)) eqn:Ec;
  destruct (0 <? need) eqn:En; cbn [orb andb].
  - split; [reflexivity|]. split; [|reflexivity]. cbn [d_tx_credits d_rx_credits d_tx_buf app].
    rewrite skip_chunk_credit. rewrite negb_involutive. reflexivity.
  - split; [reflexivity|]. split; [|reflexivity]. cbn [d_tx_credits d_rx_credits d_tx_buf app].
    rewrite skip_chunk. rewrite negb_involutive. reflexivity.
  - split; [reflexivity|]. split; [|reflexivity]. cbn [d_tx_credits d_rx_credits d_tx_buf app].
    rewrite negb_involutive. reflexivity.
  - reflexivity.
Qed.

(* on_uih_frame with a sink set: the values it hands to its final process_tx, and the
   bytes handed to the sink, are those of the model *)
Lemma src_on_uih_ok P d fr q :
  dlc_on_uih P d fr =
  let '(tx1, rx1, q', delivered) :=
    src_on_uih (f_pf fr) (f_info fr) (d_tx_credits d) (d_rx_credits d) true q in
  let '(d2, frs, ok) := process_tx P (mkDlc (d_mtu d) tx1 rx1 (d_tx_buf d)) in
  (d2, frs, delivered, ok).
Proof.
  unfold dlc_on_uih, src_on_uih. rewrite !Z.gtb_ltb.
  assert (Hs : forall l : list Z, skipn (Z.to_nat 1) l = tl l) by (intros [|x l]; reflexivity).
  destruct (f_pf fr) eqn:Ep; cbn [Z.eqb Pos.eqb].
  - rewrite Hs. destruct (is_nil (tl (f_info fr))) eqn:E; cbn [negb app].
    + destruct (process_tx P _) as [[d2 frs] ok] eqn:Ept.
      apply is_nil_true in E. rewrite E. reflexivity.
    + destruct (0 <? d_rx_credits d); destruct (process_tx P _) as [[d2 frs] ok]; reflexivity.
  - destruct (is_nil (f_info fr)) eqn:E; cbn [negb app].
    + destruct (process_tx P _) as [[d2 frs] ok] eqn:Ept.
      apply is_nil_true in E. rewrite E. reflexivity.
    + destruct (0 <? d_rx_credits d); destruct (process_tx P _) as [[d2 frs] ok]; reflexivity.
Qed.

(* on_uih_frame without a sink: same ledger updates, nothing reaches the sink, non-empty
   data goes through the bounded deque of Model/RfcommRxQueue.v *)
Lemma src_on_uih_nosink pf info tx rx q :
  let '(tx1, rx1, q', delivered) := src_on_uih pf info tx rx false q in
  let '(tx2, rx2, _, _) := src_on_uih pf info tx rx true q in
  tx1 = tx2 /\ rx1 = rx2 /\ delivered = [] /\
  q' = (let data := if pf then tl info else info in
        if is_nil data then q else dq_append rx_queue_size q data).
Proof.
  unfold src_on_uih.
  assert (Hs : forall l : list Z, skipn (Z.to_nat 1) l = tl l) by (intros [|x l]; reflexivity).
  destruct pf; cbn [Z.eqb Pos.eqb]; rewrite ?Hs.
  - destruct (is_nil (tl info)); cbn [negb]; [repeat split|].
    destruct (rx >? 0); repeat split.
  - destruct (is_nil info); cbn [negb]; [repeat split|].
    destruct (rx >? 0); repeat split.
Qed.

(* write: the buffer update of the model, and the drained event is cleared exactly when
   something is buffered (fix D20i) *)
Lemma src_write_ok buf data drained :
  src_write buf data drained = (buf ++ data, if is_nil (buf ++ data) then drained else false).
Proof. unfold src_write. destruct (is_nil (buf ++ data)); reflexivity. Qed.

(* "drained is set iff nothing is buffered" is kept by every loop iteration (and by write:
   src_write_ok) *)
Lemma drained_inv_iter d need drained d' fr :
  ptx_iter d need = Some (d', fr) -> drained = is_nil (d_tx_buf d) ->
  let '(_, _, buf', _, _, dr') :=
    src_ptx_body (d_mtu d) (d_tx_credits d) (d_rx_credits d) need (d_tx_buf d) drained in
  dr' = is_nil buf'.
Proof.
  intros Hi Hd. pose proof (src_ptx_iter_ok d need drained) as H. rewrite Hi in H.
  destruct H as (_ & -> & _).
  destruct (is_nil (d_tx_buf d')) eqn:E; [reflexivity|].
  (* the buffer only shrinks: if something is left, something was buffered before *)
  subst drained. unfold ptx_iter in Hi.
  destruct (negb (is_nil (d_tx_buf d)) && (0 <? d_tx_credits d)) eqn:Ec.
  - apply andb_prop in Ec as [Ec _]. apply negb_true_iff in Ec. exact Ec.
  - cbn [orb] in Hi. destruct (0 <? need); [|discriminate]. inversion Hi; subst d'. exact E.
Qed.

(* the sink setter hands the queued packets over in order (Model/RfcommRxQueue.v) *)
Lemma src_set_sink_ok s :
  rxq_set_sink s = mkRxq true (snd (src_set_sink (q_queue s))) (q_out s ++ fst (src_set_sink (q_queue s))).
Proof. reflexivity. Qed.

(* Multiplexer.acceptable_frame_size is the model's acceptance test *)
Lemma src_acceptable_ok n m : src_acceptable n m = acceptable n m.
Proof.
  unfold src_acceptable, acceptable, rfcomm_max_frame_size, rfcomm_min_frame_size.
  f_equal. rewrite Z.geb_leb. reflexivity.
Qed.

(* every data link the code lets come up - the responder's acceptable_frame_size test of the
   PN command and the initiator's test of the PN response both pass, on the 16-bit values
   that travel in the PN - satisfies the hypothesis of the data-path theorems, provided the
   two configured initial credit counts are in 1..7 and the configured frame sizes fit the
   16-bit field *)
Lemma accepted_links_wf ini rsp mtu_i mtu_r :
  credits_ok_b ini = true -> credits_ok_b rsp = true ->
  0 <= pn_mfs ini < 65536 -> 0 <= pn_mfs rsp < 65536 ->
  src_acceptable (pn_mfs (pn_wire ini)) mtu_i = true ->
  src_acceptable (pn_mfs (pn_wire rsp)) mtu_r = true ->
  wf_link_b ini rsp mtu_i mtu_r = true.
Proof.
  intros Hci Hcr Hi Hr Ai Ar. rewrite src_acceptable_ok in Ai, Ar.
  unfold pn_wire in Ai, Ar. cbn [pn_mfs] in Ai, Ar.
  rewrite Z.mod_small in Ai by lia. rewrite Z.mod_small in Ar by lia.
  unfold wf_link_b. rewrite Hci, Hcr, Ai, Ar. reflexivity.
Qed.

(* and the code refuses every other pair of frame sizes: pn_negotiate = 2 exactly then *)
Lemma pn_negotiate_up ini rsp mtu_i mtu_r :
  pn_negotiate ini rsp mtu_i mtu_r = 2 <->
  src_acceptable (pn_mfs (pn_wire ini)) mtu_i = true /\ src_acceptable (pn_mfs (pn_wire rsp)) mtu_r = true.
Proof.
  unfold pn_negotiate. rewrite !src_acceptable_ok.
  destruct (acceptable (pn_mfs (pn_wire ini)) mtu_i); destruct (acceptable (pn_mfs (pn_wire rsp)) mtu_r);
    cbn; split; try tauto; try discriminate; intros [? ?]; discriminate.
Qed.
